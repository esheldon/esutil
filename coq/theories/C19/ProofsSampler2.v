(* C19 -- what the cumulative-method sampler computes: the stored table is the normalised
   trapezoid-rule cumulative distribution, and on each segment of that table (and below it) the sampler
   is the linear interpolation of the grid abscissae against it. *)
From Coq Require Import QArith Lqa.
From EsVerif.Common Require Import Base.
From EsVerif.C19 Require Import ModelQ Spec ProofsSampler.
Local Open Scope Q_scope.

(* sum of the first k+1 trapezoids  (x_i - x_{i-1}) (p_i + p_{i-1}) / 2  starting after (xprev, yprev) *)
Fixpoint trapz (xs ys : list Q) (xprev yprev : Q) (k : nat) : Q :=
  match xs, ys with
  | x :: xt, y :: yt =>
      (x - xprev) * (y + yprev) / 2 + match k with O => 0 | S k' => trapz xt yt x y k' end
  | _, _ => 0
  end.

Definition trap_area (pofx x : list Q) (k : nat) : Q :=
  match x, pofx with
  | x0 :: xt, p0 :: pt => trapz xt pt x0 p0 k
  | _, _ => 0
  end.

Lemma cumtrapz_go_nth xs : forall ys xprev yprev acc k,
  (k < length xs)%nat -> length ys = length xs ->
  nth k (cumtrapz_go xprev yprev acc xs ys) 0 == acc + trapz xs ys xprev yprev k.
Proof.
  induction xs as [|x xt IH]; intros ys xprev yprev acc k Hk Hl; [simpl in Hk; lia|].
  destruct ys as [|y yt]; [discriminate|]. cbn [cumtrapz_go trapz].
  destruct k as [|k].
  - cbn [nth]. rewrite Qred_correct. ring.
  - cbn [nth]. rewrite IH by (simpl in Hk, Hl; lia). rewrite Qred_correct. ring.
Qed.

Lemma qlast_cumtrapz_go xs : forall ys xprev yprev acc,
  (1 <= length xs)%nat -> length ys = length xs ->
  qlast (cumtrapz_go xprev yprev acc xs ys) == acc + trapz xs ys xprev yprev (length xs - 1).
Proof.
  intros ys xprev yprev acc H1 Hl. pose proof (cumtrapz_go_length xs ys xprev yprev acc Hl) as L.
  rewrite last_nth by (intro E; rewrite E in L; simpl in L; lia).
  rewrite L. apply cumtrapz_go_nth; lia.
Qed.

Theorem pcum_is_normalised_trapezoid pofx x k : gen_ok pofx x -> (k < length x - 1)%nat ->
  nth k (pcum_of pofx x) 0 == trap_area pofx x k / trap_area pofx x (length x - 2).
Proof.
  intros [Hl [H3 _]] Hk. unfold pcum_of, gen_tables. cbn [snd].
  destruct x as [|x0 xt]; [simpl in H3; lia|]. destruct pofx as [|p0 pt]; [discriminate|].
  unfold cumtrapz, trap_area. cbn [length] in *.
  pose proof (cumtrapz_go_length xt pt x0 p0 0 ltac:(lia)) as Lc.
  rewrite (nth_map_in _ _ _ 0 0) by lia. rewrite Qred_correct.
  rewrite cumtrapz_go_nth by lia. rewrite qlast_cumtrapz_go by lia.
  replace (S (length xt) - 2)%nat with (length xt - 1)%nat by lia.
  rewrite !Qplus_0_l. reflexivity.
Qed.

(* the map from deviate to value: on the segment (pcum_k, pcum_(k+1)] of the table, and below the
   whole table for k = 0, the sampler is the line through (pcum_k, x_(k+1)) and (pcum_(k+1), x_(k+2)) *)
Lemma sampler_on_segment pofx x u k : gen_ok pofx x ->
  (S k < length (pcum_of pofx x))%nat ->
  nth k (pcum_of pofx x) 0 < u <= nth (S k) (pcum_of pofx x) 0 \/ (k = 0%nat /\ u <= nth 0 (pcum_of pofx x) 0) ->
  exists y, sampler pofx x u = Ok y
            /\ y == lin (nth k (pcum_of pofx x) 0) (nth (S k) (pcum_of pofx x) 0) (nth (S k) x 0) (nth (S (S k)) x 0) u.
Proof.
  intros G Hk H. destruct (tables_props pofx x G) as [_ [_ [_ [Spc _]]]].
  eexists. split; [apply sampler_eq; exact G|].
  unfold interpF. cbv zeta. rewrite Qred_correct, (bracket_of_segment _ u k Spc Hk H), !nth_tl. reflexivity.
Qed.

(* below the first tabulated cumulative value the sampler EXTRAPOLATES the first segment of the
   table (which starts at the SECOND grid point, the first one having no cumulative value): the
   result is at most x_1 and is not bounded below by x_0. *)
Theorem sampler_below_first pofx x u : gen_ok pofx x -> u <= nth 0 (pcum_of pofx x) 0 ->
  exists y, sampler pofx x u = Ok y
            /\ y == lin (nth 0 (pcum_of pofx x) 0) (nth 1 (pcum_of pofx x) 0) (nth 1 x 0) (nth 2 x 0) u
            /\ y <= nth 1 x 0.
Proof.
  intros G Hu. destruct (tables_props pofx x G) as [_ [H2 [_ [Spc _]]]].
  destruct (sampler_on_segment pofx x u 0 G H2 (or_intror (conj eq_refl Hu))) as [y [E1 E2]].
  exists y. split; [exact E1|]. split; [exact E2|]. rewrite E2.
  destruct G as [_ [H3 [Sx _]]].
  apply lin_le_left; [apply incr_nth_lt; [exact Spc|lia] | apply Qlt_le_weak, incr_nth_lt; [exact Sx|lia] | exact Hu].
Qed.
