(* C19 -- the Cholesky factor of the model over the reals: cholR is a factor when the pivots are
   positive, it is the only one, and a symmetric matrix has positive pivots exactly when it is positive
   definite. *)
From Coq Require Import Reals Lra Lia.
From EsVerif.C19 Require Import ModelChol ModelSPD.
Open Scope R_scope.

Lemma bigsum_ext f g n : (forall k, (k < n)%nat -> f k = g k) -> bigsum f n = bigsum g n.
Proof.
  induction n as [|n IH]; intro H; [reflexivity|]. cbn [bigsum]. rewrite IH by (intros k Hk; apply H; lia).
  rewrite (H n) by lia. reflexivity.
Qed.

Lemma bigsum_zero_tail f m n : (m <= n)%nat -> (forall k, (m <= k < n)%nat -> f k = 0) -> bigsum f n = bigsum f m.
Proof.
  intros Hle H. induction n as [|n IH].
  - replace m with 0%nat by lia. reflexivity.
  - destruct (Nat.eq_dec m (S n)) as [E|N]; [subst m; reflexivity|].
    cbn [bigsum]. rewrite (H n) by lia. rewrite IH by (try lia; intros k Hk; apply H; lia). ring.
Qed.

Lemma bigsum_plus f g n : bigsum (fun k => f k + g k) n = bigsum f n + bigsum g n.
Proof. induction n as [|n IH]; cbn [bigsum]; [ring|rewrite IH; ring]. Qed.

Lemma bigsum_scal c f n : bigsum (fun k => c * f k) n = c * bigsum f n.
Proof. induction n as [|n IH]; cbn [bigsum]; [ring|rewrite IH; ring]. Qed.

Lemma bigsum_0 n : bigsum (fun _ => 0) n = 0.
Proof. induction n as [|n IH]; cbn [bigsum]; [reflexivity|rewrite IH; ring]. Qed.

Lemma bigsum_swap (f : nat -> nat -> R) n m :
  bigsum (fun i => bigsum (fun j => f i j) m) n = bigsum (fun j => bigsum (fun i => f i j) n) m.
Proof.
  induction n as [|n IH]; cbn [bigsum].
  - symmetry. apply bigsum_0.
  - rewrite IH. rewrite <- bigsum_plus. reflexivity.
Qed.

(* (sum_i a_i) (sum_j b_j) = sum_i sum_j a_i b_j *)
Lemma bigsum_mul a b n m : bigsum a n * bigsum b m = bigsum (fun i => bigsum (fun j => a i * b j) m) n.
Proof.
  induction n as [|n IH]; cbn [bigsum]; [ring|]. rewrite <- IH. rewrite bigsum_scal. ring.
Qed.

(* a function changed at one index *)
Lemma bigsum_update f w k c n : (k < n)%nat ->
  bigsum (fun a => f a * (if (a =? k)%nat then c else w a)) n = bigsum (fun a => f a * w a) n + f k * (c - w k).
Proof.
  intro H. induction n as [|n IH]; [lia|]. cbn [bigsum].
  destruct (Nat.eq_dec k n) as [E|N].
  - subst k. rewrite Nat.eqb_refl.
    rewrite (bigsum_ext (fun a => f a * (if (a =? n)%nat then c else w a)) (fun a => f a * w a)).
    + ring.
    + intros a Ha. replace (a =? n)%nat with false by (symmetry; apply Nat.eqb_neq; lia). reflexivity.
  - rewrite IH by lia. replace (n =? k)%nat with false by (symmetry; apply Nat.eqb_neq; lia). ring.
Qed.

Lemma bigsum_single f n k : (k < n)%nat -> (forall i, (i < n)%nat -> i <> k -> f i = 0) -> bigsum f n = f k.
Proof.
  intros Hk H. induction n as [|n IH]; [lia|]. cbn [bigsum].
  destruct (Nat.eq_dec k n) as [E|N].
  - subst k. rewrite (bigsum_ext f (fun _ => 0)) by (intros i Hi; apply H; lia). rewrite bigsum_0. ring.
  - rewrite IH by (try lia; intros i Hi Hne; apply H; lia). rewrite (H n) by lia. ring.
Qed.

Lemma bigsum_ge_term f n k : (forall i, (i < n)%nat -> 0 <= f i) -> (k < n)%nat -> f k <= bigsum f n.
Proof.
  intros H Hk. induction n as [|n IH]; [lia|]. cbn [bigsum].
  assert (N0 : 0 <= bigsum f n).
  { clear IH Hk. induction n as [|m IHm]; cbn [bigsum]; [lra|].
    pose proof (H m ltac:(lia)). assert (0 <= bigsum f m) by (apply IHm; intros i Hi; apply H; lia). lra. }
  destruct (Nat.eq_dec k n) as [E|N]; [subst k; lra|].
  pose proof (H n ltac:(lia)). assert (f k <= bigsum f n) by (apply IH; [intros i Hi; apply H; lia|lia]). lra.
Qed.

Lemma cols_beyond A j i c : (j <= c)%nat -> chol_cols A j i c = 0.
Proof.
  revert c. induction j as [|j IH]; intros c H; [reflexivity|]. cbn [chol_cols]. unfold chol_step.
  replace (c =? j)%nat with false by (symmetry; apply Nat.eqb_neq; lia). apply IH. lia.
Qed.

Lemma cols_stable A j i c : (c < j)%nat -> chol_cols A j i c = chol_cols A (S c) i c.
Proof.
  induction j as [|j IH]; intro H; [lia|].
  destruct (Nat.eq_dec c j) as [E|N]; [subst c; reflexivity|].
  cbn [chol_cols]. unfold chol_step at 1.
  replace (c =? j)%nat with false by (symmetry; apply Nat.eqb_neq; exact N). apply IH. lia.
Qed.

Lemma col_entry A c i :
  chol_cols A (S c) i c =
  if (i <? c)%nat then 0
  else if (i =? c)%nat then sqrt (chol_pivot A (chol_cols A c) c)
  else (A i c - bigsum (fun k => chol_cols A c i k * chol_cols A c c k) c) / sqrt (chol_pivot A (chol_cols A c) c).
Proof. cbn [chol_cols]. unfold chol_step. rewrite Nat.eqb_refl. reflexivity. Qed.

Lemma chol_upper_zero A n i k : (i < k)%nat -> cholR A n i k = 0.
Proof.
  intro H. unfold cholR. destruct (le_lt_dec n k) as [Hn|Hn]; [apply cols_beyond; exact Hn|].
  rewrite cols_stable by exact Hn. rewrite col_entry.
  replace (i <? k)%nat with true by (symmetry; apply Nat.ltb_lt; exact H). reflexivity.
Qed.

(* the partial sums the algorithm uses are partial sums of the final factor *)
Lemma partial_is_final A n c i j : (c <= n)%nat ->
  bigsum (fun k => chol_cols A c i k * chol_cols A c j k) c = bigsum (fun k => cholR A n i k * cholR A n j k) c.
Proof.
  intro H. apply bigsum_ext. intros k Hk. unfold cholR.
  rewrite (cols_stable A c i k), (cols_stable A c j k), (cols_stable A n i k), (cols_stable A n j k) by lia. reflexivity.
Qed.

Lemma pivot_is_final A n c : (c <= n)%nat ->
  chol_pivot A (chol_cols A c) c = A c c - bigsum (fun k => cholR A n c k * cholR A n c k) c.
Proof. intro H. unfold chol_pivot. rewrite (partial_is_final A n c c c H). reflexivity. Qed.

Lemma chol_diag A n c : (c < n)%nat -> cholR A n c c = sqrt (chol_pivot A (chol_cols A c) c).
Proof.
  intro H. unfold cholR. rewrite cols_stable by exact H. rewrite col_entry.
  rewrite Nat.ltb_irrefl, Nat.eqb_refl. reflexivity.
Qed.

Lemma chol_below A n c i : (c < n)%nat -> (c < i)%nat ->
  cholR A n i c = (A i c - bigsum (fun k => cholR A n i k * cholR A n c k) c) / cholR A n c c.
Proof.
  intros H Hi. rewrite (chol_diag A n c H). unfold cholR at 1. rewrite cols_stable by exact H. rewrite col_entry.
  replace (i <? c)%nat with false by (symmetry; apply Nat.ltb_ge; lia).
  replace (i =? c)%nat with false by (symmetry; apply Nat.eqb_neq; lia).
  rewrite (partial_is_final A n c i c) by lia. reflexivity.
Qed.

(* (L L^T)[i][c] for c <= i only involves columns <= c *)
Lemma mmt_split L n i c : (c < n)%nat -> (forall a k, (a < k)%nat -> L a k = 0) ->
  mmtR L n i c = bigsum (fun k => L i k * L c k) c + L i c * L c c.
Proof.
  intros H U. unfold mmtR. rewrite (bigsum_zero_tail _ (S c) n) by (try lia; intros k Hk; rewrite (U c k) by lia; ring).
  reflexivity.
Qed.

(* the factor equations below the diagonal hold for every row i and need no symmetry *)
Lemma chol_low A n i c : pivots_pos A n -> (c < n)%nat -> (c <= i)%nat -> mmtR (cholR A n) n i c = A i c.
Proof.
  intros Piv Hc Hic. rewrite mmt_split by (try exact Hc; intros a k Hak; apply chol_upper_zero; exact Hak).
  pose proof (Piv c Hc) as P.
  destruct (Nat.eq_dec i c) as [E|N].
  - subst i. rewrite (chol_diag A n c Hc). rewrite sqrt_sqrt by lra. rewrite (pivot_is_final A n c) by lia. ring.
  - rewrite (chol_below A n c i Hc) by lia.
    assert (D : cholR A n c c <> 0). { rewrite chol_diag by exact Hc. apply Rgt_not_eq. apply sqrt_lt_R0. exact P. }
    field. exact D.
Qed.

Theorem cholR_correct A n : symmetric A n -> pivots_pos A n -> is_cholesky_factor A (cholR A n) n.
Proof.
  intros Sym Piv. split; [|split].
  - intros i k H _. apply chol_upper_zero. exact H.
  - intros j Hj. rewrite chol_diag by exact Hj. apply sqrt_lt_R0. apply Piv. exact Hj.
  - intros i j Hi Hj. destruct (le_lt_dec j i) as [H|H]; [apply chol_low; assumption|].
    unfold mmtR. rewrite (bigsum_ext _ (fun k => cholR A n j k * cholR A n i k)) by (intros; ring).
    rewrite Sym by assumption. apply chol_low; [exact Piv|exact Hi|lia].
Qed.

Lemma sqrt_unique_pos x y : 0 < y -> y * y = x -> y = sqrt x.
Proof. intros Hy E. subst x. symmetry. apply sqrt_square. lra. Qed.

Theorem cholesky_factor_unique A n L : pivots_pos A n -> is_cholesky_factor A L n ->
  forall i c, (i < n)%nat -> (c < n)%nat -> L i c = cholR A n i c.
Proof.
  intros Piv [U [D M]].
  (* strong induction on the column *)
  assert (Col : forall c, (c < n)%nat -> forall i, (i < n)%nat -> L i c = cholR A n i c).
  { intro c. induction c as [c IH] using lt_wf_ind. intros Hc i Hi.
    destruct (lt_dec i c) as [Hlt|Hge]; [rewrite (U i c Hlt Hc), chol_upper_zero by exact Hlt; reflexivity|].
    assert (Sums : forall a, (a < n)%nat -> bigsum (fun k => L a k * L c k) c = bigsum (fun k => cholR A n a k * cholR A n c k) c).
    { intros a Ha. apply bigsum_ext. intros k Hk. rewrite (IH k Hk ltac:(lia) a Ha), (IH k Hk ltac:(lia) c Hc). reflexivity. }
    assert (Split : forall a, (a < n)%nat -> (c <= a)%nat -> bigsum (fun k => L a k * L c k) c + L a c * L c c = A a c).
    { intros a Ha Hca. rewrite <- (M a c Ha Hc). unfold mmtR.
      rewrite (bigsum_zero_tail _ (S c) n) by (try lia; intros k Hk; rewrite (U c k) by lia; ring). reflexivity. }
    (* the diagonal entry first *)
    assert (Dc : L c c = cholR A n c c).
    { rewrite chol_diag by exact Hc. apply sqrt_unique_pos; [apply D; exact Hc|].
      rewrite (pivot_is_final A n c) by lia. rewrite <- (Sums c Hc). pose proof (Split c Hc ltac:(lia)). lra. }
    destruct (Nat.eq_dec i c) as [E|N]; [subst i; exact Dc|].
    rewrite (chol_below A n c i Hc) by lia. rewrite <- (Sums i Hi), <- Dc.
    pose proof (Split i Hi ltac:(lia)) as S. pose proof (D c Hc) as Dp.
    apply Rmult_eq_reg_r with (L c c); [|lra]. unfold Rdiv. rewrite Rmult_assoc, Rinv_l by lra. lra. }
  intros i c Hi Hc. apply Col; assumption.
Qed.

(* v^T (M M^T) v = sum_k (sum_i v_i M_ik)^2, with M M^T taken over m columns *)
Lemma quad_gram (M : mat) (v : nat -> R) n m :
  bigsum (fun i => bigsum (fun j => v i * bigsum (fun k => M i k * M j k) m * v j) n) n
  = bigsum (fun k => bigsum (fun i => v i * M i k) n * bigsum (fun i => v i * M i k) n) m.
Proof.
  induction m as [|m IH].
  - cbn [bigsum]. rewrite (bigsum_ext _ (fun _ => 0)); [apply bigsum_0|].
    intros i _. rewrite (bigsum_ext _ (fun _ => 0)); [apply bigsum_0|]. intros j _. ring.
  - cbn [bigsum]. rewrite <- IH. rewrite bigsum_mul. rewrite <- bigsum_plus. apply bigsum_ext. intros i _.
    rewrite <- bigsum_plus. apply bigsum_ext. intros j _. ring.
Qed.

(* back substitution: t steps of solving L^T w = b from index j - 1 downwards *)
Fixpoint tsolve (L : mat) (b : nat -> R) (j t : nat) : nat -> R :=
  match t with
  | O => fun _ => 0
  | S t' =>
      let w := tsolve L b j t' in
      let k := (j - 1 - t')%nat in
      fun a => if (a =? k)%nat then (b k - bigsum (fun a' => L a' k * w a') j) / L k k else w a
  end.

Lemma tsolve_inv L b j : (forall k, (k < j)%nat -> L k k <> 0) -> (forall a k, (a < k)%nat -> L a k = 0) ->
  forall t, (t <= j)%nat ->
    (forall a, (a < j - t)%nat -> tsolve L b j t a = 0)
    /\ (forall k, (j - t <= k < j)%nat -> bigsum (fun a => L a k * tsolve L b j t a) j = b k).
Proof.
  intros D U t. induction t as [|t IH]; intro Ht.
  - split; [reflexivity|intros k Hk; lia].
  - destruct (IH ltac:(lia)) as [Z S]. cbn [tsolve]. set (w := tsolve L b j t) in *. set (k0 := (j - 1 - t)%nat).
    assert (Hk0 : (k0 < j)%nat) by (unfold k0; lia).
    assert (W0 : w k0 = 0) by (apply Z; unfold k0; lia).
    split.
    + intros a Ha. replace (a =? k0)%nat with false by (symmetry; apply Nat.eqb_neq; unfold k0; lia). apply Z. lia.
    + intros k Hk. rewrite (bigsum_update (fun a => L a k) w k0 _ j Hk0). rewrite W0.
      destruct (Nat.eq_dec k k0) as [E|N].
      * subst k. field. apply D. exact Hk0.
      * rewrite (U k0 k) by (unfold k0 in *; lia). rewrite (S k) by (unfold k0 in *; lia). ring.
Qed.

Lemma mmtR_sym L n i i' : mmtR L n i i' = mmtR L n i' i.
Proof. apply bigsum_ext. intros; ring. Qed.

Lemma quad_zero_tail A n m z : (m <= n)%nat -> (forall i, (m <= i)%nat -> z i = 0) -> quad A n z = quad A m z.
Proof.
  intros H Z. unfold quad. rewrite (bigsum_zero_tail _ m n H).
  - apply bigsum_ext. intros i _. apply (bigsum_zero_tail _ m n H). intros k Hk. rewrite (Z k) by lia. ring.
  - intros i Hi. rewrite (bigsum_ext _ (fun _ => 0)) by (intros; rewrite (Z i) by lia; ring). apply bigsum_0.
Qed.

(* two matrices that agree on the block <= j except in the corner (j, j) *)
Lemma quad_border A G j piv z :
  (forall i i', (i <= j)%nat -> (i' <= j)%nat -> (i < j)%nat \/ (i' < j)%nat -> A i i' = G i i') ->
  A j j = G j j + piv -> quad A (S j) z = quad G (S j) z + piv * (z j * z j).
Proof.
  intros H Hjj. unfold quad. cbn [bigsum]. rewrite Hjj.
  rewrite (bigsum_ext _ (fun i => bigsum (fun i' => z i * G i i' * z i') j + z i * G i j * z j)).
  2:{ intros i Hi. rewrite (H i j) by lia. f_equal. apply bigsum_ext. intros i' Hi'. rewrite (H i i') by lia. reflexivity. }
  rewrite (bigsum_ext (fun i' => z j * A j i' * z i') (fun i' => z j * G j i' * z i'))
    by (intros i' Hi'; rewrite (H j i') by lia; reflexivity).
  ring.
Qed.

(* By induction the leading j x j block has its factor L.  On the block <= j, A is the Gram matrix of the
   rows of L except for the pivot in the corner; the vector z = (w, 1) with L^T w = - (row j of L) makes
   every square of the Gram form vanish, so z^T A z is the pivot. *)
Theorem spd_pivots_pos A n : symmetric A n -> posdef A n -> pivots_pos A n.
Proof.
  intros Sym PD j. induction j as [j IHj] using lt_wf_ind. intro Hj.
  assert (PP : pivots_pos A j) by (intros k Hk; apply IHj; lia).
  assert (Symj : symmetric A j) by (intros a b Ha Hb; apply Sym; lia).
  destruct (cholR_correct A j Symj PP) as [_ [Dg _]].
  set (L := cholR A j) in *. set (piv := chol_pivot A (chol_cols A j) j).
  assert (Up : forall a k, (a < k)%nat -> L a k = 0) by (intros a k H; apply chol_upper_zero; exact H).
  assert (Blk : forall i i', (i <= j)%nat -> (i' <= j)%nat -> (i < j)%nat \/ (i' < j)%nat -> A i i' = mmtR L j i i').
  { intros i i' Hi Hi' Hlt. destruct (le_lt_dec i' i) as [H|H].
    - symmetry. apply chol_low; [exact PP|lia|exact H].
    - rewrite (Sym i i'), mmtR_sym by lia. symmetry. apply chol_low; [exact PP|lia|lia]. }
  assert (Cor : A j j = mmtR L j j j + piv) by (unfold piv, chol_pivot, mmtR, L, cholR; ring).
  set (w := tsolve L (fun k => - L j k) j j).
  destruct (tsolve_inv L (fun k => - L j k) j (fun k Hk => Rgt_not_eq _ _ (Dg k Hk)) Up j (le_n j)) as [_ Sw].
  fold w in Sw.
  set (z := fun i => if (i <? j)%nat then w i else if (i =? j)%nat then 1 else 0).
  assert (Zj : z j = 1) by (unfold z; rewrite Nat.ltb_irrefl, Nat.eqb_refl; reflexivity).
  assert (Zlt : forall i, (i < j)%nat -> z i = w i).
  { intros i Hi. unfold z. destruct (Nat.ltb_spec i j); [reflexivity|lia]. }
  assert (Zgt : forall i, (S j <= i)%nat -> z i = 0).
  { intros i Hi. unfold z. destruct (Nat.ltb_spec i j); [lia|]. destruct (Nat.eqb_spec i j); [lia|reflexivity]. }
  assert (Q : quad A n z = piv).
  { rewrite (quad_zero_tail A n (S j) z Hj Zgt), (quad_border A (mmtR L j) j piv z Blk Cor), Zj.
    unfold quad, mmtR. rewrite quad_gram, (bigsum_ext _ (fun _ => 0)), bigsum_0; [ring|].
    intros k Hk. cbn [bigsum]. rewrite Zj, (bigsum_ext _ (fun a => L a k * w a)) by (intros a Ha; rewrite (Zlt a Ha); ring).
    rewrite (Sw k) by lia. ring. }
  fold piv. rewrite <- Q. apply PD. exists j. split; [exact Hj|rewrite Zj; lra].
Qed.

Lemma last_nonzero (v : nat -> R) n : (exists i, (i < n)%nat /\ v i <> 0) ->
  exists i0, (i0 < n)%nat /\ v i0 <> 0 /\ forall i, (i0 < i < n)%nat -> v i = 0.
Proof.
  induction n as [|n IH]; intros [i [Hi Hv]]; [lia|].
  destruct (Req_EM_T (v n) 0) as [Z|NZ].
  - destruct (Nat.eq_dec i n) as [E|N]; [subst i; contradiction|].
    assert (Hi' : (i < n)%nat) by lia.
    destruct (IH (ex_intro _ i (conj Hi' Hv))) as [i0 [H0 [Hn0 Ht]]].
    exists i0. split; [lia|]. split; [exact Hn0|]. intros k Hk.
    destruct (Nat.eq_dec k n) as [E|N']; [subst k; exact Z|apply Ht; lia].
  - exists n. split; [lia|]. split; [exact NZ|intros k Hk; lia].
Qed.

Theorem pivots_pos_posdef A n : symmetric A n -> pivots_pos A n -> posdef A n.
Proof.
  intros Sym Piv v Hv. destruct (cholR_correct A n Sym Piv) as [Up [Dg F]]. set (L := cholR A n) in *.
  unfold quad.
  rewrite (bigsum_ext _ (fun i => bigsum (fun j => v i * bigsum (fun k => L i k * L j k) n * v j) n)).
  2:{ intros i Hi. apply bigsum_ext. intros j Hj. rewrite <- (F i j Hi Hj). reflexivity. }
  rewrite quad_gram.
  destruct (last_nonzero v n Hv) as [i0 [H0 [Hn0 Ht]]].
  set (s := fun k => bigsum (fun i => v i * L i k) n).
  assert (S0 : s i0 = v i0 * L i0 i0).
  { unfold s. apply (bigsum_single (fun i => v i * L i i0) n i0 H0). intros i Hi Hne.
    destruct (lt_dec i i0) as [Hl|Hg]; [rewrite (Up i i0 Hl H0); ring|rewrite (Ht i) by lia; ring]. }
  assert (P0 : 0 < s i0 * s i0).
  { rewrite S0. pose proof (Dg i0 H0). assert (v i0 * L i0 i0 <> 0) by (apply Rmult_integral_contrapositive_currified; lra).
    apply Rsqr_pos_lt in H1. unfold Rsqr in H1. exact H1. }
  apply Rlt_le_trans with (s i0 * s i0); [exact P0|].
  apply (bigsum_ge_term (fun k => s k * s k) n i0); [|exact H0].
  intros k _. apply Rle_0_sqr.
Qed.

(* in the model, numpy.linalg.cholesky returns (all pivots positive) exactly on the positive-definite matrices *)
Theorem posdef_iff_pivots_pos A n : symmetric A n -> (posdef A n <-> pivots_pos A n).
Proof. intro S. split; [apply spd_pivots_pos; exact S|apply pivots_pos_posdef; exact S]. Qed.
