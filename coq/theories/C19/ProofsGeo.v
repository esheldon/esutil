(* C19 -- the sky samplers over the reals.  Positions are compared through their unit vectors:
   arctan2 inverts polar coordinates, rotate() is a product of plane rotations, and both branches
   of randcap return the direction `cap_vec`. *)
From Coq Require Import Reals Lra.
From EsVerif.C19 Require Import Model Spec.
Open Scope R_scope.

Lemma sqrt_sq_pos x y : 0 < x -> sqrt (x * x + y * y) = x * sqrt (1 + (y / x)²).
Proof.
  intro Hx. replace (x * x + y * y) with ((x * x) * (1 + (y / x)²)) by (unfold Rsqr; field; lra).
  rewrite sqrt_mult_alt by nra. rewrite sqrt_square by lra. reflexivity.
Qed.

Lemma atan_polar x y : 0 < x ->
  cos (atan (y / x)) * sqrt (x * x + y * y) = x /\ sin (atan (y / x)) * sqrt (x * x + y * y) = y.
Proof.
  intro Hx. rewrite cos_atan, sin_atan, sqrt_sq_pos by assumption.
  assert (0 < sqrt (1 + (y / x)²)) by (apply sqrt_lt_R0; unfold Rsqr; nra).
  split; field; lra.
Qed.

(* arctan2 inverts polar coordinates.  For x < 0 the angle is that of (-x, -y) turned by half a
   turn, which flips both signs. *)
Lemma atan2_polar y x :
  cos (atan2 y x) * sqrt (x * x + y * y) = x /\ sin (atan2 y x) * sqrt (x * x + y * y) = y.
Proof.
  unfold atan2. destruct (Rlt_dec 0 x) as [Hx|Hx]; [apply atan_polar; exact Hx|].
  destruct (Rlt_dec x 0) as [Hx'|Hx'].
  - destruct (atan_polar (- x) (- y) ltac:(lra)) as [C S].
    replace (- y / - x) with (y / x) in C, S by (field; lra).
    replace (- x * - x + - y * - y) with (x * x + y * y) in C, S by ring.
    destruct (Rle_dec 0 y).
    + rewrite neg_cos, neg_sin. lra.
    + rewrite cos_minus, sin_minus, cos_PI, sin_PI. lra.
  - replace x with 0 by lra. replace (0 * 0 + y * y) with (y * y) by ring.
    destruct (Rlt_dec 0 y); [rewrite cos_PI2, sin_PI2, sqrt_square; lra|].
    destruct (Rlt_dec y 0).
    + rewrite cos_neg, sin_neg, cos_PI2, sin_PI2. replace (y * y) with (- y * - y) by ring.
      rewrite sqrt_square; lra.
    + replace y with 0 by lra. rewrite cos_0, sin_0, sqrt_square; lra.
Qed.

Lemma atan2_unit s c : c * c + s * s = 1 -> cos (atan2 s c) = c /\ sin (atan2 s c) = s.
Proof. intro H. pose proof (atan2_polar s c) as E. rewrite H, sqrt_1, !Rmult_1_r in E. exact E. Qed.

Lemma atan_pos t : 0 < t -> 0 < atan t.
Proof. intro H. rewrite <- atan_0. apply atan_increasing. exact H. Qed.

Lemma atan_nonneg t : 0 <= t -> 0 <= atan t.
Proof. intros [H|<-]; [left; apply atan_pos; exact H|rewrite atan_0; lra]. Qed.

Lemma atan2_bound y x : - PI < atan2 y x <= PI.
Proof.
  pose proof PI_RGT_0. pose proof (atan_bound (y / x)). unfold atan2.
  destruct (Rlt_dec 0 x); [lra|]. destruct (Rlt_dec x 0).
  - replace (y / x) with (- y / - x) in * by (field; lra). destruct (Rle_dec 0 y).
    + pose proof (atan_nonneg (y / - x) ltac:(apply Rle_mult_inv_pos; lra)) as A.
      replace (- y / - x) with (- (y / - x)) in * by (field; lra). rewrite atan_opp in *. lra.
    + pose proof (atan_pos (- y / - x) ltac:(apply Rdiv_lt_0_compat; lra)). lra.
  - destruct (Rlt_dec 0 y); [lra|]. destruct (Rlt_dec y 0); lra.
Qed.

Lemma atan2_nonneg y x : 0 <= y -> 0 <= atan2 y x <= PI.
Proof.
  intro Hy. pose proof PI_RGT_0. pose proof (atan2_bound y x). split; [|lra].
  unfold atan2. destruct (Rlt_dec 0 x).
  - apply atan_nonneg, Rle_mult_inv_pos; lra.
  - destruct (Rlt_dec x 0).
    + destruct (Rle_dec 0 y); [|lra]. pose proof (atan_bound (y / x)). lra.
    + destruct (Rlt_dec 0 y); [lra|]. destruct (Rlt_dec y 0); lra.
Qed.

Lemma atan2_right y x : 0 <= x -> - (PI / 2) <= atan2 y x <= PI / 2.
Proof.
  intro Hx. pose proof PI_RGT_0. unfold atan2. destruct (Rlt_dec 0 x).
  - pose proof (atan_bound (y / x)). lra.
  - destruct (Rlt_dec x 0); [lra|]. destruct (Rlt_dec 0 y); [lra|]. destruct (Rlt_dec y 0); lra.
Qed.

Lemma d2r_r2d x : d2r (r2d x) = x.
Proof. unfold d2r, r2d. field. apply PI_neq0. Qed.
Lemma r2d_d2r x : r2d (d2r x) = x.
Proof. unfold d2r, r2d. field. apply PI_neq0. Qed.
Lemma r2d_le x y : x <= y -> r2d x <= r2d y.
Proof.
  intro H. unfold r2d. pose proof PI_RGT_0.
  assert (0 < 180 / PI) by (apply Rdiv_lt_0_compat; lra). nra.
Qed.
(* 180 / PI > 1: converting radians to degrees enlarges a positive number *)
Lemma r2d_gt x : 0 < x -> x < r2d x.
Proof.
  intro H. unfold r2d. pose proof PI_4 as P4. pose proof PI_RGT_0 as P0.
  assert (1 < 180 / PI). { apply Rmult_lt_reg_r with PI; [lra|]. unfold Rdiv. rewrite Rmult_assoc, Rinv_l by lra. lra. }
  nra.
Qed.
Lemma d2r_le x y : x <= y -> d2r x <= d2r y.
Proof.
  intro H. unfold d2r. pose proof PI_RGT_0.
  assert (0 < PI / 180) by (apply Rdiv_lt_0_compat; lra). nra.
Qed.
Lemma d2r_plus x y : d2r (x + y) = d2r x + d2r y.
Proof. unfold d2r. ring. Qed.
Lemma d2r_0 : d2r 0 = 0.
Proof. unfold d2r. ring. Qed.
Lemma d2r_90 : d2r 90 = PI / 2.
Proof. unfold d2r. field. Qed.

(* multiples of 180 degrees and of PI correspond *)
Lemma r2d_between a b x : a * PI <= x <= b * PI -> a * 180 <= r2d x <= b * 180.
Proof.
  intros [H1 H2]. apply r2d_le in H1, H2.
  replace (r2d (a * PI)) with (a * 180) in H1 by (unfold r2d; field; apply PI_neq0).
  replace (r2d (b * PI)) with (b * 180) in H2 by (unfold r2d; field; apply PI_neq0). lra.
Qed.
Lemma d2r_between a b x : a * 180 <= x <= b * 180 -> a * PI <= d2r x <= b * PI.
Proof.
  intros [H1 H2]. apply d2r_le in H1, H2.
  replace (d2r (a * 180)) with (a * PI) in H1 by (unfold d2r; field).
  replace (d2r (b * 180)) with (b * PI) in H2 by (unfold d2r; field). lra.
Qed.

Lemma sincos_2kPI x (k : Z) :
  cos (x + IZR k * (2 * PI)) = cos x /\ sin (x + IZR k * (2 * PI)) = sin x.
Proof.
  assert (N : forall y (n : nat), cos (y + IZR (Z.of_nat n) * (2 * PI)) = cos y
                                  /\ sin (y + IZR (Z.of_nat n) * (2 * PI)) = sin y).
  { intros y n. rewrite <- INR_IZR_INZ, <- (cos_period y n), <- (sin_period y n). split; f_equal; ring. }
  destruct k as [|p|p].
  - rewrite Rmult_0_l, Rplus_0_r. split; reflexivity.
  - rewrite <- (positive_nat_Z p). apply N.
  - destruct (N (x + IZR (Z.neg p) * (2 * PI)) (Pos.to_nat p)) as [C S]. rewrite <- C, <- S.
    split; f_equal; rewrite positive_nat_Z; change (Z.neg p) with (- Z.pos p)%Z; rewrite opp_IZR; ring.
Qed.

Lemma pymod_eq x m : pymod x m = x + IZR (- Int_part (x / m)) * m.
Proof. unfold pymod. rewrite opp_IZR. ring. Qed.

Lemma pymod_bound x m : 0 < m -> 0 <= pymod x m < m.
Proof.
  intro Hm. unfold pymod. destruct (base_Int_part (x / m)) as [H1 H2].
  set (k := IZR (Int_part (x / m))) in *.
  assert (E : x = (x / m) * m) by (field; lra).
  split.
  - assert (k * m <= x / m * m) by (apply Rmult_le_compat_r; lra). lra.
  - assert (x / m * m < (k + 1) * m) by (apply Rmult_lt_compat_r; lra). lra.
Qed.

(* the two loops of atbound run at most once each on [-360, 720] and land in [0, 360] *)
Lemma atbound_once lon : -360 <= lon <= 720 -> 0 <= atbound lon <= 360.
Proof.
  intro H. unfold atbound. destruct (Rlt_dec lon 0); destruct (Rlt_dec 360 _); lra.
Qed.
Lemma atbound_shift lon : exists k : Z, atbound lon = lon + IZR k * 360.
Proof.
  unfold atbound. destruct (Rlt_dec lon 0); destruct (Rlt_dec 360 _).
  - exists 0%Z. simpl. lra.
  - exists 1%Z. simpl. lra.
  - exists (-1)%Z. simpl. lra.
  - exists 0%Z. simpl. lra.
Qed.

(* the argument randcap passes to atbound is within that range *)
Lemma atbound_arg_range ra dphi : 0 <= ra <= 360 -> - PI < dphi <= PI -> -360 <= r2d (d2r ra - dphi) <= 720.
Proof.
  intros Hra Hd. pose proof (d2r_between 0 2 ra ltac:(lra)).
  pose proof (r2d_between (-1) 3 (d2r ra - dphi) ltac:(lra)). lra.
Qed.

Lemma s2c2 x : sin x * sin x + cos x * cos x = 1.
Proof. exact (sin2_cos2 x). Qed.

Lemma dot_sym a b : dot a b = dot b a.
Proof. destruct a as [[a1 a2] a3], b as [[b1 b2] b3]. unfold dot. ring. Qed.

Lemma thetaphi_unit l b : dot (thetaphi2xyz l b) (thetaphi2xyz l b) = 1.
Proof.
  unfold dot, thetaphi2xyz.
  replace (cos l * cos b * (cos l * cos b) + sin l * cos b * (sin l * cos b) + sin b * sin b)
    with ((sin l * sin l + cos l * cos l) * (cos b * cos b) + sin b * sin b) by ring.
  rewrite s2c2, Rmult_1_l, Rplus_comm. apply s2c2.
Qed.

Lemma thetaphi_period l b (k : Z) : thetaphi2xyz (l + IZR k * (2 * PI)) b = thetaphi2xyz l b.
Proof. unfold thetaphi2xyz. destruct (sincos_2kPI l k) as [-> ->]. reflexivity. Qed.

Lemma eq2xyz_atbound ra dec : eq2xyz (atbound ra) dec = eq2xyz ra dec.
Proof.
  destruct (atbound_shift ra) as [k ->]. unfold eq2xyz.
  replace (d2r (ra + IZR k * 360)) with (d2r ra + IZR k * (2 * PI)) by (unfold d2r; field).
  apply thetaphi_period.
Qed.

(* rotations by the angle a about the third and about the first axis *)
Definition rotz (a : R) (v : vec3) : vec3 :=
  let '(x, y, z) := v in (cos a * x - sin a * y, sin a * x + cos a * y, z).
Definition rotx (a : R) (v : vec3) : vec3 :=
  let '(x, y, z) := v in (x, cos a * y - sin a * z, sin a * y + cos a * z).

Lemma rotz_dot a v w : dot (rotz a v) (rotz a w) = dot v w.
Proof.
  destruct v as [[v1 v2] v3], w as [[w1 w2] w3]. unfold rotz, dot.
  transitivity ((sin a * sin a + cos a * cos a) * (v1 * w1 + v2 * w2) + v3 * w3); [ring|].
  rewrite s2c2. ring.
Qed.
Lemma rotx_dot a v w : dot (rotx a v) (rotx a w) = dot v w.
Proof.
  destruct v as [[v1 v2] v3], w as [[w1 w2] w3]. unfold rotx, dot.
  transitivity (v1 * w1 + (sin a * sin a + cos a * cos a) * (v2 * w2 + v3 * w3)); [ring|].
  rewrite s2c2. ring.
Qed.
Lemma rotz_0 v : rotz 0 v = v.
Proof. destruct v as [[x y] z]. unfold rotz. rewrite cos_0, sin_0. do 2 f_equal; ring. Qed.
Lemma rotx_0 v : rotx 0 v = v.
Proof. destruct v as [[x y] z]. unfold rotx. rewrite cos_0, sin_0. f_equal; [f_equal|]; ring. Qed.

(* a shift of the longitude is a rotation about the polar axis *)
Lemma thetaphi_shift l a b : thetaphi2xyz (l + a) b = rotz a (thetaphi2xyz l b).
Proof. unfold thetaphi2xyz, rotz. rewrite cos_plus, sin_plus. do 2 f_equal; ring. Qed.

(* longitude and latitude taken with arctan2 from a unit vector give that vector back *)
Lemma thetaphi_of_unit x y z : dot (x, y, z) (x, y, z) = 1 ->
  thetaphi2xyz (atan2 y x) (atan2 z (sqrt (x * x + y * y))) = (x, y, z).
Proof.
  unfold dot, thetaphi2xyz. intro U. destruct (atan2_polar y x) as [C S].
  assert (N : sqrt (x * x + y * y) * sqrt (x * x + y * y) + z * z = 1) by (rewrite sqrt_sqrt by nra; exact U).
  destruct (atan2_unit z _ N) as [-> ->]. rewrite C, S. reflexivity.
Qed.

Lemma eq2xyz_unit ra dec : dot (eq2xyz ra dec) (eq2xyz ra dec) = 1.
Proof. apply thetaphi_unit. Qed.

Lemma dot_expand ra1 dec1 ra2 dec2 :
  dot (eq2xyz ra1 dec1) (eq2xyz ra2 dec2)
  = cos (d2r dec1) * cos (d2r dec2) * cos (d2r (ra2 - ra1)) + sin (d2r dec1) * sin (d2r dec2).
Proof.
  unfold dot, eq2xyz, thetaphi2xyz. replace (d2r (ra2 - ra1)) with (d2r ra2 - d2r ra1) by (unfold d2r; ring).
  rewrite cos_minus. ring.
Qed.

Lemma sin2_half x : (sin (x / 2))² = (1 - cos x) / 2.
Proof. replace x with (2 * (x / 2)) at 2 by field. rewrite cos_2a_sin. unfold Rsqr. field. Qed.

(* haversine: hav = (1 - cos sep) / 2 *)
Lemma hav_dot ra1 dec1 ra2 dec2 :
  hav ra1 dec1 ra2 dec2 = (1 - dot (eq2xyz ra1 dec1) (eq2xyz ra2 dec2)) / 2.
Proof.
  rewrite dot_expand. unfold hav. rewrite !sin2_half.
  replace (d2r (dec2 - dec1)) with (d2r dec2 - d2r dec1) by (unfold d2r; ring).
  rewrite cos_minus. field.
Qed.

Lemma dot_bound ra1 dec1 ra2 dec2 : -1 <= dot (eq2xyz ra1 dec1) (eq2xyz ra2 dec2) <= 1.
Proof.
  pose proof (eq2xyz_unit ra1 dec1) as H1. pose proof (eq2xyz_unit ra2 dec2) as H2.
  destruct (eq2xyz ra1 dec1) as [[a1 a2] a3]. destruct (eq2xyz ra2 dec2) as [[b1 b2] b3].
  unfold dot in *.
  pose proof (Rle_0_sqr (a1 + b1)). pose proof (Rle_0_sqr (a2 + b2)). pose proof (Rle_0_sqr (a3 + b3)).
  pose proof (Rle_0_sqr (a1 - b1)). pose proof (Rle_0_sqr (a2 - b2)). pose proof (Rle_0_sqr (a3 - b3)).
  unfold Rsqr in *. split; lra.
Qed.

Lemma sep_deg_bound ra1 dec1 ra2 dec2 : 0 <= sep_deg ra1 dec1 ra2 dec2 <= 180.
Proof.
  unfold sep_deg. set (c := dot _ _). pose proof (acos_bound c).
  pose proof (r2d_between 0 1 (acos c) ltac:(lra)). lra.
Qed.

(* certificates: an upper/lower bound on the haversine is a bound on the separation
   (acos is decreasing and (sin (rho/2))^2 = (1 - cos rho) / 2) *)
Lemma sep_by_hav ra1 dec1 ra2 dec2 R : 0 <= R <= 180 ->
  (hav ra1 dec1 ra2 dec2 <= (sin (d2r R / 2))² -> sep_deg ra1 dec1 ra2 dec2 <= R)
  /\ ((sin (d2r R / 2))² <= hav ra1 dec1 ra2 dec2 -> R <= sep_deg ra1 dec1 ra2 dec2).
Proof.
  intro HR. rewrite hav_dot, sin2_half. unfold sep_deg.
  pose proof (dot_bound ra1 dec1 ra2 dec2) as Hc. set (c := dot _ _) in *.
  pose proof (d2r_between 0 1 R ltac:(lra)). pose proof (acos_bound c).
  rewrite <- (r2d_d2r R) at 2 4.
  split; intro Hh; apply r2d_le, cos_decr_0; try lra; rewrite cos_acos by lra; lra.
Qed.

Lemma sep_of_dot ra1 dec1 ra2 dec2 R :
  0 <= R <= 180 -> dot (eq2xyz ra1 dec1) (eq2xyz ra2 dec2) = cos (d2r R) -> sep_deg ra1 dec1 ra2 dec2 = R.
Proof.
  intros HR E. unfold sep_deg. rewrite E, acos_cos, r2d_d2r; [reflexivity|].
  pose proof (d2r_between 0 1 R ltac:(lra)). lra.
Qed.

(* closed form of the unit vector of the point the unrotated branch returns *)
Definition cap_vec (ra dec rad u upsi : R) : vec3 :=
  let r := d2r (sqrt u * rad) in
  let psi := uniform 0 (2 * PI) upsi in
  let theta := d2r (dec + 90) in
  let phi := d2r ra in
  let ct2 := cos theta * cos r + sin theta * sin r * cos psi in
  let x := sin theta * cos r - cos theta * sin r * cos psi in
  let y := sin r * sin psi in
  (x * cos phi + y * sin phi, x * sin phi - y * cos phi, - ct2).

Lemma randcap_unrot_vec ra dec rad u upsi :
  let '(ra2, dec2, r) := randcap_unrot ra dec rad u upsi in
  eq2xyz ra2 dec2 = cap_vec ra dec rad u upsi /\ r = sqrt u * rad.
Proof.
  unfold randcap_unrot, cap_vec. cbv zeta. split; [|apply r2d_d2r].
  set (r := d2r (sqrt u * rad)). set (psi := uniform 0 (2 * PI) upsi).
  set (theta := d2r (dec + 90)). set (phi := d2r ra).
  set (ct2 := cos theta * cos r + sin theta * sin r * cos psi).
  set (x := sin theta * cos r - cos theta * sin r * cos psi).
  set (y := sin r * sin psi).
  (* (ct2, x) is (cos r, sin r cos psi) turned by theta, so (ct2, x, y) is a unit vector *)
  assert (Hn : ct2 * ct2 + (x * x + y * y) = 1).
  { transitivity ((sin theta * sin theta + cos theta * cos theta) * (cos r * cos r + sin r * sin r * (cos psi * cos psi))
                  + sin r * sin r * (sin psi * sin psi)); [unfold ct2, x, y; ring|].
    rewrite s2c2, Rmult_1_l.
    transitivity (sin r * sin r * (sin psi * sin psi + cos psi * cos psi) + cos r * cos r); [ring|].
    rewrite s2c2, Rmult_1_r. apply s2c2. }
  (* so the colatitude atan2 s ct2 has cosine ct2 and sine s = |(x, y)|, and the longitude
     difference atan2 y x has cosine x / s and sine y / s: the point is (x, y, -ct2) turned by phi *)
  set (s := sqrt (x * x + y * y)).
  assert (Hss : s * s = x * x + y * y) by (apply sqrt_sqrt; nra).
  destruct (atan2_unit s ct2 ltac:(rewrite Hss; exact Hn)) as [Hc2 Hs2].
  destruct (atan2_polar y x) as [HDc HDs]. fold s in HDc, HDs.
  rewrite eq2xyz_atbound. unfold eq2xyz, thetaphi2xyz. rewrite !d2r_r2d.
  replace (d2r (r2d (atan2 s ct2) - 90)) with (atan2 s ct2 - PI / 2)
    by (unfold Rminus; rewrite d2r_plus, d2r_r2d; unfold d2r; field).
  rewrite (cos_minus (atan2 s ct2)), (sin_minus (atan2 s ct2)), cos_PI2, sin_PI2, Hc2, Hs2.
  rewrite (cos_minus phi), (sin_minus phi).
  set (cD := cos (atan2 y x)) in *. set (sD := sin (atan2 y x)) in *.
  f_equal; [f_equal|].
  - transitivity (cos phi * (cD * s) + sin phi * (sD * s)); [ring|]. rewrite HDc, HDs. ring.
  - transitivity (sin phi * (cD * s) - cos phi * (sD * s)); [ring|]. rewrite HDc, HDs. ring.
  - ring.
Qed.

(* spherical law of cosines: the point lies at angular distance r = sqrt(u) * rad *)
Lemma cap_vec_dot ra dec rad u upsi :
  dot (eq2xyz ra dec) (cap_vec ra dec rad u upsi) = cos (d2r (sqrt u * rad)).
Proof.
  unfold eq2xyz, thetaphi2xyz, cap_vec, dot. cbv zeta.
  replace (d2r dec) with (d2r (dec + 90) - PI / 2) by (rewrite d2r_plus, d2r_90; ring).
  rewrite cos_minus, sin_minus, cos_PI2, sin_PI2.
  set (r := d2r (sqrt u * rad)). set (psi := uniform 0 (2 * PI) upsi).
  set (theta := d2r (dec + 90)). set (phi := d2r ra).
  transitivity ((sin phi * sin phi + cos phi * cos phi) * (sin theta * sin theta * cos r - sin theta * (cos theta * sin r * cos psi))
                + cos theta * (cos theta * cos r + sin theta * sin r * cos psi)); [ring|].
  rewrite s2c2. transitivity ((sin theta * sin theta + cos theta * cos theta) * cos r); [ring|].
  rewrite s2c2. ring.
Qed.

Lemma cap_radius_range rad u : 0 <= u <= 1 -> 0 <= rad <= 180 -> 0 <= sqrt u * rad <= rad.
Proof.
  intros Hu Hr. assert (0 <= sqrt u) by apply sqrt_pos.
  assert (sqrt u <= 1) by (rewrite <- sqrt_1; apply sqrt_le_1; lra). nra.
Qed.

(* a returned triple that points along cap_vec lies at the returned radius from the centre *)
Lemma cap_distance ra dec rad u upsi (out : R * R * R) :
  unit_dev u -> 0 <= rad <= 180 ->
  (let '(ra2, dec2, r) := out in eq2xyz ra2 dec2 = cap_vec ra dec rad u upsi /\ r = sqrt u * rad) ->
  let '(ra2, dec2, r) := out in sep_deg ra dec ra2 dec2 = sqrt u * rad /\ r = sqrt u * rad.
Proof.
  intros Hu Hr. destruct out as [[ra2 dec2] r]. intros [V ->]. split; [|reflexivity].
  pose proof (cap_radius_range rad u Hu Hr). apply sep_of_dot; [lra|]. rewrite V. apply cap_vec_dot.
Qed.

(* the linear map rotate() applies to unit vectors (angles as passed to rotate, in degrees) *)
Definition rot_lin (phi theta psi : R) (v : vec3) : vec3 :=
  rotz (d2r (- psi)) (rotx (d2r theta) (rotz (d2r phi) v)).

(* rotate is an isometry of the sphere *)
Lemma rot_lin_dot phi theta psi v w : dot (rot_lin phi theta psi v) (rot_lin phi theta psi w) = dot v w.
Proof. unfold rot_lin. rewrite rotz_dot, rotx_dot, rotz_dot. reflexivity. Qed.

Lemma rotate_vec phi theta psi ra dec :
  let '(ra', dec') := rotate_R phi theta psi ra dec in
  eq2xyz ra' dec' = rot_lin phi theta psi (eq2xyz ra dec).
Proof.
  unfold rotate_R, rot_lin, eq2xyz. cbv zeta.
  replace (d2r phi) with (- d2r (- phi)) by (unfold d2r; ring).
  replace (d2r theta) with (- d2r (- theta)) by (unfold d2r; ring).
  set (p := d2r (- phi)). set (t := d2r (- theta)). set (s := d2r (- psi)).
  set (al := d2r ra). set (b := d2r dec).
  set (x := cos b * cos (al - p)).
  set (y := cos t * (cos b * sin (al - p)) + sin t * sin b).
  set (z := - sin t * (cos b * sin (al - p)) + cos t * sin b).
  (* the vector before the last rotation *)
  assert (E : rotx (- t) (rotz (- p) (thetaphi2xyz al b)) = (x, y, z)).
  { rewrite <- thetaphi_shift. fold (al - p). unfold rotx, thetaphi2xyz, x, y, z. rewrite cos_neg, sin_neg.
    f_equal; [f_equal|]; ring. }
  assert (U : dot (x, y, z) (x, y, z) = 1) by (rewrite <- E, rotx_dot, rotz_dot; apply thetaphi_unit).
  rewrite E, <- (thetaphi_of_unit x y z U), <- thetaphi_shift, !d2r_r2d, pymod_eq.
  set (k := (- Int_part ((atan2 y x + s + 4 * PI) / (2 * PI)))%Z).
  replace (atan2 y x + s + 4 * PI + IZR k * (2 * PI)) with (atan2 y x + s + IZR (k + 2) * (2 * PI))
    by (rewrite plus_IZR; ring).
  apply thetaphi_period.
Qed.

Lemma on_sky_rotate phi theta psi ra dec : on_sky (rotate_R phi theta psi ra dec).
Proof.
  unfold rotate_R, on_sky. cbv zeta. cbn [fst snd]. pose proof PI_RGT_0 as Hpi. split.
  - match goal with |- context [pymod ?a ?m] => pose proof (pymod_bound a m ltac:(lra)) as HB; set (P := pymod a m) in * end.
    pose proof (r2d_between 0 2 P ltac:(lra)). lra.
  - match goal with |- context [atan2 ?z (sqrt ?a)] => pose proof (atan2_right z (sqrt a) (sqrt_pos a)) as HT; set (T := atan2 z (sqrt a)) in * end.
    pose proof (r2d_between (- (1 / 2)) (1 / 2) T ltac:(lra)). lra.
Qed.

(* the cap around (90, 0), turned by dec about the first axis and by ra - 90 about the third, is the
   cap around (ra, dec): the rotated branch returns the direction the unrotated one does *)
Lemma cap_vec_turned ra dec rad u upsi :
  rot_lin (ra - 90) 0 0 (rot_lin 0 (dec - 0) 0 (cap_vec 90 0 rad u upsi)) = cap_vec ra dec rad u upsi.
Proof.
  unfold rot_lin. rewrite Ropp_0, d2r_0, !rotz_0, rotx_0. unfold cap_vec, rotx, rotz. cbv zeta.
  (* every angle is dec, ra or a quarter turn away from them: sines and cosines of quarter turns
     evaluate, the others shift, and what is left is an identity of polynomials *)
  replace (d2r (0 + 90)) with (PI / 2) by (unfold d2r; field).
  replace (d2r (ra - 90)) with (d2r ra - PI / 2) by (unfold d2r; field).
  replace (d2r (dec - 0)) with (d2r dec) by (unfold d2r; field).
  replace (d2r (dec + 90)) with (d2r dec + PI / 2) by (unfold d2r; field).
  rewrite d2r_90, cos_minus, sin_minus, cos_plus, sin_plus, cos_PI2, sin_PI2.
  f_equal; [f_equal|]; ring.
Qed.

Lemma randcap_rot_vec ra dec rad u upsi :
  let '(ra2, dec2, r) := randcap_rot ra dec rad u upsi in
  eq2xyz ra2 dec2 = cap_vec ra dec rad u upsi /\ r = sqrt u * rad.
Proof.
  unfold randcap_rot. pose proof (randcap_unrot_vec 90 0 rad u upsi) as V0.
  destruct (randcap_unrot 90 0 rad u upsi) as [[ra0 dec0] r0]. destruct V0 as [V0 Hr].
  pose proof (rotate_vec 0 (dec - 0) 0 ra0 dec0) as V1.
  destruct (rotate_R 0 (dec - 0) 0 ra0 dec0) as [ra1 dec1].
  pose proof (rotate_vec (ra - 90) 0 0 ra1 dec1) as V2.
  destruct (rotate_R (ra - 90) 0 0 ra1 dec1) as [ra2 dec2].
  split; [|exact Hr]. rewrite V2, V1, V0. apply cap_vec_turned.
Qed.

Lemma polar_false dec : - pole_thr < dec < pole_thr -> polar dec = false.
Proof. intro H. unfold polar. destruct (Rle_dec pole_thr dec); [lra|]. destruct (Rle_dec dec (- pole_thr)); [lra|reflexivity]. Qed.
Lemma polar_true dec : pole_thr <= dec \/ dec <= - pole_thr -> polar dec = true.
Proof. intro H. unfold polar. destruct (Rle_dec pole_thr dec); [reflexivity|]. destruct (Rle_dec dec (- pole_thr)); [reflexivity|lra]. Qed.

Lemma randcap_vec dorot ra dec rad u upsi :
  let '(ra2, dec2, r) := randcap_R dorot ra dec rad u upsi in
  eq2xyz ra2 dec2 = cap_vec ra dec rad u upsi /\ r = sqrt u * rad.
Proof. unfold randcap_R. destruct (dorot || polar dec)%bool; [apply randcap_rot_vec|apply randcap_unrot_vec]. Qed.

Lemma on_sky_unrot ra dec rad u upsi :
  0 <= ra <= 360 ->
  let '(ra2, dec2, _) := randcap_unrot ra dec rad u upsi in on_sky (ra2, dec2).
Proof.
  intro Hra. unfold randcap_unrot, on_sky. cbv zeta. cbn [fst snd]. split.
  - apply atbound_once, atbound_arg_range; [exact Hra|apply atan2_bound].
  - match goal with |- context [atan2 (sqrt ?a) ?c] => pose proof (atan2_nonneg (sqrt a) c (sqrt_pos a)) as HT; set (T := atan2 (sqrt a) c) in * end.
    pose proof (r2d_between 0 1 T ltac:(lra)). lra.
Qed.

Lemma on_sky_randcap dorot ra dec rad u upsi :
  0 <= ra <= 360 ->
  let '(ra2, dec2, _) := randcap_R dorot ra dec rad u upsi in on_sky (ra2, dec2).
Proof.
  intro Hra. unfold randcap_R. destruct (dorot || polar dec)%bool; [|apply on_sky_unrot; exact Hra].
  unfold randcap_rot.
  destruct (randcap_unrot 90 0 rad u upsi) as [[ra0 dec0] r0].
  destruct (rotate_R 0 (dec - 0) 0 ra0 dec0) as [ra1 dec1].
  pose proof (on_sky_rotate (ra - 90) 0 0 ra1 dec1) as H.
  destruct (rotate_R (ra - 90) 0 0 ra1 dec1) as [ra2 dec2]. exact H.
Qed.

Lemma clip_id lo hi x : lo <= x <= hi -> clip lo hi x = x.
Proof. intro H. unfold clip. rewrite Rmax_left by lra. apply Rmin_left. lra. Qed.

Lemma colat_range dec : -90 <= dec <= 90 -> 0 <= d2r (90 + dec) <= PI.
Proof. intro H. pose proof (d2r_between 0 1 (90 + dec) ltac:(lra)). lra. Qed.

Lemma uniform_between lo hi u : lo <= hi -> 0 <= u <= 1 -> lo <= uniform lo hi u <= hi.
Proof. intros H Hu. unfold uniform. split; nra. Qed.

Lemma uniform_mono lo hi u u' : lo <= hi -> u <= u' -> uniform lo hi u <= uniform lo hi u'.
Proof. intros H Hu. unfold uniform. nra. Qed.

Lemma randsphere_v_range ra0 ra1 dec0 dec1 u2 :
  valid_box ra0 ra1 dec0 dec1 -> unit_dev u2 ->
  randsphere_v dec0 dec1 u2 = uniform (cos (d2r (90 + dec1))) (cos (d2r (90 + dec0))) u2
  /\ cos (d2r (90 + dec1)) <= randsphere_v dec0 dec1 u2 <= cos (d2r (90 + dec0))
  /\ -1 <= randsphere_v dec0 dec1 u2 <= 1.
Proof.
  intros [Hra [Hra1 [Hd Hd1]]] Hu. unfold randsphere_v. cbv zeta.
  pose proof (colat_range dec0 ltac:(lra)) as H0. pose proof (colat_range dec1 ltac:(lra)) as H1.
  assert (Hc : cos (d2r (90 + dec1)) <= cos (d2r (90 + dec0))).
  { apply cos_decr_1; try lra. apply d2r_le. lra. }
  pose proof (COS_bound (d2r (90 + dec1))) as B1. pose proof (COS_bound (d2r (90 + dec0))) as B0.
  pose proof (uniform_between _ _ u2 Hc Hu) as HU.
  rewrite clip_id by lra. repeat split; lra.
Qed.

Lemma acos_decr x y : -1 <= x <= 1 -> -1 <= y <= 1 -> x <= y -> acos y <= acos x.
Proof.
  intros Hx Hy H. pose proof (acos_bound x). pose proof (acos_bound y).
  apply cos_decr_0; try lra. rewrite !cos_acos by lra. exact H.
Qed.

Theorem randsphere_in_box ra0 ra1 dec0 dec1 u1 u2 :
  valid_box ra0 ra1 dec0 dec1 -> unit_dev u1 -> unit_dev u2 ->
  in_box ra0 ra1 dec0 dec1 (randsphere_R ra0 ra1 dec0 dec1 u1 u2).
Proof.
  intros HB Hu1 Hu2. destruct (randsphere_v_range _ _ _ _ u2 HB Hu2) as [_ [Hv Hv1]].
  destruct HB as [Hra [Hra1 [Hd Hd1]]].
  unfold randsphere_R, in_box. cbv zeta. cbn [fst snd]. split.
  - apply uniform_between; [lra|exact Hu1].
  - set (v := randsphere_v dec0 dec1 u2) in *.
    pose proof (colat_range dec0 ltac:(lra)) as H0. pose proof (colat_range dec1 ltac:(lra)) as H1.
    pose proof (COS_bound (d2r (90 + dec1))) as B1. pose proof (COS_bound (d2r (90 + dec0))) as B0.
    assert (L : d2r (90 + dec0) <= acos v).
    { rewrite <- (acos_cos (d2r (90 + dec0))) by lra. apply acos_decr; lra. }
    assert (U : acos v <= d2r (90 + dec1)).
    { rewrite <- (acos_cos (d2r (90 + dec1))) by lra. apply acos_decr; lra. }
    apply r2d_le in L. apply r2d_le in U. rewrite r2d_d2r in L, U. lra.
Qed.

(* monotonicity of the dec map: a larger deviate gives a smaller (or equal) declination *)
Theorem randsphere_dec_monotone ra0 ra1 dec0 dec1 u1 u1' u2 u2' :
  valid_box ra0 ra1 dec0 dec1 -> unit_dev u2 -> unit_dev u2' -> u2 <= u2' ->
  snd (randsphere_R ra0 ra1 dec0 dec1 u1' u2') <= snd (randsphere_R ra0 ra1 dec0 dec1 u1 u2).
Proof.
  intros HB Hu Hu' Hle.
  destruct (randsphere_v_range _ _ _ _ u2 HB Hu) as [E [Hv Hv1]].
  destruct (randsphere_v_range _ _ _ _ u2' HB Hu') as [E' [Hv' Hv1']].
  unfold randsphere_R. cbv zeta. cbn [snd].
  assert (acos (randsphere_v dec0 dec1 u2') <= acos (randsphere_v dec0 dec1 u2)).
  { apply acos_decr; try lra. rewrite E, E'. apply uniform_mono; lra. }
  pose proof (r2d_le _ _ H). lra.
Qed.

(* sin(dec) = -v, cos(dec) = sqrt(1 - v^2): what the per-case certificates evaluate *)
Lemma randsphere_sincos ra0 ra1 dec0 dec1 u1 u2 :
  valid_box ra0 ra1 dec0 dec1 -> unit_dev u2 ->
  let v := uniform (cos (d2r (90 + dec1))) (cos (d2r (90 + dec0))) u2 in
  let dec := snd (randsphere_R ra0 ra1 dec0 dec1 u1 u2) in
  sin (d2r dec) = - v /\ cos (d2r dec) = sqrt (1 - v²).
Proof.
  intros HB Hu. destruct (randsphere_v_range _ _ _ _ u2 HB Hu) as [E [Hv Hv1]]. cbv zeta.
  rewrite <- E. set (v := randsphere_v dec0 dec1 u2) in *.
  unfold randsphere_R. cbv zeta. cbn [snd]. fold v.
  replace (d2r (r2d (acos v) - 90)) with (acos v - PI / 2)
    by (unfold Rminus; rewrite d2r_plus, d2r_r2d; unfold d2r; field).
  rewrite sin_minus, cos_minus, cos_PI2, sin_PI2, cos_acos, sin_acos by lra. split; ring.
Qed.

Lemma randsphere_xyz_closed ra0 ra1 dec0 dec1 u1 u2 :
  valid_box ra0 ra1 dec0 dec1 -> unit_dev u2 ->
  let v := uniform (cos (d2r (90 + dec1))) (cos (d2r (90 + dec0))) u2 in
  let ra := uniform ra0 ra1 u1 in
  randsphere_xyz_R ra0 ra1 dec0 dec1 u1 u2 = (cos (d2r ra) * sqrt (1 - v²), sin (d2r ra) * sqrt (1 - v²), - v).
Proof.
  intros HB Hu. destruct (randsphere_sincos ra0 ra1 dec0 dec1 u1 u2 HB Hu) as [Hs Hc].
  unfold randsphere_xyz_R, randsphere_R, eq2xyz, thetaphi2xyz in *. cbv zeta in *. cbn [snd] in *.
  rewrite Hs, Hc. reflexivity.
Qed.

(* certificate introduction rules
   (each generated per-case lemma is one of these followed by `lra` / `interval`) *)

Lemma sphere_close_intro ra0 ra1 dec0 dec1 u1 u2 ra_o dec_o :
  valid_box ra0 ra1 dec0 dec1 -> unit_dev u2 ->
  Rabs (uniform ra0 ra1 u1 - ra_o) <= slack ->
  Rabs (sin (d2r dec_o) + uniform (cos (d2r (90 + dec1))) (cos (d2r (90 + dec0))) u2) <= sinslack ->
  sphere_close (randsphere_R ra0 ra1 dec0 dec1 u1 u2) (ra_o, dec_o).
Proof.
  intros HB Hu H1 H2. destruct (randsphere_sincos ra0 ra1 dec0 dec1 u1 u2 HB Hu) as [Hs _].
  unfold sphere_close. rewrite Hs. split; [exact H1|].
  cbn [snd]. rewrite <- Rabs_Ropp, Ropp_minus_distr. unfold Rminus. rewrite Ropp_involutive. exact H2.
Qed.

Lemma xyz_close_intro ra0 ra1 dec0 dec1 u1 u2 x y z :
  valid_box ra0 ra1 dec0 dec1 -> unit_dev u2 ->
  (let v := uniform (cos (d2r (90 + dec1))) (cos (d2r (90 + dec0))) u2 in
   let ra := uniform ra0 ra1 u1 in
   Rabs (cos (d2r ra) * sqrt (1 - v * v) - x) <= sinslack
   /\ Rabs (sin (d2r ra) * sqrt (1 - v * v) - y) <= sinslack
   /\ Rabs (- v - z) <= sinslack) ->
  xyz_close (randsphere_xyz_R ra0 ra1 dec0 dec1 u1 u2) (x, y, z).
Proof.
  intros HB Hu H. rewrite (randsphere_xyz_closed ra0 ra1 dec0 dec1 u1 u2 HB Hu). unfold xyz_close, Rsqr. exact H.
Qed.

Lemma cap_point_fl_intro ra dec rad ra2 dec2 r :
  0 <= rad ->
  (180 <= rad + slack \/ hav ra dec ra2 dec2 <= (sin (d2r (rad + slack) / 2))²) ->
  (r - slack <= 0 \/ (r - slack <= 180 /\ (sin (d2r (r - slack) / 2))² <= hav ra dec ra2 dec2)) ->
  (180 <= r + slack \/ (0 <= r + slack /\ hav ra dec ra2 dec2 <= (sin (d2r (r + slack) / 2))²)) ->
  cap_point_fl ra dec rad (ra2, dec2, r).
Proof.
  intros Hrad H1 H2 H3. unfold cap_point_fl. pose proof (sep_deg_bound ra dec ra2 dec2) as B.
  assert (Hs : 0 < slack) by (unfold slack; lra).
  split.
  - destruct H1 as [H1|H1]; [lra|]. destruct (Rle_dec (rad + slack) 180); [|lra].
    apply sep_by_hav; [lra|exact H1].
  - apply Rabs_le. split.
    + destruct H2 as [H2|[H2 H2']]; [lra|]. destruct (Rle_dec 0 (r - slack)); [|lra].
      pose proof (proj2 (sep_by_hav ra dec ra2 dec2 (r - slack) ltac:(lra)) H2'). lra.
    + destruct H3 as [H3|[H3 H3']]; [lra|]. destruct (Rle_dec (r + slack) 180); [|lra].
      pose proof (proj1 (sep_by_hav ra dec ra2 dec2 (r + slack) ltac:(lra)) H3'). lra.
Qed.

(* the model's answer is cap_vec and sqrt u * rad whatever the branch, so one rule serves every call *)
Lemma cap_close_intro dorot ra dec rad u upsi ra_o dec_o r_o :
  1 - dot (cap_vec ra dec rad u upsi) (eq2xyz ra_o dec_o) <= vslack ->
  Rabs (sqrt u * rad - r_o) <= slack ->
  cap_close (randcap_R dorot ra dec rad u upsi) (ra_o, dec_o, r_o).
Proof.
  intros H1 H2. pose proof (randcap_vec dorot ra dec rad u upsi) as V.
  destruct (randcap_R dorot ra dec rad u upsi) as [[mra mdec] mr]. destruct V as [V ->].
  unfold cap_close. rewrite V. split; assumption.
Qed.

Lemma cap_close_unrot_intro ra dec rad u upsi ra_o dec_o r_o :
  - pole_thr < dec < pole_thr ->
  1 - dot (cap_vec ra dec rad u upsi) (eq2xyz ra_o dec_o) <= vslack ->
  Rabs (sqrt u * rad - r_o) <= slack ->
  cap_close (randcap_R false ra dec rad u upsi) (ra_o, dec_o, r_o).
Proof. intros _. apply cap_close_intro. Qed.

(* closed form of the rotated branch's unit vector (zero Euler angles simplified away); this is
   the expression the per-case certificates of the polar branch evaluate *)
Definition cap_vec_rot (ra dec rad u upsi : R) : vec3 :=
  let r := d2r (sqrt u * rad) in
  let psi := uniform 0 (2 * PI) upsi in
  let al := d2r ra in
  let de := d2r dec in
  let a := sin r * sin psi in
  let b := cos r in
  let c := - (sin r * cos psi) in
  let m2 := cos de * b - sin de * c in
  let m3 := sin de * b + cos de * c in
  (a * sin al + m2 * cos al, - a * cos al + m2 * sin al, m3).

Lemma cap_vec_rot_is_cap_vec ra dec rad u upsi : cap_vec_rot ra dec rad u upsi = cap_vec ra dec rad u upsi.
Proof.
  unfold cap_vec_rot, cap_vec. cbv zeta.
  replace (d2r (dec + 90)) with (d2r dec + PI / 2) by (rewrite d2r_plus, d2r_90; reflexivity).
  rewrite sin_plus, cos_plus, cos_PI2, sin_PI2. f_equal; [f_equal|]; ring.
Qed.

Lemma cap_close_rot_intro' dorot ra dec rad u upsi ra_o dec_o r_o :
  (dorot = true \/ pole_thr <= dec \/ dec <= - pole_thr) ->
  1 - dot (cap_vec_rot ra dec rad u upsi) (eq2xyz ra_o dec_o) <= vslack ->
  Rabs (sqrt u * rad - r_o) <= slack ->
  cap_close (randcap_R dorot ra dec rad u upsi) (ra_o, dec_o, r_o).
Proof. intros _ H1. apply cap_close_intro. rewrite <- cap_vec_rot_is_cap_vec. exact H1. Qed.

Lemma box_point_fl_intro ra0 ra1 dec0 dec1 ra_o dec_o :
  ra0 - slack <= ra_o <= ra1 + slack ->
  (dec0 - slack <= dec_o \/ sin (d2r dec0) - sinslack <= sin (d2r dec_o)) ->
  (dec_o <= dec1 + slack \/ sin (d2r dec_o) <= sin (d2r dec1) + sinslack) ->
  box_point_fl ra0 ra1 dec0 dec1 (ra_o, dec_o).
Proof. intros H1 H2 H3. unfold box_point_fl. cbn [fst snd]. tauto. Qed.

(* refutation certificates
   (tried on a case whose certificate failed, to decide whether it is a proven failing input) *)
Lemma cap_point_fl_refute ra dec rad ra2 dec2 r :
  (0 <= rad + 2 * slack <= 180 /\ (sin (d2r (rad + 2 * slack) / 2))² <= hav ra dec ra2 dec2)
  \/ (0 <= r + 2 * slack <= 180 /\ (sin (d2r (r + 2 * slack) / 2))² <= hav ra dec ra2 dec2)
  \/ (0 <= r - 2 * slack <= 180 /\ hav ra dec ra2 dec2 <= (sin (d2r (r - 2 * slack) / 2))²)
  \/ 180 < r - slack \/ r + slack < 0 ->
  ~ cap_point_fl ra dec rad (ra2, dec2, r).
Proof.
  intros H [H1 H2]. pose proof (sep_deg_bound ra dec ra2 dec2) as B. set (s := sep_deg ra dec ra2 dec2) in *.
  pose proof (Rle_abs (s - r)) as P1. pose proof (Rle_abs (- (s - r))) as P2. rewrite Rabs_Ropp in P2.
  assert (Hs : 0 < slack) by (unfold slack; lra).
  destruct H as [[Hr Hh]|[[Hr Hh]|[[Hr Hh]|H]]]; [| | |lra];
    apply (sep_by_hav ra dec ra2 dec2 _ Hr) in Hh; fold s in Hh; lra.
Qed.

Lemma box_point_fl_refute ra0 ra1 dec0 dec1 ra_o dec_o :
  ra_o < ra0 - slack \/ ra1 + slack < ra_o
  \/ (dec_o < dec0 - slack /\ sin (d2r dec_o) < sin (d2r dec0) - sinslack)
  \/ (dec1 + slack < dec_o /\ sin (d2r dec1) + sinslack < sin (d2r dec_o)) ->
  ~ box_point_fl ra0 ra1 dec0 dec1 (ra_o, dec_o).
Proof. unfold box_point_fl. cbn [fst snd]. lra. Qed.
