(* C19 -- deviate streams: drawing n deviates from the front of a stream, and the shape randcap and
   randsphere share -- two draws of n, combined element by element -- as an exact consumer of 2n. *)
From EsVerif.Common Require Import Base.
From EsVerif.C19 Require Import ModelQ ModelStream ProofsSampler.

Lemma draw_app {A} (p t : list A) n : length p = n -> draw n (p ++ t) = Some (p, t).
Proof.
  intro L. unfold draw. rewrite app_length.
  replace (length p + length t <? n)%nat with false by (symmetry; apply Nat.ltb_ge; lia).
  rewrite firstn_app, skipn_app, L, Nat.sub_diag. cbn [firstn skipn].
  rewrite <- L, firstn_all, skipn_all, app_nil_r. reflexivity.
Qed.

Lemma split_2n {A} (p : list A) n : length p = (n + n)%nat ->
  p = firstn n p ++ skipn n p /\ length (firstn n p) = n /\ length (skipn n p) = n.
Proof.
  intro L. split; [symmetry; apply firstn_skipn|]. split; [rewrite firstn_length; lia|rewrite skipn_length; lia].
Qed.

Definition two_blocks {A O} (f : A -> A -> O) (n : nat) (p : list A) : list O := map2 f (firstn n p) (skipn n p).

Lemma two_blocks_consumer {A O} (f : A -> A -> O) n (call : list A -> option (list O * list A)) :
  (forall s, call s = match draw n s with None => None | Some (us, s1) =>
                        match draw n s1 with None => None | Some (ups, s2) => Some (map2 f us ups, s2) end end) ->
  exact_consumer call (n + n) (two_blocks f n).
Proof.
  intros H p t L. destruct (split_2n p n L) as [E [L1 L2]]. rewrite H.
  rewrite E at 1. rewrite <- app_assoc. rewrite (draw_app _ _ n L1). rewrite (draw_app _ _ n L2). reflexivity.
Qed.

Theorem two_blocks_nth {A O} (f : A -> A -> O) n (p : list A) i da d :
  length p = (n + n)%nat -> (i < n)%nat ->
  length (two_blocks f n p) = n /\ nth i (two_blocks f n p) d = f (nth i p da) (nth (n + i) p da).
Proof.
  intros L Hi. destruct (split_2n p n L) as [_ [L1 L2]]. unfold two_blocks. split.
  - rewrite map2_length; lia.
  - rewrite (map2_nth f _ _ i da da d) by lia. f_equal.
    + apply nth_firstn_lt. exact Hi.
    + apply nth_skipn_add.
Qed.
