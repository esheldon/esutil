(* C19 -- the `while` loops of atbound on fuel, randsphere(system='xyz'), and the requirements the
   generated per-case lemmas state about xyz float outputs. *)
From Coq Require Import Reals Lra Lia.
From EsVerif.C19 Require Import Model ModelLoops Spec ProofsGeo.
Open Scope R_scope.

Theorem atbound_loops_eq fuel lon : (2 <= fuel)%nat -> -360 <= lon <= 720 ->
  atbound_loops fuel lon = Some (atbound lon).
Proof.
  intros Hf H. destruct fuel as [|[|f]]; [lia|lia|].
  unfold atbound_loops, atbound.
  cbn [up_loop]. destruct (Rlt_dec lon 0) as [L|L].
  - destruct (Rlt_dec (lon + 360) 0) as [L2|L2]; [lra|].
    cbn [down_loop]. destruct (Rlt_dec 360 (lon + 360)) as [G|G]; [lra|reflexivity].
  - cbn [down_loop]. destruct (Rlt_dec 360 lon) as [G|G]; [|reflexivity].
    destruct (Rlt_dec 360 (lon - 360)) as [G2|G2]; [lra|reflexivity].
Qed.

Theorem randsphere_xyz_in_box ra0 ra1 dec0 dec1 u1 u2 :
  valid_box ra0 ra1 dec0 dec1 -> unit_dev u1 -> unit_dev u2 ->
  let '(x, y, z) := randsphere_xyz_R ra0 ra1 dec0 dec1 u1 u2 in
  x * x + y * y + z * z = 1 /\ sin (d2r dec0) <= z <= sin (d2r dec1).
Proof.
  intros HB H1 H2. pose proof (randsphere_in_box ra0 ra1 dec0 dec1 u1 u2 HB H1 H2) as [_ [Hlo Hhi]].
  unfold randsphere_xyz_R. destruct (randsphere_R ra0 ra1 dec0 dec1 u1 u2) as [ra dec]. cbn [fst snd] in *.
  pose proof (eq2xyz_unit ra dec) as U. unfold eq2xyz, thetaphi2xyz, dot in *.
  destruct HB as [_ [_ [[Hd0 Hd01] Hd1]]].
  pose proof (d2r_between (- (1 / 2)) (1 / 2) dec0 ltac:(lra)).
  pose proof (d2r_between (- (1 / 2)) (1 / 2) dec ltac:(lra)).
  pose proof (d2r_between (- (1 / 2)) (1 / 2) dec1 ltac:(lra)).
  split; [exact U|]. split; apply sin_incr_1; try apply d2r_le; lra.
Qed.

(* system='xyz' on FLOAT outputs:
   what C19_box_xyz_unit_vector_in_box says, with the rounding slack of the per-case certificates
   (sinslack in the components).  The longitude condition is stated through the two half-planes
   sin(ra - ra0) >= 0 and sin(ra1 - ra) >= 0; the harness (harness/props/C19.py) states it in the
   generated lemmas only for boxes at most 180 deg wide, and closes both by `interval`. *)
Definition box_xyz_fl (dec0 dec1 : R) (p : vec3) : Prop :=
  let '(x, y, z) := p in
  Rabs (x * x + y * y + z * z - 1) <= 4 * sinslack
  /\ sin (d2r dec0) - sinslack <= z <= sin (d2r dec1) + sinslack.

Definition lon_halfplanes_fl (ra0 ra1 : R) (p : vec3) : Prop :=
  let '(x, y, _) := p in
  - sinslack <= y * cos (d2r ra0) - x * sin (d2r ra0) /\ - sinslack <= x * sin (d2r ra1) - y * cos (d2r ra1).
