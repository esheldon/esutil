(* C19 -- what is decided by evaluation on the implementation's outputs or arguments: the boolean checkers
   of Spec.v against the Props they stand for (sampler, Cholesky sampler and its oracle contract, sky
   outputs, index selection), and which arguments Generator(...).sample and random_indices reject. *)
From Coq Require Import QArith Qabs Sorting.Sorted.
From EsVerif.Common Require Import Base.
From EsVerif.C19 Require Import ModelQ Spec ProofsSampler.
Local Open Scope Q_scope.

Lemma close_b_iff tol a b : close_b tol a b = true <-> Qabs (a - b) <= tol.
Proof. apply Qle_bool_iff. Qed.

Lemma all2_Forall2 {A B} (f : A -> B -> bool) (P : A -> B -> Prop) :
  (forall a b, f a b = true -> P a b) -> forall l1 l2, all2 f l1 l2 = true -> Forall2 P l1 l2.
Proof.
  intros H l1. induction l1 as [|a t IH]; intros [|b t2] E; simpl in E; try discriminate; constructor.
  - apply H. apply andb_true_iff in E. tauto.
  - apply IH. apply andb_true_iff in E. tauto.
Qed.

Theorem gen_check_sound tol pofx x us outs :
  gen_check tol pofx x us outs = true -> Forall2 (gen_out_ok tol pofx x) us outs.
Proof.
  apply all2_Forall2. intros u o E. unfold gen_out_ok. destruct (sampler pofx x u) as [y|e]; [|discriminate].
  exists y. split; [reflexivity|]. apply close_b_iff. exact E.
Qed.

Lemma adj_incr_b_sound l : adj_incr_b l = true -> increasing l.
Proof.
  intro H. apply Sorted_StronglySorted; [intros a b c; apply Qlt_trans|].
  induction l as [|a t IH]; [constructor|]. destruct t as [|b t]; [repeat constructor|].
  simpl in H. apply andb_true_iff in H as [H1 H2]. constructor; [apply IH; exact H2|].
  constructor. apply Qlt_bool_iff. exact H1.
Qed.

Theorem gen_ok_b_sound pofx x : gen_ok_b pofx x = true -> gen_ok pofx x.
Proof.
  unfold gen_ok_b, gen_ok. intro E.
  apply andb_true_iff in E as [E Hpos]. apply andb_true_iff in E as [E Hinc]. apply andb_true_iff in E as [Hlen H3].
  split; [apply Nat.eqb_eq; exact Hlen|]. split; [apply Nat.leb_le; exact H3|].
  split; [apply adj_incr_b_sound; exact Hinc|].
  apply Forall_forall. intros p I. apply Qlt_bool_iff. rewrite forallb_forall in Hpos. exact (Hpos p I).
Qed.

Theorem pairs_mono_b_sound tol uo : pairs_mono_b tol uo = true -> ForallOrdPairs (mono_pair tol) uo.
Proof.
  induction uo as [|[u o] t IH]; intro E; [constructor|]. simpl in E. apply andb_true_iff in E as [E1 E2].
  constructor; [|apply IH; exact E2]. apply Forall_forall. intros [u' o'] Hq.
  rewrite forallb_forall in E1. specialize (E1 (u', o') Hq). simpl in E1. apply andb_true_iff in E1 as [A B].
  unfold mono_pair. simpl. split; intro H.
  - apply Qle_bool_iff in H. rewrite H in A. apply Qle_bool_iff. exact A.
  - apply Qle_bool_iff in H. rewrite H in B. apply Qle_bool_iff. exact B.
Qed.

Theorem in_grid_b_sound tol c x uo : in_grid_b tol c x uo = true ->
  forall u o, In (u, o) uo -> c <= u <= 1 -> qnth x 0 - tol <= o <= qlast x + tol.
Proof.
  unfold in_grid_b. intros E u o Hi [H0 H1]. rewrite forallb_forall in E. specialize (E (u, o) Hi). simpl in E.
  apply Qle_bool_iff in H0, H1. rewrite H0, H1 in E. simpl in E. apply andb_true_iff in E as [A B].
  apply Qle_bool_iff in A, B. split; assumption.
Qed.

Theorem same_points_sound a b : same_points a b = true ->
  Forall2 (fun p q => fst p == fst q /\ snd p == snd q) a b.
Proof.
  unfold same_points. revert b. induction a as [|p t IH]; intros [|q t2] E; cbn [list_eqb] in E; try discriminate; constructor.
  - apply andb_true_iff in E as [E _]. unfold qpair_eqb in E. apply andb_true_iff in E as [E1 E2].
    split; apply Qeq_bool_iff; assumption.
  - apply IH. apply andb_true_iff in E as [_ E]. exact E.
Qed.

(* a table with a single cumulative value has no segment: the clamped index xm is not negative, so
   xm + 1 is already past the end and x[xm+1] does not exist *)
Lemma interplin_short v x u : (length x <= 1)%nat -> interplin v x u = Err EIndex.
Proof.
  intro H. unfold interplin. cbv zeta. set (n := Z.of_nat (length x)).
  set (xm1 := if (n - 1 <=? count_lt x u - 1)%Z then (n - 2)%Z else (count_lt x u - 1)%Z).
  set (xm := if (xm1 <? 0)%Z then 0%Z else xm1).
  assert (0 <= xm)%Z by (unfold xm; destruct (Z.ltb_spec xm1 0); lia).
  replace (n <=? xm + 1)%Z with true by (symmetry; apply Z.leb_le; unfold n; lia). reflexivity.
Qed.

Theorem gen_sample_rejections pofx x us :
  (length pofx <> length x -> gen_sample false pofx x us = Err EValue)
  /\ (length pofx = length x -> length x = 0%nat -> gen_sample false pofx x us = Err EValue)
  /\ (length pofx = length x -> length x = 1%nat -> gen_sample false pofx x us = Err EIndex)
  /\ (length pofx = length x -> length x = 2%nat -> us <> [] -> gen_sample false pofx x us = Err EIndex)
  /\ (length pofx = length x -> length x = 2%nat -> gen_sample false pofx x [] = Ok []).
Proof.
  unfold gen_sample. repeat split.
  - intro H. apply Nat.eqb_neq in H. rewrite H. reflexivity.
  - intros H H0. rewrite H, Nat.eqb_refl, H0. reflexivity.
  - intros H H1. rewrite H, Nat.eqb_refl, H1. cbn [negb Nat.eqb andb].
    pose proof (pcum_length pofx x H) as L. unfold pcum_of in L. rewrite H1 in L.
    destruct (gen_tables false pofx x) as [xv pc]. destruct pc; [reflexivity|discriminate L].
  - intros H H2 Hu. rewrite H, Nat.eqb_refl, H2. cbn [negb Nat.eqb andb].
    pose proof (pcum_length pofx x H) as L. unfold pcum_of in L. rewrite H2 in L.
    destruct (gen_tables false pofx x) as [xv pc]. cbn [snd] in L.
    destruct pc as [|c pc]; [discriminate L|]. destruct us as [|u ut]; [contradiction|].
    cbn [mapM]. rewrite interplin_short by (rewrite L; apply Nat.le_refl). reflexivity.
  - intros H H2. rewrite H, Nat.eqb_refl, H2. cbn [negb Nat.eqb andb].
    pose proof (pcum_length pofx x H) as L. unfold pcum_of in L. rewrite H2 in L.
    destruct (gen_tables false pofx x) as [xv pc]. destruct pc; [discriminate L|reflexivity].
Qed.

(* a test over 0 .. n-1 *)
Lemma forallb_seq (f : nat -> bool) n : forallb f (seq 0 n) = true <-> forall j, (j < n)%nat -> f j = true.
Proof.
  rewrite forallb_forall. split; intros H j Hj; [apply H, in_seq; lia|apply H; apply in_seq in Hj; lia].
Qed.

(* what chol_check tests, as a Prop: the two quantifiers of chol_ok nested instead of side by side *)
Lemma chol_check_spec means M n flat out : chol_check means M n flat out = true <->
  length out = n /\ forall j, (j < n)%nat -> length (nth j out []) = length M /\
    forall i, (i < length M)%nat ->
      Qabs (chol_entry means M n flat j i - nth i (nth j out []) 0) <= relq * chol_scale means M n flat j i.
Proof.
  unfold chol_check. rewrite andb_true_iff, Nat.eqb_eq, forallb_seq. apply and_iff_compat_l.
  split; intros H j Hj; specialize (H j Hj).
  - apply andb_true_iff in H as [L E]. apply Nat.eqb_eq in L. split; [exact L|].
    intros i Hi. apply close_b_iff. exact (proj1 (forallb_seq _ _) E i Hi).
  - destruct H as [L E]. apply andb_true_iff. split; [apply Nat.eqb_eq; exact L|].
    apply forallb_seq. intros i Hi. apply close_b_iff, E, Hi.
Qed.

Theorem chol_check_sound means M n flat out :
  chol_check means M n flat out = true -> chol_ok means M n flat out.
Proof.
  intro H. apply chol_check_spec in H as [L H]. split; [exact L|].
  intros j i Hj Hi. destruct (H j Hj) as [Lj E]. split; [exact Lj|exact (E i Hi)].
Qed.

(* with an empty M chol_ok says nothing about the row lengths, which the checker tests *)
Theorem chol_check_complete means M n flat out : (0 < length M)%nat ->
  chol_ok means M n flat out -> chol_check means M n flat out = true.
Proof.
  intros HM [L H]. apply chol_check_spec. split; [exact L|]. intros j Hj.
  split; [exact (proj1 (H j 0%nat Hj HM))|]. intros i Hi. exact (proj2 (H j i Hj Hi)).
Qed.

Definition chol_oracle_ok (cov M : list (list Q)) : Prop :=
  length cov = length M
  /\ Forall (fun row => length row = length M) M
  /\ (forall i k, (i < k < length M)%nat -> nth k (nth i M []) 0 == 0)
  /\ (forall i j, (i < length M)%nat -> (j < length M)%nat ->
        Qabs (mmt M i j - nth j (nth i cov []) 0)
        <= relq * Qmax (nth i (nth i cov []) 0) (nth j (nth j cov []) 0)).

Theorem chol_oracle_b_sound cov M : chol_oracle_b cov M = true -> chol_oracle_ok cov M.
Proof.
  unfold chol_oracle_b, chol_oracle_ok. intro E.
  apply andb_true_iff in E as [E E4]. apply andb_true_iff in E as [E E3]. apply andb_true_iff in E as [E1 E2].
  apply Nat.eqb_eq in E1. split; [exact E1|]. split; [|split].
  - apply Forall_forall. intros row Hr. rewrite forallb_forall in E2. apply Nat.eqb_eq. apply E2. exact Hr.
  - intros i k [Hik Hk]. unfold lower_tri_b in E3.
    pose proof (proj1 (forallb_seq _ _) (proj1 (forallb_seq _ _) E3 i ltac:(lia)) k Hk) as T. cbv beta in T.
    replace (i <? k)%nat with true in T by (symmetry; apply Nat.ltb_lt; exact Hik). apply Qeq_bool_iff. exact T.
  - intros i j Hi Hj. apply close_b_iff.
    exact (proj1 (forallb_seq _ _) (proj1 (forallb_seq _ _) E4 i Hi) j Hj).
Qed.

Local Open Scope Z_scope.

Theorem sky_check_iff n pts : sky_check n pts = true <-> sky_ok n pts.
Proof.
  unfold sky_check, sky_ok. rewrite andb_true_iff, Z.eqb_eq, forallb_forall. apply and_iff_compat_l.
  split; intros H p Hp; specialize (H p Hp).
  - apply andb_true_iff in H as [H D]. apply andb_true_iff in H as [H C]. apply andb_true_iff in H as [A B].
    apply Qle_bool_iff in A, B, C, D. tauto.
  - destruct H as [[A B] [C D]]. apply Qle_bool_iff in A, B, C, D. rewrite A, B, C, D. reflexivity.
Qed.

Lemma existsb_eqb_In a l : existsb (Z.eqb a) l = true <-> In a l.
Proof.
  rewrite existsb_exists. split; [intros [b [Hb E]]; apply Z.eqb_eq in E; subst b; exact Hb|].
  intro H. exists a. split; [exact H|apply Z.eqb_refl].
Qed.

Lemma nodup_b_iff l : nodup_b l = true <-> NoDup l.
Proof.
  induction l as [|a t IH]; cbn [nodup_b]; [split; [constructor|reflexivity]|].
  rewrite andb_true_iff, negb_true_iff, <- not_true_iff_false, existsb_eqb_In, IH.
  split; [intros [A B]; constructor; assumption|intro N; inversion N; split; assumption].
Qed.

Theorem ri_check_iff imax nrand unique out : ri_check imax nrand unique out = true <-> ri_ok imax nrand unique out.
Proof.
  unfold ri_check, ri_ok. rewrite !andb_true_iff, Z.eqb_eq, forallb_forall.
  assert (R : (forall v, In v out -> (0 <=? v) && (v <? imax) = true) <-> (forall v, In v out -> 0 <= v < imax)).
  { split; intros H v Hv; specialize (H v Hv).
    - apply andb_true_iff in H as [A B]. apply Z.leb_le in A. apply Z.ltb_lt in B. split; assumption.
    - apply andb_true_iff. split; [apply Z.leb_le|apply Z.ltb_lt]; apply H. }
  assert (U : negb unique || nodup_b out = true <-> (unique = true -> NoDup out)).
  { destruct unique; cbn [negb orb]; [rewrite nodup_b_iff|]; intuition congruence. }
  rewrite R, U. tauto.
Qed.

Lemma NoDup_map_inj_in {A B} (f : A -> B) l :
  (forall a b, In a l -> In b l -> f a = f b -> a = b) -> NoDup l -> NoDup (map f l).
Proof.
  intros Inj N. induction N as [|a t Hn N IH]; simpl; constructor.
  - intro I. apply in_map_iff in I as [b [E Hb]]. apply Hn.
    rewrite (Inj a b (or_introl eq_refl) (or_intror Hb) (eq_sym E)). exact Hb.
  - apply IH. intros x y Hx Hy. apply Inj; right; assumption.
Qed.

(* a duplicate-free selection from [0, imax) cannot have more than imax members: rejecting
   unique=True with nrand > imax is forced, not a choice of the implementation *)
Theorem ri_unique_bound imax nrand out : ri_ok imax nrand true out -> (nrand <= Z.max 0 imax)%Z.
Proof.
  intros [L [R U]]. specialize (U eq_refl).
  assert (N : NoDup (map Z.to_nat out)).
  { apply NoDup_map_inj_in; [|exact U]. intros a b Ia Ib E. pose proof (R a Ia). pose proof (R b Ib). lia. }
  assert (I : incl (map Z.to_nat out) (seq 0 (Z.to_nat imax))).
  { intros k Hk. apply in_map_iff in Hk as [v [<- Hv]]. specialize (R v Hv). apply in_seq. lia. }
  pose proof (NoDup_incl_length N I) as H. rewrite map_length, seq_length in H. lia.
Qed.

(* the identity selection 0, 1, ..., k-1 *)
Definition iota (k : nat) : list Z := map Z.of_nat (seq 0 k).

Lemma iota_props k : length (iota k) = k /\ (forall v, In v (iota k) -> 0 <= v < Z.of_nat k) /\ NoDup (iota k).
Proof.
  unfold iota. split; [rewrite map_length, seq_length; reflexivity|]. split.
  - intros v Hv. apply in_map_iff in Hv as [i [<- Hi]]. apply in_seq in Hi. lia.
  - apply NoDup_map_inj_in; [|apply seq_NoDup]. intros a b _ _ E. lia.
Qed.

(* For a non-negative population size the requests random_indices accepts are exactly those for
   which a selection with the required count, range and uniqueness EXISTS: every rejection
   (ValueError) is forced by the statement, and nothing satisfiable is rejected. *)
Theorem ri_accepts_iff_satisfiable imax nrand unique : 0 <= imax ->
  (ri_accepts imax nrand unique = true <-> exists out, ri_ok imax nrand unique out).
Proof.
  intro Hi. unfold ri_accepts. split.
  - intro E. apply andb_true_iff in E as [E E3]. apply andb_true_iff in E as [E1 E2].
    apply Z.leb_le in E1. apply orb_true_iff in E2. apply orb_true_iff in E3.
    destruct unique.
    + (* without replacement: 0 .. nrand-1 *)
      assert (Hle : nrand <= imax) by (destruct E3 as [E3|E3]; [discriminate|apply Z.leb_le; exact E3]).
      exists (iota (Z.to_nat nrand)). destruct (iota_props (Z.to_nat nrand)) as [L [R N]].
      split; [rewrite L; lia|]. split; [|intros _; exact N].
      intros v Hv. specialize (R v Hv). lia.
    + (* with replacement: nrand copies of 0 *)
      exists (repeat 0 (Z.to_nat nrand)). split; [rewrite repeat_length; lia|]. split; [|discriminate].
      intros v Hv. destruct E2 as [E2|E2].
      * apply Z.eqb_eq in E2. subst nrand. simpl in Hv. contradiction.
      * apply repeat_spec in Hv. subst v. apply Z.ltb_lt in E2. lia.
  - intros [out [L [R U]]].
    assert (H0 : 0 <= nrand) by lia.
    apply andb_true_iff. split; [apply andb_true_iff; split|].
    + apply Z.leb_le. exact H0.
    + apply orb_true_iff. destruct out as [|v t]; [left; apply Z.eqb_eq; simpl in L; lia|].
      right. apply Z.ltb_lt. specialize (R v (or_introl eq_refl)). lia.
    + destruct unique; [|reflexivity]. cbn [negb orb]. apply Z.leb_le.
      pose proof (ri_unique_bound imax nrand out (conj L (conj R U))). lia.
Qed.
