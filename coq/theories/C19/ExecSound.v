(* C19 -- the requested number of values is returned: gen_sample (the function the per-case
   correspondence evaluates) maps `sampler` (the function the theorems are about) over the deviates. *)
From Coq Require Import QArith.
From EsVerif.Common Require Import Base.
From EsVerif.C19 Require Import ModelQ Spec ProofsSampler.

Lemma mapM_total {A B} (f : A -> result B) (l : list A) :
  (forall a, exists b, f a = Ok b) ->
  exists ys, mapM f l = Ok ys /\ length ys = length l /\ Forall2 (fun a y => f a = Ok y) l ys.
Proof.
  intro T. induction l as [|a t IH].
  - exists []. repeat split; constructor.
  - destruct (T a) as [b Hb]. destruct IH as [ys [E [L F]]]. exists (b :: ys). cbn [mapM]. rewrite Hb, E.
    repeat split; [cbn [length]; lia | constructor; assumption].
Qed.

Theorem gen_sample_count pofx x us : gen_ok pofx x ->
  exists ys, gen_sample false pofx x us = Ok ys /\ length ys = length us
             /\ Forall2 (fun u y => sampler pofx x u = Ok y) us ys.
Proof.
  intro G. destruct (tables_props pofx x G) as [_ [H2 _]]. unfold pcum_of in H2.
  assert (T : forall u, exists y, sampler pofx x u = Ok y) by (intro u; apply sampler_total; exact G).
  destruct G as [Hl [H3 _]]. unfold gen_sample, sampler in *.
  rewrite Hl, Nat.eqb_refl. cbn [negb andb].
  replace (length x =? 0)%nat with false by (symmetry; apply Nat.eqb_neq; lia). cbn [negb andb].
  destruct (gen_tables false pofx x) as [xv pc]. cbn [snd] in H2.
  destruct pc as [|p0 pt]; [cbn [length] in H2; lia|].
  apply mapM_total. exact T.
Qed.

(* gen_sample and ri_accepts are written with the pieces the translator regenerates from the source
   (genrand_accum = Generator._genrand_accum, choice_accepts = rng.choice's argument check) *)
Lemma gen_sample_uses_genrand_accum cumulative pofx x us :
  gen_sample cumulative pofx x us =
  if negb (length pofx =? length x)%nat then Err EValue
  else if (negb cumulative && (length x =? 0)%nat)%bool then Err EValue
  else let '(xvals, pcum) := gen_tables cumulative pofx x in
       match pcum with [] => Err EIndex | _ => genrand_accum xvals pcum us end.
Proof. reflexivity. Qed.

Lemma ri_accepts_is_choice imax nrand unique : ri_accepts imax nrand unique = choice_accepts imax nrand (negb unique).
Proof. reflexivity. Qed.
