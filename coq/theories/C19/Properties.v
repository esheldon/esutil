(* C19 -- the property theorems, by subject: box sampling, cap sampling and rotate, the cumulative-method
   sampler, the Cholesky sampler and the model of numpy.linalg.cholesky, index selection, the boolean
   checkers, deviate streams, non-vacuity.  The lemmas they rest on are in ProofsGeo.v, ProofsGeo2.v,
   ProofsSampler.v, ProofsSampler2.v, ProofsDeep.v, ProofsSPD.v, ProofsStream.v and ExecSound.v. *)
From Coq Require Import Reals Lra QArith Qabs Sorting.Sorted.
From EsVerif.Common Require Import Base.
From EsVerif.C19 Require Import Model ModelLoops ModelQ Spec ProofsGeo ProofsGeo2 ProofsSampler ProofsDeep ProofsSampler2 Exec ExecSound.
From EsVerif.C19 Require Import ModelChol ModelSPD ModelStream ProofsSPD ProofsStream.

(* Points drawn in a longitude/latitude box fall inside the box. *)
Theorem C19_box_in_range : forall ra0 ra1 dec0 dec1 u1 u2,
  valid_box ra0 ra1 dec0 dec1 -> unit_dev u1 -> unit_dev u2 ->
  in_box ra0 ra1 dec0 dec1 (randsphere_R ra0 ra1 dec0 dec1 u1 u2).
Proof. exact randsphere_in_box. Qed.

(* The dec map is monotone (decreasing) in its deviate, the ra map increasing in its own. *)
Theorem C19_box_maps_monotone : forall ra0 ra1 dec0 dec1 u1 u1' u2 u2',
  valid_box ra0 ra1 dec0 dec1 -> unit_dev u2 -> unit_dev u2' -> (u1 <= u1')%R -> (u2 <= u2')%R ->
  (snd (randsphere_R ra0 ra1 dec0 dec1 u1' u2') <= snd (randsphere_R ra0 ra1 dec0 dec1 u1 u2))%R
  /\ (fst (randsphere_R ra0 ra1 dec0 dec1 u1 u2) <= fst (randsphere_R ra0 ra1 dec0 dec1 u1' u2'))%R.
Proof.
  intros ra0 ra1 dec0 dec1 u1 u1' u2 u2' HB Hu Hu' H1 H2. split; [apply randsphere_dec_monotone; assumption|].
  destruct HB as [Hra _]. unfold randsphere_R. cbv zeta. cbn [fst]. apply uniform_mono; [lra|exact H1].
Qed.

(* "uniform-in-sin(dec)": the longitude is affine in u1, the sine of the latitude affine in u2
   (from sin(dec1) at u2 = 0 to sin(dec0) at u2 = 1) *)
Theorem C19_box_uniform_in_sin_dec : forall ra0 ra1 dec0 dec1 u1 u2,
  valid_box ra0 ra1 dec0 dec1 -> unit_dev u2 ->
  let p := randsphere_R ra0 ra1 dec0 dec1 u1 u2 in
  (fst p = ra0 + (ra1 - ra0) * u1
   /\ sin (d2r (snd p)) = sin (d2r dec1) + (sin (d2r dec0) - sin (d2r dec1)) * u2)%R.
Proof.
  intros ra0 ra1 dec0 dec1 u1 u2 HB Hu. cbv zeta. split; [reflexivity|].
  destruct (randsphere_sincos ra0 ra1 dec0 dec1 u1 u2 HB Hu) as [Hs _]. cbv zeta in Hs. rewrite Hs.
  unfold uniform. rewrite !d2r_plus, d2r_90, !cos_plus, cos_PI2, sin_PI2. ring.
Qed.

Theorem C19_box_xyz_unit_vector_in_box : forall ra0 ra1 dec0 dec1 u1 u2,
  valid_box ra0 ra1 dec0 dec1 -> unit_dev u1 -> unit_dev u2 ->
  let '(x, y, z) := randsphere_xyz_R ra0 ra1 dec0 dec1 u1 u2 in
  (x * x + y * y + z * z = 1 /\ sin (d2r dec0) <= z <= sin (d2r dec1))%R.
Proof. exact randsphere_xyz_in_box. Qed.

(* Unrotated formula: the point lies at exactly sqrt(u) * rad from the centre (spherical law of
   cosines), and that is the radius returned. *)
Theorem C19_cap_distance : forall ra dec rad u upsi,
  unit_dev u -> (0 <= rad <= 180)%R ->
  let '(ra2, dec2, r) := randcap_unrot ra dec rad u upsi in
  sep_deg ra dec ra2 dec2 = (sqrt u * rad)%R /\ r = (sqrt u * rad)%R.
Proof. intros ra dec rad u upsi Hu Hr. exact (cap_distance ra dec rad u upsi (randcap_unrot ra dec rad u upsi) Hu Hr (randcap_unrot_vec ra dec rad u upsi)). Qed.

(* rotate() is an isometry of the sphere. *)
Theorem C19_rotate_isometry : forall phi theta psi ra1 dec1 ra2 dec2,
  let p := rotate_R phi theta psi ra1 dec1 in
  let q := rotate_R phi theta psi ra2 dec2 in
  sep_deg (fst p) (snd p) (fst q) (snd q) = sep_deg ra1 dec1 ra2 dec2.
Proof.
  intros phi theta psi ra1 dec1 ra2 dec2. cbv zeta.
  pose proof (rotate_vec phi theta psi ra1 dec1) as V1. pose proof (rotate_vec phi theta psi ra2 dec2) as V2.
  destruct (rotate_R phi theta psi ra1 dec1) as [a1 d1]. destruct (rotate_R phi theta psi ra2 dec2) as [a2 d2].
  unfold sep_deg. cbn [fst snd]. rewrite V1, V2, rot_lin_dot. reflexivity.
Qed.

(* The rotated (polar / dorot) branch obeys the same law: the cap around (90, 0), turned to the centre
   by the two calls of rotate(), is the cap of the unrotated formula (ProofsGeo.cap_vec_turned). *)
Theorem C19_cap_rot_preserves : forall ra dec rad u upsi,
  unit_dev u -> (0 <= rad <= 180)%R ->
  let '(ra2, dec2, r) := randcap_rot ra dec rad u upsi in
  sep_deg ra dec ra2 dec2 = (sqrt u * rad)%R /\ r = (sqrt u * rad)%R.
Proof. intros ra dec rad u upsi Hu Hr. exact (cap_distance ra dec rad u upsi (randcap_rot ra dec rad u upsi) Hu Hr (randcap_rot_vec ra dec rad u upsi)). Qed.

(* forcing the rotation (dorot=True, or a centre within 0.1 deg of a pole) changes how the point is
   computed, not which point it is: same direction on the sphere, same radius, for the same deviates *)
Theorem C19_dorot_does_not_move_the_point : forall ra dec rad u upsi,
  let '(ra1, dec1, r1) := randcap_unrot ra dec rad u upsi in
  let '(ra2, dec2, r2) := randcap_rot ra dec rad u upsi in
  eq2xyz ra1 dec1 = eq2xyz ra2 dec2 /\ r1 = r2.
Proof.
  intros ra dec rad u upsi.
  pose proof (randcap_unrot_vec ra dec rad u upsi) as V1. pose proof (randcap_rot_vec ra dec rad u upsi) as V2.
  destruct (randcap_unrot ra dec rad u upsi) as [[ra1 dec1] r1]. destruct (randcap_rot ra dec rad u upsi) as [[ra2 dec2] r2].
  destruct V1 as [-> ->], V2 as [-> ->]. split; reflexivity.
Qed.

(* rotate() and atbound() keep their outputs in range for every input *)
Theorem C19_rotate_output_on_sky : forall phi theta psi ra dec, on_sky (rotate_R phi theta psi ra dec).
Proof. exact on_sky_rotate. Qed.

Theorem C19_atbound_range : forall lon, (-360 <= lon <= 720)%R -> (0 <= atbound lon <= 360)%R.
Proof. exact atbound_once. Qed.

(* atbound's two `while` loops (ModelLoops, on fuel) terminate within two iterations on every
   longitude randcap hands them (phi - Dphi with phi = deg2rad(ra), Dphi = arctan2(..) in (-pi, pi])
   and return what the unrolled Model.atbound returns, so the theorems about randcap are about the loops *)
Theorem C19_atbound_loops_terminate : forall fuel ra y x, (2 <= fuel)%nat -> (0 <= ra <= 360)%R ->
  atbound_loops fuel (r2d (d2r ra - atan2 y x)) = Some (atbound (r2d (d2r ra - atan2 y x))).
Proof.
  intros fuel ra y x Hf Hra. apply atbound_loops_eq; [exact Hf|].
  apply atbound_arg_range; [exact Hra|apply atan2_bound].
Qed.

(* Both branches, every centre (poles and seam included), every radius up to 180 deg: the
   point is within rad of the centre, has longitude in [0,360] and latitude in [-90,90], and
   the returned radius is the actual separation in degrees. *)
Theorem C19_cap_within_and_radius_returned_is_separation_deg : forall dorot ra dec rad u upsi,
  valid_cap ra dec rad -> unit_dev u ->
  cap_point ra dec rad (randcap_R dorot ra dec rad u upsi).
Proof.
  intros dorot ra dec rad u upsi [Hra [_ Hrad]] Hu.
  pose proof (cap_distance ra dec rad u upsi (randcap_R dorot ra dec rad u upsi) Hu Hrad (randcap_vec dorot ra dec rad u upsi)) as D.
  pose proof (on_sky_randcap dorot ra dec rad u upsi Hra) as S.
  pose proof (cap_radius_range rad u Hu Hrad).
  destruct (randcap_R dorot ra dec rad u upsi) as [[ra2 dec2] r]. destruct D as [D ->].
  unfold cap_point. rewrite D. split; [lra|split; [exact S|reflexivity]].
Qed.

(* The same statement is FALSE of the rotated branch of the unrepaired source (coords.py converted the
   radii to degrees twice, Model.randcap_rot_unrepaired). *)
Theorem C19_radius_returned_unrepaired_refuted :
  exists ra dec rad u upsi,
    valid_cap ra dec rad /\ unit_dev u /\
    let '(ra2, dec2, r) := randcap_rot_unrepaired ra dec rad u upsi in r <> sep_deg ra dec ra2 dec2.
Proof.
  exists 10%R, 90%R, 1%R, 1%R, 0%R. split; [unfold valid_cap; lra|]. split; [unfold unit_dev; lra|].
  unfold randcap_rot_unrepaired.
  pose proof (C19_cap_rot_preserves 10 90 1 1 0 ltac:(unfold unit_dev; lra) ltac:(lra)) as D.
  destruct (randcap_rot 10 90 1 1 0) as [[ra2 dec2] r]. destruct D as [D1 D2].
  rewrite D1, D2, sqrt_1. pose proof (r2d_gt (1 * 1) ltac:(lra)). lra.
Qed.

(* Soundness of the per-case certificates: a bound on the haversine (which `interval` can
   enclose) is a bound on the separation. *)
Theorem C19_haversine_certificates_sound : forall ra1 dec1 ra2 dec2 R,
  (0 <= R <= 180)%R ->
  (hav ra1 dec1 ra2 dec2 <= (sin (d2r R / 2))² -> sep_deg ra1 dec1 ra2 dec2 <= R)%R
  /\ ((sin (d2r R / 2))² <= hav ra1 dec1 ra2 dec2 -> R <= sep_deg ra1 dec1 ra2 dec2)%R.
Proof. exact sep_by_hav. Qed.

Theorem C19_sampler_total : forall pofx x u, gen_ok pofx x -> exists y, sampler pofx x u = Ok y.
Proof. intros. apply sampler_total. assumption. Qed.

(* u equal to a tabulated cumulative value returns the grid point exactly *)
Theorem C19_sampler_hits_nodes : forall pofx x k, gen_ok pofx x -> (k < length x - 1)%nat ->
  exists y, sampler pofx x (nth k (pcum_of pofx x) 0%Q) = Ok y /\ (y == nth (S k) x 0)%Q.
Proof. exact sampler_hits_nodes. Qed.

Theorem C19_sampler_monotone : forall pofx x u u' y y', gen_ok pofx x -> (u <= u')%Q ->
  sampler pofx x u = Ok y -> sampler pofx x u' = Ok y' -> (y <= y')%Q.
Proof. exact sampler_monotone. Qed.

Theorem C19_sampler_in_grid : forall pofx x u y, gen_ok pofx x ->
  (nth 0 (pcum_of pofx x) 0 <= u <= 1)%Q -> sampler pofx x u = Ok y ->
  (nth 1 x 0 <= y <= qlast x)%Q.
Proof. exact sampler_in_grid. Qed.

(* below the first tabulated cumulative value the sampler extrapolates the first segment of the
   table: the value is at most x_1 ... *)
Theorem C19_sampler_below_first_value_extrapolates : forall pofx x u, gen_ok pofx x ->
  (u <= nth 0 (pcum_of pofx x) 0)%Q ->
  exists y, sampler pofx x u = Ok y
            /\ (y == lin (nth 0 (pcum_of pofx x) 0) (nth 1 (pcum_of pofx x) 0) (nth 1 x 0) (nth 2 x 0) u)%Q
            /\ (y <= nth 1 x 0)%Q.
Proof. exact sampler_below_first. Qed.

(* ... and NOT bounded below by the first grid point: the restriction in C19_sampler_in_grid (and in
   the statement) cannot be dropped.  Witness: density 10, 10, 1 on 0, 1, 2 sends u = 0 to -9/11
   (the real Generator returns -0.8181...; 29% of its samples lie below 0). *)
Theorem C19_sampler_in_grid_without_restriction_refuted :
  exists pofx x u y, gen_ok pofx x /\ (0 <= u <= 1)%Q /\ sampler pofx x u = Ok y /\ (y < nth 0 x 0)%Q.
Proof.
  exists [10; 10; 1]%Q, [0; 1; 2]%Q, 0%Q, (-(9) # 11)%Q.
  split; [apply gen_ok_b_sound; reflexivity|]. split; [split; discriminate|].
  split; [vm_compute; reflexivity|reflexivity].
Qed.

(* the stored table is the normalised trapezoid-rule cumulative distribution:
   pcum_k = (sum of the first k+1 trapezoids) / (sum of all of them) *)
Theorem C19_pcum_is_normalised_trapezoid : forall pofx x k, gen_ok pofx x -> (k < length x - 1)%nat ->
  (nth k (pcum_of pofx x) 0 == trap_area pofx x k / trap_area pofx x (length x - 2))%Q.
Proof. exact pcum_is_normalised_trapezoid. Qed.

(* a deviate between two tabulated cumulative values is mapped to the linear interpolation of the
   grid abscissae x_(k+1), x_(k+2) against those values *)
Theorem C19_sampler_is_linear_interpolation : forall pofx x u k, gen_ok pofx x ->
  (S k < length (pcum_of pofx x))%nat ->
  (nth k (pcum_of pofx x) 0 < u <= nth (S k) (pcum_of pofx x) 0)%Q ->
  exists y, sampler pofx x u = Ok y
            /\ (y == lin (nth k (pcum_of pofx x) 0) (nth (S k) (pcum_of pofx x) 0) (nth (S k) x 0) (nth (S (S k)) x 0) u)%Q.
Proof. intros pofx x u k G Hk H. apply sampler_on_segment; [exact G|exact Hk|left; exact H]. Qed.

(* the requested number of values is returned, each one the sampler's value for its deviate
   (gen_sample is the whole-call model the per-case correspondence evaluates) *)
Theorem C19_count_returned : forall pofx x us, gen_ok pofx x ->
  exists ys, gen_sample false pofx x us = Ok ys /\ length ys = length us
             /\ Forall2 (fun u y => sampler pofx x u = Ok y) us ys.
Proof. exact gen_sample_count. Qed.

(* which tables are rejected, with which error class (ValueError: shapes differ or empty grid;
   IndexError: one grid point, or two grid points and at least one deviate); two points and no
   deviate return the empty sample; three or more points of a valid table: C19_count_returned *)
Theorem C19_sampler_rejections : forall pofx x us,
  (length pofx <> length x -> gen_sample false pofx x us = Err EValue)
  /\ (length pofx = length x -> length x = 0%nat -> gen_sample false pofx x us = Err EValue)
  /\ (length pofx = length x -> length x = 1%nat -> gen_sample false pofx x us = Err EIndex)
  /\ (length pofx = length x -> length x = 2%nat -> us <> [] -> gen_sample false pofx x us = Err EIndex)
  /\ (length pofx = length x -> length x = 2%nat -> gen_sample false pofx x [] = Ok []).
Proof. exact gen_sample_rejections. Qed.

(* sample j, component i  =  mean_i + sum_k M_ik * r_(k*n+j)  for the deviates r it drew *)
Theorem C19_cholesky_is_affine : forall means M n flat j i,
  square M -> means_fit means M -> (j < n)%nat -> (i < length M)%nat ->
  length (chol_sample means M n flat) = n
  /\ length (nth j (chol_sample means M n flat) []) = length M
  /\ (nth i (nth j (chol_sample means M n flat) []) 0 == chol_entry means M n flat j i)%Q.
Proof. exact cholesky_is_affine. Qed.

(* Whenever every pivot is positive (i.e. whenever numpy returns instead of raising LinAlgError) the
   column-by-column factor of the model is lower triangular, has a positive diagonal and
   L L^T = A on the n x n block, for every n: the contract that the harness monitors on numpy's
   answer is a theorem of the model. *)
Theorem C19_cholesky_factor_of_model_correct : forall (A : mat) (n : nat),
  symmetric A n -> pivots_pos A n -> is_cholesky_factor A (cholR A n) n.
Proof. exact cholR_correct. Qed.

(* ... and that contract has no other solution: a matrix that passes it exactly IS the model's factor. *)
Theorem C19_cholesky_factor_unique : forall (A : mat) (n : nat) (L : mat),
  pivots_pos A n -> is_cholesky_factor A L n ->
  forall i c, (i < n)%nat -> (c < n)%nat -> L i c = cholR A n i c.
Proof. exact cholesky_factor_unique. Qed.

(* The statement quantifies over symmetric POSITIVE-DEFINITE covariances: those are exactly the
   matrices on which the model's factorisation goes through (all pivots positive; numpy raises
   LinAlgError otherwise), so every covariance of the statement has its factor. *)
Theorem C19_posdef_iff_cholesky_succeeds : forall (A : mat) (n : nat),
  symmetric A n -> (posdef A n <-> pivots_pos A n).
Proof. exact posdef_iff_pivots_pos. Qed.

Theorem C19_every_spd_covariance_has_its_factor : forall (A : mat) (n : nat),
  symmetric A n -> posdef A n -> is_cholesky_factor A (cholR A n) n.
Proof. intros A n S P. apply cholR_correct; [exact S|apply spd_pivots_pos; assumption]. Qed.

(* the boolean monitor evaluated on numpy's answer is sound for the (toleranced) contract *)
Theorem C19_cholesky_oracle_monitor_sound : forall cov M, chol_oracle_b cov M = true -> chol_oracle_ok cov M.
Proof. exact chol_oracle_b_sound. Qed.

(* what the checker accepts is the property (count, range, uniqueness), and a unique
   selection larger than the range cannot exist (so its rejection is forced) *)
Theorem C19_random_indices : forall imax nrand unique out,
  (ri_check imax nrand unique out = true -> ri_ok imax nrand unique out)
  /\ (ri_ok imax nrand true out -> (nrand <= Z.max 0 imax)%Z).
Proof. intros. split; [apply ri_check_iff | apply ri_unique_bound]. Qed.

(* the checker decides the property *)
Theorem C19_random_indices_checker_decides : forall imax nrand unique out,
  ri_check imax nrand unique out = true <-> ri_ok imax nrand unique out.
Proof. exact ri_check_iff. Qed.

(* for a non-negative population the rejected requests are exactly the unsatisfiable ones *)
Theorem C19_random_indices_rejects_exactly_unsatisfiable : forall imax nrand unique, (0 <= imax)%Z ->
  (ri_accepts imax nrand unique = true <-> exists out, ri_ok imax nrand unique out).
Proof. exact ri_accepts_iff_satisfiable. Qed.

Theorem C19_checkers_sound :
  (forall tol pofx x us outs, gen_check tol pofx x us outs = true -> Forall2 (gen_out_ok tol pofx x) us outs)
  /\ (forall pofx x, gen_ok_b pofx x = true -> gen_ok pofx x)
  /\ (forall tol uo, pairs_mono_b tol uo = true -> ForallOrdPairs (mono_pair tol) uo)
  /\ (forall tol c x uo, in_grid_b tol c x uo = true ->
        forall u o, In (u, o) uo -> (c <= u <= 1)%Q -> (qnth x 0 - tol <= o <= qlast x + tol)%Q)
  /\ (forall means M n flat out, chol_check means M n flat out = true -> chol_ok means M n flat out)
  /\ (forall n pts, sky_check n pts = true -> sky_ok n pts).
Proof.
  split; [exact gen_check_sound|]. split; [exact gen_ok_b_sound|]. split; [exact pairs_mono_b_sound|].
  split; [exact in_grid_b_sound|]. split; [exact chol_check_sound|intros n pts; apply sky_check_iff].
Qed.

(* the sky and Cholesky checkers decide their properties, the second when M is not empty *)
Theorem C19_sky_checker_decides : forall n pts, sky_check n pts = true <-> sky_ok n pts.
Proof. exact sky_check_iff. Qed.

Theorem C19_cholesky_checker_decides : forall means M n flat out, (0 < length M)%nat ->
  (chol_check means M n flat out = true <-> chol_ok means M n flat out).
Proof. intros means M n flat out H. split; [apply chol_check_sound|apply chol_check_complete; exact H]. Qed.

(* the repetition checker (bit-identical second run) is sound *)
Theorem C19_repetition_checker_sound : forall a b, same_points a b = true ->
  Forall2 (fun p q => (fst p == fst q /\ snd p == snd q)%Q) a b.
Proof. exact same_points_sound. Qed.

(* the verdict the generated case files evaluate (cumulative table built once) is the verdict
   assembled from the checkers of Spec.v *)
Theorem C19_fast_verdict_is_spec_verdict : forall pofx x us out,
  v_gen_fast pofx x us out = v_gen pofx x us out.
Proof.
  intros pofx x us out.
  unfold v_gen_fast, v_gen, gen_tol, gen_check, gen_check_t, sampler, pcum_of.
  destruct (gen_tables false pofx x) as [xv pc]. reflexivity.
Qed.

(* the checker with the per-deviate tolerance (extrapolated deviates below the first cumulative value
   get the conditioning factor ucond) accepts only outputs within that tolerance of the sampler *)
Theorem C19_per_deviate_checker_sound : forall tol pofx x us outs,
  gen_check_tu tol (fst (gen_tables false pofx x)) (snd (gen_tables false pofx x)) us outs = true ->
  Forall2 (fun u o => exists y, sampler pofx x u = Ok y
                                /\ (Qabs (y - o) <= tol * ucond (pcum_of pofx x) u)%Q) us outs.
Proof.
  intros tol pofx x us outs. unfold gen_check_tu, pcum_of, sampler. destruct (gen_tables false pofx x) as [xv pc]. cbn [fst snd].
  apply all2_Forall2. intros u o E. destruct (interplin xv pc u) as [y|e]; [|discriminate].
  exists y. split; [reflexivity|]. apply close_b_iff. exact E.
Qed.

(* randcap(n, ...) takes exactly 2n deviates from its generator -- n for the radii, then n for the
   position angles, in BOTH branches (the rotated branch hands the same generator on) -- returns a
   function of its arguments and of those 2n deviates alone, and leaves the rest untouched *)
Theorem C19_randcap_consumes_two_blocks : forall dorot n ra dec rad,
  exact_consumer (randcap_call dorot n ra dec rad) (n + n) (two_blocks (randcap_R dorot ra dec rad) n).
Proof. intros. apply two_blocks_consumer. reflexivity. Qed.

Theorem C19_randsphere_consumes_two_blocks : forall n ra0 ra1 dec0 dec1,
  exact_consumer (randsphere_call n ra0 ra1 dec0 dec1) (n + n) (two_blocks (randsphere_R ra0 ra1 dec0 dec1) n).
Proof. intros. apply two_blocks_consumer. reflexivity. Qed.

(* the requested number of points comes back, and point i is the per-point model (randcap_R,
   randsphere_R) on deviate i of the first block and deviate i of the second *)
Theorem C19_two_blocks_pointwise : forall (O : Type) (f : R -> R -> O) n (p : list R) i d,
  length p = (n + n)%nat -> (i < n)%nat ->
  length (two_blocks f n p) = n /\ nth i (two_blocks f n p) d = f (nth i p 0%R) (nth (n + i) p 0%R).
Proof. intros O f n p i d. exact (two_blocks_nth f n p i 0%R d). Qed.

Theorem C19_sampler_consumes_n : forall pofx x n,
  exact_consumer (sampler_call pofx x n) n (gen_sample false pofx x).
Proof. intros pofx x n p t L. unfold sampler_call. rewrite (draw_app _ _ n L). reflexivity. Qed.

Theorem C19_cholesky_consumes_npar_n : forall means M n,
  exact_consumer (cholesky_call means M n) (length M * n) (chol_sample means M n).
Proof. intros means M n p t L. unfold cholesky_call. rewrite (draw_app _ _ _ L). reflexivity. Qed.

(* two calls on one generator: the second result is what the second call alone returns on
   its own deviates; no argument or result of the first call enters it (the model has no other state) *)
Theorem C19_calls_compose_without_state : forall (A O1 O2 : Type)
    (f1 : list A -> option (O1 * list A)) (f2 : list A -> option (O2 * list A)) k1 k2 g1 g2,
  exact_consumer f1 k1 g1 -> exact_consumer f2 k2 g2 ->
  exact_consumer (then_call f1 f2) (k1 + k2) (fun p => (g1 (firstn k1 p), g2 (skipn k1 p))).
Proof.
  intros A O1 O2 f1 f2 k1 k2 g1 g2 H1 H2 p t L. unfold then_call.
  assert (L1 : length (firstn k1 p) = k1) by (rewrite firstn_length; lia).
  assert (L2 : length (skipn k1 p) = k2) by (rewrite skipn_length; lia).
  rewrite <- (firstn_skipn k1 p) at 1. rewrite <- app_assoc, (H1 _ _ L1), (H2 _ _ L2). reflexivity.
Qed.

(* equal generators, equal arguments: equal results, generators left in corresponding positions *)
Theorem C19_reproducible_for_equal_generators : forall (A O : Type) (f : list A -> option (O * list A)) k g p t t',
  exact_consumer f k g -> length p = k ->
  exists o, f (p ++ t) = Some (o, t) /\ f (p ++ t') = Some (o, t').
Proof. intros A O f k g p t t' H L. exists (g p). split; apply H; exact L. Qed.

Example C19_nonvacuous :
  valid_box 10 35 (-25) 15 /\ valid_cap 359 90 180 /\ unit_dev (1 / 2)
  /\ gen_ok [1; 2; 1]%Q [0; 1; 3]%Q
  /\ (exists y, sampler [1; 2; 1]%Q [0; 1; 3]%Q (1 # 3) = Ok y /\ (y == 1)%Q)
  /\ (exists y, sampler [1; 2; 1]%Q [0; 1; 3]%Q (2 # 3) = Ok y /\ (y == 2)%Q)
  /\ square [[2; 0]; [1; 3]]%Q
  /\ chol_sample (Some [10; 20]%Q) [[2; 0]; [1; 3]]%Q 2 [1; 2; 3; 4]%Q = [[12; 30]; [14; 34]]%Q
  /\ ri_check 5 3 true [4; 0; 2]%Z = true /\ ri_check 5 3 true [4; 0; 4]%Z = false.
Proof.
  assert (G : gen_ok [1; 2; 1]%Q [0; 1; 3]%Q) by (apply gen_ok_b_sound; reflexivity).
  split; [unfold valid_box; lra|]. split; [unfold valid_cap; lra|]. split; [unfold unit_dev; lra|].
  split; [exact G|].
  split; [eexists; split; [vm_compute; reflexivity|reflexivity]|].
  split; [eexists; split; [vm_compute; reflexivity|reflexivity]|].
  split; [repeat constructor|]. split; [vm_compute; reflexivity|]. split; reflexivity.
Qed.

(* the premises of the interpolation theorem are satisfiable, and the table of the small example
   is the normalised trapezoid sums 3/2 and 3/2 + 3 over 9/2 *)
Example C19_nonvacuous_interpolation :
  (S 0 < length (pcum_of [1; 2; 1]%Q [0; 1; 3]%Q))%nat
  /\ (nth 0 (pcum_of [1; 2; 1]%Q [0; 1; 3]%Q) 0 < 1 # 2 <= nth 1 (pcum_of [1; 2; 1]%Q [0; 1; 3]%Q) 0)%Q
  /\ (trap_area [1; 2; 1]%Q [0; 1; 3]%Q 0 == 3 # 2)%Q /\ (trap_area [1; 2; 1]%Q [0; 1; 3]%Q 1 == 9 # 2)%Q.
Proof. vm_compute. repeat split; try lia; try discriminate; try reflexivity. Qed.

Definition ex_cov : mat := fun i j =>
  match i, j with
  | O, O => 4 | O, S O => 2 | S O, O => 2 | S O, S O => 5 | _, _ => 0
  end%R.

Example C19_nonvacuous_posdef : posdef ex_cov 2.
Proof.
  intros v [i [Hi Hv]]. unfold quad. cbn [bigsum ex_cov].
  assert (H : v 0%nat <> 0%R \/ v 1%nat <> 0%R) by (destruct i as [|[|i]]; [left|right|lia]; exact Hv).
  (* 4 a^2 + 4 a b + 5 b^2 = (2 a + b)^2 + 4 b^2 *)
  pose proof (Rle_0_sqr (2 * v 0%nat + v 1%nat)) as Q. unfold Rsqr in Q.
  destruct H as [H|H]; apply Rsqr_pos_lt in H; unfold Rsqr in H; nra.
Qed.

(* the factor is found by checking the contract: [[2, 0], [1, 2]] is lower triangular with positive
   diagonal and its Gram matrix is ex_cov, so by uniqueness it is what the model computes *)
Example C19_nonvacuous_cholesky :
  symmetric ex_cov 2%nat /\ pivots_pos ex_cov 2%nat
  /\ cholR ex_cov 2%nat 0%nat 0%nat = 2%R /\ cholR ex_cov 2%nat 1%nat 0%nat = 1%R /\ cholR ex_cov 2%nat 1%nat 1%nat = 2%R.
Proof.
  assert (S : symmetric ex_cov 2) by (intros i j Hi Hj; destruct i as [|[|i]], j as [|[|j]]; try lia; reflexivity).
  assert (P : pivots_pos ex_cov 2) by (apply spd_pivots_pos; [exact S|exact C19_nonvacuous_posdef]).
  set (L := (fun i j => match i, j with O, O => 2 | S O, O => 1 | S O, S O => 2 | _, _ => 0 end)%R : mat).
  assert (F : is_cholesky_factor ex_cov L 2).
  { split; [|split].
    - intros i k Hik Hk. destruct i as [|[|i]], k as [|[|k]]; try lia; reflexivity.
    - intros j Hj. destruct j as [|[|j]]; try lia; cbn; lra.
    - intros i j Hi Hj. destruct i as [|[|i]], j as [|[|j]]; try lia; unfold mmtR; cbn; ring. }
  pose proof (cholesky_factor_unique ex_cov 2 L P F) as U.
  split; [exact S|]. split; [exact P|]. split; [|split]; rewrite <- U by lia; reflexivity.
Qed.

Example C19_nonvacuous_deep :
  (exists out, ri_ok 5 3 true out) /\ ri_accepts 5 6 true = false /\ ri_accepts 5 6 false = true
  /\ (exists o, randsphere_call 1 0 360 (-90) 90 [1 / 2; 1 / 2; 7]%R = Some (o, [7%R]))
  /\ (exists o, sampler_call [1; 2; 1]%Q [0; 1; 3]%Q 2 [1 # 3; 2 # 3; 9 # 10]%Q = Some (o, [9 # 10]%Q))
  /\ gen_sample false [1; 2]%Q [0; 1]%Q [1 # 2]%Q = Err EIndex.
Proof.
  split; [exists [0; 1; 2]%Z; apply ri_check_iff; reflexivity|].
  split; [reflexivity|]. split; [reflexivity|].
  split; [eexists; reflexivity|]. split; [eexists; reflexivity|]. reflexivity.
Qed.
