(* C19 -- the cumulative-method sampler (interplin on the tables of gen_tables) and the Cholesky sampler,
   over exact rationals. *)
From Coq Require Import QArith Qabs Lqa Sorting.Sorted Lia.
From EsVerif.Common Require Import Base.
From EsVerif.C19 Require Import ModelQ Spec.
Local Open Scope Q_scope.

Lemma nth_tl {A} (l : list A) i d : nth i (tl l) d = nth (S i) l d.
Proof. destruct l; [destruct i|]; reflexivity. Qed.

Lemma last_nth (l : list Q) : l <> [] -> qlast l = nth (length l - 1) l 0.
Proof.
  unfold qlast. induction l as [|a t IH]; [congruence|]. intros _. destruct t as [|b t]; [reflexivity|].
  change (last (a :: b :: t) 0) with (last (b :: t) 0). rewrite IH by congruence. simpl. rewrite Nat.sub_0_r. reflexivity.
Qed.

Lemma nth_map_in {A B} (f : A -> B) l i da db : (i < length l)%nat -> nth i (map f l) db = f (nth i l da).
Proof.
  intro H. rewrite (nth_indep _ db (f da)) by (rewrite map_length; exact H). apply map_nth.
Qed.

Lemma nth_map_seq {A} (f : nat -> A) n j d : (j < n)%nat -> nth j (map f (seq 0 n)) d = f j.
Proof.
  intro H. rewrite (nth_indep _ d (f 0%nat)) by (rewrite map_length, seq_length; exact H).
  rewrite (map_nth f (seq 0 n) 0%nat j). rewrite seq_nth by exact H. reflexivity.
Qed.

Lemma nth_firstn_lt {A} (l : list A) n j d : (j < n)%nat -> nth j (firstn n l) d = nth j l d.
Proof.
  revert n j. induction l as [|a t IH]; intros n j H; [rewrite firstn_nil; reflexivity|].
  destruct n as [|n]; [lia|]. destruct j as [|j]; [reflexivity|]. simpl. apply IH. lia.
Qed.

Lemma nth_skipn_add {A} (l : list A) s j d : nth j (skipn s l) d = nth (s + j) l d.
Proof.
  revert l. induction s as [|s IH]; intro l; [reflexivity|]. destruct l as [|a t]; [destruct j; reflexivity|].
  simpl. apply IH.
Qed.

Lemma map2_length {A B C} (f : A -> B -> C) a b : length a = length b -> length (map2 f a b) = length a.
Proof. revert b. induction a as [|x t IH]; intros [|y t2] H; simpl in *; try discriminate; [reflexivity|]. rewrite IH; lia. Qed.

Lemma map2_nth {A B C} (f : A -> B -> C) a b i da db dc :
  length a = length b -> (i < length a)%nat -> nth i (map2 f a b) dc = f (nth i a da) (nth i b db).
Proof.
  revert b i. induction a as [|x t IH]; intros [|y t2] i H Hi; simpl in *; try discriminate; try lia.
  destruct i as [|i]; [reflexivity|]. apply IH; lia.
Qed.

Lemma map2_nth_seq {A B C} (f : A -> B -> C) (a : list A) (b : list B) da db :
  length a = length b -> map2 f a b = map (fun k => f (nth k a da) (nth k b db)) (seq 0 (length a)).
Proof.
  revert b. induction a as [|x t IH]; intros [|y t2] H; simpl in *; try discriminate; [reflexivity|].
  f_equal. rewrite <- seq_shift, map_map. apply IH. lia.
Qed.

Definition lin (x0 x1 v0 v1 u : Q) : Q := (u - x0) * (v1 - v0) / (x1 - x0) + v0.

(* lin is increasing in u when the values increase: (u - x0) is multiplied by two non-negative factors *)
Lemma lin_mono x0 x1 v0 v1 u u' : x0 < x1 -> v0 <= v1 -> u <= u' -> lin x0 x1 v0 v1 u <= lin x0 x1 v0 v1 u'.
Proof.
  intros Hx Hv Hu. unfold lin, Qdiv. apply Qplus_le_l.
  apply Qmult_le_compat_r; [apply Qmult_le_compat_r; lra|apply Qlt_le_weak, Qinv_lt_0_compat; lra].
Qed.
Lemma lin_at_right x0 x1 v0 v1 : x0 < x1 -> lin x0 x1 v0 v1 x1 == v1.
Proof. intro H. unfold lin. field. lra. Qed.
Lemma lin_at_left x0 x1 v0 v1 : x0 < x1 -> lin x0 x1 v0 v1 x0 == v0.
Proof. intro H. unfold lin. field. lra. Qed.

(* the one-sided bounds are monotonicity from or up to an end point *)
Lemma lin_ge_left x0 x1 v0 v1 u : x0 < x1 -> v0 <= v1 -> x0 <= u -> v0 <= lin x0 x1 v0 v1 u.
Proof. intros Hx Hv Hu. rewrite <- (lin_at_left x0 x1 v0 v1 Hx) at 1. apply lin_mono; assumption. Qed.
Lemma lin_le_left x0 x1 v0 v1 u : x0 < x1 -> v0 <= v1 -> u <= x0 -> lin x0 x1 v0 v1 u <= v0.
Proof. intros Hx Hv Hu. rewrite <- (lin_at_left x0 x1 v0 v1 Hx) at 2. apply lin_mono; assumption. Qed.
Lemma lin_le_right x0 x1 v0 v1 u : x0 < x1 -> v0 <= v1 -> u <= x1 -> lin x0 x1 v0 v1 u <= v1.
Proof. intros Hx Hv Hu. rewrite <- (lin_at_right x0 x1 v0 v1 Hx) at 2. apply lin_mono; assumption. Qed.
Lemma lin_ge_right x0 x1 v0 v1 u : x0 < x1 -> v0 <= v1 -> x1 <= u -> v1 <= lin x0 x1 v0 v1 u.
Proof. intros Hx Hv Hu. rewrite <- (lin_at_right x0 x1 v0 v1 Hx) at 1. apply lin_mono; assumption. Qed.

Lemma Qlt_bool_iff a b : Qlt_bool a b = true <-> a < b.
Proof.
  unfold Qlt_bool. rewrite Bool.negb_true_iff. split; intro H.
  - apply Qnot_le_lt. intro C. apply Qle_bool_iff in C. congruence.
  - destruct (Qle_bool b a) eqn:E; [|reflexivity]. apply Qle_bool_iff in E. exfalso. apply (Qlt_not_le _ _ H E).
Qed.

Definition cnt (x : list Q) (u : Q) : nat := length (filter (fun xi => Qlt_bool xi u) x).

Lemma count_lt_cnt x u : count_lt x u = Z.of_nat (cnt x u).
Proof. reflexivity. Qed.

Lemma cnt_le_length x u : (cnt x u <= length x)%nat.
Proof. unfold cnt. induction x as [|a t IH]; simpl; [lia|]. destruct (Qlt_bool a u); simpl; lia. Qed.

Lemma filter_none_above a t u : Forall (Qlt a) t -> u <= a -> filter (fun xi => Qlt_bool xi u) t = [].
Proof.
  intros F Hu. induction t as [|b t IH]; [reflexivity|]. simpl. inversion F; subst.
  destruct (Qlt_bool b u) eqn:E; [|auto]. apply Qlt_bool_iff in E. exfalso. lra.
Qed.

Lemma incr_nth_lt x : increasing x -> forall i j, (i < j < length x)%nat -> nth i x 0 < nth j x 0.
Proof.
  intro S. induction S as [|a t S IH F]; intros i j H; simpl in *; [lia|].
  destruct j as [|j]; [lia|]. destruct i as [|i].
  - rewrite Forall_forall in F. apply F. apply nth_In. lia.
  - apply IH. lia.
Qed.

Lemma incr_nth_le x : increasing x -> forall i j, (i <= j < length x)%nat -> nth i x 0 <= nth j x 0.
Proof.
  intros S i j H. destruct (Nat.eq_dec i j) as [->|N]; [lra|]. apply Qlt_le_weak, incr_nth_lt; [assumption|lia].
Qed.

(* searchsorted on an increasing array: everything before the returned index is < u,
   everything from it on is >= u *)
Lemma cnt_spec x u : increasing x ->
  (forall i, (i < cnt x u)%nat -> nth i x 0 < u) /\ (forall i, (cnt x u <= i < length x)%nat -> u <= nth i x 0).
Proof.
  intro S. induction S as [|a t S IH F]; unfold cnt in *; simpl.
  - split; intros; lia.
  - destruct (Qlt_bool a u) eqn:E.
    + apply Qlt_bool_iff in E. simpl. destruct IH as [I1 I2]. split; intros i Hi; destruct i as [|i]; try assumption; try lia.
      * apply I1. lia.
      * apply I2. lia.
    + assert (Hu : u <= a). { apply Qnot_lt_le. intro C. apply Qlt_bool_iff in C. congruence. }
      rewrite (filter_none_above a t u F Hu). simpl. split; intros i Hi; [lia|].
      destruct i as [|i]; [exact Hu|]. rewrite Forall_forall in F.
      assert (a < nth i t 0) by (apply F, nth_In; lia). lra.
Qed.

Lemma cnt_mono x u u' : u <= u' -> (cnt x u <= cnt x u')%nat.
Proof.
  intro H. unfold cnt. induction x as [|a t IH]; simpl; [lia|].
  destruct (Qlt_bool a u) eqn:E.
  - apply Qlt_bool_iff in E. assert (E' : Qlt_bool a u' = true) by (apply Qlt_bool_iff; lra). rewrite E'. simpl. lia.
  - destruct (Qlt_bool a u'); simpl; lia.
Qed.

(* the index that separates the elements below u from the others is the count *)
Lemma cnt_unique x u j : increasing x -> (j <= length x)%nat ->
  (forall i, (i < j)%nat -> nth i x 0 < u) -> (forall i, (j <= i < length x)%nat -> u <= nth i x 0) -> cnt x u = j.
Proof.
  intros S Hj L G. destruct (cnt_spec x u S) as [C1 C2]. pose proof (cnt_le_length x u).
  destruct (lt_eq_lt_dec (cnt x u) j) as [[Hlt|E]|Hgt]; [exfalso|exact E|exfalso].
  - specialize (L _ Hlt). specialize (C2 (cnt x u) ltac:(lia)). lra.
  - specialize (C1 _ Hgt). specialize (G j ltac:(lia)). lra.
Qed.

(* the bracket index chosen by interplin, on naturals *)
Definition bracket (n k : nat) : nat := if (n - 1 <=? k - 1)%nat then (n - 2)%nat else (k - 1)%nat.

Definition interpF (v x : list Q) (u : Q) : Q :=
  let m := bracket (length x) (cnt x u) in Qred (lin (nth m x 0) (nth (S m) x 0) (nth m v 0) (nth (S m) v 0) u).

(* the two clamps of interplin on the integer index, for a count k <= n *)
Lemma bracket_Z n k : (2 <= n)%nat -> (k <= n)%nat ->
  let xm := (Z.of_nat k - 1)%Z in
  let xm := if (Z.of_nat n - 1 <=? xm)%Z then (Z.of_nat n - 2)%Z else xm in
  (if (xm <? 0)%Z then 0%Z else xm) = Z.of_nat (bracket n k) /\ (S (bracket n k) < n)%nat.
Proof.
  intros Hn Hk. cbv zeta. unfold bracket.
  destruct (Z.leb_spec (Z.of_nat n - 1) (Z.of_nat k - 1)); destruct (Nat.leb_spec (n - 1) (k - 1)); try lia;
    [destruct (Z.ltb_spec (Z.of_nat n - 2) 0)|destruct (Z.ltb_spec (Z.of_nat k - 1) 0)]; lia.
Qed.

Lemma interplin_F v x u : (2 <= length x)%nat -> length v = length x -> interplin v x u = Ok (interpF v x u).
Proof.
  intros Hn Hv. unfold interplin, interpF. cbv zeta. rewrite count_lt_cnt, Hv.
  destruct (bracket_Z (length x) (cnt x u) Hn (cnt_le_length x u)) as [-> Hm].
  set (m := bracket (length x) (cnt x u)) in *.
  replace (Z.of_nat (length x) <=? Z.of_nat m + 1)%Z with false by (symmetry; apply Z.leb_gt; lia).
  unfold lin, qnth. rewrite Nat2Z.id. replace (Z.to_nat (Z.of_nat m + 1)) with (S m) by lia. reflexivity.
Qed.

(* where u sits relative to its bracket: above the left end unless the bracket is the first one,
   at most the right end unless it is the last one *)
Lemma bracket_bounds x u : increasing x -> (2 <= length x)%nat ->
  let m := bracket (length x) (cnt x u) in
  (S m < length x)%nat /\ ((0 < m)%nat -> nth m x 0 < u) /\ ((S (S m) < length x)%nat -> u <= nth (S m) x 0).
Proof.
  intros Sx Hn. cbv zeta. destruct (cnt_spec x u Sx) as [C1 C2]. pose proof (cnt_le_length x u).
  unfold bracket. destruct (Nat.leb_spec (length x - 1) (cnt x u - 1));
    (split; [lia|split]; intro; [apply C1|apply C2]; lia).
Qed.

(* u in the half-open segment (x_k, x_(k+1)], or below the whole grid for k = 0, has bracket k *)
Lemma bracket_of_segment x u k : increasing x -> (S k < length x)%nat ->
  nth k x 0 < u <= nth (S k) x 0 \/ (k = 0%nat /\ u <= nth 0 x 0) -> bracket (length x) (cnt x u) = k.
Proof.
  intros Sx Hk [[Hlo Hhi]|[-> Hu]].
  - rewrite (cnt_unique x u (S k) Sx); [unfold bracket; destruct (Nat.leb_spec (length x - 1) (S k - 1)); lia|lia| |]; intros i Hi.
    + assert (nth i x 0 <= nth k x 0) by (apply incr_nth_le; [exact Sx|lia]). lra.
    + assert (nth (S k) x 0 <= nth i x 0) by (apply incr_nth_le; [exact Sx|lia]). lra.
  - rewrite (cnt_unique x u 0 Sx); [unfold bracket; destruct (Nat.leb_spec (length x - 1) (0 - 1)); lia|lia| |]; intros i Hi; [lia|].
    assert (nth 0 x 0 <= nth i x 0) by (apply incr_nth_le; [exact Sx|lia]). lra.
Qed.

Section Interp.
  Variables v x : list Q.
  Hypothesis Sx : increasing x.
  Hypothesis Sv : increasing v.
  Hypothesis Hn : (2 <= length x)%nat.
  Hypothesis Hv : length v = length x.

  Notation F := (interpF v x).

  Lemma seg_ok m : (S m < length x)%nat -> nth m x 0 < nth (S m) x 0 /\ nth m v 0 <= nth (S m) v 0.
  Proof.
    intro H. split.
    - apply incr_nth_lt; [assumption|lia].
    - apply Qlt_le_weak, incr_nth_lt; [assumption|lia].
  Qed.

  Lemma F_upper u : let m := bracket (length x) (cnt x u) in u <= nth (S m) x 0 -> F u <= nth (S m) v 0.
  Proof.
    cbv zeta. intro H. destruct (bracket_bounds x u Sx Hn) as [Hm _]. destruct (seg_ok _ Hm). unfold interpF; cbv zeta; rewrite Qred_correct.
    apply lin_le_right; assumption.
  Qed.
  Lemma F_lower u : let m := bracket (length x) (cnt x u) in nth m x 0 <= u -> nth m v 0 <= F u.
  Proof.
    cbv zeta. intro H. destruct (bracket_bounds x u Sx Hn) as [Hm _]. destruct (seg_ok _ Hm). unfold interpF; cbv zeta; rewrite Qred_correct.
    apply lin_ge_left; assumption.
  Qed.

  Lemma bracket_mono u u' : u <= u' -> (bracket (length x) (cnt x u) <= bracket (length x) (cnt x u'))%nat.
  Proof.
    intro H. pose proof (cnt_mono x u u' H). pose proof (cnt_le_length x u). pose proof (cnt_le_length x u').
    unfold bracket. destruct (length x - 1 <=? cnt x u - 1)%nat eqn:E1; destruct (length x - 1 <=? cnt x u' - 1)%nat eqn:E2;
      try apply Nat.leb_le in E1; try apply Nat.leb_le in E2; try apply Nat.leb_gt in E1; try apply Nat.leb_gt in E2; lia.
  Qed.

  (* equal brackets: one segment; otherwise u is at most the right end of its bracket and u' at least the
     left end of its own, and the table increases in between *)
  Lemma F_monotone u u' : u <= u' -> F u <= F u'.
  Proof.
    intro H. pose proof (bracket_mono u u' H) as Hb.
    destruct (bracket_bounds x u Sx Hn) as [Hm [_ U]]. destruct (bracket_bounds x u' Sx Hn) as [Hm' [L _]].
    pose proof (F_upper u) as FU. pose proof (F_lower u') as FL. cbv zeta in *.
    set (m := bracket (length x) (cnt x u)) in *. set (m' := bracket (length x) (cnt x u')) in *.
    destruct (Nat.eq_dec m m') as [E|N].
    - unfold interpF; cbv zeta; rewrite !Qred_correct. fold m m'. rewrite <- E. destruct (seg_ok _ Hm). apply lin_mono; assumption.
    - specialize (FU (U ltac:(lia))). specialize (FL (Qlt_le_weak _ _ (L ltac:(lia)))).
      assert (nth (S m) v 0 <= nth m' v 0) by (apply incr_nth_le; [assumption|lia]). lra.
  Qed.

  Lemma F_in_grid u : nth 0 x 0 <= u <= nth (length x - 1) x 0 -> nth 0 v 0 <= F u <= nth (length v - 1) v 0.
  Proof.
    intros [H0 H1]. destruct (bracket_bounds x u Sx Hn) as [Hm [L U]].
    pose proof (F_upper u) as FU. pose proof (F_lower u) as FL. cbv zeta in *.
    set (m := bracket (length x) (cnt x u)) in *. split.
    - assert (nth 0 v 0 <= nth m v 0) by (apply incr_nth_le; [assumption|lia]).
      destruct m as [|m]; [|specialize (L ltac:(lia))]; specialize (FL ltac:(lra)); lra.
    - assert (nth (S m) v 0 <= nth (length v - 1) v 0) by (apply incr_nth_le; [assumption|lia]).
      destruct (Nat.eq_dec (S m) (length x - 1)) as [E|N]; [rewrite <- E in H1|specialize (U ltac:(lia))];
        specialize (FU ltac:(lra)); lra.
  Qed.

  Lemma F_at_node k : (k < length x)%nat -> F (nth k x 0) == nth k v 0.
  Proof.
    intro Hk. unfold interpF; cbv zeta; rewrite Qred_correct. destruct k as [|k].
    - rewrite (bracket_of_segment x (nth 0 x 0) 0 Sx); [|lia|right; split; [reflexivity|apply Qle_refl]].
      apply lin_at_left, incr_nth_lt; [exact Sx|lia].
    - assert (nth k x 0 < nth (S k) x 0) by (apply incr_nth_lt; [exact Sx|lia]).
      rewrite (bracket_of_segment x (nth (S k) x 0) k Sx); [|lia|left; split; [assumption|apply Qle_refl]].
      apply lin_at_right. assumption.
  Qed.
End Interp.

Lemma cumtrapz_go_length xs : forall ys xprev yprev acc, length ys = length xs ->
  length (cumtrapz_go xprev yprev acc xs ys) = length xs.
Proof.
  induction xs as [|x xt IH]; intros [|y yt] xprev yprev acc Hl; try discriminate; [reflexivity|].
  cbn [cumtrapz_go length]. rewrite IH by (simpl in Hl; lia). reflexivity.
Qed.

(* cumulative_trapezoid returns one value fewer than the grid has points *)
Lemma pcum_length pofx x : length pofx = length x -> length (pcum_of pofx x) = (length x - 1)%nat.
Proof.
  intro H. unfold pcum_of, gen_tables. cbn [snd]. rewrite map_length. unfold cumtrapz.
  destruct x as [|x0 xt], pofx as [|p0 pt]; try discriminate H; [reflexivity|].
  cbn [length] in *. rewrite cumtrapz_go_length by lia. lia.
Qed.

(* a positive density on an increasing grid: every trapezoid is positive, so the running sums increase *)
Lemma cumtrapz_go_props xs : forall ys xprev yprev acc,
  increasing (xprev :: xs) -> 0 < yprev -> positive ys ->
  increasing (cumtrapz_go xprev yprev acc xs ys)
  /\ Forall (fun z => acc < z) (cumtrapz_go xprev yprev acc xs ys).
Proof.
  induction xs as [|x xt IH]; intros ys xprev yprev acc Sx Hy Py.
  - destruct ys; simpl; split; constructor.
  - destruct ys as [|y yt]; [split; constructor|]. cbn [cumtrapz_go].
    inversion Sx as [|? ? Sx' Fx]; subst. inversion Py as [|? ? Hy0 Py']; subst. inversion Fx as [|? ? Hx0 _]; subst.
    set (acc' := Qred (acc + (x - xprev) * (y + yprev) / 2)).
    assert (Hacc : acc < acc').
    { unfold acc'. rewrite Qred_correct. assert (0 < (x - xprev) * (y + yprev)) by nra.
      assert (0 < (x - xprev) * (y + yprev) / 2) by (apply Qlt_shift_div_l; lra). lra. }
    destruct (IH yt x y acc' Sx' Hy0 Py') as [I G]. split.
    + constructor; assumption.
    + constructor; [exact Hacc|]. eapply Forall_impl; [|exact G]. intros z Hz. simpl in Hz. lra.
Qed.

Lemma incr_map_div l n : increasing l -> 0 < n -> increasing (map (fun p => Qred (p / n)) l).
Proof.
  intros S Hn. assert (Hi : 0 < / n) by (apply Qinv_lt_0_compat; exact Hn).
  induction S as [|a t S IH F]; cbn [map]; constructor; [exact IH|].
  rewrite Forall_forall in *. intros z Hz. apply in_map_iff in Hz as [b [<- Hb]].
  rewrite !Qred_correct. unfold Qdiv. apply Qmult_lt_compat_r; [exact Hi|apply F; exact Hb].
Qed.

Lemma incr_tl l : increasing l -> increasing (tl l).
Proof. intro S. destruct l; [constructor|]. inversion S; assumption. Qed.

(* the tables the sampler interpolates between are tl x and pcum_of pofx x *)
Lemma tables_props pofx x : gen_ok pofx x ->
  let pc := pcum_of pofx x in
  length pc = length (tl x) /\ (2 <= length pc)%nat /\ increasing (tl x) /\ increasing pc
  /\ 0 < nth 0 pc 0 /\ nth (length pc - 1) pc 0 == 1.
Proof.
  intros [Hl [H3 [Sx Pp]]]. cbv zeta. unfold pcum_of, gen_tables. cbn [snd].
  destruct x as [|x0 xt]; [simpl in H3; lia|]. destruct pofx as [|p0 pt]; [discriminate|].
  inversion Pp as [|? ? Hp0 Pt]; subst. unfold cumtrapz.
  destruct (cumtrapz_go_props xt pt x0 p0 0 Sx Hp0 Pt) as [I G].
  pose proof (cumtrapz_go_length xt pt x0 p0 0 ltac:(simpl in Hl; lia)) as L.
  set (c := cumtrapz_go x0 p0 0 xt pt) in *.
  assert (Hc : c <> []). { intro E. rewrite E in L. simpl in L, H3. lia. }
  assert (Hnorm : 0 < qlast c).
  { rewrite last_nth by exact Hc. rewrite Forall_forall in G. apply G. apply nth_In. destruct c; [congruence|simpl; lia]. }
  cbn [tl]. rewrite map_length. simpl in H3.
  repeat split; try lia.
  - inversion Sx; assumption.
  - apply incr_map_div; assumption.
  - rewrite (nth_map_in _ _ _ 0 0) by lia. rewrite Qred_correct. apply Qlt_shift_div_l; [exact Hnorm|]. rewrite Qmult_0_l.
    rewrite Forall_forall in G. apply G, nth_In. lia.
  - rewrite (nth_map_in _ _ _ 0 0) by lia. rewrite Qred_correct. rewrite <- last_nth by exact Hc. field. lra.
Qed.

Lemma sampler_eq pofx x u : gen_ok pofx x ->
  sampler pofx x u = Ok (interpF (tl x) (pcum_of pofx x) u).
Proof.
  intro G. destruct (tables_props pofx x G) as [L [H2 _]].
  change (sampler pofx x u) with (interplin (tl x) (pcum_of pofx x) u).
  apply interplin_F; [exact H2|symmetry; exact L].
Qed.

Theorem sampler_total pofx x u : gen_ok pofx x -> exists y, sampler pofx x u = Ok y.
Proof. intro G. eexists. apply sampler_eq. exact G. Qed.

Theorem sampler_hits_nodes pofx x k : gen_ok pofx x -> (k < length x - 1)%nat ->
  exists y, sampler pofx x (nth k (pcum_of pofx x) 0) = Ok y /\ y == nth (S k) x 0.
Proof.
  intros G Hk. destruct (tables_props pofx x G) as [L [H2 [Sv [Sp _]]]].
  eexists. split; [apply sampler_eq; exact G|].
  rewrite (F_at_node (tl x) _ Sp H2 (eq_sym L) k) by (destruct x; simpl in *; lia).
  rewrite nth_tl. reflexivity.
Qed.

Theorem sampler_monotone pofx x u u' y y' : gen_ok pofx x -> u <= u' ->
  sampler pofx x u = Ok y -> sampler pofx x u' = Ok y' -> y <= y'.
Proof.
  intros G Hu. rewrite !(sampler_eq pofx x _ G). intros Ey Ey'. inversion Ey as [Ey1]; inversion Ey' as [Ey2]. clear Ey Ey' Ey1 Ey2.
  destruct (tables_props pofx x G) as [L [H2 [Sv [Sp _]]]].
  apply (F_monotone (tl x) _ Sp Sv H2 (eq_sym L)). exact Hu.
Qed.

Theorem sampler_in_grid pofx x u y : gen_ok pofx x ->
  nth 0 (pcum_of pofx x) 0 <= u <= 1 -> sampler pofx x u = Ok y ->
  nth 1 x 0 <= y <= qlast x.
Proof.
  intros G [H0 H1]. rewrite (sampler_eq pofx x _ G). intro Ey. injection Ey as <-.
  destruct (tables_props pofx x G) as [L [Hp2 [Sv [Sp [_ Hone]]]]]. set (pc := pcum_of pofx x) in *.
  destruct (F_in_grid (tl x) pc Sp Sv Hp2 (eq_sym L) u) as [A B]; [split; [exact H0|lra]|].
  rewrite nth_tl in A, B. split; [exact A|]. destruct G as [_ [G3 _]].
  rewrite (last_nth x) by (intros ->; simpl in G3; lia).
  replace (length x - 1)%nat with (S (length (tl x) - 1)) by (destruct x; simpl in G3 |- *; lia). exact B.
Qed.

Lemma grid_first_le_second x : increasing x -> (2 <= length x)%nat -> nth 0 x 0 <= nth 1 x 0.
Proof. intros S H. apply incr_nth_le; [assumption|lia]. Qed.

Lemma reshape_length rows n flat : length (reshape rows n flat) = rows.
Proof. revert flat. induction rows as [|k IH]; intro flat; simpl; [reflexivity|]. rewrite IH. reflexivity. Qed.

Lemma reshape_nth rows n flat k j : (k < rows)%nat -> (j < n)%nat ->
  nth j (nth k (reshape rows n flat) []) 0%Q = nth (k * n + j) flat 0%Q.
Proof.
  revert flat k. induction rows as [|r IH]; intros flat k Hk Hj; [lia|].
  destruct k as [|k]; simpl.
  - apply nth_firstn_lt. exact Hj.
  - rewrite IH by lia. rewrite nth_skipn_add. f_equal. lia.
Qed.

Lemma column_nth j (V : list (list Q)) i : (i < length V)%nat -> nth i (column j V) 0 = nth j (nth i V []) 0.
Proof. intro H. exact (nth_map_in (fun row => nth j row 0) V i [] 0 H). Qed.

Lemma matmul_nth M r n i j : (i < length M)%nat -> (j < n)%nat ->
  nth j (nth i (matmul M r n) []) 0 = dotq (nth i M []) (column j r).
Proof.
  intros Hi Hj. unfold matmul. rewrite (nth_map_in _ M i [] []) by exact Hi.
  exact (nth_map_seq (fun j => dotq (nth i M []) (column j r)) n j 0 Hj).
Qed.

Lemma dotq_seq a b : length a = length b ->
  dotq a b = qsum (map (fun k => nth k a 0 * nth k b 0) (seq 0 (length a))).
Proof. intro H. unfold dotq. rewrite (map2_nth_seq Qmult a b 0 0 H). reflexivity. Qed.

Theorem cholesky_is_affine means M n flat j i :
  square M -> means_fit means M -> (j < n)%nat -> (i < length M)%nat ->
  length (chol_sample means M n flat) = n
  /\ length (nth j (chol_sample means M n flat) []) = length M
  /\ nth i (nth j (chol_sample means M n flat) []) 0 == chol_entry means M n flat j i.
Proof.
  intros Sq Mf Hj Hi. unfold chol_sample, transpose.
  set (r := reshape (length M) n flat). set (V := matmul M r n).
  assert (LV : length V = length M) by apply map_length.
  set (V' := match means with Some m => add_means m V | None => V end).
  assert (LV' : length V' = length M).
  { unfold V'. destruct means as [m|]; [|exact LV]. unfold add_means. simpl in Mf. rewrite map2_length; congruence. }
  rewrite map_length, seq_length. split; [reflexivity|].
  rewrite nth_map_seq by exact Hj. split; [unfold column; rewrite map_length; exact LV'|].
  rewrite column_nth by lia.
  (* entry (i, j) of V = M r: row i of M against column j of the reshaped deviates *)
  assert (EV : nth j (nth i V []) 0 == qsum (map (fun k => nth k (nth i M []) 0 * nth (k * n + j) flat 0) (seq 0 (length M)))).
  { assert (Lrow : length (nth i M []) = length M) by (unfold square in Sq; rewrite Forall_forall in Sq; apply Sq, nth_In; exact Hi).
    unfold V. rewrite matmul_nth by assumption.
    rewrite dotq_seq by (unfold column; rewrite map_length, Lrow; symmetry; apply reshape_length). rewrite Lrow.
    erewrite map_ext_in; [reflexivity|]. intros k Hk. apply in_seq in Hk. cbv beta.
    rewrite column_nth by (unfold r; rewrite reshape_length; lia). unfold r. rewrite reshape_nth by lia. reflexivity. }
  unfold chol_entry, V'. destruct means as [m|]; [|rewrite EV; ring].
  unfold add_means. simpl in Mf. rewrite (map2_nth _ m V i 0 [] []) by congruence.
  rewrite (nth_map_in _ (nth i V []) j 0 0), EV; [ring|].
  unfold V, matmul. rewrite (nth_map_in _ M i [] []) by exact Hi. rewrite map_length, seq_length. exact Hj.
Qed.
