(* C12 -- further discrete property theorems (closed under the global context); what they need is
   proved in DeepProofs.v / CheckProofs.v. *)
From Coq Require Import Sorting.Permutation Sorting.Sorted.
From EsVerif.Common Require Import Base.
From EsVerif.C12 Require Import Model Spec Proofs MainProofs CheckProofs DeepProofs.

(* The model run with its own verified sort: exact pair set, each pair once, grouping, order within
   groups and the k closest -- WITHOUT the hypothesis sort_contract (std::sort remains a monitored
   contract of the real code; these theorems about the model do not depend on it). *)
Theorem C12_executable_model_correct : forall tri n2 dis cover rads n1 k,
  H_cover tri n2 dis cover rads n1 ->
  let out := match_loop dis cover isort_c (init_hmap tri n2) k rads n1 in
  (k <= 0 -> forall t, In t out <->
      (t_i1 t < n1)%nat /\ (t_i2 t < n2)%nat /\ t_d t = dis (t_i1 t) (t_i2 t)
      /\ dis (t_i1 t) (t_i2 t) <= rad_of rads (t_i1 t))
  /\ NoDup (map t_ij out)
  /\ StronglySorted le (map t_i1 out)
  /\ (forall i, StronglySorted Z.le (map snd (group i out)))
  /\ (0 < k -> forall i, (i < n1)%nat ->
        exists l, Permutation l (brute n2 dis i (rad_of rads i)) /\ StronglySorted by_dist l
                  /\ group i out = firstn (Z.to_nat k) l).
Proof.
  intros tri n2 dis cover rads n1 k H. pose proof isort_c_contract as Hs. cbv zeta.
  split; [intros Hk t; apply exact_in; assumption|].
  split; [apply once; assumption|].
  split; [apply grouped; assumption|].
  split; [intro i; apply sorted_within; assumption|].
  intros Hk i Hi. apply kclosest; assumption.
Qed.

Theorem C12_executable_model_meets_statement : forall tri n2 dis cover rads n1 same D tol k,
  H_cover tri n2 dis cover rads n1 ->
  (forall i j, same i j = true -> dis i j = 0) ->
  (forall i j, (i < n1)%nat -> (j < n2)%nat -> Z.abs (dis i j - D i j) <= tol) ->
  match_spec n1 n2 D (rad_of rads) tol k same (match_loop dis cover isort_c (init_hmap tri n2) k rads n1).
Proof. intros. apply model_meets_spec; try assumption. exact isort_c_contract. Qed.

(* Hypothesis H_cover is satisfiable for EVERY input: the cover listing every occupied triangle once
   meets it; with it the matcher is brute force, and every cover meeting H_cover (every depth)
   returns the rows of that brute-force matcher.  No hypothesis is left in the first two parts. *)
Theorem C12_cover_hypothesis_satisfiable_and_brute_force : forall tri n2 dis rads n1,
  H_cover tri n2 dis (fun _ => all_ids tri n2) rads n1
  /\ (forall k, k <= 0 ->
       forall t, In t (match_loop dis (fun _ => all_ids tri n2) isort_c (init_hmap tri n2) k rads n1) <->
                 (t_i1 t < n1)%nat /\ (t_i2 t < n2)%nat /\ t_d t = dis (t_i1 t) (t_i2 t)
                 /\ dis (t_i1 t) (t_i2 t) <= rad_of rads (t_i1 t))
  /\ (forall cover sorter k, sort_contract sorter -> H_cover tri n2 dis cover rads n1 -> k <= 0 ->
       forall t, In t (match_loop dis cover sorter (init_hmap tri n2) k rads n1) <->
                 In t (match_loop dis (fun _ => all_ids tri n2) isort_c (init_hmap tri n2) k rads n1)).
Proof.
  intros. pose proof (all_ids_cover tri n2 dis rads n1) as Ha. split; [exact Ha|]. split.
  - intros k Hk t. apply exact_in; [exact isort_c_contract|exact Ha|exact Hk].
  - intros cover sorter k Hs Hc Hk t. rewrite (exact_in Hs Hc k t Hk).
    symmetry. apply exact_in; [exact isort_c_contract|exact Ha|exact Hk].
Qed.

(* History: Matcher.match as a step function that hands the Matcher back unchanged (DeepProofs.step;
   a modelling decision, not a theorem).  Then the answer to a query after any history (and before
   any future) is the answer to that query made alone.  (HTM.match builds a fresh Matcher per call: C12_matcher_reusable.) *)
Theorem C12_history_irrelevant : forall dis cover sorter m (before : list query) q (after : list query),
  fst (run dis cover sorter m (before ++ q :: after)) = m
  /\ nth_error (snd (run dis cover sorter m (before ++ q :: after))) (length before) = Some (answer dis cover sorter m q)
  /\ run dis cover sorter m (before ++ q :: after) = (m, map (answer dis cover sorter m) (before ++ q :: after)).
Proof.
  intros. rewrite run_pure. cbn [fst snd]. split; [reflexivity|]. split; [|reflexivity].
  rewrite map_app. cbn [map]. rewrite nth_error_app2 by (rewrite map_length; lia).
  rewrite map_length, Nat.sub_diag. reflexivity.
Qed.

(* Rejections, exactly: each entry point answers Ok on precisely the accepted sizes and ValueError on
   all others (no other error class, no third outcome). *)
Theorem C12_rejections_exact : forall dis cover sorter tri m n2 n2dec n1 n1dec rads k,
  ((n2 = n2dec -> matcher_init tri n2 n2dec = Ok (matcher_new tri n2))
   /\ (n2 <> n2dec -> matcher_init tri n2 n2dec = Err EValue))
  /\ ((sizes_ok n1 n1dec (length rads) ->
        matcher_match dis cover sorter m n1 n1dec rads k = Ok (match_loop dis cover sorter (m_hmap m) k rads n1))
      /\ (~ sizes_ok n1 n1dec (length rads) -> matcher_match dis cover sorter m n1 n1dec rads k = Err EValue))
  /\ ((sizes_ok n1 n1dec (length rads) /\ n2 = n2dec ->
        htm_match dis cover sorter tri n2 n2dec n1 n1dec rads k
        = Ok (match_loop dis cover sorter (init_hmap tri n2) k rads n1))
      /\ (~ (sizes_ok n1 n1dec (length rads) /\ n2 = n2dec) ->
        htm_match dis cover sorter tri n2 n2dec n1 n1dec rads k = Err EValue)).
Proof.
  intros. split; [apply matcher_init_cases|]. split; [apply matcher_match_cases|apply htm_match_cases].
Qed.

(* The checker evaluated on the real output DECIDES the statement (C12_checker_sound is the
   soundness half): it accepts exactly the outputs that satisfy match_spec, so it can neither
   miss a violation of the statement nor raise a false alarm. *)
Theorem C12_checker_decides : forall n1 n2 D rad tol k same out,
  check_match n1 n2 D rad tol k same out = true <-> match_spec n1 n2 D rad tol k same out.
Proof. exact check_match_decides. Qed.

(* The run-time monitor of H_cover is sound: what it accepts is the completeness half of H_cover
   for the true separations, with the radius reduced by the tolerance band. *)
Theorem C12_cover_monitor_sound : forall n1 n2 D rads tol tri cover,
  cover_contract_b n1 n2 D (rad_of rads) tol tri cover = true ->
  forall i, (i < n1)%nat -> cover_complete tri n2 D cover i (rad_of rads i - tol - 1).
Proof. intros n1 n2 D rads tol tri cover H i Hi j Hj Hd. eapply cover_contract_b_sound; try eassumption. lia. Qed.

(* A limit only cuts: with maxmatch = k > 0 every group is the first k rows of the group of the
   unlimited call -- for every cover (no H_cover needed) and every sorter meeting the contract, in
   particular the model's own.  Together with C12_exact this is "the k closest pairs of each group". *)
Theorem C12_limit_is_prefix_of_unlimited : forall tri n2 dis cover sorter rads n1 k i,
  sort_contract sorter -> 0 < k ->
  group i (match_loop dis cover sorter (init_hmap tri n2) k rads n1)
  = firstn (Z.to_nat k) (group i (match_loop dis cover sorter (init_hmap tri n2) 0 rads n1)).
Proof. intros tri n2 dis cover sorter rads n1 k i _. apply limit_is_prefix. Qed.

Theorem C12_limit_is_prefix_of_unlimited_exec : forall tri n2 dis cover rads n1 k i, 0 < k ->
  group i (match_loop dis cover isort_c (init_hmap tri n2) k rads n1)
  = firstn (Z.to_nat k) (group i (match_loop dis cover isort_c (init_hmap tri n2) 0 rads n1)).
Proof. intros. apply limit_is_prefix. assumption. Qed.

(* The pair file against the statement.  If the rows of the in-memory call satisfy the statement
   with tolerance tol and print-then-parse ("%.16g", strtod) moves a distance by at most delta,
   maps 0 to 0 and is monotone, the rows read back satisfy the statement with tolerance
   tol + delta (same pairs, same order: C12_file_roundtrip). *)
Theorem C12_file_rows_meet_statement : forall rt delta n1 n2 D rad tol k same rows,
  (forall d, Z.abs (rt d - d) <= delta) -> rt 0 = 0 -> (forall a b, a <= b -> rt a <= rt b) -> 0 <= delta ->
  match_spec n1 n2 D rad tol k same rows ->
  match_spec n1 n2 D rad (tol + delta) k same (read_pairs (fst (write_pairs rt rows))).
Proof. intros. apply file_meets_statement; assumption. Qed.

(* the hypotheses on print-then-parse are satisfiable by a function that is not the identity *)
Example C12_file_nonvacuous :
  let rt := fun d => 2 * (d / 2) in
  (forall d, Z.abs (rt d - d) <= 1) /\ rt 0 = 0 /\ (forall a b, a <= b -> rt a <= rt b) /\ rt 5 = 4.
Proof. cbv zeta. repeat split; intros; lia. Qed.

(* Non-vacuity: the instance of Properties.C12_nonvacuous. *)
Definition dx_tri (j : nat) : Z := nth j [10; 11; 10; 12] 0.
Definition dx_dis (i j : nat) : Z := nth j (nth i [[5; 1; 5; 9]; [7; 7; 0; 2]] []) 0.
Example C12_deep_nonvacuous :
  all_ids dx_tri 4 = [11; 10; 12]
  /\ match_loop dx_dis (fun _ => all_ids dx_tri 4) isort_c (init_hmap dx_tri 4) 0 [6] 2
     = [row 0 1 1; row 0 0 5; row 0 2 5; row 1 2 0; row 1 3 2]
  /\ snd (run dx_dis (fun _ => all_ids dx_tri 4) isort_c (matcher_new dx_tri 4)
            [(2%nat, 2%nat, [6], 1); (2%nat, 3%nat, [6], 1); (2%nat, 2%nat, [6], 1)])
     = [Ok [row 0 1 1; row 1 2 0]; Err EValue; Ok [row 0 1 1; row 1 2 0]]
  /\ check_match 2 4 dx_dis (rad_of [6]) 0 0 (fun _ _ => false)
       [row 0 1 1; row 0 0 5; row 0 2 5; row 1 2 0; row 1 3 2] = true
  /\ cover_contract_b 2 4 dx_dis (rad_of [6]) 0 dx_tri (fun _ => all_ids dx_tri 4) = true
  /\ sizes_ok 2 2 1 /\ ~ sizes_ok 2 3 1.
Proof.
  split; [vm_compute; reflexivity|]. split; [vm_compute; reflexivity|]. split; [vm_compute; reflexivity|].
  split; [vm_compute; reflexivity|]. split; [vm_compute; reflexivity|].
  split; [split; [reflexivity|left; reflexivity]|]. intros [H _]. discriminate.
Qed.

Example C12_prefix_nonvacuous :
  group 0 (match_loop dx_dis (fun _ => all_ids dx_tri 4) isort_c (init_hmap dx_tri 4) 2 [6] 2) = [(1%nat, 1); (0%nat, 5)]
  /\ group 0 (match_loop dx_dis (fun _ => all_ids dx_tri 4) isort_c (init_hmap dx_tri 4) 0 [6] 2) = [(1%nat, 1); (0%nat, 5); (2%nat, 5)].
Proof. split; vm_compute; reflexivity. Qed.
