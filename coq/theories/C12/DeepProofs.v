(* C12 -- discrete facts behind DeepProperties.v: a cover that meets H_cover for every input, a
   sequence of queries on one Matcher, which sizes each entry point rejects, the monitor of H_cover,
   limits, the pair file. *)
From Coq Require Import Sorting.Sorted.
From EsVerif.Common Require Import Base.
From EsVerif.C12 Require Import Model Spec Proofs MainProofs.

(* H_cover is satisfiable for every input: the cover that lists every occupied triangle once *)
Definition all_ids (tri : nat -> Z) (n2 : nat) : list Z := nodup Z.eq_dec (map tri (seq 0 n2)).

Lemma all_ids_cover tri n2 dis rads n1 : H_cover tri n2 dis (fun _ => all_ids tri n2) rads n1.
Proof.
  intros i Hi. split.
  - intros j Hj _. unfold all_ids. apply nodup_In, in_map, in_seq. lia.
  - apply NoDup_nodup.
Qed.

Section History.
  Variables (dis : nat -> nat -> Z) (cover : nat -> list Z) (sorter : list cnd -> list cnd).
  (* one query: sizes of ra and dec, radii, maxmatch *)
  Definition query : Type := (nat * nat * list Z * Z)%type.
  Definition answer (m : matcher) (q : query) : result (list triple) :=
    let '(n1, n1dec, rads, k) := q in matcher_match dis cover sorter m n1 n1dec rads k.
  (* Matcher.match as a step of a state machine whose state is the Matcher; the step hands the state
     back unchanged by definition (matcher_match has no matcher in its result) *)
  Definition step (m : matcher) (q : query) : matcher * result (list triple) := (m, answer m q).
  Fixpoint run (m : matcher) (qs : list query) : matcher * list (result (list triple)) :=
    match qs with
    | [] => (m, [])
    | q :: t => let '(m1, a) := step m q in let '(m2, l) := run m1 t in (m2, a :: l)
    end.

  Lemma run_pure m qs : run m qs = (m, map (answer m) qs).
  Proof. induction qs as [|q t IH]; [reflexivity|]. cbn [run step map]. rewrite IH. reflexivity. Qed.
End History.

(* the one-shot method is a function of its arguments that builds a fresh Matcher *)
Lemma oneshot_fresh dis cover sorter tri n2 n2dec n1 n1dec rads k :
  htm_match dis cover sorter tri n2 n2dec n1 n1dec rads k
  = if negb (n1 =? n1dec)%nat then Err EValue
    else if negb (length rads =? 1)%nat && negb (length rads =? n1)%nat then Err EValue
    else match matcher_init tri n2 n2dec with
         | Ok m => matcher_match dis cover sorter m n1 n1dec rads k
         | Err e => Err e
         end.
Proof. reflexivity. Qed.

Lemma matcher_init_cases tri n2 n2dec :
  (n2 = n2dec -> matcher_init tri n2 n2dec = Ok (matcher_new tri n2))
  /\ (n2 <> n2dec -> matcher_init tri n2 n2dec = Err EValue).
Proof.
  unfold matcher_init. split; intro H.
  - subst. rewrite Nat.eqb_refl. reflexivity.
  - apply Nat.eqb_neq in H. rewrite H. reflexivity.
Qed.

Definition sizes_ok (n1 n1dec nrad : nat) : Prop := n1 = n1dec /\ (nrad = 1 \/ nrad = n1)%nat.

Lemma sizes_ok_dec n1 n1dec nrad : {sizes_ok n1 n1dec nrad} + {~ sizes_ok n1 n1dec nrad}.
Proof.
  unfold sizes_ok. destruct (Nat.eq_dec n1 n1dec); [|right; tauto].
  destruct (Nat.eq_dec nrad 1); [left; tauto|]. destruct (Nat.eq_dec nrad n1); [left; tauto|right; tauto].
Qed.

Lemma matcher_match_cases dis cover sorter m n1 n1dec rads k :
  (sizes_ok n1 n1dec (length rads) ->
     matcher_match dis cover sorter m n1 n1dec rads k = Ok (match_loop dis cover sorter (m_hmap m) k rads n1))
  /\ (~ sizes_ok n1 n1dec (length rads) -> matcher_match dis cover sorter m n1 n1dec rads k = Err EValue).
Proof.
  unfold sizes_ok. split.
  - intros [E1 E2]. subst n1dec. apply matcher_match_ok. exact E2.
  - intro H. apply matcher_match_rejects.
    destruct (Nat.eq_dec n1 n1dec) as [E|E]; [right|left; exact E].
    split; intro X; apply H; tauto.
Qed.

Lemma htm_match_cases dis cover sorter tri n2 n2dec n1 n1dec rads k :
  (sizes_ok n1 n1dec (length rads) /\ n2 = n2dec ->
     htm_match dis cover sorter tri n2 n2dec n1 n1dec rads k
     = Ok (match_loop dis cover sorter (init_hmap tri n2) k rads n1))
  /\ (~ (sizes_ok n1 n1dec (length rads) /\ n2 = n2dec) ->
     htm_match dis cover sorter tri n2 n2dec n1 n1dec rads k = Err EValue).
Proof.
  split.
  - intros [S <-]. rewrite htm_match_is_matcher. apply (matcher_match_cases dis cover sorter (matcher_new tri n2)), S.
  - intro H. destruct (Nat.eq_dec n2 n2dec) as [<-|N].
    + rewrite htm_match_is_matcher. apply matcher_match_cases. tauto.
    + unfold htm_match. rewrite (proj2 (matcher_init_cases tri n2 n2dec) N).
      destruct (negb _); [reflexivity|]. destruct (_ && _); reflexivity.
Qed.

Lemma cover_contract_b_sound n1 n2 D rad tol tri cover :
  cover_contract_b n1 n2 D rad tol tri cover = true ->
  forall i j, (i < n1)%nat -> (j < n2)%nat -> D i j < rad i - tol -> In (tri j) (cover i).
Proof.
  unfold cover_contract_b. intros H i j Hi Hj Hd. rewrite forallb_forall in H.
  specialize (H i ltac:(apply in_seq; lia)). rewrite forallb_forall in H.
  specialize (H j ltac:(apply in_seq; lia)).
  replace (D i j <? rad i - tol) with true in H by lia.
  apply existsb_exists in H as [x [Hx E]]. apply Z.eqb_eq in E. subst x. exact Hx.
Qed.

(* a limit only cuts: with maxmatch = k > 0 every group is the first k rows of the group of the
   unlimited call with the same sorter -- whatever the sorter does, for every cover *)
Lemma limit_is_prefix tri n2 dis cover sorter rads n1 k i : 0 < k ->
  group i (match_loop dis cover sorter (init_hmap tri n2) k rads n1)
  = firstn (Z.to_nat k) (group i (match_loop dis cover sorter (init_hmap tri n2) 0 rads n1)).
Proof.
  intro Hk. unfold group, match_loop. rewrite !group_loop_gen. cbn [Nat.add].
  destruct ((0 <=? i)%nat && (i <? n1)%nat); [|destruct (Z.to_nat k); reflexivity].
  unfold match_one. destruct (pair_info dis cover (init_hmap tri n2) i (rad_of rads i)) as [|c p]; [destruct (Z.to_nat k); reflexivity|].
  rewrite !map_map, <- !firstn_map, (nkeep_all 0), (nkeep_pos k) by lia. rewrite firstn_firstn. reflexivity.
Qed.

(* the pair file against the statement:
   if the rows of the in-memory call satisfy the statement with tolerance tol, and printing with "%.16g"
   followed by parsing moves a distance by at most delta, keeps 0 and is monotone (correctly rounded
   conversions are), then the rows read back from the file satisfy the statement with tolerance
   tol + delta -- and they are the same pairs in the same order. *)
Section File.
  Variable rt : Z -> Z.
  Variable delta : Z.
  Hypothesis Hnear : forall d, Z.abs (rt d - d) <= delta.
  Hypothesis Hzero : rt 0 = 0.
  Hypothesis Hmono : forall a b, a <= b -> rt a <= rt b.

  Definition frow (t : triple) : triple := (t_i1 t, t_i2 t, rt (t_d t)).
  Definition fcnd (c : cnd) : cnd := (fst c, rt (snd c)).

  Lemma group_map i rows : group i (map frow rows) = map fcnd (group i rows).
  Proof.
    unfold group. induction rows as [|t rows IH]; [reflexivity|]. cbn [map filter].
    change (t_i1 (frow t)) with (t_i1 t).
    destruct (t_i1 t =? i)%nat; cbn [map]; rewrite IH; reflexivity.
  Qed.

  Lemma sorted_map_rt l : StronglySorted Z.le l -> StronglySorted Z.le (map rt l).
  Proof.
    induction 1 as [|x t St IH Fa]; [constructor|]. cbn [map]. constructor; [exact IH|].
    apply Forall_map. eapply Forall_impl; [|exact Fa]. intros y Hy. apply Hmono, Hy.
  Qed.

  Lemma file_meets_statement n1 n2 D rad tol k same rows :
    0 <= delta ->
    match_spec n1 n2 D rad tol k same rows ->
    match_spec n1 n2 D rad (tol + delta) k same (read_pairs (fst (write_pairs rt rows))).
  Proof.
    intros Hd [Mrange Mgrouped Monce Msorted Msound Mlimit Mcomplete Mself].
    change (read_pairs (fst (write_pairs rt rows))) with (map frow rows).
    assert (Hin : forall P : triple -> Prop, (forall t, In t rows -> P (frow t)) -> forall t, In t (map frow rows) -> P t).
    { intros P H t Ht. apply in_map_iff in Ht as [t0 [<- H0]]. apply H, H0. }
    constructor.
    - apply Hin. exact Mrange.
    - rewrite map_map. exact Mgrouped.
    - intro i. rewrite group_map, map_map. apply Monce.
    - intro i. rewrite group_map, map_map. change (StronglySorted Z.le (map (fun c => rt (snd c)) (group i rows))).
      rewrite <- map_map. apply sorted_map_rt, Msorted.
    - apply Hin. intros t Ht. destruct (Msound t Ht) as [S1 S2]. pose proof (Hnear (t_d t)).
      change (D (t_i1 t) (t_i2 t) <= rad (t_i1 t) + (tol + delta) /\ Z.abs (rt (t_d t) - D (t_i1 t) (t_i2 t)) <= tol + delta).
      lia.
    - intros Hk i. rewrite group_map, map_length. apply Mlimit, Hk.
    - intros i j Hi Hj P. unfold cut_and_no_farther. rewrite group_map, map_map, map_length.
      assert (P' : D i j < rad i - tol \/ (same i j = true /\ 0 <= rad i)) by (destruct P; [left; lia|right; assumption]).
      destruct (Mcomplete i j Hi Hj P') as [I|[C1 [C2 C3]]]; [left; exact I|right].
      split; [exact C1|]. split; [exact C2|]. intros c Hc. apply in_map_iff in Hc as [c0 [<- Hc0]].
      specialize (C3 c0 Hc0). pose proof (Hnear (snd c0)). cbn [fcnd snd]. lia.
    - apply (Hin (fun t => same (t_i1 t) (t_i2 t) = true -> t_d t = 0)). intros t Ht Hs. change (rt (t_d t) = 0). rewrite (Mself t Ht Hs). exact Hzero.
  Qed.
End File.
