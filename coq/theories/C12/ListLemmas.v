(* C12 — generic list lemmas (sortedness, permutations, flat_map, filter, firstn) *)
From Coq Require Import Sorting.Permutation Sorting.Sorted.
From EsVerif.Common Require Import Base.

Lemma SSorted_app {A} (R : A -> A -> Prop) l1 l2 :
  StronglySorted R l1 -> StronglySorted R l2 ->
  (forall x y, In x l1 -> In y l2 -> R x y) -> StronglySorted R (l1 ++ l2).
Proof.
  intros S1 S2 H. induction l1 as [|a t IH]; simpl; [exact S2|].
  inversion S1 as [|? ? St Fa]; subst. constructor.
  - apply IH; [exact St|]. intros x y Hx Hy. apply H; [right; exact Hx|exact Hy].
  - apply Forall_app; split; [exact Fa|].
    apply Forall_forall. intros y Hy. apply H; [left; reflexivity|exact Hy].
Qed.

Lemma SSorted_app_inv {A} (R : A -> A -> Prop) l1 l2 :
  StronglySorted R (l1 ++ l2) ->
  StronglySorted R l1 /\ StronglySorted R l2 /\ (forall x y, In x l1 -> In y l2 -> R x y).
Proof.
  induction l1 as [|a t IH]; simpl; intro S.
  - split; [constructor|]. split; [exact S|]. intros x y [].
  - inversion S as [|? ? St Fa]; subst. destruct (IH St) as [S1 [S2 H]].
    apply Forall_app in Fa as [Fa1 Fa2]. split; [constructor; assumption|]. split; [exact S2|].
    intros x y [Hx|Hx] Hy.
    + subst x. rewrite Forall_forall in Fa2. apply Fa2; exact Hy.
    + apply H; assumption.
Qed.

Lemma SSorted_firstn {A} (R : A -> A -> Prop) n l : StronglySorted R l -> StronglySorted R (firstn n l).
Proof.
  intro S. rewrite <- (firstn_skipn n l) in S. apply SSorted_app_inv in S. tauto.
Qed.

Lemma SSorted_map {A B} (f : A -> B) (R : B -> B -> Prop) l :
  StronglySorted (fun a b => R (f a) (f b)) l -> StronglySorted R (map f l).
Proof.
  induction 1 as [|a t St IH Fa]; simpl; constructor; [exact IH|].
  apply Forall_forall. intros y Hy. apply in_map_iff in Hy as [x [E Hx]]. subst y.
  rewrite Forall_forall in Fa. apply Fa; exact Hx.
Qed.

Lemma SSorted_const (l : list nat) s : (forall x, In x l -> x = s) -> StronglySorted le l.
Proof.
  induction l as [|a t IH]; intro H; constructor.
  - apply IH. intros x Hx. apply H. right; exact Hx.
  - apply Forall_forall. intros y Hy. rewrite (H a (or_introl eq_refl)), (H y (or_intror Hy)). lia.
Qed.

(* a sorted list of integers is determined by its multiset *)
Lemma sorted_perm_eq (l1 l2 : list Z) :
  StronglySorted Z.le l1 -> StronglySorted Z.le l2 -> Permutation l1 l2 -> l1 = l2.
Proof.
  revert l2. induction l1 as [|a t1 IH]; intros l2 S1 S2 P.
  - apply Permutation_nil in P. symmetry; exact P.
  - destruct l2 as [|b t2]; [apply Permutation_sym, Permutation_nil in P; discriminate|].
    inversion S1 as [|? ? St1 Fa1]; subst. inversion S2 as [|? ? St2 Fa2]; subst.
    rewrite Forall_forall in Fa1, Fa2.
    assert (Hab : a = b).
    { assert (Ha : In a (b :: t2)) by (eapply Permutation_in; [exact P|left; reflexivity]).
      assert (Hb : In b (a :: t1)) by (eapply Permutation_in; [apply Permutation_sym; exact P|left; reflexivity]).
      destruct Ha as [Ha|Ha]; [congruence|]. destruct Hb as [Hb|Hb]; [congruence|].
      specialize (Fa1 _ Hb). specialize (Fa2 _ Ha). lia. }
    subst b. f_equal. apply IH; [exact St1|exact St2|]. eapply Permutation_cons_inv; exact P.
Qed.

Lemma in_flat_map_iff {A B} (f : A -> list B) l y : In y (flat_map f l) <-> exists x, In x l /\ In y (f x).
Proof. apply in_flat_map. Qed.

Lemma NoDup_app_intro {A} (l1 l2 : list A) :
  NoDup l1 -> NoDup l2 -> (forall x, In x l1 -> In x l2 -> False) -> NoDup (l1 ++ l2).
Proof.
  intros N1 N2 H. induction l1 as [|a t IH]; simpl; [exact N2|].
  inversion N1 as [|? ? Ha Nt]; subst. constructor.
  - intro Hin. apply in_app_or in Hin as [Hin|Hin]; [exact (Ha Hin)|].
    exact (H a (or_introl eq_refl) Hin).
  - apply IH; [exact Nt|]. intros x Hx. apply H. right; exact Hx.
Qed.

Lemma NoDup_flat_map {A B} (f : A -> list B) (l : list A) :
  NoDup l -> (forall a, In a l -> NoDup (f a)) ->
  (forall a b x, In a l -> In b l -> a <> b -> In x (f a) -> In x (f b) -> False) ->
  NoDup (flat_map f l).
Proof.
  induction l as [|a t IH]; intros N Hf Hd; simpl; [constructor|].
  inversion N as [|? ? Ha Nt]; subst. apply NoDup_app_intro.
  - apply Hf. left; reflexivity.
  - apply IH; [exact Nt| |].
    + intros b Hb. apply Hf. right; exact Hb.
    + intros b c x Hb Hc. apply Hd; right; assumption.
  - intros x Hx Hx'. apply in_flat_map in Hx' as [b [Hb Hxb]].
    apply (Hd a b x); [left; reflexivity|right; exact Hb| |exact Hx|exact Hxb].
    intro E. subst b. exact (Ha Hb).
Qed.

Lemma map_flat_map {A B C} (g : B -> C) (f : A -> list B) l :
  map g (flat_map f l) = flat_map (fun a => map g (f a)) l.
Proof. induction l as [|a t IH]; simpl; [reflexivity|]. rewrite map_app, IH. reflexivity. Qed.

Lemma filter_flat_map {A B} (p : B -> bool) (f : A -> list B) l :
  filter p (flat_map f l) = flat_map (fun a => filter p (f a)) l.
Proof. induction l as [|a t IH]; simpl; [reflexivity|]. rewrite filter_app, IH. reflexivity. Qed.

Lemma filter_all_true {A} (p : A -> bool) l : (forall x, In x l -> p x = true) -> filter p l = l.
Proof.
  induction l as [|a t IH]; intro H; simpl; [reflexivity|].
  rewrite (H a (or_introl eq_refl)). f_equal. apply IH. intros x Hx. apply H. right; exact Hx.
Qed.

Lemma filter_all_false {A} (p : A -> bool) l : (forall x, In x l -> p x = false) -> filter p l = [].
Proof.
  induction l as [|a t IH]; intro H; simpl; [reflexivity|].
  rewrite (H a (or_introl eq_refl)). apply IH. intros x Hx. apply H. right; exact Hx.
Qed.

Lemma firstn_sublist_in {A} n (l : list A) x : In x (firstn n l) -> In x l.
Proof. intro H. rewrite <- (firstn_skipn n l). apply in_or_app. left; exact H. Qed.

Lemma NoDup_firstn {A} n (l : list A) : NoDup l -> NoDup (firstn n l).
Proof.
  intro N.
  revert n. induction l as [|a t IH]; intros [|n]; simpl; try constructor.
  - inversion N; subst. intro H. apply firstn_sublist_in in H. contradiction.
  - inversion N; subst. apply IH. assumption.
Qed.

Lemma NoDup_map_firstn {A B} (f : A -> B) n (l : list A) : NoDup (map f l) -> NoDup (map f (firstn n l)).
Proof. intro N. rewrite <- firstn_map. apply NoDup_firstn. exact N. Qed.

(* in a sorted list, whatever is cut off by firstn is no smaller than whatever is kept *)
Lemma firstn_sorted_cut {A} (R : A -> A -> Prop) n (l : list A) x :
  StronglySorted R l -> In x l -> ~ In x (firstn n l) ->
  length (firstn n l) = n /\ forall y, In y (firstn n l) -> R y x.
Proof.
  intros S Hx Hn. rewrite <- (firstn_skipn n l) in S, Hx.
  apply in_app_or in Hx as [Hx|Hx]; [contradiction|].
  apply SSorted_app_inv in S as [_ [_ H]]. split.
  - apply firstn_length_le. destruct (Nat.le_gt_cases n (length l)) as [L|L]; [exact L|].
    rewrite skipn_all2 in Hx by lia. destruct Hx.
  - intros y Hy. apply H; assumption.
Qed.

Lemma flat_map_ext_in' {A B} (f g : A -> list B) l :
  (forall a, In a l -> f a = g a) -> flat_map f l = flat_map g l.
Proof.
  induction l as [|a t IH]; intro H; simpl; [reflexivity|].
  rewrite (H a (or_introl eq_refl)), IH; [reflexivity|]. intros b Hb. apply H. right; exact Hb.
Qed.
