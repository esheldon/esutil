(* C12 -- proofs over the reals about the distance function translated from the source
   (C12/GenR.v): gcirc is the true great-circle separation; the cap handed to the triangle search
   contains the search cap. *)
From Coq Require Import Reals Lra Bool.
From EsVerif.C12 Require Import SepModel SepCert GenR.
Open Scope R_scope.

(* ---- gcirc of the source is the true separation *)
Lemma gcirc_radians ra1 dec1 ra2 dec2 : src_gcirc ra1 dec1 ra2 dec2 false = true_sep_rad ra1 dec1 ra2 dec2.
Proof.
  unfold src_gcirc.
  destruct (Reqb ra1 ra2 && Reqb dec1 dec2) eqn:Es.
  - apply andb_prop in Es as [E1 E2]. apply Reqb_true in E1. apply Reqb_true in E2. subst.
    symmetry. apply true_sep_same.
  - cbv zeta. unfold src_D2R.
    assert (R1 : forall x, x * (PI / 180) = rad x) by reflexivity.
    rewrite !R1.
    replace (sin (rad (dec2 - dec1)) + 2 * sin (rad dec1) * cos (rad dec2) * sin (1 / 2 * rad (ra1 - ra2)) * sin (1 / 2 * rad (ra1 - ra2)))
      with (cos (rad dec1) * sin (rad dec2) - sin (rad dec1) * cos (rad dec2) * cos (rad (ra1 - ra2)))
      by (symmetry; apply b_formula).
    rewrite <- sin_true_sep, <- cos_true_sep.
    apply atan2u_polar, true_sep_rad_range.
Qed.

Lemma gcirc_degrees ra1 dec1 ra2 dec2 : src_gcirc ra1 dec1 ra2 dec2 true = true_sep ra1 dec1 ra2 dec2.
Proof.
  unfold true_sep. rewrite <- gcirc_radians. unfold src_gcirc.
  destruct (Reqb ra1 ra2 && Reqb dec1 dec2); [ring|]. cbv zeta. unfold src_R2D. reflexivity.
Qed.

Lemma gcirc_identical ra dec degrees : src_gcirc ra dec ra dec degrees = 0.
Proof.
  unfold src_gcirc, Reqb. destruct (Req_EM_T ra ra); [|congruence]. destruct (Req_EM_T dec dec); [|congruence]. reflexivity.
Qed.

(* ---- the cap searched by Matcher::match: the radius padded, cut off at the whole sphere *)
Lemma cover_pad_pos : 0 < src_cover_pad.
Proof. unfold src_cover_pad. lra. Qed.

Lemma cover_cosine_padded r : r + src_cover_pad <= 180 -> src_cover_cosine r = cos (rad (r + src_cover_pad)).
Proof.
  intro H. unfold src_cover_cosine, Rleb, src_D2R. cbv zeta.
  destruct (Rle_dec 180 (r + src_cover_pad)) as [G|G]; [replace (r + src_cover_pad) with 180 by lra|]; reflexivity.
Qed.

Lemma cover_cosine_whole r : 180 <= r + src_cover_pad -> src_cover_cosine r = -1.
Proof.
  intro H. unfold src_cover_cosine, Rleb, src_D2R. cbv zeta.
  destruct (Rle_dec 180 (r + src_cover_pad)) as [G|G]; [|contradiction].
  fold (rad 180). rewrite rad_180. apply cos_PI.
Qed.

Lemma cover_cap r : 0 <= r <= 180 ->
  0 < src_cover_pad /\ src_cover_cosine r <= cos (rad r) /\ (r < 180 -> src_cover_cosine r < cos (rad r)).
Proof.
  intros [R0 R1]. pose proof cover_pad_pos as Hp. split; [exact Hp|].
  apply rad_le in R0 as A. rewrite rad_0 in A.
  destruct (Rle_lt_dec (r + src_cover_pad) 180) as [H|H].
  - rewrite cover_cosine_padded by exact H. apply rad_le in H. rewrite rad_180 in H.
    assert (L : rad r < rad (r + src_cover_pad)) by (apply rad_lt; lra).
    assert (cos (rad (r + src_cover_pad)) < cos (rad r)) by (apply cos_decreasing_1; lra).
    split; [lra|intros _; lra].
  - rewrite cover_cosine_whole by lra. split; [apply COS_bound|]. intro L. apply rad_lt in L. rewrite rad_180 in L.
    rewrite <- cos_PI. apply cos_decreasing_1; lra.
Qed.
