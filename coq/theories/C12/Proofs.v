(* C12 — proofs about the matcher model (exact statements over the model's distance [dis]);
   the sort with which the model is executed meets the contract assumed of std::sort *)
From Coq Require Import Sorting.Permutation Sorting.Sorted ZifyBool ZifyNat.
From EsVerif.Common Require Import Base.
From EsVerif.C12 Require Import Model Spec ListLemmas.

(* ------------------------------------------------------------------ hmap = partition by id *)
Definition find_or_nil (h : hmap) (id : Z) : list nat :=
  match hmap_find h id with None => [] | Some v => v end.

Lemma find_push h id' i id :
  find_or_nil (hmap_push h id' i) id = if id' =? id then find_or_nil h id ++ [i] else find_or_nil h id.
Proof.
  unfold find_or_nil. induction h as [|[k v] t IH]; simpl.
  - destruct (id' =? id) eqn:E; reflexivity.
  - destruct (k =? id') eqn:E1; simpl.
    + destruct (k =? id) eqn:E2.
      * assert (id' =? id = true) as -> by lia. reflexivity.
      * assert (id' =? id = false) as -> by lia. reflexivity.
    + destruct (k =? id) eqn:E2.
      * assert (id' =? id = false) as -> by lia. reflexivity.
      * exact IH.
Qed.

Lemma find_fold tri l h id :
  find_or_nil (fold_left (fun h i => hmap_push h (tri i) i) l h) id
  = find_or_nil h id ++ filter (fun j => tri j =? id) l.
Proof.
  revert h. induction l as [|a t IH]; intro h; simpl; [rewrite app_nil_r; reflexivity|].
  rewrite IH, find_push. destruct (tri a =? id); [rewrite <- app_assoc|]; reflexivity.
Qed.

Definition members (tri : nat -> Z) (n2 : nat) (id : Z) : list nat :=
  filter (fun j => tri j =? id) (seq 0 n2).

Lemma find_init_hmap tri n2 id : find_or_nil (init_hmap tri n2) id = members tri n2 id.
Proof. unfold init_hmap. rewrite find_fold. reflexivity. Qed.

Lemma in_members tri n2 id j : In j (members tri n2 id) <-> (j < n2)%nat /\ tri j = id.
Proof. unfold members. rewrite filter_In, in_seq. lia. Qed.

Lemma NoDup_members tri n2 id : NoDup (members tri n2 id).
Proof. apply NoDup_filter, seq_NoDup. Qed.

Lemma nkeep_all maxmatch n : maxmatch <= 0 -> nkeep maxmatch n = n.
Proof. intro H. unfold nkeep. destruct (0 <? maxmatch) eqn:E; [lia|reflexivity]. Qed.

Lemma nkeep_pos maxmatch n : 0 < maxmatch -> nkeep maxmatch n = Nat.min (Z.to_nat maxmatch) n.
Proof.
  intro H. unfold nkeep. destruct (0 <? maxmatch) eqn:E; [|lia].
  destruct (maxmatch <? Z.of_nat n) eqn:E2; simpl; lia.
Qed.

(* maxmatch <= 0 means "keep all", whatever the sorter does *)
Lemma match_loop_nonpositive dis cover sorter h rads n1 k k' : k <= 0 -> k' <= 0 ->
  match_loop dis cover sorter h k rads n1 = match_loop dis cover sorter h k' rads n1.
Proof.
  intros Hk Hk'. unfold match_loop. apply flat_map_ext. intro i. unfold match_one.
  destruct (pair_info dis cover h i (rad_of rads i)); [reflexivity|]. rewrite !nkeep_all by assumption. reflexivity.
Qed.

Lemma cnd_eq_dec (a b : cnd) : {a = b} + {a <> b}.
Proof. decide equality; [apply Z.eq_dec|apply Nat.eq_dec]. Qed.

Lemma match_one_i1 {dis cover sorter h k i rad t} : In t (match_one dis cover sorter h k i rad) -> t_i1 t = i.
Proof.
  unfold match_one. destruct (pair_info dis cover h i rad); [intros []|].
  rewrite in_map_iff. intros [x [E _]]. subst t. reflexivity.
Qed.

(* only the distances to the stored points and the cover of input point i enter *)
Lemma leaf_pairs_ext dis i i' rad v :
  (forall j, dis i j = dis i' j) -> leaf_pairs dis i rad v = leaf_pairs dis i' rad v.
Proof.
  intros H. unfold leaf_pairs. apply flat_map_ext. intro j. rewrite (H j). reflexivity.
Qed.

Lemma pair_info_ext dis cover h i i' rad :
  (forall j, dis i j = dis i' j) -> cover i = cover i' ->
  pair_info dis cover h i rad = pair_info dis cover h i' rad.
Proof.
  intros H C. unfold pair_info. rewrite <- C. apply flat_map_ext. intro id.
  destruct (hmap_find h id); [apply leaf_pairs_ext; exact H|reflexivity].
Qed.

Section Facts.
  Variable tri : nat -> Z.
  Variable n2 : nat.
  Variable dis : nat -> nat -> Z.
  Variable cover : nat -> list Z.
  Variable sorter : list cnd -> list cnd.

  Definition by_dist (a b : cnd) : Prop := snd a <= snd b.

  (* contract of std::sort with the comparator d12 < d12 (a strict weak order on numbers) *)
  Definition sort_contract : Prop :=
    forall l, Permutation l (sorter l) /\ StronglySorted by_dist (sorter l).

  Notation h := (init_hmap tri n2).

  (* all second-set points within rad of first-set point i, by brute force *)
  Definition brute (i : nat) (rad : Z) : list cnd :=
    map (fun j => (j, dis i j)) (filter (fun j => dis i j <=? rad) (seq 0 n2)).

  Lemma in_brute i rad c :
    In c (brute i rad) <-> (fst c < n2)%nat /\ snd c = dis i (fst c) /\ dis i (fst c) <= rad.
  Proof.
    unfold brute. rewrite in_map_iff. split.
    - intros [j [E Hj]]. subst c. apply filter_In in Hj as [Hj1 Hj2]. apply in_seq in Hj1. simpl. lia.
    - intros [H1 [H2 H3]]. exists (fst c). split; [destruct c; simpl in *; congruence|].
      apply filter_In. split; [apply in_seq; lia|lia].
  Qed.

  Lemma leaf_pairs_spec i rad v :
    leaf_pairs dis i rad v = map (fun j => (j, dis i j)) (filter (fun j => dis i j <=? rad) v).
  Proof.
    unfold leaf_pairs. induction v as [|a t IH]; simpl; [reflexivity|].
    destruct (dis i a <=? rad); simpl; rewrite IH; reflexivity.
  Qed.

  Lemma pair_info_spec i rad :
    pair_info dis cover h i rad
    = map (fun j => (j, dis i j))
          (filter (fun j => dis i j <=? rad) (flat_map (members tri n2) (cover i))).
  Proof.
    unfold pair_info. induction (cover i) as [|id t IH]; simpl; [reflexivity|].
    rewrite filter_app, map_app, <- IH. f_equal.
    rewrite <- find_init_hmap, <- leaf_pairs_spec. unfold find_or_nil.
    destruct (hmap_find h id); reflexivity.
  Qed.

  Lemma NoDup_flat_members ids : NoDup ids -> NoDup (flat_map (members tri n2) ids).
  Proof.
    intro N. apply NoDup_flat_map; [exact N| |].
    - intros a _. apply NoDup_members.
    - intros a b x _ _ Hab Ha Hb. apply in_members in Ha, Hb. apply Hab. lia.
  Qed.

  (* hypotheses on the cover of input point i, relative to the model's own distance *)
  Definition cover_complete (i : nat) (rad : Z) : Prop :=
    forall j, (j < n2)%nat -> dis i j <= rad -> In (tri j) (cover i).

  Lemma pair_info_perm i rad :
    cover_complete i rad -> NoDup (cover i) ->
    Permutation (pair_info dis cover h i rad) (brute i rad).
  Proof.
    intros Hc Hn. rewrite pair_info_spec. unfold brute. apply Permutation_map.
    apply NoDup_Permutation.
    - apply NoDup_filter, NoDup_flat_members, Hn.
    - apply NoDup_filter, seq_NoDup.
    - intro j. rewrite !filter_In, in_seq, in_flat_map. split.
      + intros [[id [Hid Hj]] Hd]. apply in_members in Hj. lia.
      + intros [Hj Hd]. split; [|exact Hd]. exists (tri j). split.
        * apply Hc; lia.
        * apply in_members. lia.
  Qed.

  Lemma in_pair_info_brute i rad c : In c (pair_info dis cover h i rad) -> In c (brute i rad).
  Proof.
    rewrite pair_info_spec, in_brute, in_map_iff. intros [j [E Hj]]. subst c. simpl.
    apply filter_In in Hj as [Hj Hd]. apply in_flat_map in Hj as [id [_ Hj]].
    apply in_members in Hj. lia.
  Qed.

  Hypothesis Hsort : sort_contract.

  Lemma sorter_length l : length (sorter l) = length l.
  Proof. symmetry. apply Permutation_length, Hsort. Qed.

  (* the rows of input point i, as (i2, d12) *)
  Definition rows (maxmatch : Z) (i : nat) (rad : Z) : list cnd :=
    firstn (nkeep maxmatch (length (pair_info dis cover h i rad))) (sorter (pair_info dis cover h i rad)).

  (* the test for no candidates in match_one only avoids sorting an empty list *)
  Lemma match_one_rows maxmatch i rad :
    match_one dis cover sorter h maxmatch i rad = map (fun c => (i, fst c, snd c)) (rows maxmatch i rad).
  Proof.
    unfold match_one, rows. destruct (pair_info dis cover h i rad) as [|a t] eqn:E; [|reflexivity].
    assert (sorter [] = []) as ->.
    { apply length_zero_iff_nil. rewrite sorter_length. reflexivity. }
    rewrite firstn_nil. reflexivity.
  Qed.

  Lemma rows_unlimited maxmatch i rad :
    maxmatch <= 0 -> rows maxmatch i rad = sorter (pair_info dis cover h i rad).
  Proof.
    intro H. unfold rows. rewrite nkeep_all by exact H. rewrite <- sorter_length. apply firstn_all.
  Qed.

  Lemma rows_limited maxmatch i rad :
    0 < maxmatch -> rows maxmatch i rad = firstn (Z.to_nat maxmatch) (sorter (pair_info dis cover h i rad)).
  Proof.
    intro H. unfold rows. rewrite nkeep_pos by exact H. rewrite <- sorter_length.
    destruct (Nat.le_gt_cases (Z.to_nat maxmatch) (length (sorter (pair_info dis cover h i rad)))) as [L|L].
    - rewrite Nat.min_l by exact L. reflexivity.
    - rewrite Nat.min_r by lia. rewrite firstn_all. symmetry. apply firstn_all2. lia.
  Qed.

  Lemma rows_sorted maxmatch i rad : StronglySorted by_dist (rows maxmatch i rad).
  Proof. apply SSorted_firstn, Hsort. Qed.

  Lemma rows_candidates maxmatch i rad c :
    In c (rows maxmatch i rad) -> In c (pair_info dis cover h i rad).
  Proof.
    intro H. apply firstn_sublist_in in H. eapply Permutation_in; [apply Permutation_sym, Hsort|exact H].
  Qed.

  Lemma rows_brute maxmatch i rad c : In c (rows maxmatch i rad) -> In c (brute i rad).
  Proof. intro H. apply in_pair_info_brute. eapply rows_candidates; exact H. Qed.

  Lemma rows_nodup maxmatch i rad : NoDup (cover i) -> NoDup (map fst (rows maxmatch i rad)).
  Proof.
    intro Hn. apply NoDup_map_firstn.
    eapply Permutation_NoDup; [apply Permutation_map, Hsort|].
    rewrite pair_info_spec, map_map. simpl. rewrite map_id.
    apply NoDup_filter, NoDup_flat_members, Hn.
  Qed.

  Lemma sorter_perm_brute i rad :
    cover_complete i rad -> NoDup (cover i) ->
    Permutation (sorter (pair_info dis cover h i rad)) (brute i rad).
  Proof.
    intros Hc Hn. eapply Permutation_trans; [apply Permutation_sym, Hsort|]. apply pair_info_perm; assumption.
  Qed.

  Lemma rows_complete maxmatch i rad j :
    cover_complete i rad -> NoDup (cover i) -> (j < n2)%nat -> dis i j <= rad ->
    In (j, dis i j) (rows maxmatch i rad)
    \/ (0 < maxmatch /\ length (rows maxmatch i rad) = Z.to_nat maxmatch
        /\ forall c, In c (rows maxmatch i rad) -> snd c <= dis i j).
  Proof.
    intros Hc Hn Hj Hd.
    assert (Hin : In (j, dis i j) (sorter (pair_info dis cover h i rad))).
    { eapply Permutation_in; [apply Permutation_sym, sorter_perm_brute; assumption|].
      apply in_brute. simpl. lia. }
    destruct (Z.le_gt_cases maxmatch 0) as [L|L].
    - left. rewrite rows_unlimited by exact L. exact Hin.
    - rewrite rows_limited by lia.
      destruct (in_dec cnd_eq_dec (j, dis i j) (firstn (Z.to_nat maxmatch) (sorter (pair_info dis cover h i rad)))) as [I|I].
      + left; exact I.
      + right. split; [lia|].
        destruct (firstn_sorted_cut by_dist (Z.to_nat maxmatch) _ (j, dis i j) (proj2 (Hsort _)) Hin I) as [E F].
        split; [exact E|]. intros c Hc'. apply (F c Hc').
  Qed.

  (* ------------------------------------------------------------ the whole loop *)
  Variable rads : list Z.
  Notation rad := (rad_of rads).
  Notation out k n1 := (match_loop dis cover sorter h k rads n1).

  Lemma in_match_loop k n1 t :
    In t (out k n1) <-> (t_i1 t < n1)%nat /\ In (t_i2 t, t_d t) (rows k (t_i1 t) (rad (t_i1 t))).
  Proof.
    unfold match_loop. rewrite in_flat_map. split.
    - intros [i [Hi Ht]]. apply in_seq in Hi. pose proof (match_one_i1 Ht) as E.
      rewrite match_one_rows, in_map_iff in Ht. destruct Ht as [c [Ec Hc]]. subst t. simpl in *.
      split; [lia|]. destruct c; exact Hc.
    - intros [Hi Ht]. exists (t_i1 t). split; [apply in_seq; lia|].
      rewrite match_one_rows, in_map_iff. exists (t_i2 t, t_d t). split; [|exact Ht].
      destruct t as [[a b] c]; reflexivity.
  Qed.

  Lemma match_loop_sound k n1 t : In t (out k n1) ->
    (t_i1 t < n1)%nat /\ (t_i2 t < n2)%nat /\ t_d t = dis (t_i1 t) (t_i2 t)
    /\ dis (t_i1 t) (t_i2 t) <= rad (t_i1 t).
  Proof. intro H. apply in_match_loop in H as [Hi Hr]. apply rows_brute, in_brute in Hr. tauto. Qed.

  Lemma loop_grouped_gen k s n :
    StronglySorted le (map t_i1 (flat_map (fun i => match_one dis cover sorter h k i (rad i)) (seq s n)))
    /\ forall x, In x (map t_i1 (flat_map (fun i => match_one dis cover sorter h k i (rad i)) (seq s n))) -> (s <= x)%nat.
  Proof.
    revert s. induction n as [|n IH]; intro s; simpl.
    - split; [constructor|intros x []].
    - destruct (IH (S s)) as [S1 B1]. rewrite map_app. split.
      + apply SSorted_app; [|exact S1|].
        * apply SSorted_const with (s := s). intros x Hx. apply in_map_iff in Hx as [t [E Ht]].
          subst x. eapply match_one_i1; exact Ht.
        * intros x y Hx Hy. apply in_map_iff in Hx as [t [E Ht]]. subst x.
          rewrite (match_one_i1 Ht). specialize (B1 y Hy). lia.
      + intros x Hx. apply in_app_or in Hx as [Hx|Hx].
        * apply in_map_iff in Hx as [t [E Ht]]. subst x. rewrite (match_one_i1 Ht). lia.
        * specialize (B1 x Hx). lia.
  Qed.

  Lemma loop_grouped k n1 : StronglySorted le (map t_i1 (out k n1)).
  Proof. apply (loop_grouped_gen k 0 n1). Qed.

  Lemma group_loop_gen k i s n :
    filter (fun t => (t_i1 t =? i)%nat) (flat_map (fun i => match_one dis cover sorter h k i (rad i)) (seq s n))
    = if ((s <=? i) && (i <? s + n))%nat then match_one dis cover sorter h k i (rad i) else [].
  Proof.
    revert s. induction n as [|n IH]; intro s; simpl.
    - destruct ((s <=? i)%nat && (i <? s + 0)%nat) eqn:E; [lia|reflexivity].
    - rewrite filter_app, IH. destruct (Nat.eq_dec s i) as [E|E].
      + subst s. rewrite filter_all_true.
        2:{ intros t Ht. rewrite (match_one_i1 Ht). apply Nat.eqb_refl. }
        assert ((S i <=? i)%nat && (i <? S i + n)%nat = false) as -> by lia.
        assert ((i <=? i)%nat && (i <? i + S n)%nat = true) as -> by lia.
        apply app_nil_r.
      + rewrite filter_all_false.
        2:{ intros t Ht. rewrite (match_one_i1 Ht). apply Nat.eqb_neq. exact E. }
        cbn [app]. destruct ((S s <=? i)%nat && (i <? S s + n)%nat) eqn:E1;
          destruct ((s <=? i)%nat && (i <? s + S n)%nat) eqn:E2; try reflexivity; lia.
  Qed.

  Lemma group_loop k n1 i :
    group i (out k n1) = if (i <? n1)%nat then rows k i (rad i) else [].
  Proof.
    unfold group, match_loop. rewrite group_loop_gen. simpl.
    destruct (i <? n1)%nat; [|reflexivity].
    rewrite match_one_rows, map_map. simpl.
    rewrite <- (map_id (rows k i (rad i))) at 2. apply map_ext. intros [a b]; reflexivity.
  Qed.
End Facts.

(* the model's parameters are read off the sort hypothesis and the goal *)
Arguments match_one_rows {tri n2 dis cover sorter} Hsort.
Arguments rows_complete {tri n2 dis cover sorter} Hsort.
Arguments rows_limited {tri n2 dis cover sorter} Hsort.
Arguments rows_nodup {tri n2 dis cover sorter} Hsort.
Arguments rows_sorted {tri n2 dis cover sorter} Hsort.
Arguments rows_unlimited {tri n2 dis cover sorter} Hsort.
Arguments sorter_perm_brute {tri n2 dis cover sorter} Hsort.
Arguments in_match_loop {tri n2 dis cover sorter} Hsort {rads}.
Arguments match_loop_sound {tri n2 dis cover sorter} Hsort {rads k n1 t}.
Arguments group_loop {tri n2 dis cover sorter} Hsort {rads}.

Lemma in_group_iff i j out : In j (map fst (group i out)) <-> exists c, In (i, j, c) out.
Proof.
  unfold group. rewrite map_map, in_map_iff. cbn [fst]. split.
  - intros [t [E Ht]]. apply filter_In in Ht as [Ht Ei]. apply Nat.eqb_eq in Ei. exists (t_d t).
    destruct t as [[a b] c]. cbn in *. subst. exact Ht.
  - intros [c H]. exists (i, j, c). split; [reflexivity|]. apply filter_In. split; [exact H|apply Nat.eqb_refl].
Qed.

(* the sort with which the model is executed meets the contract assumed of std::sort *)
Lemma insert_c_perm x l : Permutation (x :: l) (insert_c x l).
Proof.
  induction l as [|y t IH]; simpl; [apply Permutation_refl|].
  destruct (snd x <? snd y); [apply Permutation_refl|].
  eapply Permutation_trans; [apply perm_swap|]. apply perm_skip. exact IH.
Qed.

Lemma insert_c_sorted x l : StronglySorted by_dist l -> StronglySorted by_dist (insert_c x l).
Proof.
  induction 1 as [|y t St IH Fa]; simpl; [repeat constructor|].
  destruct (snd x <? snd y) eqn:E.
  - constructor; [constructor; assumption|]. constructor; [unfold by_dist; lia|].
    rewrite Forall_forall in *. intros z Hz. specialize (Fa z Hz). unfold by_dist in *. lia.
  - constructor; [exact IH|]. apply Forall_forall. intros z Hz.
    apply (Permutation_in _ (Permutation_sym (insert_c_perm x t))) in Hz. destruct Hz as [Hz|Hz].
    + subst z. unfold by_dist. lia.
    + rewrite Forall_forall in Fa. apply Fa. exact Hz.
Qed.

Lemma isort_c_gen l acc :
  StronglySorted by_dist acc ->
  Permutation (acc ++ l) (fold_left (fun a x => insert_c x a) l acc)
  /\ StronglySorted by_dist (fold_left (fun a x => insert_c x a) l acc).
Proof.
  revert acc. induction l as [|x t IH]; intros acc S; simpl.
  - rewrite app_nil_r. split; [apply Permutation_refl|exact S].
  - destruct (IH (insert_c x acc) (insert_c_sorted x acc S)) as [P S']. split; [|exact S'].
    eapply Permutation_trans; [|exact P].
    eapply Permutation_trans; [apply Permutation_sym, Permutation_middle|].
    change (x :: acc ++ t) with ((x :: acc) ++ t). apply Permutation_app_tail, insert_c_perm.
Qed.

Lemma isort_c_contract : sort_contract isort_c.
Proof.
  intro l. unfold isort_c. destruct (isort_c_gen l [] (SSorted_nil _)) as [P S]. split; assumption.
Qed.
