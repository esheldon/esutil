(* C12 -- real-number theorems about the distance function of the matcher (style R, DESIGN 3.3).
   [src_gcirc], [src_cover_cosine], [src_cover_pad] are translated from esutil/htm/htmc.cc on
   every run (C12/GenR.v); [true_sep] is the independent definition of the great-circle
   separation (acos of the dot product of the two unit vectors, in degrees).  Rounding is not
   modelled: these are statements about the formulas the code evaluates in binary64; the gap is
   measured on every case by the correspondence run. *)
From Coq Require Import Reals Lra List.
Import ListNotations.
From EsVerif.C12 Require Import Proofs SepModel SepCert GenR SepProofs.
Open Scope R_scope.

(* The reported separation: the formula of gcirc IS the true separation, for all inputs
   (degrees = true is how Matcher::match calls it) ... *)
Theorem C12_gcirc_is_true_separation : forall ra1 dec1 ra2 dec2,
  src_gcirc ra1 dec1 ra2 dec2 true = true_sep ra1 dec1 ra2 dec2
  /\ src_gcirc ra1 dec1 ra2 dec2 false = true_sep_rad ra1 dec1 ra2 dec2
  /\ 0 <= true_sep ra1 dec1 ra2 dec2 <= 180.
Proof.
  intros. split; [apply gcirc_degrees|]. split; [apply gcirc_radians|apply true_sep_range].
Qed.

(* ... and identical points are at distance exactly zero (the early return of gcirc). *)
Theorem C12_gcirc_identical_points_zero : forall ra dec degrees,
  src_gcirc ra dec ra dec degrees = 0 /\ true_sep ra dec ra dec = 0.
Proof.
  intros. split; [apply gcirc_identical|]. unfold true_sep. rewrite true_sep_same. apply Rmult_0_l.
Qed.

(* The cap handed to the triangle search contains the search cap with a positive margin: its
   cosine is below cos(radius), strictly unless the radius is 180 degrees (whole sphere). *)
Theorem C12_searched_cap_contains_search_cap : forall r, 0 <= r <= 180 ->
  0 < src_cover_pad /\ src_cover_cosine r <= cos (rad r) /\ (r < 180 -> src_cover_cosine r < cos (rad r)).
Proof. exact cover_cap. Qed.

(* Hence every point whose true separation from the centre is within the search radius lies
   inside the cap { v | v . c >= d } that Matcher::match hands to the triangle search
   (SpatialDomain::setRaDecD(ra, dec, d)), strictly inside unless the radius is 180 degrees.  This
   reduces hypothesis H_cover of the discrete theorems to the contract of the JHU library
   ("every triangle that contains a point of the cap is listed", "lookupID returns a triangle
   containing the point"). *)
Theorem C12_points_within_radius_lie_in_searched_cap : forall r ra1 dec1 ra2 dec2, 0 <= r <= 180 ->
  true_sep ra1 dec1 ra2 dec2 <= r ->
  src_cover_cosine r <= dot (point (rad ra1) (rad dec1)) (point (rad ra2) (rad dec2))
  /\ (r < 180 -> src_cover_cosine r < dot (point (rad ra1) (rad dec1)) (point (rad ra2) (rad dec2))).
Proof.
  intros r ra1 dec1 ra2 dec2 Hr Hs. destruct (cover_cap r Hr) as [_ [C1 C2]].
  pose proof (within_radius_cos r ra1 dec1 ra2 dec2 (proj2 Hr) Hs).
  split; [lra|]. intros L. specialize (C2 L). lra.
Qed.

(* ... formally: from a geometric contract of the JHU library -- lookupID returns a triangle that
   contains the point; SpatialDomain::intersect lists every triangle containing a point of the cap
   the source hands to it -- and exact distances, the completeness half of H_cover follows for every
   first-set point.  (The other half, duplicate-free id lists, and the contract itself stay monitored.) *)
Theorem C12_H_cover_from_library_contract :
  forall (n1 n2 : nat) (ra1 dec1 ra2 dec2 radR : nat -> R) (dis : nat -> nat -> Z) (radZ : nat -> Z)
         (tri : nat -> Z) (cover : nat -> list Z) (inside : R -> R -> Z -> Prop),
  (forall j, (j < n2)%nat -> inside (ra2 j) (dec2 j) (tri j)) ->
  (forall i, (i < n1)%nat -> forall ra dec id,
     src_cover_cosine (radR i) <= dot (point (rad (ra1 i)) (rad (dec1 i))) (point (rad ra) (rad dec)) ->
     inside ra dec id -> In id (cover i)) ->
  (forall i j, (i < n1)%nat -> (j < n2)%nat -> (dis i j <= radZ i)%Z ->
     true_sep (ra1 i) (dec1 i) (ra2 j) (dec2 j) <= radR i) ->
  (forall i, (i < n1)%nat -> 0 <= radR i <= 180) ->
  forall i, (i < n1)%nat -> cover_complete tri n2 dis cover i (radZ i).
Proof.
  intros n1 n2 ra1 dec1 ra2 dec2 radR dis radZ tri cover inside Hlookup Hintersect Hunits Hrange i Hi j Hj Hd.
  apply (Hintersect i Hi (ra2 j) (dec2 j)); [|apply Hlookup; exact Hj].
  apply C12_points_within_radius_lie_in_searched_cap; [apply Hrange; exact Hi|apply Hunits; assumption].
Qed.

(* Soundness of the per-case certificates (closed by Interval in generated files): bounds on the
   haversine give bounds on the true separation. *)
Theorem C12_separation_certificate_sound : forall ra1 dec1 ra2 dec2 lo hi,
  (lo <= 0 \/ (0 <= lo <= 180 /\ havs lo <= hav ra1 dec1 ra2 dec2)) ->
  (180 <= hi \/ (0 <= hi <= 180 /\ hav ra1 dec1 ra2 dec2 <= havs hi)) ->
  lo <= true_sep ra1 dec1 ra2 dec2 <= hi.
Proof. exact sep_between_intro. Qed.

(* Non-vacuity: the equator points (0,0) and (90,0) are 90 degrees apart. *)
Example C12_sep_nonvacuous : true_sep 0 0 90 0 = 90.
Proof.
  unfold true_sep, true_sep_rad, dot, point, rad.
  replace (0 * (PI / 180)) with 0 by ring. replace (90 * (PI / 180)) with (PI / 2) by field.
  rewrite cos_0, sin_0, cos_PI2, sin_PI2.
  replace (1 * 1 * (1 * 0) + 1 * 0 * (1 * 1) + 0 * 0) with 0 by ring.
  rewrite acos_0. field. apply PI_neq0.
Qed.

(* Non-vacuity of the library contract: one triangle (id 7) holding everything. *)
Example C12_library_contract_nonvacuous :
  let inside := fun (_ _ : R) (id : Z) => id = 7%Z in
  (forall j, (j < 3)%nat -> inside 0 0 ((fun _ => 7%Z) j))
  /\ (forall i, (i < 2)%nat -> forall ra dec id, inside ra dec id -> In id ((fun _ => [7%Z]) i))
  /\ (forall i j, true_sep (INR i) 0 (INR j) 1 <= 180)
  /\ cover_complete (fun _ => 7%Z) 3 (fun _ _ => 0%Z) (fun _ => [7%Z]) 0 5.
Proof.
  cbv zeta. split; [reflexivity|]. split; [intros i _ ra dec id E; left; symmetry; exact E|].
  split; [intros; apply true_sep_range|]. intros j _ _. left. reflexivity.
Qed.
