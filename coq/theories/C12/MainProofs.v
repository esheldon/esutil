(* C12 — the statements exported by Properties.v, proved from the facts of Proofs.v *)
From Coq Require Import Sorting.Permutation Sorting.Sorted ZifyBool ZifyNat.
From EsVerif.Common Require Import Base.
From EsVerif.C12 Require Import Model Spec ListLemmas Proofs.

Section Main.
  Variable tri : nat -> Z.
  Variable n2 : nat.
  Variable dis : nat -> nat -> Z.
  Variable cover : nat -> list Z.
  Variable sorter : list cnd -> list cnd.
  Variable rads : list Z.
  Variable n1 : nat.

  Notation h := (init_hmap tri n2).
  Notation rad := (rad_of rads).
  Notation out k := (match_loop dis cover sorter h k rads n1).

  (* H_cover: every second-set point within the radius of input point i lies in a listed
     triangle, and the listed ids are duplicate-free *)
  Definition H_cover : Prop :=
    forall i, (i < n1)%nat -> cover_complete tri n2 dis cover i (rad i) /\ NoDup (cover i).

  Hypothesis Hsort : sort_contract sorter.
  Hypothesis Hcov : H_cover.

  Lemma exact_in k t : k <= 0 ->
    (In t (out k) <->
     (t_i1 t < n1)%nat /\ (t_i2 t < n2)%nat /\ t_d t = dis (t_i1 t) (t_i2 t)
     /\ dis (t_i1 t) (t_i2 t) <= rad (t_i1 t)).
  Proof.
    intro Hk. split; [apply (match_loop_sound Hsort)|].
    intros [Hi [Hj [Hd Hr]]]. apply (in_match_loop Hsort). split; [exact Hi|].
    destruct (Hcov _ Hi) as [Hc Hn].
    destruct (rows_complete Hsort k _ _ _ Hc Hn Hj Hr) as [I|[L _]]; [|lia].
    rewrite Hd. exact I.
  Qed.

  Lemma once k : NoDup (map t_ij (out k)).
  Proof.
    unfold match_loop. rewrite map_flat_map. apply NoDup_flat_map.
    - apply seq_NoDup.
    - intros i Hi. apply in_seq in Hi. rewrite (match_one_rows Hsort), map_map.
      change (NoDup (map (fun x : nat * Z => (fun j => (i, j)) (fst x)) (rows tri n2 dis cover sorter k i (rad i)))).
      rewrite <- (map_map fst (fun j => (i, j))). apply FinFun.Injective_map_NoDup.
      + intros a b Hab. congruence.
      + apply (rows_nodup Hsort). apply Hcov. lia.
    - intros a b x _ _ Hab Ha Hb. apply in_map_iff in Ha as [ta [Ea Ha]], Hb as [tb [Eb Hb]].
      apply match_one_i1 in Ha, Hb. apply Hab.
      unfold t_ij, t_i1 in *. subst x. rewrite <- Ha, <- Hb, Eb. reflexivity.
  Qed.

  (* Hsort is a premise that the proof does not use: loop_grouped holds for every sorter *)
  Lemma grouped k : StronglySorted le (map t_i1 (out k)).
  Proof using tri n2 dis cover sorter rads n1 Hsort. apply loop_grouped. Qed.

  Lemma group_ind (P : list cnd -> Prop) k i :
    ((n1 <= i)%nat -> P []) -> ((i < n1)%nat -> P (rows tri n2 dis cover sorter k i (rad i))) -> P (group i (out k)).
  Proof.
    intros P0 Pr. rewrite (group_loop Hsort).
    destruct (Nat.ltb_spec i n1) as [Hi|Hi]; [apply Pr, Hi|apply P0, Hi].
  Qed.

  Lemma group_eq k i : (i < n1)%nat -> group i (out k) = rows tri n2 dis cover sorter k i (rad i).
  Proof.
    intro Hi. apply group_ind; [lia|reflexivity].
  Qed.

  Lemma sorted_within k i : StronglySorted Z.le (map snd (group i (out k))).
  Proof.
    apply group_ind; intros _; [constructor|]. apply SSorted_map, (rows_sorted Hsort).
  Qed.

  Lemma kclosest k i : 0 < k -> (i < n1)%nat ->
    exists l, Permutation l (brute n2 dis i (rad i)) /\ StronglySorted by_dist l
              /\ group i (out k) = firstn (Z.to_nat k) l.
  Proof.
    intros Hk Hi. exists (sorter (pair_info dis cover h i (rad i))). destruct (Hcov _ Hi) as [Hc Hn].
    split; [apply (sorter_perm_brute Hsort); assumption|].
    split; [apply Hsort|]. rewrite group_eq by exact Hi.
    apply (rows_limited Hsort). exact Hk.
  Qed.

  Lemma unlimited_group k i : k <= 0 -> (i < n1)%nat ->
    Permutation (group i (out k)) (brute n2 dis i (rad i)).
  Proof.
    intros Hk Hi. destruct (Hcov _ Hi) as [Hc Hn]. rewrite group_eq by exact Hi.
    rewrite (rows_unlimited Hsort) by exact Hk.
    apply (sorter_perm_brute Hsort); assumption.
  Qed.

  (* identical points: gcirc returns exactly 0 for them *)
  Variable same : nat -> nat -> bool.
  Hypothesis Hsame : forall i j, same i j = true -> dis i j = 0.

  Lemma self_zero_row k t : In t (out k) -> same (t_i1 t) (t_i2 t) = true -> t_d t = 0.
  Proof.
    intros Ht Hs. rewrite <- (Hsame _ _ Hs). apply (match_loop_sound Hsort Ht).
  Qed.

  (* ------------------------------------------ the model meets the statement about outputs *)
  Variable D : nat -> nat -> Z.
  Variable tol : Z.
  Hypothesis Hacc : forall i j, (i < n1)%nat -> (j < n2)%nat -> Z.abs (dis i j - D i j) <= tol.

  Lemma model_meets_spec k : match_spec n1 n2 D rad tol k same (out k).
  Proof.
    constructor.
    - intros t Ht. split; apply (match_loop_sound Hsort Ht).
    - apply grouped.
    - intro i. apply group_ind; intro Hi; [constructor|].
      apply (rows_nodup Hsort), Hcov, Hi.
    - apply sorted_within.
    - intros t Ht. destruct (match_loop_sound Hsort Ht) as [Hi [Hj [Hd Hr]]].
      specialize (Hacc _ _ Hi Hj). rewrite Hd. lia.
    - intros Hk i. apply group_ind; intros _; [simpl; lia|].
      rewrite (rows_limited Hsort), firstn_length by exact Hk. lia.
    - intros i j Hi Hj Hin. destruct (Hcov _ Hi) as [Hc Hn]. specialize (Hacc _ _ Hi Hj).
      assert (Hd : dis i j <= rad i).
      { destruct Hin as [Hin|[Hs Hr]]; [lia|]. rewrite (Hsame _ _ Hs). exact Hr. }
      destruct (rows_complete Hsort k i (rad i) j Hc Hn Hj Hd) as [I|[L1 [L2 L3]]].
      + left. rewrite group_eq by exact Hi. apply in_map_iff. exists (j, dis i j). split; [reflexivity|exact I].
      + right. unfold cut_and_no_farther. rewrite group_eq by exact Hi. split; [exact L1|]. split; [lia|].
        intros c Hc'. specialize (L3 c Hc'). lia.
    - intros t Ht Hs. eapply self_zero_row; eassumption.
  Qed.
End Main.

Arguments exact_in {tri n2 dis cover sorter rads n1} Hsort.
Arguments group_eq {tri n2 dis cover sorter rads n1} Hsort.
Arguments kclosest {tri n2 dis cover sorter rads n1} Hsort.
Arguments sorted_within {tri n2 dis cover sorter rads n1} Hsort.
Arguments unlimited_group {tri n2 dis cover sorter rads n1} Hsort.

(* ---------------------------------------------------------------- independence of the index:
   two matchers (different depth, hence different triangle ids and covers; different objects;
   different tie-breaking of the sort) return the same pairs *)
Section Independence.
  Variables (tri tri' : nat -> Z) (n2 : nat) (dis : nat -> nat -> Z).
  Variables (cover cover' : nat -> list Z) (sorter sorter' : list cnd -> list cnd).
  Variables (rads : list Z) (n1 : nat).
  Hypothesis Hsort : sort_contract sorter.
  Hypothesis Hsort' : sort_contract sorter'.
  Hypothesis Hcov : H_cover tri n2 dis cover rads n1.
  Hypothesis Hcov' : H_cover tri' n2 dis cover' rads n1.

  Notation out k := (match_loop dis cover sorter (init_hmap tri n2) k rads n1).
  Notation out' k := (match_loop dis cover' sorter' (init_hmap tri' n2) k rads n1).

  Lemma independent_unlimited k t : k <= 0 -> (In t (out k) <-> In t (out' k)).
  Proof.
    intro Hk. rewrite (exact_in Hsort Hcov k t Hk).
    rewrite (exact_in Hsort' Hcov' k t Hk). reflexivity.
  Qed.

  (* for every k the two groups have the same sequence of distances (with a limit the members can
     differ among equal distances) *)
  Lemma independent_distances k i : (i < n1)%nat ->
    map snd (group i (out k)) = map snd (group i (out' k)).
  Proof.
    intro Hi. destruct (Z.le_gt_cases k 0) as [Hk|Hk].
    - apply sorted_perm_eq.
      + apply (sorted_within Hsort).
      + apply (sorted_within Hsort').
      + apply Permutation_map. eapply Permutation_trans.
        * apply (unlimited_group Hsort Hcov k i Hk Hi).
        * apply Permutation_sym. apply (unlimited_group Hsort' Hcov' k i Hk Hi).
    - destruct (kclosest Hsort Hcov k i Hk Hi) as [l [P [S E]]].
      destruct (kclosest Hsort' Hcov' k i Hk Hi) as [l' [P' [S' E']]].
      rewrite E, E', <- !firstn_map. f_equal. apply sorted_perm_eq.
      + apply SSorted_map. exact S.
      + apply SSorted_map. exact S'.
      + apply Permutation_map. eapply Permutation_trans; [exact P|apply Permutation_sym; exact P'].
  Qed.
End Independence.

(* ---------------------------------------------------------------- python wrappers *)
Lemma matcher_match_ok dis cover sorter m n1 rads k :
  (length rads = 1 \/ length rads = n1)%nat ->
  matcher_match dis cover sorter m n1 n1 rads k = Ok (match_loop dis cover sorter (m_hmap m) k rads n1).
Proof.
  intro H. unfold matcher_match. rewrite Nat.eqb_refl. cbn [negb].
  destruct H as [H|H]; rewrite H, Nat.eqb_refl; [reflexivity|]. rewrite andb_false_r. reflexivity.
Qed.

Lemma matcher_match_rejects dis cover sorter m n1 n1dec rads k :
  (n1 <> n1dec \/ (length rads <> 1 /\ length rads <> n1))%nat ->
  matcher_match dis cover sorter m n1 n1dec rads k = Err EValue.
Proof.
  intro H. unfold matcher_match. destruct (n1 =? n1dec)%nat eqn:E; simpl; [|reflexivity].
  destruct H as [H|[H1 H2]]; [apply Nat.eqb_eq in E; contradiction|].
  apply Nat.eqb_neq in H1, H2. rewrite H1, H2. reflexivity.
Qed.

(* the one-shot method IS a fresh Matcher followed by its match method: the size checks it makes
   itself are those of Matcher.match again *)
Lemma htm_match_is_matcher dis cover sorter tri n2 n1 n1dec rads k :
  htm_match dis cover sorter tri n2 n2 n1 n1dec rads k
  = matcher_match dis cover sorter (matcher_new tri n2) n1 n1dec rads k.
Proof.
  unfold htm_match, matcher_init, matcher_match. rewrite Nat.eqb_refl. cbn [negb bind].
  destruct (negb (n1 =? n1dec)%nat); [reflexivity|].
  destruct (negb (length rads =? 1)%nat && negb (length rads =? n1)%nat); reflexivity.
Qed.

(* ---------------------------------------------------------------- corollaries in the shape of
   the python entry points *)
Section EntryPoints.
  Variables (tri tri' : nat -> Z) (n2 : nat) (dis : nat -> nat -> Z).
  Variables (cover cover' : nat -> list Z) (sorter sorter' : list cnd -> list cnd).
  Variables (rads : list Z) (n1 : nat).
  Hypothesis Hsort : sort_contract sorter.
  Hypothesis Hsort' : sort_contract sorter'.
  Hypothesis Hcov : H_cover tri n2 dis cover rads n1.
  Hypothesis Hcov' : H_cover tri' n2 dis cover' rads n1.
  Hypothesis Hrads : (length rads = 1 \/ length rads = n1)%nat.

  Lemma two_calls_agree k o o' :
    htm_match dis cover sorter tri n2 n2 n1 n1 rads k = Ok o ->
    htm_match dis cover' sorter' tri' n2 n2 n1 n1 rads k = Ok o' ->
    (k <= 0 -> forall t, In t o <-> In t o')
    /\ (forall i, (i < n1)%nat -> map snd (group i o) = map snd (group i o')).
  Proof.
    rewrite !htm_match_is_matcher, !matcher_match_ok by exact Hrads.
    intros E E'. inversion E; inversion E'; subst. split.
    - intros Hk t. apply (independent_unlimited tri tri' n2 dis cover cover' sorter sorter' rads n1); assumption.
    - intros i Hi. apply (independent_distances tri tri' n2 dis cover cover' sorter sorter' rads n1); assumption.
  Qed.

  Lemma matcher_vs_oneshot k o o' :
    matcher_match dis cover sorter (matcher_new tri n2) n1 n1 rads k = Ok o ->
    htm_match dis cover' sorter' tri' n2 n2 n1 n1 rads k = Ok o' ->
    (k <= 0 -> forall t, In t o <-> In t o')
    /\ (forall i, (i < n1)%nat -> map snd (group i o) = map snd (group i o')).
  Proof.
    intro E. apply two_calls_agree. rewrite htm_match_is_matcher. exact E.
  Qed.
End EntryPoints.
