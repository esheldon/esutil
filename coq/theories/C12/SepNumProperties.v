(* C12 -- real-number theorems with numeric content; what they need is proved in SepNumProofs.v,
   except the one numeric constant, which is bounded here by Interval (hence the specifications of
   the primitive integers among the assumptions of the first theorem). *)
From Coq Require Import Reals Lra.
From Interval Require Import Tactic.
From EsVerif.C12 Require Import SepModel SepCert GenR SepProofs SepNumProofs.
Open Scope R_scope.

(* 1 - cos loses 40 bits to cancellation here.  A precision above 53 also makes Interval compute with
   integers; at 53 and below it uses the machine's floats and the theorem would rest on their axioms. *)
Lemma pad_gap : 15 / 10 ^ 13 <= 1 - cos (rad src_cover_pad).
Proof. unfold rad, src_cover_pad. interval with (i_prec 80). Qed.

(* The searched cap with room for floating-point error.  Let d' be ANY number within 1e-13 (about
   450 ulp) of the cosine the source computes for the padded cap -- in particular the binary64 value
   the real code obtains.  Every point whose true separation from the centre is within the search
   radius r satisfies  u.c >= d' + 1.4e-12 : it lies inside the cap { v | v.c >= d' } handed to
   SpatialDomain::setRaDecD with a margin 1400 times the library's own tolerance gEpsilon = 1e-15.
   The statement uses the value of MATCH_COVER_PAD_DEGREES regenerated from the source: a pad below
   about 9.6e-5 degree no longer proves. *)
Theorem C12_searched_cap_robust_to_rounding : forall r d' ra1 dec1 ra2 dec2,
  0 <= r -> r + src_cover_pad <= 180 ->
  Rabs (d' - src_cover_cosine r) <= 1 / 10 ^ 13 ->
  true_sep ra1 dec1 ra2 dec2 <= r ->
  d' + 14 / 10 ^ 13 <= dot (point (rad ra1) (rad dec1)) (point (rad ra2) (rad dec2)).
Proof.
  intros r d' ra1 dec1 ra2 dec2 Hr Hp Hd Hs. rewrite (cover_cosine_padded r Hp) in Hd.
  pose proof (cap_margin r src_cover_pad d' ra1 dec1 ra2 dec2 Hr (Rlt_le _ _ cover_pad_pos) Hp Hs).
  pose proof pad_gap. lra.
Qed.

(* Beyond 180 - pad the source asks for cosine exactly -1: the whole sphere. *)
Theorem C12_searched_cap_whole_sphere_beyond : forall r, 180 <= r + src_cover_pad -> src_cover_cosine r = -1.
Proof. exact cover_cosine_whole. Qed.

(* Conditioning of the atan2 form in which gcirc computes the separation.  If the two arguments handed
   to atan2 are within eps <= 0.01 (absolutely) of the sine and cosine of the true separation t
   -- whatever rounding and libm did before --, the angle atan2 denotes is within 3 eps of t, for
   EVERY t in [0, PI] (the form acos(cos t) amplifies eps to sqrt(2 eps) near 0 and PI).
   With eps = 1e-13 the reported separation is within 1.8e-11 degree of the true one. *)
Theorem C12_atan2_form_well_conditioned : forall ra1 dec1 ra2 dec2 s c eps,
  0 <= s -> 0 <= eps <= 1 / 100 ->
  Rabs (s - sin (true_sep_rad ra1 dec1 ra2 dec2)) <= eps ->
  Rabs (c - cos (true_sep_rad ra1 dec1 ra2 dec2)) <= eps ->
  Rabs (atan2u s c - true_sep_rad ra1 dec1 ra2 dec2) <= 3 * eps
  /\ Rabs (atan2u s c * (180 / PI) - true_sep ra1 dec1 ra2 dec2) <= 3 * eps * (180 / PI).
Proof.
  intros ra1 dec1 ra2 dec2 s c eps Hs He Es Ec.
  pose proof (atan2_conditioning _ s c eps (true_sep_rad_range ra1 dec1 ra2 dec2) Hs He Es Ec) as H.
  split; [exact H|]. unfold true_sep. rewrite <- Rmult_minus_distr_r, Rabs_mult.
  assert (P : 0 < 180 / PI) by (apply Rdiv_lt_0_compat; [lra|apply PI_RGT_0]).
  rewrite (Rabs_right (180 / PI)) by lra. apply Rmult_le_compat_r; lra.
Qed.

(* Non-vacuity: radius 1 degree, a point at separation 0 -- the hypotheses hold with d' = the exact
   cosine; and exact arguments (eps = 0) give the exact angle. *)
Example C12_num_nonvacuous :
  14 / 10 ^ 13 <= 1 - src_cover_cosine 1
  /\ atan2u (sin (true_sep_rad 0 0 90 0)) (cos (true_sep_rad 0 0 90 0)) = true_sep_rad 0 0 90 0.
Proof.
  split.
  - pose proof (C12_searched_cap_robust_to_rounding 1 (src_cover_cosine 1) 10 20 10 20 ltac:(lra) ltac:(unfold src_cover_pad; lra)) as H.
    rewrite Rminus_diag_eq, Rabs_R0 in H by reflexivity.
    assert (T : true_sep 10 20 10 20 <= 1).
    { unfold true_sep. rewrite true_sep_same. lra. }
    assert (Q : 0 <= 1 / 10 ^ 13) by (apply Rlt_le, Rdiv_lt_0_compat; [lra|apply pow_lt; lra]).
    specialize (H Q T).
    assert (D1 : dot (point (rad 10) (rad 20)) (point (rad 10) (rad 20)) = 1).
    { pose proof (true_sep_same 10 20) as Z. unfold true_sep_rad in Z.
      pose proof (C_bound 10 20 10 20) as B. rewrite <- (cos_acos _ B), Z. apply cos_0. }
    rewrite D1 in H. lra.
  - apply atan2u_polar, true_sep_rad_range.
Qed.
