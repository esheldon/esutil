(* C12 — HTM matching returns exactly the pairs within the search radius.
   The property theorems; what they need is proved in Proofs.v / MainProofs.v / CheckProofs.v.

   Reading guide.  [match_loop dis cover sorter (init_hmap tri n2) k rads n1] is the list of rows
   (i1, i2, d12) produced by Matcher::match for n1 input points against a Matcher built from n2
   points, where
     tri j = triangle id of second-set point j,  cover i = id list of the cap around input point i,
     dis i j = the distance the code computes,   sorter = std::sort,   k = maxmatch,
     rad_of rads i = the search radius of input point i (one value or one per point).
   The circle cover of the JHU library is NOT modelled: it enters through hypothesis [H_cover]
   (every point within the radius lies in a listed triangle; listed ids are duplicate-free),
   which the correspondence run monitors on every case; std::sort enters through
   [sort_contract] (a permutation, sorted by d12). *)
From Coq Require Import Sorting.Permutation Sorting.Sorted.
From EsVerif.Common Require Import Base.
From EsVerif.C12 Require Import Model Spec ListLemmas Proofs MainProofs CheckProofs.

(* No limit (maxmatch <= 0): the rows are exactly the index pairs within the radius of the
   first-set point, with the code's distance -- none missing, none extra ... *)
Theorem C12_exact : forall tri n2 dis cover sorter rads n1 k,
  sort_contract sorter -> H_cover tri n2 dis cover rads n1 -> k <= 0 ->
  forall t, In t (match_loop dis cover sorter (init_hmap tri n2) k rads n1) <->
            (t_i1 t < n1)%nat /\ (t_i2 t < n2)%nat /\ t_d t = dis (t_i1 t) (t_i2 t)
            /\ dis (t_i1 t) (t_i2 t) <= rad_of rads (t_i1 t).
Proof. intros. apply exact_in; assumption. Qed.

(* ... and each once (for every maxmatch). *)
Theorem C12_each_pair_once : forall tri n2 dis cover sorter rads n1 k,
  sort_contract sorter -> H_cover tri n2 dis cover rads n1 ->
  NoDup (map t_ij (match_loop dis cover sorter (init_hmap tri n2) k rads n1)).
Proof. intros. apply once; assumption. Qed.

(* Rows are grouped by first-set index, groups in input order ... *)
Theorem C12_grouped_in_input_order : forall tri n2 dis cover sorter rads n1 k,
  sort_contract sorter ->
  StronglySorted le (map t_i1 (match_loop dis cover sorter (init_hmap tri n2) k rads n1)).
Proof. intros. apply grouped; assumption. Qed.

(* ... and sorted by increasing separation within a group. *)
Theorem C12_sorted_within_group : forall tri n2 dis cover sorter rads n1 k i,
  sort_contract sorter ->
  StronglySorted Z.le (map snd (group i (match_loop dis cover sorter (init_hmap tri n2) k rads n1))).
Proof. intros. apply sorted_within; assumption. Qed.

(* Positive limit k: group i is the first k of ALL matches of i (brute force over the second
   set) in some order sorted by distance -- whatever the tie-breaking of the sort. *)
Theorem C12_kclosest : forall tri n2 dis cover sorter rads n1 k i,
  sort_contract sorter -> H_cover tri n2 dis cover rads n1 -> 0 < k -> (i < n1)%nat ->
  exists l, Permutation l (brute n2 dis i (rad_of rads i)) /\ StronglySorted by_dist l
            /\ group i (match_loop dis cover sorter (init_hmap tri n2) k rads n1) = firstn (Z.to_nat k) l.
Proof. intros. apply kclosest; assumption. Qed.

(* maxmatch 0 and every negative maxmatch mean "keep all" (the C++ tests maxmatch > 0), and so
   does every limit that no group exceeds. *)
Theorem C12_maxmatch_nonpositive_keeps_all : forall tri n2 dis cover sorter rads n1 k k',
  sort_contract sorter -> k <= 0 -> k' <= 0 ->
  match_loop dis cover sorter (init_hmap tri n2) k rads n1
  = match_loop dis cover sorter (init_hmap tri n2) k' rads n1.
Proof.
  intros tri n2 dis cover sorter rads n1 k k' _. apply match_loop_nonpositive.
Qed.

Theorem C12_limit_above_group_size_keeps_all : forall tri n2 dis cover sorter rads n1 k,
  sort_contract sorter -> H_cover tri n2 dis cover rads n1 ->
  (forall i, (i < n1)%nat -> Z.of_nat (length (brute n2 dis i (rad_of rads i))) <= k) ->
  match_loop dis cover sorter (init_hmap tri n2) k rads n1
  = match_loop dis cover sorter (init_hmap tri n2) 0 rads n1.
Proof.
  intros tri n2 dis cover sorter rads n1 k Hs Hcov Hb. unfold match_loop. apply flat_map_ext_in'.
  intros i Hi. apply in_seq in Hi. rewrite !(match_one_rows Hs). unfold rows. f_equal. f_equal.
  destruct (Hcov i ltac:(lia)) as [Hc Hn]. specialize (Hb i ltac:(lia)).
  rewrite <- (Permutation_length (pair_info_perm tri n2 dis cover i _ Hc Hn)) in Hb.
  unfold nkeep. destruct (k <? Z.of_nat (length (pair_info dis cover (init_hmap tri n2) i (rad_of rads i)))) eqn:E; [lia|].
  rewrite andb_false_r. reflexivity.
Qed.

(* Identical points (gcirc returns exactly 0 for them) match at zero distance for every radius
   >= 0: without limit the row (i, j, 0) is present; with a limit it is present unless k rows at
   distance <= 0 fill the group; a row of identical points always carries distance 0. *)
Theorem C12_self_match_zero : forall tri n2 dis cover sorter rads n1 (same : nat -> nat -> bool),
  sort_contract sorter -> H_cover tri n2 dis cover rads n1 ->
  (forall i j, same i j = true -> dis i j = 0) ->
  forall k i j, (i < n1)%nat -> (j < n2)%nat -> same i j = true -> 0 <= rad_of rads i ->
  let out := match_loop dis cover sorter (init_hmap tri n2) k rads n1 in
  (k <= 0 -> In (i, j, 0) out)
  /\ (In (j, 0) (group i out)
      \/ (0 < k /\ Z.of_nat (length (group i out)) = k /\ forall c, In c (group i out) -> snd c <= 0))
  /\ (forall t, In t out -> same (t_i1 t) (t_i2 t) = true -> t_d t = 0).
Proof.
  intros tri n2 dis cover sorter rads n1 same Hs Hc Hsame k i j Hi Hj Hij Hr. pose proof (Hsame _ _ Hij) as E.
  split; [|split].
  - intro Hk. apply exact_in; try assumption. cbn. lia.
  - (* rows_complete for the pair (i, j), whose distance is 0 *)
    cbv zeta. rewrite (group_eq Hs) by exact Hi. destruct (Hc _ Hi) as [Hcc Hn].
    assert (Hd : dis i j <= rad_of rads i) by lia.
    pose proof (rows_complete Hs k i _ j Hcc Hn Hj Hd) as R. rewrite E in R.
    destruct R as [I|[L1 [L2 L3]]]; [left; exact I|right].
    split; [exact L1|]. split; [lia|exact L3].
  - intros t. eapply self_zero_row; eassumption.
Qed.

(* The result does not depend on the tree depth: two indexes (triangle ids and covers of two
   depths, each meeting H_cover; possibly different tie-breaking) give the same rows without
   limit, and the same distance sequence in every group with a limit.  The right-hand side of
   C12_exact does not mention the index at all. *)
Theorem C12_depth_independent : forall tri tri' n2 dis cover cover' sorter sorter' rads n1 k,
  sort_contract sorter -> sort_contract sorter' ->
  H_cover tri n2 dis cover rads n1 -> H_cover tri' n2 dis cover' rads n1 ->
  let out := match_loop dis cover sorter (init_hmap tri n2) k rads n1 in
  let out' := match_loop dis cover' sorter' (init_hmap tri' n2) k rads n1 in
  (k <= 0 -> forall t, In t out <-> In t out')
  /\ (forall i, (i < n1)%nat -> map snd (group i out) = map snd (group i out')).
Proof.
  intros tri tri' n2 dis cover cover' sorter sorter' rads n1 k H1 H2 H3 H4. split.
  - intros Hk t. eapply independent_unlimited; eassumption.
  - intros i Hi. eapply independent_distances; eassumption.
Qed.

(* The reusable Matcher object and the one-shot HTM.match (which builds a fresh Matcher, of any
   depth) give the same pairs; a query to a Matcher is answered as by the one-shot call. *)
Theorem C12_matcher_vs_oneshot : forall tri tri' n2 dis cover cover' sorter sorter' rads n1 k o o',
  sort_contract sorter -> sort_contract sorter' ->
  H_cover tri n2 dis cover rads n1 -> H_cover tri' n2 dis cover' rads n1 ->
  (length rads = 1 \/ length rads = n1)%nat ->
  matcher_match dis cover sorter (matcher_new tri n2) n1 n1 rads k = Ok o ->
  htm_match dis cover' sorter' tri' n2 n2 n1 n1 rads k = Ok o' ->
  (k <= 0 -> forall t, In t o <-> In t o')
  /\ (forall i, (i < n1)%nat -> map snd (group i o) = map snd (group i o')).
Proof.
  intros tri tri' n2 dis cover cover' sorter sorter' rads n1 k o o' H1 H2 H3 H4 H5 E E'.
  exact (matcher_vs_oneshot tri tri' n2 dis cover cover' sorter sorter' rads n1 H1 H2 H3 H4 H5 k o o' E E').
Qed.

Theorem C12_matcher_reusable : forall dis cover sorter tri n2 (queries : list (nat * list Z * Z)),
  map (fun q => matcher_match dis cover sorter (matcher_new tri n2) (fst (fst q)) (fst (fst q)) (snd (fst q)) (snd q)) queries
  = map (fun q => htm_match dis cover sorter tri n2 n2 (fst (fst q)) (fst (fst q)) (snd (fst q)) (snd q)) queries.
Proof.
  intros. apply map_ext. intro q. symmetry. apply htm_match_is_matcher.
Qed.

(* Argument normalisation of the python wrappers: sizes are accepted iff ra/dec sizes agree and
   the radius is one value or one per point; otherwise ValueError. *)
Theorem C12_sizes : forall dis cover sorter m n1 n1dec rads k,
  ((length rads = 1 \/ length rads = n1)%nat ->
     matcher_match dis cover sorter m n1 n1 rads k = Ok (match_loop dis cover sorter (m_hmap m) k rads n1))
  /\ ((n1 <> n1dec \/ (length rads <> 1 /\ length rads <> n1))%nat ->
     matcher_match dis cover sorter m n1 n1dec rads k = Err EValue).
Proof. intros. split; [apply matcher_match_ok|apply matcher_match_rejects]. Qed.

(* File output: the rows read back are the rows of the in-memory call, in the same order; the
   returned count is their number; each distance is the printed-and-parsed in-memory one. *)
Theorem C12_file_roundtrip : forall rt rows,
  let f := write_pairs rt rows in
  same_pairs (read_pairs (fst f)) rows
  /\ snd f = Z.of_nat (length rows)
  /\ map t_d (read_pairs (fst f)) = map rt (map t_d rows).
Proof.
  intros. unfold same_pairs, read_pairs. cbn. rewrite !map_map. repeat split; apply map_ext; intros [[a b] c]; reflexivity.
Qed.

(* The statement of the property about an output, relative to TRUE separations D and the
   tolerance tol granted by the property: if the code's distance is within tol of the true one
   (and exactly 0 for identical points), the model's output satisfies it for every maxmatch. *)
Theorem C12_model_meets_statement : forall tri n2 dis cover sorter rads n1 same D tol k,
  sort_contract sorter -> H_cover tri n2 dis cover rads n1 ->
  (forall i j, same i j = true -> dis i j = 0) ->
  (forall i j, (i < n1)%nat -> (j < n2)%nat -> Z.abs (dis i j - D i j) <= tol) ->
  match_spec n1 n2 D (rad_of rads) tol k same (match_loop dis cover sorter (init_hmap tri n2) k rads n1).
Proof. intros. apply model_meets_spec; assumption. Qed.

(* Soundness of the checker that the correspondence run evaluates on the implementation's output. *)
Theorem C12_checker_sound : forall n1 n2 D rad tol k same out,
  check_match n1 n2 D rad tol k same out = true -> match_spec n1 n2 D rad tol k same out.
Proof. intros. apply check_match_decides. assumption. Qed.

(* Any two outputs meeting the statement (e.g. two depths, object vs one-shot, file vs memory,
   another input layout) contain the same pairs, as far as the statement constrains them. *)
Theorem C12_statement_fixes_constrained_pairs : forall n1 n2 D rad tol k same out out',
  k <= 0 -> match_spec n1 n2 D rad tol k same out -> match_spec n1 n2 D rad tol k same out' ->
  forall i j, constrained D rad tol i j ->
    ((exists c, In (i, j, c) out) <-> (exists c, In (i, j, c) out')).
Proof.
  intros n1 n2 D rad tol k same out out' Hk M M' i j Hc.
  assert (one : forall o o', match_spec n1 n2 D rad tol k same o -> match_spec n1 n2 D rad tol k same o' ->
                 (exists c, In (i, j, c) o) -> exists c, In (i, j, c) o').
  { intros o o' Mo Mo' [c Hin]. destruct (ms_range _ _ _ _ _ _ _ _ Mo _ Hin) as [Hi Hj].
    destruct (ms_sound _ _ _ _ _ _ _ _ Mo _ Hin) as [Hs _]. unfold t_i1, t_i2 in *. simpl in *.
    destruct Hc as [Hc|Hc]; [|lia].
    destruct (ms_complete _ _ _ _ _ _ _ _ Mo' i j Hi Hj (or_introl Hc)) as [I|[L _]]; [|lia].
    apply in_group_iff. exact I. }
  split; apply one; assumption.
Qed.

(* The sort with which the model is executed meets the contract assumed of std::sort. *)
Theorem C12_executable_sort_meets_contract : sort_contract isort_c.
Proof. exact isort_c_contract. Qed.

(* Dropping unoccupied ids from a cover (done by the harness before printing) changes nothing. *)
Theorem C12_unoccupied_ids_irrelevant : forall dis cover h i rad,
  pair_info dis (fun i => filter (fun id => match hmap_find h id with None => false | Some _ => true end) (cover i)) h i rad
  = pair_info dis cover h i rad.
Proof.
  intros. unfold pair_info. induction (cover i) as [|id t IH]; simpl; [reflexivity|].
  destruct (hmap_find h id) eqn:E; simpl; [rewrite E, IH; reflexivity|exact IH].
Qed.

(* Two first-set points with the same neighbourhood (same distance to every stored point, same
   circle cover) and the same radius get the same group (same second-set indices, same distances,
   same order), each tagged with its own index.  This is the relation the harness checks on the
   real code when it repeats a small first set to 10^3..10^5 points (entry `long`). *)
Theorem C12_same_neighbourhood_same_group : forall dis cover sorter h k i i' rad,
  (forall j, dis i j = dis i' j) -> cover i = cover i' ->
  map (fun t => (t_i2 t, t_d t)) (match_one dis cover sorter h k i rad)
  = map (fun t => (t_i2 t, t_d t)) (match_one dis cover sorter h k i' rad)
  /\ (forall t, In t (match_one dis cover sorter h k i rad) -> t_i1 t = i).
Proof.
  intros dis cover sorter h k i i' rad H C. split; [|intro t; apply (@match_one_i1 dis cover sorter h k i rad t)].
  unfold match_one. rewrite (pair_info_ext dis cover h i i' rad H C).
  destruct (pair_info dis cover h i' rad); [reflexivity|].
  rewrite !map_map. reflexivity.
Qed.

(* Non-vacuity: a concrete instance (2 input points, 4 stored points in 3 triangles, a tie)
   meets every hypothesis, and the conclusions compute. *)
Definition ex_tri (j : nat) : Z := nth j [10; 11; 10; 12] 0.
Definition ex_cover (i : nat) : list Z := nth i [[10; 11]; [12; 10]] [].
Definition ex_dis (i j : nat) : Z := nth j (nth i [[5; 1; 5; 9]; [7; 7; 0; 2]] []) 0.

Example C12_nonvacuous :
  sort_contract isort_c
  /\ H_cover ex_tri 4 ex_dis ex_cover [6] 2
  /\ match_loop ex_dis ex_cover isort_c (init_hmap ex_tri 4) 0 [6] 2
     = [row 0 1 1; row 0 0 5; row 0 2 5; row 1 2 0; row 1 3 2]
  /\ match_loop ex_dis ex_cover isort_c (init_hmap ex_tri 4) 1 [6] 2 = [row 0 1 1; row 1 2 0]
  /\ check_match 2 4 ex_dis (rad_of [6]) 0 1 (fun _ _ => false) [row 0 1 1; row 1 2 0] = true
  /\ check_match 2 4 ex_dis (rad_of [6]) 0 0 (fun _ _ => false) [row 0 1 1; row 0 0 5; row 1 2 0; row 1 3 2] = false.
Proof.
  split; [exact isort_c_contract|]. split.
  - intros i Hi. split.
    + intros j Hj Hd. destruct i as [|[|i]]; [| |lia];
        (destruct j as [|[|[|[|j]]]]; [| | | |lia]); vm_compute in Hd |- *; try tauto;
        exfalso; apply Hd; reflexivity.
    + destruct i as [|[|i]]; [| |lia]; unfold ex_cover; simpl;
        repeat (constructor; [simpl; intuition lia|]); constructor.
  - repeat split; vm_compute; reflexivity.
Qed.
