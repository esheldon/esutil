(* C12 -- proofs over the reals about the great-circle separation [true_sep] (independent of the
   regenerated source text): its sine and cosine in the frame gcirc uses, its haversine, its
   range, and the soundness of the haversine certificates used by the per-case interval lemmas. *)
From Coq Require Import Reals Lra.
From EsVerif.C12 Require Import SepModel.
Open Scope R_scope.

Lemma Reqb_true a b : Reqb a b = true -> a = b.
Proof. unfold Reqb. destruct (Req_EM_T a b); [auto|discriminate]. Qed.

(* ---- the angle of a point of the upper unit half circle *)
Lemma atan2u_polar t : 0 <= t <= PI -> atan2u (sin t) (cos t) = t.
Proof.
  intros Ht. unfold atan2u.
  destruct (Rlt_dec 0 (cos t)) as [Hp|Hp].
  - assert (t < PI / 2) as Hlt.
    { destruct (Rlt_le_dec t (PI / 2)) as [H|H]; [exact H|exfalso].
      assert (cos t <= 0) by (apply cos_le_0; lra). lra. }
    change (sin t / cos t) with (tan t). apply atan_tan. lra.
  - destruct (Rlt_dec (cos t) 0) as [Hn|Hn].
    + assert (PI / 2 < t) as Hgt.
      { destruct (Rlt_le_dec (PI / 2) t) as [H|H]; [exact H|exfalso].
        assert (0 <= cos t) by (apply cos_ge_0; lra). lra. }
      set (u := t - PI).
      assert (Es : sin t = - sin u) by (unfold u; replace t with ((t - PI) + PI) at 1 by ring; apply neg_sin).
      assert (Ec : cos t = - cos u) by (unfold u; replace t with ((t - PI) + PI) at 1 by ring; apply neg_cos).
      assert (cos u <> 0) by lra.
      replace (sin t / cos t) with (tan u) by (unfold tan; rewrite Es, Ec; field; assumption).
      rewrite atan_tan by (unfold u; lra). unfold u; ring.
    + assert (cos t = 0) as E0 by lra.
      rewrite <- (acos_cos t Ht), E0. symmetry. apply acos_0.
Qed.

Lemma cos_half x : cos x = 1 - 2 * sin (x / 2) * sin (x / 2).
Proof. replace x with (2 * (x / 2)) at 1 by field. apply cos_2a_sin. Qed.

(* ---- degrees and radians *)
Lemma rad_le a b : a <= b -> rad a <= rad b.
Proof. intro H. pose proof PI_RGT_0. unfold rad. apply Rmult_le_compat_r; lra. Qed.

Lemma rad_lt a b : a < b -> rad a < rad b.
Proof. intro H. pose proof PI_RGT_0. unfold rad. apply Rmult_lt_compat_r; lra. Qed.

Lemma rad_le_inv a b : rad a <= rad b -> a <= b.
Proof. intro H. apply Rnot_lt_le. intro L. apply rad_lt in L. lra. Qed.

Lemma rad_0 : rad 0 = 0.
Proof. unfold rad. ring. Qed.

Lemma rad_180 : rad 180 = PI.
Proof. unfold rad. field. Qed.

Lemma rad_sub a b : rad (a - b) = rad a - rad b.
Proof. unfold rad. ring. Qed.

Lemma sin_cos_sq x : sin x * sin x + cos x * cos x = 1.
Proof. exact (sin2_cos2 x). Qed.

(* ---- trigonometry of two points of the sphere *)
Section Two.
  Variables ra1 dec1 ra2 dec2 : R.
  Let s1 := sin (rad dec1).  Let c1 := cos (rad dec1).
  Let s2 := sin (rad dec2).  Let c2 := cos (rad dec2).
  Let cd := cos (rad (ra1 - ra2)).  Let sd := sin (rad (ra1 - ra2)).
  Let C := dot (point (rad ra1) (rad dec1)) (point (rad ra2) (rad dec2)).

  Lemma dot_formula : C = s1 * s2 + c1 * c2 * cd.
  Proof.
    unfold C, dot, point, cd. rewrite rad_sub, cos_minus. fold s1 c1 s2 c2. ring.
  Qed.

  (* Lagrange: |p1 x p2|^2 = 1 - (p1.p2)^2, with the cross product in the frame of the code *)
  Lemma cross_formula :
    (c2 * sd) * (c2 * sd) + (c1 * s2 - s1 * c2 * cd) * (c1 * s2 - s1 * c2 * cd) = 1 - C * C.
  Proof.
    rewrite dot_formula.
    replace 1 with ((s1 * s1 + c1 * c1) * (s2 * s2) + c2 * c2 * ((s1 * s1 + c1 * c1) * (cd * cd) + sd * sd)).
    - ring.
    - unfold s1, c1. rewrite sin_cos_sq. fold s1 c1. replace (1 * (cd * cd) + sd * sd) with (sd * sd + cd * cd) by ring. unfold sd, cd at 1 2. rewrite sin_cos_sq.
      replace (1 * (s2 * s2) + c2 * c2 * 1) with (s2 * s2 + c2 * c2) by ring. apply sin_cos_sq.
  Qed.

  Lemma C_bound : -1 <= C <= 1.
  Proof.
    pose proof cross_formula as H.
    pose proof (Rle_0_sqr (c2 * sd)) as Q1. pose proof (Rle_0_sqr (c1 * s2 - s1 * c2 * cd)) as Q2.
    unfold Rsqr in Q1, Q2. assert (0 <= 1 - C * C) by (rewrite <- H; lra). nra.
  Qed.

  (* the cancellation-free second component of the code *)
  Lemma b_formula :
    sin (rad (dec2 - dec1)) + 2 * s1 * c2 * sin (1 / 2 * rad (ra1 - ra2)) * sin (1 / 2 * rad (ra1 - ra2))
    = c1 * s2 - s1 * c2 * cd.
  Proof.
    rewrite rad_sub, sin_minus. fold s1 c1 s2 c2.
    replace (1 / 2 * rad (ra1 - ra2)) with (rad (ra1 - ra2) / 2) by field.
    unfold cd. rewrite (cos_half (rad (ra1 - ra2))). ring.
  Qed.

  Lemma sin_true_sep :
    sin (true_sep_rad ra1 dec1 ra2 dec2)
    = sqrt ((c2 * sd) * (c2 * sd) + (c1 * s2 - s1 * c2 * cd) * (c1 * s2 - s1 * c2 * cd)).
  Proof.
    unfold true_sep_rad. fold C. rewrite sin_acos by apply C_bound. f_equal.
    rewrite cross_formula. unfold Rsqr. ring.
  Qed.

  Lemma cos_true_sep_dot : cos (true_sep_rad ra1 dec1 ra2 dec2) = C.
  Proof. apply cos_acos, C_bound. Qed.

  Lemma cos_true_sep : cos (true_sep_rad ra1 dec1 ra2 dec2) = s1 * s2 + c1 * c2 * cd.
  Proof. rewrite cos_true_sep_dot. apply dot_formula. Qed.

  Lemma true_sep_rad_range : 0 <= true_sep_rad ra1 dec1 ra2 dec2 <= PI.
  Proof. unfold true_sep_rad. apply acos_bound. Qed.

  (* haversine *)
  Lemma hav_formula : C = 1 - 2 * hav ra1 dec1 ra2 dec2.
  Proof.
    pose proof (cos_half (rad (dec2 - dec1))) as E1. pose proof (cos_half (rad (ra2 - ra1))) as E2.
    replace (cos (rad (ra2 - ra1))) with cd in E2 by (unfold cd; rewrite <- cos_neg; f_equal; unfold rad; ring).
    rewrite rad_sub, cos_minus in E1. fold s1 c1 s2 c2 in E1.
    rewrite dot_formula. unfold hav. simpl pow. fold c1 c2. rewrite E2, (rad_sub dec2 dec1). lra.
  Qed.

  Lemma hav_half_angle : hav ra1 dec1 ra2 dec2 = sin (true_sep_rad ra1 dec1 ra2 dec2 / 2) ^ 2.
  Proof.
    pose proof hav_formula as H. pose proof (cos_half (true_sep_rad ra1 dec1 ra2 dec2)) as E.
    rewrite cos_true_sep_dot in E.
    simpl pow. lra.
  Qed.
End Two.

Lemma rad_true_sep ra1 dec1 ra2 dec2 : rad (true_sep ra1 dec1 ra2 dec2) = true_sep_rad ra1 dec1 ra2 dec2.
Proof. unfold rad, true_sep. field. apply PI_neq0. Qed.

(* ---- identical points, range *)
Lemma true_sep_same ra dec : true_sep_rad ra dec ra dec = 0.
Proof.
  unfold true_sep_rad. rewrite dot_formula. replace (ra - ra) with 0 by ring. rewrite rad_0, cos_0.
  pose proof (sin_cos_sq (rad dec)) as H.
  replace (sin (rad dec) * sin (rad dec) + cos (rad dec) * cos (rad dec) * 1) with 1 by lra.
  apply acos_1.
Qed.

Lemma true_sep_range ra1 dec1 ra2 dec2 : 0 <= true_sep ra1 dec1 ra2 dec2 <= 180.
Proof.
  pose proof (true_sep_rad_range ra1 dec1 ra2 dec2).
  split; apply rad_le_inv; rewrite rad_true_sep, ?rad_0, ?rad_180; tauto.
Qed.

(* a point within r degrees of the centre: its dot product with the centre is at least cos r *)
Lemma within_radius_cos r ra1 dec1 ra2 dec2 : r <= 180 -> true_sep ra1 dec1 ra2 dec2 <= r ->
  cos (rad r) <= dot (point (rad ra1) (rad dec1)) (point (rad ra2) (rad dec2)).
Proof.
  intros Hr Hs. pose proof (true_sep_range ra1 dec1 ra2 dec2) as [T0 _].
  apply rad_le in T0, Hs, Hr. rewrite rad_0 in T0. rewrite rad_180 in Hr.
  rewrite <- cos_true_sep_dot, <- rad_true_sep. apply cos_decr_1; lra.
Qed.

(* ---- certificates: bounds on the true separation from bounds on its haversine, which is
        strictly increasing on [0, 180] *)
Lemma hav_true_sep ra1 dec1 ra2 dec2 : hav ra1 dec1 ra2 dec2 = havs (true_sep ra1 dec1 ra2 dec2).
Proof. unfold havs. rewrite rad_true_sep. apply hav_half_angle. Qed.

Lemma havs_lt a b : 0 <= a -> a < b -> b <= 180 -> havs a < havs b.
Proof.
  intros Ha Hab Hb. pose proof (rad_le 0 a Ha). pose proof (rad_lt a b Hab). pose proof (rad_le b 180 Hb).
  rewrite rad_0, rad_180 in *.
  assert (0 <= sin (rad a / 2)) by (apply sin_ge_0; lra).
  assert (sin (rad a / 2) < sin (rad b / 2)) by (apply sin_increasing_1; lra).
  unfold havs. simpl. nra.
Qed.

Lemma sep_le_cert ra1 dec1 ra2 dec2 hi :
  0 <= hi <= 180 -> hav ra1 dec1 ra2 dec2 <= havs hi -> true_sep ra1 dec1 ra2 dec2 <= hi.
Proof.
  intros Hh Hc. rewrite hav_true_sep in Hc. apply Rnot_lt_le. intro H.
  pose proof (havs_lt hi _ (proj1 Hh) H (proj2 (true_sep_range _ _ _ _))). lra.
Qed.

Lemma sep_ge_cert ra1 dec1 ra2 dec2 lo :
  0 <= lo <= 180 -> havs lo <= hav ra1 dec1 ra2 dec2 -> lo <= true_sep ra1 dec1 ra2 dec2.
Proof.
  intros Hl Hc. rewrite hav_true_sep in Hc. apply Rnot_lt_le. intro H.
  pose proof (havs_lt _ lo (proj1 (true_sep_range _ _ _ _)) H (proj2 Hl)). lra.
Qed.

(* the form proved per case: lo <= true separation <= hi, where a bound outside [0, 180] is trivial *)
Definition sep_between (ra1 dec1 ra2 dec2 lo hi : R) : Prop :=
  lo <= true_sep ra1 dec1 ra2 dec2 <= hi.

Lemma sep_between_intro ra1 dec1 ra2 dec2 lo hi :
  (lo <= 0 \/ (0 <= lo <= 180 /\ havs lo <= hav ra1 dec1 ra2 dec2)) ->
  (180 <= hi \/ (0 <= hi <= 180 /\ hav ra1 dec1 ra2 dec2 <= havs hi)) ->
  sep_between ra1 dec1 ra2 dec2 lo hi.
Proof.
  intros A B. pose proof (true_sep_range ra1 dec1 ra2 dec2) as Rg. split.
  - destruct A as [A|[A1 A2]]; [lra|apply sep_ge_cert; assumption].
  - destruct B as [B|[B1 B2]]; [lra|apply sep_le_cert; assumption].
Qed.
