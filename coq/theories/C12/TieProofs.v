(* C12 -- the decisions, loop headers, size checks and file format translated from the source
   (C12/Gen.v, regenerated on every run) are the ones the hand model C12/Model.v contains.
   If a comparison operator, a loop bound, an index, the maxmatch logic, a size check or the row
   format changes in esutil/htm/htmc.cc, htmc.h or htm.py, Gen.v changes and one of these
   lemmas no longer holds. *)
From EsVerif.Common Require Import Base.
From EsVerif.C12 Require Import Model Proofs Gen.

(* case analysis on every boolean test, then linear arithmetic: robust against equivalent
   rewrites of the source's comparisons (a > b for b < a, >= for >, reordered tests) *)
Ltac cases_lia :=
  repeat match goal with
         | |- context [if ?b then _ else _] => destruct b eqn:?
         end; cbn [negb andb orb] in *; try reflexivity; try lia.

(* ---- Matcher::match *)
Lemma tie_keep dis i rad v :
  leaf_pairs dis i rad v = flat_map (fun j => if src_keep (dis i j) rad then [(j, dis i j)] else []) v.
Proof. reflexivity. Qed.

Lemma tie_nkeep k n :
  Z.of_nat (nkeep k n) = if src_emit_guard (Z.of_nat n) then src_truncate (Z.of_nat n) k else 0.
Proof.
  unfold nkeep, src_emit_guard, src_truncate. cases_lia.
Qed.

Lemma tie_match_one dis cover sorter h k i rad :
  match_one dis cover sorter h k i rad
  = let p := pair_info dis cover h i rad in
    if src_emit_guard (Z.of_nat (length p))
    then map (fun c => (i, fst c, snd c)) (firstn (Z.to_nat (src_truncate (Z.of_nat (length p)) k)) (sorter p))
    else [].
Proof.
  unfold match_one. cbv zeta. destruct (pair_info dis cover h i rad) as [|c p] eqn:E.
  - reflexivity.
  - pose proof (tie_nkeep k (length (c :: p))) as T.
    assert (G : src_emit_guard (Z.of_nat (length (c :: p))) = true) by (unfold src_emit_guard; cbn [length]; lia).
    rewrite G in T |- *. rewrite <- T, Nat2Z.id. reflexivity.
Qed.

(* the comparator: "sorted" for std::sort means that no later element is before an earlier one *)
Lemma tie_before_by_dist (a b : cnd) : by_dist a b <-> src_before (snd b) (snd a) = false.
Proof. unfold by_dist, src_before. lia. Qed.

Lemma tie_insert x y t :
  insert_c x (y :: t) = if src_before (snd x) (snd y) then x :: y :: t else y :: insert_c x t.
Proof. reflexivity. Qed.

(* radius selection: `double rad=0`; `if (nrad == 1) rad = radius[0]` before the loop;
   `if (nrad > 1) rad = radius[i_input]` inside it *)
Lemma tie_rad rads i :
  rad_of rads i
  = let nrad := Z.of_nat (length rads) in
    if src_rad_each nrad then nth (Z.to_nat (src_rad_each_index (Z.of_nat i))) rads 0
    else if src_rad_once nrad then nth (Z.to_nat src_rad_once_index) rads 0
    else 0.
Proof.
  unfold src_rad_each, src_rad_once, src_rad_each_index, src_rad_once_index. cbv zeta.
  destruct rads as [|r [|r' t]]; cbn [length rad_of].
  - destruct i; cases_lia.
  - cases_lia.
  - rewrite ?Nat2Z.id. cases_lia.
Qed.

(* every for loop runs over 0 <= v < bound (the model's [seq 0 n], whole-list traversals and [firstn]) *)
Definition full_range (p : Z * (Z -> Z -> bool)) : Prop := fst p = 0 /\ forall v b, snd p v b = (v <? b).
Lemma tie_loops : Forall full_range src_loops /\ length src_loops = 8%nat.
Proof. split; [|reflexivity]. repeat constructor. Qed.

(* ---- python wrappers: exactly the rejected sizes raise ValueError *)
Lemma tie_matcher_init tri n2 n2dec :
  matcher_init tri n2 n2dec
  = if src_matcher_init_rejects (Z.of_nat n2) (Z.of_nat n2dec) then Err EValue else Ok (matcher_new tri n2).
Proof. unfold matcher_init, src_matcher_init_rejects. cases_lia. Qed.

Lemma tie_matcher_match dis cover sorter m n1 n1dec rads k :
  matcher_match dis cover sorter m n1 n1dec rads k
  = if src_matcher_match_rejects (Z.of_nat n1) (Z.of_nat n1dec) (Z.of_nat (length rads)) then Err EValue
    else Ok (match_loop dis cover sorter (m_hmap m) k rads n1).
Proof. unfold matcher_match, src_matcher_match_rejects. cases_lia. Qed.

Lemma tie_htm_match dis cover sorter tri n2 n2dec n1 n1dec rads k :
  htm_match dis cover sorter tri n2 n2dec n1 n1dec rads k
  = if src_htm_match_rejects (Z.of_nat n1) (Z.of_nat n1dec) (Z.of_nat n2) (Z.of_nat n2dec) (Z.of_nat (length rads))
    then Err EValue
    else do m <- matcher_init tri n2 n2dec; matcher_match dis cover sorter m n1 n1dec rads k.
Proof. unfold htm_match, src_htm_match_rejects. cases_lia. Qed.

(* ---- read_pairs: only the empty file (a match without pairs) bypasses the record reader *)
Lemma tie_empty_file size : 0 <= size -> (src_read_pairs_shortcut size = true <-> size = 0).
Proof. unfold src_read_pairs_shortcut. lia. Qed.

(* ---- one candidate row, the error class of the size checks, the defaults of the optional arguments *)
Lemma tie_row i (c : cnd) : src_row i (fst c) (snd c) = (i, fst c, snd c).
Proof. reflexivity. Qed.

Lemma tie_error_classes :
  src_matcher_init_error = EValue /\ src_matcher_match_error = EValue /\ src_htm_match_error = EValue.
Proof. repeat split; reflexivity. Qed.

Lemma tie_sizes_with_class dis cover sorter tri m n2 n2dec n1 n1dec rads k :
  matcher_init tri n2 n2dec
    = (if src_matcher_init_rejects (Z.of_nat n2) (Z.of_nat n2dec) then Err src_matcher_init_error else Ok (matcher_new tri n2))
  /\ matcher_match dis cover sorter m n1 n1dec rads k
    = (if src_matcher_match_rejects (Z.of_nat n1) (Z.of_nat n1dec) (Z.of_nat (length rads)) then Err src_matcher_match_error
       else Ok (match_loop dis cover sorter (m_hmap m) k rads n1))
  /\ htm_match dis cover sorter tri n2 n2dec n1 n1dec rads k
    = (if src_htm_match_rejects (Z.of_nat n1) (Z.of_nat n1dec) (Z.of_nat n2) (Z.of_nat n2dec) (Z.of_nat (length rads))
       then Err src_htm_match_error
       else do m <- matcher_init tri n2 n2dec; matcher_match dis cover sorter m n1 n1dec rads k).
Proof.
  destruct tie_error_classes as [E1 [E2 E3]]. rewrite E1, E2, E3.
  split; [apply tie_matcher_init|]. split; [apply tie_matcher_match|apply tie_htm_match].
Qed.

Lemma tie_defaults :
  src_matcher_match_default_maxmatch = default_maxmatch /\ src_htm_match_default_maxmatch = default_maxmatch
  /\ src_default_file_is_none = (true, true).
Proof. repeat split; reflexivity. Qed.

Import Coq.Strings.String.
(* ---- calls and columns, argument by argument *)
Definition expected_dis_call : list string * bool := (["ra"; "dec"; "tra"; "tdec"], true)%string.
Definition expected_file_columns : list string := ["i1"; "i2"; "d12"]%string.
Definition expected_memory_columns : list (string * string) := [("m1", "i1"); ("m2", "i2"); ("d12", "d12")]%string.
Definition expected_idlist_order : list string := ["flist"; "plist"]%string.
Definition expected_htm_builds : list string * list (string * string) := (["depth"; "ra2"; "dec2"], [])%string.
Definition expected_htm_calls : list string * list (string * string) :=
  (["ra1"; "dec1"; "radius"], [("maxmatch", "maxmatch"); ("file", "filename")])%string.
Definition expected_matcher_calls : list string * list (string * string) :=
  (["ra"; "dec"; "radius"; "maxmatch"; "filename"], [])%string.
Lemma tie_calls_and_columns :
  src_dis_call = expected_dis_call /\ src_file_columns = expected_file_columns
  /\ src_memory_columns = expected_memory_columns /\ src_idlist_order = expected_idlist_order
  /\ src_htm_builds = expected_htm_builds /\ src_htm_calls = expected_htm_calls
  /\ src_matcher_calls = expected_matcher_calls.
Proof. repeat split; reflexivity. Qed.

(* ---- the pair file: one row "i1 i2 d12" per pair, read back with the matching dtype *)
Definition expected_pair_format : string := ("%ld %ld %.16g" ++ String (Ascii.ascii_of_nat 10) EmptyString)%string.
Definition expected_pair_dtype : list (string * string) := [("i1", "i8"); ("i2", "i8"); ("d12", "f8")]%string.
Definition expected_pair_delim : string := " "%string.
Lemma tie_file_format :
  src_pair_format = expected_pair_format /\ src_pair_dtype = expected_pair_dtype /\ src_pair_delim = expected_pair_delim.
Proof. repeat split; reflexivity. Qed.
