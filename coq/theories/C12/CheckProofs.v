(* C12 — the boolean checker decides the statement (match_spec): it accepts exactly the outputs
   that satisfy it, so it neither misses a violation nor demands more than the property states *)
From Coq Require Import Sorting.Sorted ZifyBool ZifyNat.
From EsVerif.Common Require Import Base.
From EsVerif.C12 Require Import Model Spec ListLemmas Proofs.

(* a test of adjacent elements decides StronglySorted when the relation is transitive *)
Section Adjacent.
  Context {A} (R : A -> A -> Prop) (leb : A -> A -> bool) (f : list A -> bool).
  Hypothesis leb_R : forall x y, leb x y = true <-> R x y.
  Hypothesis R_trans : forall x y z, R x y -> R y z -> R x z.
  Hypothesis f_nil : f [] = true.
  Hypothesis f_cons : forall x t, f (x :: t) = match t with [] => true | y :: _ => leb x y end && f t.

  Lemma adjacent_sorted_iff l : f l = true <-> StronglySorted R l.
  Proof.
    induction l as [|x t IH]; [split; [constructor|intro; exact f_nil]|].
    rewrite f_cons, andb_true_iff, IH. split.
    - intros [H S]. constructor; [exact S|]. destruct t as [|y t']; [constructor|].
      apply leb_R in H. inversion S as [|? ? _ Fa]; subst. constructor; [exact H|].
      eapply Forall_impl; [|exact Fa]. intros z Hz. eapply R_trans; eassumption.
    - intro S. inversion S as [|? ? St Fa]; subst. split; [|exact St].
      destruct t; [reflexivity|]. apply leb_R. inversion Fa; assumption.
  Qed.
End Adjacent.

Lemma sorted_nat_b_iff l : sorted_nat_b l = true <-> StronglySorted le l.
Proof. exact (adjacent_sorted_iff le Nat.leb _ Nat.leb_le Nat.le_trans eq_refl (fun _ _ => eq_refl) l). Qed.

Lemma sorted_z_b_iff l : sorted_z_b l = true <-> StronglySorted Z.le l.
Proof. exact (adjacent_sorted_iff Z.le Z.leb _ Z.leb_le Z.le_trans eq_refl (fun _ _ => eq_refl) l). Qed.

Lemma existsb_eqb_iff j l : existsb (Nat.eqb j) l = true <-> In j l.
Proof.
  rewrite existsb_exists. split.
  - intros [x [Hx E]]. apply Nat.eqb_eq in E. subst x. exact Hx.
  - intro H. exists j. split; [exact H|apply Nat.eqb_refl].
Qed.

Lemma nodup_nat_b_iff l : nodup_nat_b l = true <-> NoDup l.
Proof.
  induction l as [|x t IH]; [split; [constructor|reflexivity]|].
  cbn [nodup_nat_b]. rewrite andb_true_iff, negb_true_iff, <- not_true_iff_false, existsb_eqb_iff, IH, NoDup_cons_iff.
  reflexivity.
Qed.

Section Decide.
  Variables (n1 n2 : nat) (D : nat -> nat -> Z) (rad : nat -> Z) (tol k : Z) (same : nat -> nat -> bool).

  Lemma check_row_iff t :
    check_row n1 n2 D rad tol same t = true <->
    (t_i1 t < n1)%nat /\ (t_i2 t < n2)%nat
    /\ D (t_i1 t) (t_i2 t) <= rad (t_i1 t) + tol /\ Z.abs (t_d t - D (t_i1 t) (t_i2 t)) <= tol
    /\ (same (t_i1 t) (t_i2 t) = true -> t_d t = 0).
  Proof.
    unfold check_row. destruct (same (t_i1 t) (t_i2 t)); lia.
  Qed.

  (* the test of one pair (i, j) that may have to be present, against group g of i *)
  Lemma check_pair_iff i j g :
    (if (D i j <? rad i - tol) || (same i j && (0 <=? rad i))
     then existsb (Nat.eqb j) (map fst g)
          || ((0 <? k) && (Z.of_nat (length g) =? k) && forallb (fun c => snd c <=? D i j + tol) g)
     else true) = true <->
    (D i j < rad i - tol \/ (same i j = true /\ 0 <= rad i) ->
     In j (map fst g) \/ (0 < k /\ Z.of_nat (length g) = k /\ forall c, In c g -> snd c <= D i j + tol)).
  Proof.
    assert (C : (D i j <? rad i - tol) || (same i j && (0 <=? rad i)) = true
                <-> D i j < rad i - tol \/ (same i j = true /\ 0 <= rad i))
      by (rewrite orb_true_iff, andb_true_iff, Z.ltb_lt, Z.leb_le; reflexivity).
    destruct ((D i j <? rad i - tol) || (same i j && (0 <=? rad i))).
    - rewrite orb_true_iff, !andb_true_iff, and_assoc, existsb_eqb_iff, Z.ltb_lt, Z.eqb_eq, forallb_forall.
      setoid_rewrite Z.leb_le. split; [intros H _; exact H|intro H; apply H, C; reflexivity].
    - split; [intros _ P; apply C in P; discriminate|reflexivity].
  Qed.

  Lemma check_group_iff i g :
    check_group n2 D rad tol k same i g = true <->
    NoDup (map fst g) /\ StronglySorted Z.le (map snd g) /\ (0 < k -> Z.of_nat (length g) <= k)
    /\ forall j, (j < n2)%nat -> D i j < rad i - tol \/ (same i j = true /\ 0 <= rad i) ->
         In j (map fst g) \/ (0 < k /\ Z.of_nat (length g) = k /\ forall c, In c g -> snd c <= D i j + tol).
  Proof.
    unfold check_group. rewrite !andb_true_iff, nodup_nat_b_iff, sorted_z_b_iff, forallb_forall.
    assert (L : (if 0 <? k then Z.of_nat (length g) <=? k else true) = true <-> (0 < k -> Z.of_nat (length g) <= k))
      by (destruct (0 <? k) eqn:E; lia).
    rewrite L. split.
    - intros [[[A B] C] E]. repeat split; try assumption. intros j Hj. apply check_pair_iff, E, in_seq. lia.
    - intros [A [B [C E]]]. repeat split; try assumption. intros j Hj. apply check_pair_iff, E. apply in_seq in Hj. lia.
  Qed.

  Lemma check_match_decides out :
    check_match n1 n2 D rad tol k same out = true <-> match_spec n1 n2 D rad tol k same out.
  Proof.
    unfold check_match. rewrite !andb_true_iff, !forallb_forall, sorted_nat_b_iff. split.
    - intros [[R S] G].
      assert (Hrow : forall t, In t out -> _) by (intros t Ht; apply (proj1 (check_row_iff t)), R, Ht).
      (* a group is checked for i < n1 only; beyond, it is empty because every row is in range *)
      assert (Hout : forall i, (n1 <= i)%nat -> group i out = []).
      { intros i Hi. unfold group. rewrite filter_all_false; [reflexivity|].
        intros t Ht. apply Nat.eqb_neq. apply Hrow in Ht. lia. }
      assert (Hgrp : forall i, (i < n1)%nat -> _) by (intros i Hi; apply (proj1 (check_group_iff i (group i out))), G, in_seq; lia).
      constructor.
      + intros t Ht. split; apply (Hrow t Ht).
      + exact S.
      + intro i. destruct (Nat.lt_ge_cases i n1) as [Hi|Hi]; [apply Hgrp, Hi|rewrite Hout by exact Hi; constructor].
      + intro i. destruct (Nat.lt_ge_cases i n1) as [Hi|Hi]; [apply Hgrp, Hi|rewrite Hout by exact Hi; constructor].
      + intros t Ht. split; apply (Hrow t Ht).
      + intros Hk i. destruct (Nat.lt_ge_cases i n1) as [Hi|Hi]; [apply Hgrp; assumption|rewrite Hout by exact Hi; simpl; lia].
      + intros i j Hi Hj. apply (Hgrp i Hi). exact Hj.
      + intros t Ht. apply (Hrow t Ht).
    - intros [Mrange Mgrouped Monce Msorted Msound Mlimit Mcomplete Mself]. split; [split|].
      + intros t Ht. apply check_row_iff. destruct (Mrange t Ht) as [A B], (Msound t Ht) as [C E].
        exact (conj A (conj B (conj C (conj E (Mself t Ht))))).
      + exact Mgrouped.
      + intros i Hi. apply in_seq in Hi. apply check_group_iff.
        split; [apply Monce|]. split; [apply Msorted|]. split; [intro Hk; apply Mlimit, Hk|].
        intros j Hj. apply Mcomplete; lia.
  Qed.
End Decide.

Lemma in_out_in_group i j c out : In (i, j, c) out -> In j (map fst (group i out)).
Proof. intro H. apply in_group_iff. exists c. exact H. Qed.
