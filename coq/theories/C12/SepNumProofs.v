(* C12 -- lemmas behind SepNumProperties.v, over the reals.
   A cap padded by p degrees whose cosine is known up to an error still contains every point within
   the search radius, with the margin 1 - cos p less the error.
   Conditioning of the atan2 form of gcirc: if the two arguments handed to atan2 are within eps
   (absolutely) of (sin t, cos t) of the true separation t, the angle atan2 denotes is within
   3 eps of t -- for every t in [0, PI], also near 0 and PI where acos(cos t) loses half the digits. *)
From Coq Require Import Reals Lra.
From EsVerif.C12 Require Import SepModel SepCert.
Open Scope R_scope.

(* ---- the padded cap *)
Lemma sin_ge_on_middle a x : 0 <= a <= PI / 2 -> a <= x <= PI - a -> sin a <= sin x.
Proof.
  intros Ha Hx. destruct (Rle_lt_dec x (PI / 2)) as [H|H].
  - apply sin_incr_1; lra.
  - rewrite <- (sin_PI_x x). apply sin_incr_1; lra.
Qed.

Lemma cos_gap r p : 0 <= r -> 0 <= p -> r + p <= PI ->
  1 - cos p <= cos r - cos (r + p).
Proof.
  intros Hr Hp Hs.
  assert (E : cos r - cos (r + p) = 2 * sin (r + p / 2) * sin (p / 2)).
  { rewrite form2. replace ((r - (r + p)) / 2) with (- (p / 2)) by field.
    replace ((r + (r + p)) / 2) with (r + p / 2) by field. rewrite sin_neg. ring. }
  rewrite E, (cos_half p).
  assert (S0 : 0 <= sin (p / 2)) by (apply sin_ge_0; lra).
  assert (S1 : sin (p / 2) <= sin (r + p / 2)) by (apply sin_ge_on_middle; lra).
  nra.
Qed.

Lemma cap_margin r p d' ra1 dec1 ra2 dec2 :
  0 <= r -> 0 <= p -> r + p <= 180 -> true_sep ra1 dec1 ra2 dec2 <= r ->
  d' + (1 - cos (rad p) - Rabs (d' - cos (rad (r + p)))) <= dot (point (rad ra1) (rad dec1)) (point (rad ra2) (rad dec2)).
Proof.
  intros Hr Hp Hs Ht.
  pose proof (within_radius_cos r ra1 dec1 ra2 dec2 ltac:(lra) Ht) as Hc.
  apply rad_le in Hr, Hp, Hs. rewrite rad_0 in Hr, Hp. rewrite rad_180 in Hs.
  replace (rad (r + p)) with (rad r + rad p) in * by (unfold rad; ring).
  pose proof (cos_gap (rad r) (rad p) Hr Hp Hs). pose proof (Rle_abs (d' - cos (rad r + rad p))). lra.
Qed.

(* ---- conditioning of the atan2 form *)
Lemma atan2u_scale rho s c : 0 < rho -> atan2u (rho * s) (rho * c) = atan2u s c.
Proof.
  intro Hr. unfold atan2u.
  destruct (Rlt_dec 0 (rho * c)) as [A|A]; destruct (Rlt_dec 0 c) as [B|B]; try (exfalso; nra).
  - f_equal. field. lra.
  - destruct (Rlt_dec (rho * c) 0) as [A'|A']; destruct (Rlt_dec c 0) as [B'|B']; try (exfalso; nra); try reflexivity.
    f_equal. f_equal. field. lra.
Qed.

(* the angle atan2 denotes, in polar form *)
Lemma atan2u_polar_form s c : 0 <= s -> 0 < s * s + c * c ->
  exists rho phi, 0 < rho /\ 0 <= phi <= PI /\ s = rho * sin phi /\ c = rho * cos phi /\ atan2u s c = phi.
Proof.
  intros Hs Hn. set (rho := sqrt (s * s + c * c)).
  assert (Hr : 0 < rho) by (apply sqrt_lt_R0; exact Hn).
  assert (Hr2 : rho * rho = s * s + c * c) by (apply sqrt_sqrt; lra).
  assert (Hunit : s / rho * (s / rho) + c / rho * (c / rho) = 1).
  { replace (s / rho * (s / rho) + c / rho * (c / rho)) with ((s * s + c * c) / (rho * rho)) by (field; lra).
    rewrite <- Hr2. field. lra. }
  assert (Hb : -1 <= c / rho <= 1) by nra.
  pose proof (acos_bound (c / rho)) as Hphi.
  assert (Ec : cos (acos (c / rho)) = c / rho) by (apply cos_acos; exact Hb).
  assert (Es : sin (acos (c / rho)) = s / rho).
  { rewrite sin_acos by exact Hb.
    replace (1 - (c / rho)²) with ((s / rho)²) by (unfold Rsqr; lra).
    apply sqrt_Rsqr. apply Rmult_le_pos; [exact Hs|apply Rlt_le, Rinv_0_lt_compat; exact Hr]. }
  exists rho, (acos (c / rho)). split; [exact Hr|]. split; [exact Hphi|].
  assert (E1 : s = rho * sin (acos (c / rho))) by (rewrite Es; field; lra).
  assert (E2 : c = rho * cos (acos (c / rho))) by (rewrite Ec; field; lra).
  split; [exact E1|]. split; [exact E2|].
  transitivity (atan2u (rho * sin (acos (c / rho))) (rho * cos (acos (c / rho)))).
  - f_equal; assumption.
  - rewrite atan2u_scale by exact Hr. apply atan2u_polar. exact Hphi.
Qed.

Lemma Rabs_mult_le x a e : Rabs x <= e -> Rabs a <= 1 -> Rabs (x * a) <= e.
Proof.
  intros Hx Ha. rewrite Rabs_mult, <- (Rmult_1_r e). apply Rmult_le_compat; auto using Rabs_pos.
Qed.

(* (s, c) within e of the unit vector (a, b), componentwise: cross and dot product with it *)
Lemma near_unit_vector a b s c e : a * a + b * b = 1 -> Rabs (s - a) <= e -> Rabs (c - b) <= e ->
  Rabs (s * b - c * a) <= 2 * e /\ 1 - 2 * e <= s * a + c * b.
Proof.
  intros U Hs Hc.
  assert (Ha : Rabs a <= 1) by (apply Rabs_le; nra).
  assert (Hb : Rabs b <= 1) by (apply Rabs_le; nra).
  pose proof (Rabs_mult_le _ _ _ Hs Ha) as Saa. pose proof (Rabs_mult_le _ _ _ Hs Hb) as Sab.
  pose proof (Rabs_mult_le _ _ _ Hc Ha) as Sca. pose proof (Rabs_mult_le _ _ _ Hc Hb) as Scb.
  split.
  - replace (s * b - c * a) with ((s - a) * b - (c - b) * a) by ring.
    eapply Rle_trans; [apply Rabs_triang|]. rewrite Rabs_Ropp. lra.
  - pose proof (Rle_abs (- ((s - a) * a))) as X. pose proof (Rle_abs (- ((c - b) * b))) as Y.
    rewrite Rabs_Ropp in X, Y.
    replace (s * a + c * b) with (a * a + b * b + (s - a) * a + (c - b) * b) by ring. lra.
Qed.

Lemma nonzero_of_dot a b s c : 0 < s * a + c * b -> 0 < s * s + c * c.
Proof.
  intro H. destruct (Rle_lt_dec (s * s + c * c) 0) as [N|N]; [exfalso|exact N].
  destruct (Rplus_sqr_eq_0 s c) as [-> ->]; [|lra].
  pose proof (Rle_0_sqr s). pose proof (Rle_0_sqr c). unfold Rsqr in *. lra.
Qed.

Lemma cos_pos_inv d : - PI <= d <= PI -> 0 < cos d -> - (PI / 2) < d < PI / 2.
Proof.
  intros Hd Hc. split.
  - destruct (Rlt_le_dec (- (PI / 2)) d) as [H|H]; [exact H|exfalso].
    rewrite <- cos_neg in Hc. assert (cos (- d) <= 0) by (apply cos_le_0; lra). lra.
  - destruct (Rlt_le_dec d (PI / 2)) as [H|H]; [exact H|exfalso].
    assert (cos d <= 0) by (apply cos_le_0; lra). lra.
Qed.

(* the first two terms of the sine series *)
Lemma sin_cubic_lb d : 0 <= d <= PI -> d - d * d * d / 6 <= sin d.
Proof.
  intros [H0 H1]. destruct (sin_bound d 0 H0 H1) as [L _].
  unfold sin_approx, sin_term in L. simpl in L. lra.
Qed.

Lemma angle_by_sine_nonneg d : 0 <= d < PI / 2 -> sin d <= 1 / 4 -> d <= 11 / 10 * sin d.
Proof.
  intros Hd Hs. pose proof PI2_1 as P.
  (* sin (2/5) >= 2/5 - (2/5)^3 / 6 > 1/4, so d <= 2/5, where d^3 / 6 <= d / 11 *)
  assert (H : d <= 2 / 5).
  { apply Rnot_lt_le. intro H.
    assert (sin (2 / 5) < sin d) by (apply sin_increasing_1; lra).
    pose proof (sin_cubic_lb (2 / 5) ltac:(lra)). lra. }
  pose proof (sin_cubic_lb d ltac:(lra)) as L.
  assert (d * d * d <= 4 / 25 * d) by nra. lra.
Qed.

Lemma angle_by_sine d : - (PI / 2) < d < PI / 2 -> Rabs (sin d) <= 1 / 4 -> Rabs d <= 11 / 10 * Rabs (sin d).
Proof.
  intros Hd. destruct (Rle_lt_dec 0 d) as [H0|H0].
  - rewrite (Rabs_right d), (Rabs_right (sin d)) by (try apply Rle_ge, sin_ge_0; lra).
    apply angle_by_sine_nonneg; lra.
  - rewrite (Rabs_left d), (Rabs_left (sin d)), <- sin_neg by (try apply sin_lt_0_var; lra).
    apply angle_by_sine_nonneg; lra.
Qed.

(* the error angle d of atan2 for arguments within eps of (sin t, cos t), any eps < 1/2:
   |d| < PI/2 and |sin d| <= 2 eps / (1 - 2 eps) *)
Lemma atan2_error_sine t s c eps :
  0 <= t <= PI -> 0 <= s -> 0 <= eps < 1 / 2 ->
  Rabs (s - sin t) <= eps -> Rabs (c - cos t) <= eps ->
  - (PI / 2) < atan2u s c - t < PI / 2 /\ (1 - 2 * eps) * Rabs (sin (atan2u s c - t)) <= 2 * eps.
Proof.
  intros Ht Hs He Es Ec.
  pose proof (sin_cos_sq t) as U.
  destruct (near_unit_vector _ _ _ _ _ U Es Ec) as [Hx Hd].
  destruct (atan2u_polar_form s c Hs) as (rho & phi & Hr & Hphi & E1 & E2 & ->).
  { apply (nonzero_of_dot (sin t) (cos t)). lra. }
  (* rho (sin, cos) (phi - t) are the cross and dot product of (s, c) with (sin t, cos t) *)
  set (d := phi - t).
  assert (Sd : rho * sin d = s * cos t - c * sin t) by (unfold d; rewrite sin_minus, E1, E2; ring).
  assert (Cd : rho * cos d = s * sin t + c * cos t) by (unfold d; rewrite cos_minus, E1, E2; ring).
  rewrite <- Sd, Rabs_mult, (Rabs_right rho) in Hx by lra. rewrite <- Cd in Hd.
  assert (Cpos : 0 < cos d) by (apply (Rmult_lt_reg_l rho); lra).
  split; [apply cos_pos_inv; [unfold d; lra|exact Cpos]|].
  (* rho >= rho cos d >= 1 - 2 eps *)
  assert (Rlo : rho * cos d <= rho * 1) by (apply Rmult_le_compat_l; [lra|apply COS_bound]).
  apply Rle_trans with (rho * Rabs (sin d)); [|exact Hx].
  apply Rmult_le_compat_r; [apply Rabs_pos|lra].
Qed.

Lemma atan2_conditioning t s c eps :
  0 <= t <= PI -> 0 <= s -> 0 <= eps <= 1 / 100 ->
  Rabs (s - sin t) <= eps -> Rabs (c - cos t) <= eps ->
  Rabs (atan2u s c - t) <= 3 * eps.
Proof.
  intros Ht Hs He Es Ec.
  destruct (atan2_error_sine t s c eps Ht Hs ltac:(lra) Es Ec) as [Hd Hy].
  pose proof (Rabs_pos (sin (atan2u s c - t))) as Y0.
  assert (Y : 98 / 100 * Rabs (sin (atan2u s c - t)) <= (1 - 2 * eps) * Rabs (sin (atan2u s c - t)))
    by (apply Rmult_le_compat_r; lra).
  pose proof (angle_by_sine _ Hd ltac:(lra)). lra.
Qed.
