(* C17 — exact dyadic arithmetic: the value of a binary64 float is m * 2^e; sums, differences,
   products and comparisons of such numbers are computed exactly on (Z mantissa, Z exponent)
   and proved equal to the corresponding real-number operations.  Used by the per-run
   certificates (moments, ordering, weight sums, agreement with a reference rule): they are
   decided by vm_compute on the EXACT values of the implementation's floats. *)
From Coq Require Import Reals Lia Lra List Bool.
From Coq Require Import PrimFloat FloatOps SpecFloat.
Import ListNotations.

Record dy := Dy { dm : Z; de : Z }.

Local Open Scope R_scope.

Definition dR (d : dy) : R := IZR (dm d) * powerRZ 2 (de d).

Local Open Scope Z_scope.

Definition dz (z : Z) : dy := Dy z 0.
Definition dmul (a b : dy) : dy := Dy (dm a * dm b) (de a + de b).
Definition dat (d : dy) (e : Z) : Z := Z.shiftl (dm d) (de d - e).   (* mantissa at exponent e <= de d *)
Definition dadd (a b : dy) : dy :=
  let e := Z.min (de a) (de b) in Dy (dat a e + dat b e) e.
Definition dopp (a : dy) : dy := Dy (- dm a) (de a).
Definition dsub (a b : dy) : dy := dadd a (dopp b).
Definition dabs (a : dy) : dy := Dy (Z.abs (dm a)) (de a).
Definition dscale (k : Z) (a : dy) : dy := Dy (k * dm a) (de a).
Definition dhalf (a : dy) : dy := Dy (dm a) (de a - 1).
Definition dleb (a b : dy) : bool := dm (dsub a b) <=? 0.
Definition dltb (a b : dy) : bool := dm (dsub a b) <? 0.
Definition dsum (l : list dy) : dy := fold_right dadd (dz 0) l.
Fixpoint dpow (a : dy) (n : nat) : dy := match n with O => dz 1 | S k => dmul a (dpow a k) end.

Definition dy_eqb (a b : dy) : bool := (dm a =? dm b)%Z && (de a =? de b)%Z.

Lemma dy_eqb_spec a b : dy_eqb a b = true <-> a = b.
Proof.
  destruct a, b. unfold dy_eqb. simpl. rewrite andb_true_iff, !Z.eqb_eq.
  split; [intros [-> ->]; reflexivity | intros [= -> ->]; auto].
Qed.

(* value of a float; None for nan/inf *)
Definition f2d (f : float) : option dy :=
  match Prim2SF f with
  | S754_zero _ => Some (Dy 0 0)
  | S754_finite s m e => Some (Dy (if s then Zneg m else Zpos m) e)
  | _ => None
  end.

Fixpoint fl2d (l : list float) : option (list dy) :=
  match l with
  | [] => Some []
  | f :: t => match f2d f, fl2d t with Some d, Some r => Some (d :: r) | _, _ => None end
  end.

(* the real number denoted by a float (0 for nan/inf; callers exclude those) *)
Definition f2R (f : float) : R := match f2d f with Some d => dR d | None => 0%R end.

Local Open Scope R_scope.

Lemma two_neq0 : 2 <> 0. Proof. lra. Qed.

Lemma powerRZ_2_pos e : 0 < powerRZ 2 e.
Proof. apply powerRZ_lt. lra. Qed.

Lemma IZR_pow2 n : (0 <= n)%Z -> IZR (2 ^ n) = powerRZ 2 n.
Proof.
  intros Hn. destruct n as [|p|p]; try lia.
  - simpl. reflexivity.
  - change (2 ^ Z.pos p)%Z with (Z.pow_pos 2 p). rewrite Zpower_pos_powerRZ. reflexivity.
Qed.

Lemma dat_spec d e : (e <= de d)%Z -> IZR (dat d e) * powerRZ 2 e = dR d.
Proof.
  intros H. unfold dat, dR. rewrite Z.shiftl_mul_pow2 by lia.
  rewrite mult_IZR, IZR_pow2 by lia. rewrite Rmult_assoc.
  rewrite <- powerRZ_add by apply two_neq0. f_equal. f_equal. lia.
Qed.

Lemma dR_dz z : dR (dz z) = IZR z.
Proof. unfold dR, dz; simpl. lra. Qed.

Lemma dR_mul a b : dR (dmul a b) = dR a * dR b.
Proof.
  unfold dR, dmul; simpl. rewrite mult_IZR, powerRZ_add by apply two_neq0. ring.
Qed.

Lemma dR_add a b : dR (dadd a b) = dR a + dR b.
Proof.
  unfold dadd. set (e := Z.min (de a) (de b)).
  unfold dR at 1; simpl. rewrite plus_IZR, Rmult_plus_distr_r.
  rewrite !dat_spec by (unfold e; lia). reflexivity.
Qed.

Lemma dR_opp a : dR (dopp a) = - dR a.
Proof. unfold dR, dopp; simpl. rewrite opp_IZR. ring. Qed.

Lemma dR_sub a b : dR (dsub a b) = dR a - dR b.
Proof. unfold dsub. rewrite dR_add, dR_opp. ring. Qed.

Lemma dR_abs a : dR (dabs a) = Rabs (dR a).
Proof.
  unfold dR, dabs; simpl. rewrite abs_IZR, Rabs_mult.
  rewrite (Rabs_pos_eq (powerRZ 2 (de a))) by (left; apply powerRZ_2_pos). reflexivity.
Qed.

Lemma dR_scale k a : dR (dscale k a) = IZR k * dR a.
Proof. unfold dR, dscale; simpl. rewrite mult_IZR. ring. Qed.

Lemma dR_half a : dR (dhalf a) = dR a / 2.
Proof.
  unfold dR, dhalf; simpl. replace (de a - 1)%Z with (de a + -1)%Z by lia.
  rewrite powerRZ_add by apply two_neq0. simpl. field.
Qed.

Global Hint Rewrite dR_abs dR_sub dR_add dR_mul dR_half dR_scale dR_dz dR_opp : dR.

Lemma dR_sign a : (0 < dR a <-> (0 < dm a)%Z) /\ (dR a = 0 <-> dm a = 0%Z) /\ (dR a < 0 <-> (dm a < 0)%Z).
Proof.
  unfold dR. pose proof (powerRZ_2_pos (de a)) as P.
  destruct (Z.lt_trichotomy (dm a) 0) as [T|[T|T]]; [pose proof (IZR_lt _ _ T) | rewrite T | pose proof (IZR_lt _ _ T)];
    repeat split; intros; try lia; nra.
Qed.

Lemma dleb_spec a b : dleb a b = true <-> dR a <= dR b.
Proof.
  unfold dleb. rewrite Z.leb_le. pose proof (dR_sign (dsub a b)) as [P _]. rewrite dR_sub in P.
  split; intros H.
  - apply Rnot_lt_le. intros C. assert (C' : 0 < dR a - dR b) by lra. apply P in C'. lia.
  - apply Z.nlt_ge. intros C. apply P in C. lra.
Qed.

Lemma dltb_spec a b : dltb a b = true <-> dR a < dR b.
Proof.
  unfold dltb. rewrite Z.ltb_lt. pose proof (dR_sign (dsub a b)) as [P [Z N]].
  rewrite dR_sub in *. split; intros H.
  - apply N in H. lra.
  - apply N. lra.
Qed.

Lemma dR_sum l : dR (dsum l) = fold_right Rplus 0 (map dR l).
Proof.
  induction l as [|a t IH]; simpl.
  - rewrite dR_dz. reflexivity.
  - rewrite dR_add, IH. reflexivity.
Qed.

Lemma dR_pow a n : dR (dpow a n) = dR a ^ n.
Proof.
  induction n as [|n IH]; simpl.
  - rewrite dR_dz. reflexivity.
  - rewrite dR_mul, IH. reflexivity.
Qed.

Lemma fl2d_length l r : fl2d l = Some r -> length r = length l.
Proof.
  revert r; induction l as [|f t IH]; intros r H; simpl in *.
  - inversion H. reflexivity.
  - destruct (f2d f); try discriminate. destruct (fl2d t) eqn:E; try discriminate.
    inversion H; subst. simpl. f_equal. apply IH. reflexivity.
Qed.

Lemma fl2d_values l r : fl2d l = Some r -> map dR r = map f2R l.
Proof.
  revert r; induction l as [|f t IH]; intros r H; simpl in *.
  - inversion H. reflexivity.
  - unfold f2R at 1. destruct (f2d f) eqn:Ef; try discriminate. destruct (fl2d t) eqn:E; try discriminate.
    inversion H; subst. simpl. f_equal. apply IH. reflexivity.
Qed.
