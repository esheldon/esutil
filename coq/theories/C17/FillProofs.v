(* C17 — discrete facts about the anchored code (no reals, no axioms): what the writes of the C fill loop leave in the
   array ([F.upd], [F.fill_loop], [mirror_fill]), what follows for the arrays [F.gauleg_gen] returns, and numpy's
   broadcasting on the shapes QGauss2._setup builds. *)
From EsVerif.Common Require Import Base.
From EsVerif.C17 Require Import Model.

(* m = (npts+1)/2 is the only integer division around: what is said of m below rests on these two bounds *)
Lemma m_of_bounds npts : (2 * F.m_of npts <= npts + 1 < 2 * F.m_of npts + 2)%Z.
Proof.
  unfold F.m_of. pose proof (Z.mul_div_le (npts + 1) 2). pose proof (Z.mul_succ_div_gt (npts + 1) 2). lia.
Qed.

Lemma length_upd {A} (l : list A) : forall k v, length (F.upd l k v) = length l.
Proof. induction l as [|a t IH]; intros [|k] v; simpl; auto. Qed.

Lemma nth_upd {A} (d : A) (l : list A) : forall k v j,
  nth j (F.upd l k v) d = if (j =? k)%nat && (k <? length l)%nat then v else nth j l d.
Proof.
  induction l as [|a t IH]; intros k v j.
  - simpl. rewrite andb_false_r. destruct k; reflexivity.
  - destruct k as [|k]; destruct j as [|j]; simpl; try reflexivity.
    rewrite IH. reflexivity.
Qed.

Lemma upd_app {A} (l1 : list A) x l2 v : F.upd (l1 ++ x :: l2) (length l1) v = l1 ++ v :: l2.
Proof. induction l1 as [|a t IH]; simpl; [reflexivity | rewrite IH; reflexivity]. Qed.

Lemma upd_ends {A} (pre mid post : list A) x y lo hi :
  F.upd (F.upd (pre ++ x :: mid ++ y :: post) (length pre) lo) (length pre + S (length mid)) hi
  = pre ++ lo :: mid ++ hi :: post.
Proof.
  rewrite upd_app. change (pre ++ lo :: mid ++ y :: post) with (pre ++ (lo :: mid) ++ y :: post).
  rewrite app_assoc. replace (length pre + S (length mid))%nat with (length (pre ++ lo :: mid)) by apply app_length.
  rewrite upd_app, <- app_assoc. reflexivity.
Qed.

(* The loop seen from the array: with [pre] and [post] (equally long) already final and [mid] still
   untouched, pass i = |pre|+1 writes the first and the last cell of [mid] -- the same cell twice, hi last,
   when one cell is left -- and the remaining passes go on with the shorter middle. *)
Lemma fill_loop_middle {A} n : forall (los his pre mid post : list A),
  length his = length los -> length post = length pre ->
  (length pre + length mid + length post = n)%nat ->
  (length mid <= 2 * length los <= length mid + 1)%nat ->
  F.fill_loop (Z.of_nat n) (Z.of_nat (length pre) + 1) los his (pre ++ mid ++ post)
  = pre ++ firstn (length mid - length his) los ++ rev his ++ post.
Proof.
  induction los as [|lo lt IH]; intros [|hi ht] pre mid post Hh Hp Hn Hm; try discriminate.
  - destruct mid; [reflexivity | simpl in Hm; lia].
  - cbn [F.fill_loop].
    replace (Z.to_nat (F.idx_lo (Z.of_nat (length pre) + 1))) with (length pre) by (unfold F.idx_lo; lia).
    replace (Z.to_nat (F.idx_hi (Z.of_nat n) (Z.of_nat (length pre) + 1))) with (length pre + (length mid - 1))%nat
      by (unfold F.idx_hi; simpl in Hm; lia).
    destruct mid as [|x mid]; [simpl in Hm; lia|].
    destruct mid as [|x' mid'].
    + (* one cell left: both writes hit it, and these were the last values *)
      destruct lt; [|simpl in Hm; lia]. destruct ht; [|discriminate].
      cbn [app length Nat.sub]. rewrite Nat.add_0_r, !upd_app. reflexivity.
    + (* at least two cells: x, the last one y, and what lies between *)
      destruct (exists_last (l := x' :: mid') ltac:(discriminate)) as [mid [y E]]. rewrite E in *. clear E x' mid'.
      simpl in Hh, Hm, Hn. rewrite app_length in Hm, Hn. simpl in Hm, Hn.
      replace (pre ++ (x :: mid ++ [y]) ++ post) with (pre ++ x :: mid ++ y :: post)
        by (simpl; rewrite <- app_assoc; reflexivity).
      replace (length (x :: mid ++ [y]) - 1)%nat with (S (length mid)) by (simpl; rewrite app_length; simpl; lia).
      rewrite upd_ends.
      replace (pre ++ lo :: mid ++ hi :: post) with ((pre ++ [lo]) ++ mid ++ hi :: post)
        by (rewrite <- app_assoc; reflexivity).
      replace (Z.of_nat (length pre) + 1 + 1)%Z with (Z.of_nat (length (pre ++ [lo])) + 1)%Z
        by (rewrite app_length; simpl; lia).
      rewrite IH by (rewrite ?app_length; simpl; lia).
      replace (length (x :: mid ++ [y]) - length (hi :: ht))%nat with (S (length mid - length ht))
        by (simpl; rewrite app_length; simpl; lia).
      cbn [firstn rev]. rewrite <- !app_assoc. reflexivity.
Qed.

Theorem fill_loop_is_mirror_fill {A} (d : A) n (lo hi : list A) :
  length lo = Z.to_nat (F.m_of (Z.of_nat n)) -> length hi = length lo ->
  F.fill_loop (Z.of_nat n) 1 lo hi (repeat d n) = mirror_fill n lo hi.
Proof.
  intros Hlo Hhi. pose proof (m_of_bounds (Z.of_nat n)) as Hm.
  pose proof (fill_loop_middle n lo hi [] (repeat d n) [] Hhi eq_refl) as E.
  simpl in E. rewrite !app_nil_r, repeat_length in E. apply E; lia.
Qed.

(* the two arrays the C code fills: same positions, so the same statement for x and for w *)
Corollary gauleg_arrays_are_mirror_fills (n : nat) (los his ws : list PrimFloat.float) :
  (1 <= n)%nat -> length los = Z.to_nat (F.m_of (Z.of_nat n)) -> length his = length los -> length ws = length los ->
  F.fill_loop (Z.of_nat n) 1 los his (repeat PrimFloat.zero n) = mirror_fill n los his /\
  F.fill_loop (Z.of_nat n) 1 ws ws (repeat PrimFloat.zero n) = mirror_fill n ws ws.
Proof.
  intros _ H1 H2 H3. split; apply fill_loop_is_mirror_fill; congruence.
Qed.

Lemma roots_length orig fuel n nf : forall coss z1 pp r,
  F.roots orig fuel n nf coss z1 pp = Some r -> length r = length coss.
Proof.
  induction coss as [|c t IH]; intros z1 pp r H; simpl in H.
  - injection H as <-. reflexivity.
  - destruct (F.newton orig fuel n nf c z1 pp) as [[[z z1'] pp']|]; [|discriminate].
    destruct (F.roots orig fuel n nf t z1' pp') as [r'|] eqn:E; [|discriminate].
    injection H as <-. simpl. f_equal. eapply IH. exact E.
Qed.

(* gauleg's output arrays, produced by the C code's writes into zeroed arrays, are the model's *)
Theorem gauleg_writes_eq orig x1 x2 npts coss :
  F.gauleg_gen_w orig x1 x2 npts coss = F.gauleg_gen orig x1 x2 npts coss.
Proof.
  unfold F.gauleg_gen_w, F.gauleg_gen, F.reject_npts, F.outer_trips, F.inner_trips, F.REJECT_ERR.
  destruct (Z.leb_spec npts 0) as [Hn|Hn]; [reflexivity|].
  destruct (Nat.eqb_spec (length coss) (Z.to_nat (F.m_of npts))) as [Hc|Hc]; simpl; [|reflexivity].
  destruct (F.roots orig F.NEWTON_FUEL (Z.to_nat npts) (F.of_Z npts) coss F.Z1_INIT F.PP_INIT) as [r|] eqn:E; [|reflexivity].
  apply roots_length in E.
  (* both arrays: m = length r values written into npts zeros *)
  assert (Hm : length r = Z.to_nat (F.m_of (Z.of_nat (Z.to_nat npts)))) by (rewrite Z2Nat.id by lia; congruence).
  rewrite <- (Z2Nat.id npts) at 1 3 by lia.
  rewrite !fill_loop_is_mirror_fill by (rewrite !map_length; exact Hm || reflexivity). reflexivity.
Qed.

Lemma nth_firstn_lt {A} (d : A) : forall (l : list A) n i, (i < n)%nat -> nth i (firstn n l) d = nth i l d.
Proof.
  induction l as [|a t IH]; intros [|n] [|i] H; simpl; try reflexivity; try lia.
  apply IH. lia.
Qed.

Lemma length_mirror_fill {A} n (lo hi : list A) : length hi = length lo ->
  (n <= 2 * length lo <= n + 1)%nat -> length (mirror_fill n lo hi) = n.
Proof. intros Hhi Hm. unfold mirror_fill. rewrite app_length, firstn_length, rev_length. lia. Qed.

Lemma nth_mirror_fill {A} (d : A) n (lo hi : list A) : length hi = length lo ->
  (n <= 2 * length lo <= n + 1)%nat -> forall k, (k < n)%nat ->
  nth k (mirror_fill n lo hi) d = if (k <? n - length lo)%nat then nth k lo d else nth (n - 1 - k) hi d.
Proof.
  intros Hhi Hm k Hk. unfold mirror_fill. rewrite Hhi.
  destruct (Nat.ltb_spec k (n - length lo)) as [Hlt|Hge].
  - rewrite app_nth1 by (rewrite firstn_length; lia). apply nth_firstn_lt. exact Hlt.
  - rewrite app_nth2 by (rewrite firstn_length; lia).
    rewrite firstn_length, Nat.min_l by lia.
    rewrite rev_nth by (rewrite Hhi; lia). rewrite Hhi. f_equal. lia.
Qed.

(* every entry of the filled array is related to its mirror image, when lo_j and hi_j are related both ways
   and, for odd n, the middle entry hi_m (written last) to itself *)
Lemma mirror_fill_rel {A} (Rel : A -> A -> Prop) (d : A) n (lo hi : list A) :
  length hi = length lo -> (n <= 2 * length lo <= n + 1)%nat ->
  (forall j, (j < length lo)%nat -> Rel (nth j lo d) (nth j hi d) /\ Rel (nth j hi d) (nth j lo d)) ->
  ((S n = 2 * length lo)%nat -> Rel (nth (length lo - 1) hi d) (nth (length lo - 1) hi d)) ->
  forall i, (i < n)%nat -> Rel (nth i (mirror_fill n lo hi) d) (nth (n - 1 - i) (mirror_fill n lo hi) d).
Proof.
  intros Hhi Hm Hpair Hmid i Hi. rewrite !(nth_mirror_fill d) by (assumption || lia).
  replace (n - 1 - (n - 1 - i))%nat with i by lia.
  destruct (Nat.ltb_spec i (n - length lo)), (Nat.ltb_spec (n - 1 - i) (n - length lo)).
  - lia.
  - apply Hpair. lia.
  - apply Hpair. lia.
  - replace (n - 1 - i)%nat with (length lo - 1)%nat by lia. replace i with (length lo - 1)%nat by lia.
    apply Hmid. lia.
Qed.

Lemma mirror_fill_self_palindrome {A} n (w : list A) :
  (n <= 2 * length w <= n + 1)%nat -> rev (mirror_fill n w w) = mirror_fill n w w.
Proof.
  intros Hm. pose proof (length_mirror_fill n w w eq_refl Hm) as L.
  destruct w as [|d w'] eqn:E.
  - simpl in Hm. replace n with 0%nat by lia. reflexivity.
  - rewrite <- E in *. apply nth_ext with d d; [apply rev_length|].
    intros k Hk. rewrite rev_length, L in Hk. rewrite rev_nth, L by lia.
    replace (n - S k)%nat with (n - 1 - k)%nat by lia. symmetry.
    apply (mirror_fill_rel eq d n w w eq_refl Hm); [split; reflexivity | reflexivity | exact Hk].
Qed.

(* ---- consequences for the float model, for ALL inputs: gauleg returns npts abscissae and npts
   weights, and the weights are EXACTLY (bit for bit) symmetric: w[npts+1-i-1] = w[i-1] is a copy *)
Theorem gauleg_lengths_and_weight_symmetry orig x1 x2 npts coss xs ws :
  F.gauleg_gen orig x1 x2 npts coss = Ok (xs, ws) ->
  (0 < npts)%Z /\ length xs = Z.to_nat npts /\ length ws = Z.to_nat npts /\ rev ws = ws.
Proof.
  unfold F.gauleg_gen, F.reject_npts, F.outer_trips, F.inner_trips, F.REJECT_ERR.
  destruct (Z.leb_spec npts 0) as [Hn|Hn]; [discriminate|].
  destruct (Nat.eqb_spec (length coss) (Z.to_nat (F.m_of npts))) as [Hc|Hc]; simpl; [|discriminate].
  destruct (F.roots orig F.NEWTON_FUEL (Z.to_nat npts) (F.of_Z npts) coss F.Z1_INIT F.PP_INIT) as [r|] eqn:E; [|discriminate].
  apply roots_length in E. intros H. injection H as <- <-.
  assert (Hm : (Z.to_nat npts <= 2 * length r <= Z.to_nat npts + 1)%nat) by (pose proof (m_of_bounds npts); lia).
  split; [exact Hn|].
  split; [apply length_mirror_fill; rewrite ?map_length; auto|].
  split; [apply length_mirror_fill; rewrite ?map_length; auto|].
  apply mirror_fill_self_palindrome. rewrite map_length. exact Hm.
Qed.

Local Open Scope Z_scope.

Lemma bdim_same a : F.bdim a a = Some a.
Proof. unfold F.bdim. rewrite Z.eqb_refl. reflexivity. Qed.

Lemma bdim_1_r a : F.bdim a 1 = Some a.
Proof. unfold F.bdim. destruct (a =? 1); reflexivity. Qed.

Lemma bshape_same s : F.bshape s s = Some s.
Proof. destruct s. unfold F.bshape. cbn [fst snd]. rewrite !bdim_same. reflexivity. Qed.

Lemma bshape_col a b : F.bshape (a, b) (a, 1) = Some (a, b).
Proof. unfold F.bshape. cbn [fst snd]. rewrite bdim_same, bdim_1_r. reflexivity. Qed.

Lemma bshape_row a b c : 2 <= b -> 2 <= c -> F.bshape (a, b) (1, c) = if b =? c then Some (a, b) else None.
Proof.
  intros Hb Hc. unfold F.bshape, F.bdim at 2. cbn [fst snd]. rewrite bdim_1_r.
  destruct (Z.eqb_spec b 1); [lia|]. destruct (Z.eqb_spec c 1); [lia|]. destruct (b =? c); reflexivity.
Qed.

Lemma bshape_row_same a b : F.bshape (a, b) (1, b) = Some (a, b).
Proof. unfold F.bshape. cbn [fst snd]. rewrite bdim_same, bdim_1_r. reflexivity. Qed.
