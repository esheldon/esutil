(* C17 — numpy's pairwise summation, as modelled (Model.pairwise_g), computes THE SUM: instantiated with the
   addition of the reals it returns Rsum l for every list (given fuel), i.e. every element is added exactly
   once whatever the block structure; the float instance F.pairwise is the same tree with rounded additions. *)
From Coq Require Import Reals Lra.
From EsVerif.Common Require Import Base.
From EsVerif.C17 Require Import Model Proofs.
Import RM.

Local Open Scope R_scope.

Lemma fold_left_Rplus l : forall acc, fold_left Rplus l acc = acc + Rsum l.
Proof. induction l as [|a t IH]; intros acc; simpl; [lra | rewrite IH; lra]. Qed.

(* the block loop takes eight elements per pass, so its recursive call is not on the tail of the list: induction on the length *)
Lemma pw_block_R : forall l r0 r1 r2 r3 r4 r5 r6 r7,
  pw_block_g Rplus r0 r1 r2 r3 r4 r5 r6 r7 l = r0 + r1 + r2 + r3 + r4 + r5 + r6 + r7 + Rsum l.
Proof.
  intros l. induction l as [l IH] using (well_founded_induction (well_founded_ltof _ (@length R))).
  intros r0 r1 r2 r3 r4 r5 r6 r7.
  destruct l as [|a0 [|a1 [|a2 [|a3 [|a4 [|a5 [|a6 [|a7 t]]]]]]]];
    try (cbn [pw_block_g]; rewrite fold_left_Rplus; unfold Rsum; simpl; lra).
  cbn [pw_block_g]. rewrite IH by (unfold ltof; simpl; lia). unfold Rsum; simpl. lra.
Qed.

(* up to 128 elements no fuel is used: a plain loop, or one block of eight accumulators *)
Lemma pairwise_g_base {A} (add : A -> A -> A) (zero : A) fuel l : (length l <= 128)%nat ->
  pairwise_g add zero fuel l = Some (fold_left add l zero) \/
  exists a0 a1 a2 a3 a4 a5 a6 a7 t, l = a0 :: a1 :: a2 :: a3 :: a4 :: a5 :: a6 :: a7 :: t /\
    pairwise_g add zero fuel l = Some (pw_block_g add a0 a1 a2 a3 a4 a5 a6 a7 t).
Proof.
  intros L. apply Nat.leb_le in L. destruct fuel; cbn [pairwise_g]; rewrite L; clear L.
  all: destruct l as [|a0 [|a1 [|a2 [|a3 [|a4 [|a5 [|a6 [|a7 t]]]]]]]]; try (left; reflexivity).
  all: right; exists a0, a1, a2, a3, a4, a5, a6, a7, t; split; reflexivity.
Qed.

(* beyond, one unit of fuel pays for the split at n/2 rounded down to a multiple of 8 *)
Lemma pairwise_g_split {A} (add : A -> A -> A) (zero : A) fuel l : (128 < length l)%nat ->
  pairwise_g add zero fuel l =
  match fuel with
  | O => None
  | S f =>
    let n2 := (length l / 2 - (length l / 2) mod 8)%nat in
    match pairwise_g add zero f (firstn n2 l), pairwise_g add zero f (skipn n2 l) with
    | Some a, Some b => Some (add a b)
    | _, _ => None
    end
  end.
Proof.
  intros L. assert (L8 : (length l <? 8)%nat = false) by (apply Nat.ltb_ge; lia). apply Nat.leb_gt in L.
  destruct fuel; cbn [pairwise_g]; rewrite L8, L; reflexivity.
Qed.

Lemma pairwise_R_base fuel l s : (length l <= 128)%nat -> pairwise_g Rplus 0 fuel l = Some s -> s = Rsum l.
Proof.
  intros L H.
  destruct (pairwise_g_base Rplus 0 fuel l L) as [E|(a0 & a1 & a2 & a3 & a4 & a5 & a6 & a7 & t & -> & E)];
    rewrite E in H; injection H as <-.
  - rewrite fold_left_Rplus. lra.
  - rewrite pw_block_R. unfold Rsum; simpl. lra.
Qed.

Theorem pairwise_R_is_sum : forall fuel l s, pairwise_g Rplus 0 fuel l = Some s -> s = Rsum l.
Proof.
  induction fuel as [|f IH]; intros l s H; destruct (Nat.leb_spec (length l) 128) as [L|L].
  - exact (pairwise_R_base _ l s L H).
  - rewrite (pairwise_g_split _ _ _ l L) in H. discriminate.
  - exact (pairwise_R_base _ l s L H).
  - (* a long list with fuel: the sums of the two parts, by induction *)
    rewrite (pairwise_g_split _ _ _ l L) in H. cbv zeta in H.
    destruct (pairwise_g Rplus 0 f (firstn _ l)) as [a|] eqn:Ea; [|discriminate].
    destruct (pairwise_g Rplus 0 f (skipn _ l)) as [b|] eqn:Eb; [|discriminate].
    injection H as <-. rewrite (IH _ _ Ea), (IH _ _ Eb), <- Rsum_app, firstn_skipn. reflexivity.
Qed.

Lemma split_bounds n B : (n <= 2 * B + 16)%nat ->
  let n2 := (n / 2 - (n / 2) mod 8)%nat in (n2 <= B + 16 /\ n - n2 <= B + 16)%nat.
Proof.
  intros L n2. unfold n2.
  pose proof (Nat.div_mod n 2). pose proof (Nat.mod_upper_bound n 2).
  pose proof (Nat.mod_upper_bound (n / 2) 8). pose proof (Nat.mod_le (n / 2) 8). lia.
Qed.

Lemma pairwise_g_base_total {A} (add : A -> A -> A) (zero : A) fuel l :
  (length l <= 128)%nat -> exists s, pairwise_g add zero fuel l = Some s.
Proof.
  intros L. destruct (pairwise_g_base add zero fuel l L) as [E|(? & ? & ? & ? & ? & ? & ? & ? & ? & _ & E)];
    rewrite E; eexists; reflexivity.
Qed.

(* the fuel is never exhausted for lists of at most 112 * 2^fuel + 16 elements (np_sum has fuel 64) *)
Lemma pairwise_g_total {A} (add : A -> A -> A) (zero : A) : forall fuel l,
  (length l <= 112 * 2 ^ fuel + 16)%nat -> exists s, pairwise_g add zero fuel l = Some s.
Proof.
  induction fuel as [|f IH]; intros l L; destruct (Nat.leb_spec (length l) 128) as [L8|L8].
  - apply pairwise_g_base_total. exact L8.
  - simpl in L. lia.
  - apply pairwise_g_base_total. exact L8.
  - (* a long list with fuel: each part is short enough for one unit of fuel less *)
    rewrite pairwise_g_split by exact L8. cbv zeta.
    rewrite Nat.pow_succ_r' in L.
    destruct (split_bounds (length l) (112 * 2 ^ f)) as [B1 B2]; [lia|].
    destruct (IH (firstn (length l / 2 - (length l / 2) mod 8) l)) as [a Ea]; [rewrite firstn_length; lia|].
    destruct (IH (skipn (length l / 2 - (length l / 2) mod 8) l)) as [b Eb]; [rewrite skipn_length; lia|].
    rewrite Ea, Eb. eexists; reflexivity.
Qed.
