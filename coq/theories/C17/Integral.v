(* C17 — link with the Riemann integral (Coquelicot's is_RInt): the closed form [Pint] used by
   the certificates IS the integral of the polynomial, and the affine-mapped rule inherits the
   moment bound on every interval [a,b] (a > b included). *)
From Coq Require Import Reals Lra.
From Coquelicot Require Import Coquelicot.
From EsVerif.Common Require Import Base.
From EsVerif.C17 Require Import Model Spec Proofs.
Import RM.

Local Open Scope R_scope.

Lemma is_RInt_monomial k a b : is_RInt (fun x => x ^ k) a b ((b ^ S k - a ^ S k) / INR (S k)).
Proof.
  assert (N : INR (S k) <> 0) by (apply not_0_INR; lia).
  replace ((b ^ S k - a ^ S k) / INR (S k))
    with (minus ((fun x => x ^ S k / INR (S k)) b) ((fun x => x ^ S k / INR (S k)) a))
    by (unfold minus, plus, opp; simpl; field; exact N).
  apply (is_RInt_derive (fun x => x ^ S k / INR (S k)) (fun x => x ^ k)).
  - intros x _. auto_derive; [trivial|].
    replace (pred (S k)) with k by reflexivity. field. exact N.
  - intros x _. apply (ex_derive_continuous (fun y => y ^ k)). auto_derive. trivial.
Qed.

Lemma is_RInt_peval_shift a b p : forall k,
  is_RInt (fun x => x ^ k * peval p x) a b (pint_from k a b p).
Proof.
  induction p as [|c t IH]; intros k.
  - apply (is_RInt_ext (fun _ => 0)); [intros; simpl; ring|].
    replace (pint_from k a b []) with (scal (b - a) 0) by (unfold scal; simpl; unfold mult; simpl; ring).
    apply (is_RInt_const a b 0).
  - apply (is_RInt_ext (fun x => plus (scal c (x ^ k)) (x ^ S k * peval t x))).
    { intros x _. unfold plus, scal; simpl. unfold mult; simpl. ring. }
    replace (pint_from k a b (c :: t))
      with (plus (scal c ((b ^ S k - a ^ S k) / INR (S k))) (pint_from (S k) a b t)).
    + apply (is_RInt_plus (fun x => scal c (x ^ k)) (fun x => x ^ S k * peval t x)).
      * apply (is_RInt_scal (fun x => x ^ k)). apply is_RInt_monomial.
      * apply IH.
    + unfold plus, scal; simpl. unfold mult; simpl. unfold Rdiv. ring.
Qed.

(* the closed form is the Riemann integral of the polynomial *)
Theorem peval_is_RInt a b p : is_RInt (peval p) a b (Pint a b p).
Proof.
  apply (is_RInt_ext (fun x => x ^ 0 * peval p x)); [intros; simpl; ring|].
  apply is_RInt_peval_shift.
Qed.

Corollary peval_RInt a b p : RInt (peval p) a b = Pint a b p.
Proof. apply is_RInt_unique. apply peval_is_RInt. Qed.

(* substitution x = xm + xl t *)
Lemma Pint_affine a b p :
  Pint a b p = (b - a) / 2 * Pint (-1) 1 (pcomp p ((a + b) / 2) ((b - a) / 2)).
Proof.
  set (xm := (a + b) / 2). set (xl := (b - a) / 2).
  assert (H1 : is_RInt (fun y => scal xl (peval p (xl * y + xm))) (-1) 1 (Pint a b p)).
  { apply (is_RInt_comp_lin (peval p) xl xm (-1) 1).
    replace (xl * -1 + xm) with a by (unfold xl, xm; field).
    replace (xl * 1 + xm) with b by (unfold xl, xm; field).
    apply peval_is_RInt. }
  assert (H2 : is_RInt (fun y => scal xl (peval p (xl * y + xm))) (-1) 1 (scal xl (Pint (-1) 1 (pcomp p xm xl)))).
  { apply (is_RInt_scal (fun y => peval p (xl * y + xm))).
    apply (is_RInt_ext (peval (pcomp p xm xl))).
    - intros y _. rewrite peval_pcomp. f_equal. ring.
    - apply peval_is_RInt. }
  rewrite <- (is_RInt_unique _ _ _ _ H1). rewrite (is_RInt_unique _ _ _ _ H2).
  unfold scal; simpl. unfold mult; simpl. reflexivity.
Qed.

(* moments on [-1,1] certify the mapped rule on [a,b] for every polynomial of degree < N *)
Theorem affine_rule_poly zs ws N eps a b p :
  moments_ok zs ws N eps -> (length p <= N)%nat ->
  Rabs (Qrule (map_nodes a b zs) (map_weights a b ws) (peval p) - Pint a b p)
  <= Rabs (b - a) / 2 * (eps * norm1 (pcomp p ((a + b) / 2) ((b - a) / 2))).
Proof.
  intros M L. rewrite Qrule_affine, Pint_affine.
  set (q := pcomp p ((a + b) / 2) ((b - a) / 2)).
  rewrite (Qrule_ext zs ws _ (peval q)) by (intros z; unfold q; rewrite peval_pcomp; reflexivity).
  assert (Hq : Rabs (Qrule zs ws (peval q) - Pint (-1) 1 q) <= eps * norm1 q).
  { apply (moments_lift zs ws N eps q M). unfold q. rewrite length_pcomp. exact L. }
  replace ((b - a) / 2 * Qrule zs ws (peval q) - (b - a) / 2 * Pint (-1) 1 q)
    with ((b - a) / 2 * (Qrule zs ws (peval q) - Pint (-1) 1 q)) by ring.
  rewrite Rabs_mult. unfold Rdiv at 1. rewrite Rabs_mult, (Rabs_pos_eq (/ 2)) by lra.
  pose proof (Rabs_pos (b - a)). unfold Rdiv.
  apply Rmult_le_compat_l; [nra | exact Hq].
Qed.
