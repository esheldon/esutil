(* C17 — what the Newton pass of cgauleg_pywrap.c computes, over the reals:
   the inner loop is Bonnet's recursion for the Legendre polynomials P_n, the quantity pp is P_n'(z)
   (derivative in the sense of Coquelicot's is_derive), so the update z - p1/pp is Newton's method on P_n
   and the weight formula is the classical 2 / ((1 - z^2) P_n'(z)^2) scaled by the half width. *)
From Coq Require Import Reals Lra.
From Coquelicot Require Import Coquelicot.
From EsVerif.Common Require Import Base.
From EsVerif.C17 Require Import Model.
Import RM.

Local Open Scope R_scope.

(* P_0 = 1, P_1 = x, (k+1) P_{k+1} = (2k+1) x P_k - k P_{k-1};   [Pm n] = P_{n-1} (P_{-1} := 0) *)
Fixpoint Leg (n : nat) (x : R) : R * R :=
  match n with
  | O => (1, 0)
  | S k => let pq := Leg k x in (((2 * INR k + 1) * x * fst pq - INR k * snd pq) / INR (S k), fst pq)
  end.
Definition P (n : nat) (x : R) : R := fst (Leg n x).
Definition Pm (n : nat) (x : R) : R := snd (Leg n x).

(* the same recursion differentiated term by term: D_n = P_n', Dm_n = P_{n-1}' *)
Fixpoint LegD (n : nat) (x : R) : R * R :=
  match n with
  | O => (0, 0)
  | S k => let de := LegD k x in
           (((2 * INR k + 1) * (P k x + x * fst de) - INR k * snd de) / INR (S k), fst de)
  end.
Definition D (n : nat) (x : R) : R := fst (LegD n x).
Definition Dm (n : nat) (x : R) : R := snd (LegD n x).

Lemma P_S k x : P (S k) x = ((2 * INR k + 1) * x * P k x - INR k * Pm k x) / INR (S k).
Proof. reflexivity. Qed.
Lemma Pm_S k x : Pm (S k) x = P k x.
Proof. reflexivity. Qed.
Lemma D_S k x : D (S k) x = ((2 * INR k + 1) * (P k x + x * D k x) - INR k * Dm k x) / INR (S k).
Proof. reflexivity. Qed.
Lemma Dm_S k x : Dm (S k) x = D k x.
Proof. reflexivity. Qed.

Lemma INR_S_neq0 k : INR (S k) <> 0.
Proof. apply not_0_INR. lia. Qed.

(* ---- the C inner loop is this recursion *)
Lemma legendre_R_spec z : forall cnt k,
  legendre_R cnt (INR (S k)) z (P k z) (Pm k z) = (P (cnt + k) z, Pm (cnt + k) z).
Proof.
  induction cnt as [|c IH]; intros k; [reflexivity|].
  cbn [legendre_R]. replace (INR (S k) + 1) with (INR (S (S k))) by (rewrite (S_INR (S k)); reflexivity).
  replace (((2 * INR (S k) - 1) * z * P k z - (INR (S k) - 1) * Pm k z) / INR (S k)) with (P (S k) z)
    by (rewrite P_S, S_INR; f_equal; ring).
  rewrite <- (Pm_S k z). rewrite IH. replace (c + S k)%nat with (S c + k)%nat by lia. reflexivity.
Qed.

Theorem newton_pass_is_legendre n z : legendre_R n 1 z 1 0 = (P n z, Pm n z).
Proof.
  change 1 with (INR 1) at 1. change 1 with (P 0 z) at 1. change 0 with (Pm 0 z).
  rewrite legendre_R_spec. rewrite Nat.add_0_r. reflexivity.
Qed.

(* ---- D is the derivative of P *)
Lemma P_Pm_derive : forall n x, is_derive (P n) x (D n x) /\ is_derive (Pm n) x (Dm n x).
Proof.
  induction n as [|k IH]; intros x.
  - split.
    + apply (is_derive_ext (fun _ : R => 1)); [intros; reflexivity|]. apply @is_derive_const.
    + apply (is_derive_ext (fun _ : R => 0)); [intros; reflexivity|]. apply @is_derive_const.
  - destruct (IH x) as [HP HPm]. split.
    + apply (is_derive_ext (fun t => ((2 * INR k + 1) * t * P k t - INR k * Pm k t) / INR (S k)));
        [intros t; symmetry; apply P_S|].
      rewrite D_S. pose proof (INR_S_neq0 k) as Hk.
      auto_derive.
      * repeat split; try (eexists; eassumption); exact Logic.I.
      * change (fun x0 : R => P k x0) with (P k). change (fun x0 : R => Pm k x0) with (Pm k).
        rewrite (is_derive_unique _ _ _ HP), (is_derive_unique _ _ _ HPm).
        change (match k with 0%nat => 1 | S _ => INR k + 1 end) with (INR (S k)). field. exact Hk.
    + apply (is_derive_ext (P k)); [intros t; symmetry; apply Pm_S|]. rewrite Dm_S. exact HP.
Qed.

Theorem D_is_derivative n x : is_derive (P n) x (D n x).
Proof. apply P_Pm_derive. Qed.

(* ---- the classical identities, for n = S k >= 1:
        (x^2 - 1) P_n' = n (x P_n - P_{n-1})     and     x P_n' - P_{n-1}' = n P_n *)
Lemma legendre_identities : forall k x,
  (x * x - 1) * D (S k) x = INR (S k) * (x * P (S k) x - P k x) /\
  x * D (S k) x - D k x = INR (S k) * P (S k) x.
Proof.
  induction k as [|k IH]; intros x.
  - unfold D, P; simpl. change (P 0 x) with 1. split; field.
  - destruct (IH x) as [HA HC].
    pose proof (INR_S_neq0 k) as Hm. pose proof (INR_S_neq0 (S k)) as Hm1.
    rewrite (S_INR (S k)) in *.
    set (m := INR (S k)) in *.
    rewrite (P_S (S k)), (D_S (S k)), Pm_S, Dm_S. rewrite (S_INR (S k)). fold m.
    set (p := P (S k) x) in *. set (q := P k x) in *. set (d := D (S k) x) in *. set (e := D k x) in *.
    assert (He : e = x * d - m * p) by lra.
    assert (Hq : q = x * p - (x * x - 1) * d / m).
    { apply Rmult_eq_reg_l with m; [|exact Hm]. field_simplify; [|exact Hm]. lra. }
    rewrite He, Hq. split; field; split; assumption.
Qed.

(* pp of the C code is the derivative of P_n at z *)
Theorem pp_is_derivative n z : (1 <= n)%nat -> z * z <> 1 ->
  pp_R (INR n) z (P n z) (Pm n z) = D n z.
Proof.
  intros Hn Hz. destruct n as [|k]; [lia|].
  destruct (legendre_identities k z) as [HA _]. rewrite Pm_S. unfold pp_R.
  apply Rmult_eq_reg_l with (z * z - 1); [|lra]. rewrite HA. field. lra.
Qed.

(* one pass of the Newton loop (lines 59-71) over the reals is Newton's method on P_n *)
Theorem newton_step_R_is_newton n z : (1 <= n)%nat -> z * z <> 1 ->
  newton_step_R n z = (z - P n z / Derive (P n) z, Derive (P n) z) /\ is_derive (P n) z (Derive (P n) z).
Proof.
  intros Hn Hz. unfold newton_step_R. rewrite newton_pass_is_legendre.
  rewrite (pp_is_derivative n z Hn Hz). rewrite (is_derive_unique _ _ _ (D_is_derivative n z)).
  split; [reflexivity | apply D_is_derivative].
Qed.

(* a root of P_n with non-vanishing derivative is a fixed point of the pass; and conversely a fixed point
   with finite non-zero pp is a root *)
Theorem newton_fixed_point_iff_root n z : (1 <= n)%nat -> z * z <> 1 -> D n z <> 0 ->
  (fst (newton_step_R n z) = z <-> P n z = 0).
Proof.
  intros Hn Hz Hd. destruct (newton_step_R_is_newton n z Hn Hz) as [E _]. rewrite E. cbn [fst].
  rewrite (is_derive_unique _ _ _ (D_is_derivative n z)).
  split; intros H.
  - assert (Q : P n z / D n z = 0) by lra.
    unfold Rdiv in Q. apply Rmult_integral in Q. destruct Q as [Q|Q]; [exact Q|].
    exfalso. exact (Rinv_neq_0_compat _ Hd Q).
  - rewrite H. unfold Rdiv. lra.
Qed.

(* non-vacuity / sanity: P_2 = (3x^2-1)/2, P_3 = (5x^3-3x)/2 and their derivatives *)
Example legendre_low_orders x :
  P 2 x = (3 * x * x - 1) / 2 /\ D 2 x = 3 * x /\ P 3 x = (5 * x * x * x - 3 * x) / 2 /\ D 3 x = (15 * x * x - 3) / 2.
Proof. unfold D; simpl. unfold P; simpl. repeat split; field. Qed.
