(* C17 — the property theorems.  The longer proofs live in Proofs.v / Integral.v / CheckProofs.v / FillProofs.v /
   SmallRules.v / Legendre.v / SumProofs.v. *)
From Coq Require Import Reals QArith PrimFloat Lra.
From Coquelicot Require Import Coquelicot.
From EsVerif.Common Require Import Base.
From EsVerif.C17 Require Import Model Dyadic Spec Proofs Integral CheckProofs FillProofs SmallRules Legendre SumProofs.
Import RM.

Local Open Scope R_scope.

(* The closed form used by the certificates is the Riemann integral of the polynomial. *)
Theorem C17_polynomial_integral : forall a b p, is_RInt (peval p) a b (Pint a b p).
Proof. exact peval_is_RInt. Qed.

(* Moment certificates (a finite, per-rule obligation) lift to EVERY polynomial of degree < N:
   the error is at most eps times the 1-norm of the coefficients. *)
Theorem C17_moments_lift : forall xs ws N eps p,
  moments_ok xs ws N eps -> (length p <= N)%nat ->
  Rabs (Qrule xs ws (peval p) - Pint (-1) 1 p) <= eps * norm1 p.
Proof. exact moments_lift. Qed.

(* Affine map: nodes xm + xl z, weights xl w turn a rule on [-1,1] into the rule on [a,b]
   (any a, b; a > b included: the weights change sign with b - a). *)
Theorem C17_affine_rule : forall a b zs ws f,
  Qrule (map_nodes a b zs) (map_weights a b ws) f =
  (b - a) / 2 * Qrule zs ws (fun z => f ((a + b) / 2 + (b - a) / 2 * z)).
Proof. exact Qrule_affine. Qed.

(* ... and the mapped rule is exact to degree N-1 on [a,b] up to the certified moment error. *)
Theorem C17_exact_to_degree : forall zs ws N eps a b p,
  moments_ok zs ws N eps -> (length p <= N)%nat ->
  Rabs (Qrule (map_nodes a b zs) (map_weights a b ws) (peval p) - RInt (peval p) a b)
  <= Rabs (b - a) / 2 * (eps * norm1 (pcomp p ((a + b) / 2) ((b - a) / 2))).
Proof. intros. rewrite peval_RInt. apply (affine_rule_poly zs ws N); assumption. Qed.

Theorem C17_weights_sum : forall a b zs ws N eps,
  moments_ok zs ws N eps -> (0 < N)%nat -> length zs = length ws ->
  Rabs (Rsum (map_weights a b ws) - (b - a)) <= Rabs (b - a) / 2 * eps.
Proof. exact weights_sum. Qed.

(* Mirrored fill (cgauleg_pywrap.c:74-77): abscissae symmetric about xm, weights symmetric; for
   odd n this needs the middle root to be exactly 0 (a per-run obligation, checked). *)
Theorem C17_mirror_symmetric : forall n xm xl zs wl,
  let m := length zs in
  length wl = m -> (n = 2 * m \/ S n = 2 * m)%nat ->
  ((S n = 2 * m)%nat -> nth (m - 1)%nat zs 0 = 0) ->
  let xs := mirror_nodes n xm xl zs in
  let ws := mirror_weights n wl in
  length xs = n /\ length ws = n /\
  forall i, (i < n)%nat ->
    nth i xs 0 + nth (n - 1 - i) xs 0 = 2 * xm /\ nth i ws 0 = nth (n - 1 - i) ws 0.
Proof. exact mirror_symmetric. Qed.

(* The C fill loop (cgauleg_pywrap.c:74-77) as what it is — m = (npts+1)/2 passes, each writing
   a[i-1] and a[npts+1-i-1] of a zero-initialised array, the middle entry of an odd rule twice —
   produces exactly the mirrored fill the model (and C17_mirror_symmetric) is stated for; hence
   gauleg with its arrays produced by those writes is the model's gauleg. *)
Theorem C17_fill_loop_is_mirror_fill : forall (A : Type) (d : A) n (lo hi : list A),
  (1 <= n)%nat -> length lo = Z.to_nat (F.m_of (Z.of_nat n)) -> length hi = length lo ->
  F.fill_loop (Z.of_nat n) 1 lo hi (repeat d n) = mirror_fill n lo hi.
Proof. intros A d n lo hi _. apply fill_loop_is_mirror_fill. Qed.

Example C17_fill_loop_example :      (* npts = 5, m = 3: the middle entry is written twice, hi wins *)
  F.fill_loop 5 1 [1; 2; 3]%Z [10; 20; 30]%Z (repeat 0%Z 5) = [1; 2; 30; 20; 10]%Z /\
  mirror_fill 5 [1; 2; 3]%Z [10; 20; 30]%Z = [1; 2; 30; 20; 10]%Z.
Proof. split; reflexivity. Qed.

Theorem C17_fill_indices_in_bounds : forall npts i, (1 <= npts)%Z -> (1 <= i <= F.m_of npts)%Z ->
  (0 <= F.idx_lo i < npts)%Z /\ (0 <= F.idx_hi npts i < npts)%Z /\ (F.idx_lo i <= F.idx_hi npts i)%Z.
Proof. intros npts i Hn Hi. pose proof (m_of_bounds npts). unfold F.idx_lo, F.idx_hi. lia. Qed.

Theorem C17_gauleg_array_writes : forall orig x1 x2 npts coss,
  F.gauleg_gen_w orig x1 x2 npts coss = F.gauleg_gen orig x1 x2 npts coss.
Proof. exact gauleg_writes_eq. Qed.

(* For ALL inputs of the bit-exact model: whenever gauleg returns, it returns npts abscissae and
   npts weights, and the weights are symmetric EXACTLY (bit for bit): w[npts+1-i-1] = w[i-1] is a
   copy.  (Non-vacuity: C17_n1_unchanged_loop_refuted exhibits returning calls.) *)
Theorem C17_gauleg_lengths_and_exact_weight_symmetry : forall orig x1 x2 npts coss xs ws,
  F.gauleg_gen orig x1 x2 npts coss = Ok (xs, ws) ->
  (0 < npts)%Z /\ length xs = Z.to_nat npts /\ length ws = Z.to_nat npts /\ rev ws = ws.
Proof. exact gauleg_lengths_and_weight_symmetry. Qed.

(* The integrators return the rule's weighted sum over the mapped abscissae; for tabulated data,
   of the linearly interpolated values. *)
Theorem C17_integrator_is_weighted_sum :
  (forall zs ws x1 x2 f,
     integrate_func zs ws x1 x2 f = Qrule (map_nodes x1 x2 zs) (map_weights x1 x2 ws) f) /\
  (forall zs ws xv yv,
     integrate_data zs ws xv yv =
     Qrule (map_nodes (Rmin_list xv) (Rmax_list xv) zs) (map_weights (Rmin_list xv) (Rmax_list xv) ws)
           (interplin yv xv)) /\
  (forall zs ws x1 x2 f,
     integrate_func zs ws x1 x2 f =
     integrate_vals ws x1 x2 (map (fun z => f (z * ((x2 - x1) / 2) + (x2 + x1) / 2)) zs)).
Proof.
  split; [exact integrate_func_is_Qrule|]. split; [exact integrate_data_is_Qrule | exact integrate_func_vals].
Qed.

(* interplin on ascending abscissae is the chord through the bracketing tabulated points *)
Theorem C17_interplin_is_linear_interpolation : forall xv yv u j,
  increasing xv -> (S j < length xv)%nat ->
  nth j xv 0 <= u <= nth (S j) xv 0 ->
  interplin yv xv u = chord xv yv j u.
Proof. exact interplin_is_chord. Qed.

(* ... for EVERY abscissa inside the table (no bracket given): a bracketing pair exists and interplin is its
   chord -- the clipping / extrapolation branches of interplin are never the ones that matter; and the
   mapped abscissae of a rule with nodes in (-1,1) do lie strictly inside (x1,x2). *)
Theorem C17_interplin_is_chord_everywhere_inside : forall xv yv u,
  increasing xv -> (2 <= length xv)%nat -> nth 0 xv 0 <= u <= nth (length xv - 1) xv 0 ->
  exists j, (S j < length xv)%nat /\ nth j xv 0 <= u <= nth (S j) xv 0 /\ interplin yv xv u = chord xv yv j u.
Proof. exact interplin_is_chord_everywhere_inside. Qed.

Theorem C17_mapped_abscissa_inside : forall x1 x2 z, x1 < x2 -> -1 < z < 1 ->
  x1 < z * ((x2 - x1) / 2) + (x2 + x1) / 2 < x2.
Proof. intros x1 x2 z H [Hz1 Hz2]. split; nra. Qed.

(* The two-dimensional integrator is the tensor-product sum. *)
Theorem C17_tensor_product_sum : forall x wx y wy x1 x2 y1 y2 f,
  integrate_func2 x wx y wy x1 x2 y1 y2 f =
  Qrule (map_nodes y1 y2 y) (map_weights y1 y2 wy)
        (fun yy => Qrule (map_nodes x1 x2 x) (map_weights x1 x2 wx) (fun xx => f xx yy)).
Proof. exact tensor_product_sum. Qed.

Theorem C17_tensor_on_grid_values : forall x wx y wy x1 x2 y1 y2 f,
  length x = length wx ->
  integrate_func2 x wx y wy x1 x2 y1 y2 f =
  integrate_vals2 wx wy x1 x2 y1 y2
    (flat_map (fun yi => map (fun xj => f (xj * ((x2 - x1) / 2) + (x2 + x1) / 2) (yi * ((y2 - y1) / 2) + (y2 + y1) / 2)) x) y).
Proof. exact integrate_func2_vals. Qed.

(* gauleg raises ValueError exactly for npts <= 0, whatever the other arguments (model of the wrapper's check;
   the condition itself is re-translated from util.py on every run: gen_reject_npts). *)
Theorem C17_gauleg_rejection : forall orig x1 x2 npts coss,
  F.gauleg_gen orig x1 x2 npts coss = Err EValue <-> (npts <= 0)%Z.
Proof.
  intros orig x1 x2 npts coss.
  unfold F.gauleg_gen, F.reject_npts, F.outer_trips, F.inner_trips, F.REJECT_ERR. destruct (Z.leb_spec npts 0) as [Hn|Hn].
  - split; [intros _; exact Hn | reflexivity].
  - split; [|lia]. intros H.
    destruct (negb (length coss =? Z.to_nat (F.m_of npts))%nat); [discriminate|].
    destruct (F.roots orig F.NEWTON_FUEL (Z.to_nat npts) (F.of_Z npts) coss F.Z1_INIT F.PP_INIT); discriminate.
Qed.

Example C17_gauleg_rejection_nonvacuous : F.gauleg 0 1 0 [] = Err EValue /\ F.gauleg 0 1 (-3) [] = Err EValue.
Proof. split; reflexivity. Qed.

(* numpy's pairwise summation as modelled (blocks of 8 accumulators, recursive halving at multiples of 8):
   with the addition of the reals it returns exactly the sum, for every list (no element dropped or
   repeated at any block boundary), and the fuel suffices up to 112*2^fuel+16 elements; the float model
   F.pairwise / F.np_sum is the SAME function instantiated with PrimFloat.add. *)
Theorem C17_pairwise_sum_is_the_sum : forall fuel l, (length l <= 112 * 2 ^ fuel + 16)%nat ->
  pairwise_g Rplus 0%R fuel l = Some (Rsum l).
Proof.
  intros fuel l L. destruct (pairwise_g_total Rplus 0 fuel l L) as [s E]. rewrite E. f_equal.
  exact (pairwise_R_is_sum _ _ _ E).
Qed.

Theorem C17_integrator_with_numpy_summation_tree : forall zs ws x1 x2 f s,
  pairwise_g Rplus 0%R 64 (map2 (fun z w => f (z * ((x2 - x1) / 2) + (x2 + x1) / 2) * w) zs ws) = Some s ->
  integrate_func zs ws x1 x2 f = (x2 - x1) / 2 * s.
Proof. intros zs ws x1 x2 f s H. unfold integrate_func. rewrite (pairwise_R_is_sum _ _ _ H). reflexivity. Qed.

Example C17_float_pairwise_is_the_generic_tree : F.pairwise = pairwise_g PrimFloat.add 0%float.
Proof. reflexivity. Qed.

(* The integrators are: the prologue (setup; no count at all -> ValueError) followed by the integration proper
   with the rule the object holds -- the prologue is the part of integrate_func / integrate_data that the
   translator re-emits from the source on every run (gen_prologue_func / gen_prologue_data = q_prologue); an
   object that never received a count raises ValueError and is left as it was. *)
Theorem C17_integrate_is_prologue_then_rule :
  forall (T Arg Out : Type) (G : Z -> result T) (I : T -> Arg -> result Out) st npts a,
  q_integrate G I st npts a =
  match q_prologue G st npts with
  | (st', Some e) => (st', Err e)
  | (st', None) => match st_rule st' with Some r => (st', I r a) | None => (st', Err EType) end
  end.
Proof.
  intros T Arg Out G I st npts a.
  unfold q_integrate, q_prologue. destruct (setup G st npts) as [st' [e|]]; [reflexivity|].
  destruct (st_npts st'); [|reflexivity]. destruct (st_rule st'); reflexivity.
Qed.

Theorem C17_no_count_raises_value_error :
  forall (T Arg Out : Type) (G : Z -> result T) (I : T -> Arg -> result Out) a,
  q_integrate G I q_none None a = (q_none, Err EValue).
Proof. reflexivity. Qed.

(* QGauss2 array shapes under numpy broadcasting.  Repaired _setup: for ALL nx, ny >= 1 the weight
   grid and the summed integrand have the mesh's shape (ny, nx).  Unchanged _setup (weight grids
   allocated (nx, ny)): right shapes iff nx = ny (nx, ny >= 2); QGauss2(3,4) cannot be
   constructed; QGauss2(1,3) sums a (3,3) array for a (3,1) mesh. *)
Theorem C17_qgauss2_shapes_repaired : forall nx ny, (1 <= nx)%Z -> (1 <= ny)%Z ->
  F.wgrid_shape false nx ny = Some (F.mesh_shape nx ny) /\
  F.integrand_shape false nx ny = Some (F.mesh_shape nx ny).
Proof.
  intros nx ny _ _. unfold F.integrand_shape, F.wgrid_shape, F.mesh_shape.
  rewrite bshape_row_same, bshape_col, !bshape_same. split; reflexivity.
Qed.

Theorem C17_qgauss2_unchanged_setup_refuted :
  (forall nx ny, (2 <= nx)%Z -> (2 <= ny)%Z ->
     (F.integrand_shape true nx ny = Some (F.mesh_shape nx ny) <-> nx = ny)) /\
  F.wgrid_shape true 3 4 = None /\ F.integrand_shape true 1 3 = Some (3, 3)%Z.
Proof.
  split; [|split; reflexivity]. intros nx ny Hx Hy. unfold F.integrand_shape, F.wgrid_shape, F.mesh_shape.
  (* the (nx, ny) array of ones meets wx[newaxis, :] of shape (1, nx) in its second axis *)
  rewrite (bshape_row nx ny nx Hy Hx). destruct (Z.eqb_spec ny nx) as [->|Hne].
  - rewrite bshape_col, !bshape_same. split; reflexivity.
  - split; [discriminate | intros E; symmetry in E; contradiction].
Qed.

(* QGauss.integrate's dispatch.  Repaired (callable()): every function integrand — plain function,
   lambda, method, numpy ufunc, functools.partial, builtin, numpy.vectorize, object with __call__ —
   reaches the function integrator and every table (array, list, tuple) the data integrator.
   Unchanged (isinstance FunctionType/MethodType): refuted by a ufunc; agrees outside that class. *)
Theorem C17_dispatch_repaired : forall k,
  (is_callable k = true -> dispatch false k = RFunc) /\ (is_callable k = false -> dispatch false k = RData).
Proof. intros k. unfold dispatch. destruct (is_callable k); split; intros H; try reflexivity; discriminate. Qed.

Theorem C17_dispatch_unchanged_refuted : exists k, is_callable k = true /\ dispatch true k = RData.
Proof. exists YUfunc. split; reflexivity. Qed.

Theorem C17_dispatch_unchanged_outside_known : forall k,
  kf_callable_not_function k = false -> dispatch true k = dispatch false k.
Proof. intros k. destruct k; simpl; intros H; try reflexivity; discriminate. Qed.

(* Cache: for every history of calls whose explicit point counts gauleg accepts, the object
   (with its cache) returns exactly what the cache-less specification returns: every result is
   that of a fresh object with the call's effective point count. *)
Theorem C17_cache_history_independent :
  forall (T Arg Out : Type) (G : Z -> result T) (I : T -> Arg -> result Out) n0 ops,
  valid_counts G n0 ops ->
  snd (q_init G n0) = None /\
  snd (q_run G I (fst (q_init G n0)) ops) = spec_run G I n0 ops.
Proof. intros T Arg Out G I. exact (cache_history_independent G I). Qed.

Theorem C17_explicit_npts_equals_fresh_object :
  forall (T Arg Out : Type) (G : Z -> result T) (I : T -> Arg -> result Out) n0 ops n a,
  valid_counts G n0 ops -> (exists r, G n = Ok r) ->
  snd (q_integrate G I (fst (q_run G I (fst (q_init G n0)) ops)) (Some n) a) = qgauss_fn G I (Some n) a.
Proof. intros T Arg Out G I. exact (explicit_npts_fresh G I). Qed.

(* Outside the property's quantifier (n >= 1): a point count that gauleg REJECTS leaves the
   object with the new count and the old rule; a later call with the same rejected count
   silently integrates with the stale rule.  Recorded here as a fact of the model (and of the
   code: the correspondence run exercises it), not as a violation. *)
Theorem C17_rejected_count_leaves_stale_rule :
  let G := G_count in
  let I := fun (r : Z) (_ : unit) => @Ok Z r in
  snd (q_run G I (fst (q_init G (Some 10%Z))) [(Some 0%Z, tt); (Some 0%Z, tt)]) = [Err EValue; Ok 10%Z].
Proof. vm_compute. reflexivity. Qed.

(* The unchanged Newton loop (while) skips the iteration for npts = 1: weight = inf.  The
   repaired loop (do-while) returns the one-point rule x = 0, w = 2.  [c] is the measured
   cos(pi*0.75/1.5). *)
Theorem C17_n1_unchanged_loop_refuted :
  let c := 0x1.1a62633145c07p-54%float in
  F.gauleg_orig (-1) 1 1 [c] = Ok ([c], [infinity]) /\
  F.gauleg (-1) 1 1 [c] = Ok ([0%float], [2%float]).
Proof. vm_compute. split; reflexivity. Qed.

(* the repair changes nothing whenever the unchanged loop was entered *)
Theorem C17_dowhile_equals_while_when_entered : forall fuel n nf z z1 pp,
  PrimFloat.ltb F.EPS (F.absdiff z z1) = true ->
  F.newton_while fuel n nf z z1 pp = F.newton_do fuel n nf z.
Proof. intros fuel n nf z z1 pp H. unfold F.newton_while, F.continue_newton. rewrite H. reflexivity. Qed.

(* What the Newton pass computes, over the reals (RM.legendre_R / pp_R / newton_step_R mirror the C
   statements of lines 59-71 with exact arithmetic): the inner loop is Bonnet's recursion for the
   Legendre polynomials, pp is P_n'(z) -- the derivative in the sense of analysis (Coquelicot) --, so one
   pass is Newton's method on P_n, whose fixed points are exactly the roots of P_n; the weight
   formula is the classical 2 / ((1 - z^2) P_n'(z)^2) times the half width. *)
Theorem C17_newton_pass_is_legendre_recursion : forall n z, legendre_R n 1 z 1 0 = (P n z, Pm n z).
Proof. exact newton_pass_is_legendre. Qed.

Theorem C17_legendre_derivative : forall n x, is_derive (P n) x (D n x).
Proof. exact D_is_derivative. Qed.

Theorem C17_pp_is_legendre_derivative : forall n z, (1 <= n)%nat -> z * z <> 1 ->
  pp_R (INR n) z (P n z) (Pm n z) = D n z.
Proof. exact pp_is_derivative. Qed.

Theorem C17_newton_pass_is_newtons_method : forall n z, (1 <= n)%nat -> z * z <> 1 ->
  newton_step_R n z = (z - P n z / Derive (P n) z, Derive (P n) z) /\ is_derive (P n) z (Derive (P n) z).
Proof. exact newton_step_R_is_newton. Qed.

Theorem C17_newton_fixed_point_iff_root : forall n z, (1 <= n)%nat -> z * z <> 1 -> D n z <> 0 ->
  (fst (newton_step_R n z) = z <-> P n z = 0).
Proof. exact newton_fixed_point_iff_root. Qed.

Theorem C17_weight_formula_is_classical : forall xl z n, z * z <> 1 -> D n z <> 0 ->
  weight_R xl z (D n z) = xl * (2 / ((1 - z * z) * (D n z) ^ 2)).
Proof. intros xl z n Hz Hd. unfold weight_R. field. split; [exact Hd | lra]. Qed.

Example C17_legendre_low_orders : forall x,
  P 2 x = (3 * x * x - 1) / 2 /\ D 2 x = 3 * x /\ P 3 x = (5 * x * x * x - 3 * x) / 2 /\ D 3 x = (15 * x * x - 3) / 2.
Proof. exact legendre_low_orders. Qed.

Example C17_newton_fixed_point_nonvacuous :      (* n = 2: the root 1/sqrt 3 of P_2 is a fixed point *)
  fst (newton_step_R 2 (R_sqrt.sqrt (/ 3))) = R_sqrt.sqrt (/ 3).
Proof.
  assert (S2 : R_sqrt.sqrt (/ 3) * R_sqrt.sqrt (/ 3) = / 3) by (apply sqrt_sqrt; lra).
  assert (Hpos : 0 < R_sqrt.sqrt (/ 3)) by (apply sqrt_lt_R0; lra).
  destruct (legendre_low_orders (R_sqrt.sqrt (/ 3))) as [EP [ED _]].
  apply C17_newton_fixed_point_iff_root; [lia | lra | rewrite ED; lra | rewrite EP; nra].
Qed.

(* The rules for n = 1..10, certified inside Coq once and for all (not per run): with libm's start
   values (SmallRules.cos_table, re-measured and compared on every run) the bit-exact model of
   gauleg(-1,1,n) returns n abscissae and weights whose 2n moments are within 5e-10; hence on EVERY
   interval and for EVERY polynomial of degree <= 2n-1 the mapped rule is exact up to that error. *)
Theorem C17_small_rules_exact : forall n coss, In (n, coss) cos_table ->
  exists xs ws dxs dws,
    F.gauleg (-1)%float 1%float n coss = Ok (xs, ws) /\ length xs = Z.to_nat n /\ length ws = Z.to_nat n /\
    fl2d xs = Some dxs /\ fl2d ws = Some dws /\
    moments_ok (map dR dxs) (map dR dws) (Z.to_nat (2 * n)) eps_m /\
    forall a b p, (length p <= Z.to_nat (2 * n))%nat ->
      Rabs (Qrule (map_nodes a b (map dR dxs)) (map_weights a b (map dR dws)) (peval p) - RInt (peval p) a b)
      <= Rabs (b - a) / 2 * (eps_m * norm1 (pcomp p ((a + b) / 2) ((b - a) / 2))).
Proof. exact small_rules_exact. Qed.

Example C17_small_rules_table_covers : map fst cos_table = [1;2;3;4;5;6;7;8;9;10]%Z.
Proof. reflexivity. Qed.

(* Checker soundness: what the correspondence run decides by vm_compute on the exact values of
   the implementation's floats. *)
Theorem C17_checkers_sound :
  (forall a b xs ws refz refw, rule_check a b xs ws refz refw = true ->
     rule_ok (dR a) (dR b) (map dR xs) (map dR ws) (map dR refz) (map dR refw))
  /\ (forall xs ws N, moments_check xs ws N = true -> moments_ok (map dR xs) (map dR ws) N eps_m)
  /\ (forall a b xs ws p t FF, poly_check a b xs ws p t FF = true ->
        poly_ok (dR a) (dR b) (map dR xs) (map dR ws) (map dR p))
  /\ (forall zs ws x1 x2 xi ys res, func_check zs ws x1 x2 xi ys res = true ->
        func_ok (map dR zs) (map dR ws) (dR x1) (dR x2) (map dR xi) (map dR ys) (dR res))
  /\ (forall zs ws xv yv res,
        data_check (map d2Q zs) (map d2Q ws) (map d2Q xv) (map d2Q yv) (d2Q res) = true ->
        data_ok (map dR zs) (map dR ws) (map dR xv) (map dR yv) (dR res))
  /\ (forall x wx y wy x1 x2 y1 y2 xg yg zv res,
        func2_check x wx y wy x1 x2 y1 y2 xg yg zv res = true ->
        func2_ok (map dR x) (map dR wx) (map dR y) (map dR wy) (dR x1) (dR x2) (dR y1) (dR y2)
                 (map dR xg) (map dR yg) (map dR zv) (dR res))
  /\ (forall ops cur os, counts_valid cur ops = true -> history_check cur ops os = true ->
        history_ok cur ops os).
Proof.
  split; [intros a b xs ws refz refw; apply rule_check_iff|]. split; [exact moments_check_sound|].
  split; [exact poly_check_sound|]. split; [exact func_check_sound|].
  split; [exact data_check_sound_dy|]. split; [exact func2_check_sound|].
  intros ops cur os Hv. apply history_check_iff. exact Hv.
Qed.

(* The data integrator judged at the abscissae it used (tables far from the origin: see Spec):
   soundness of the checker the correspondence run evaluates, and interplin over Q (as the checkers
   evaluate it, any ascending table) = the chord through the bracketing tabulated points. *)
Theorem C17_data_checker_at_abscissae_sound : forall zs ws xv yv xi res,
  data_check_at (map d2Q zs) (map d2Q ws) (map d2Q xv) (map d2Q yv) (map d2Q xi) (d2Q res) = true ->
  data_ok_at (map dR zs) (map dR ws) (map dR xv) (map dR yv) (map dR xi) (dR res).
Proof. exact data_check_at_sound_dy. Qed.

Theorem C17_interplin_Q_is_chord : forall xv yv u j,
  increasing_Q xv = true -> (2 <= length xv)%nat -> (S j < length xv)%nat ->
  Q2R (nth j xv 0%Q) <= Q2R u <= Q2R (nth (S j) xv 0%Q) ->
  Q2R (interplin_Q yv xv u) = chord (map Q2R xv) (map Q2R yv) j (Q2R u).
Proof. exact interplin_Q_is_chord. Qed.

Example C17_interplin_Q_offset_table :     (* a Julian-day table: x = 2400000 + k/100000 *)
  let xv := [240000000000 # 100000; 240000000001 # 100000; 240000000003 # 100000]%Q in
  increasing_Q xv = true /\ interplin_Q [1; 3; 7]%Q xv (240000000002 # 100000) == 5.
Proof. split; reflexivity. Qed.

(* The rule checker is COMPLETE as well as sound: it accepts exactly the outputs that satisfy rule_ok (order,
   interiority, sign, symmetry, weight sum, agreement with the reference rule, all to 1e-9 |b-a|): a rejection
   by the correspondence run is always a violation of these bounds, never an artefact of the checker. *)
Theorem C17_rule_checker_decides_rule_ok : forall a b xs ws refz refw,
  rule_check a b xs ws refz refw = true <->
  rule_ok (dR a) (dR b) (map dR xs) (map dR ws) (map dR refz) (map dR refw).
Proof. exact rule_check_iff. Qed.

(* ... and so is the history checker: for valid counts it accepts exactly the observation lists in which every call
   returned what a fresh object with the call's effective count returns. *)
Theorem C17_history_checker_decides_history_ok : forall ops cur os, counts_valid cur ops = true ->
  (history_check cur ops os = true <-> history_ok cur ops os).
Proof. exact history_check_iff. Qed.

(* the two readings of the data integrator agree when the abscissae are the exactly mapped ones *)
Theorem C17_data_ok_at_exact_abscissae : forall zs ws xv yv res,
  data_ok_at zs ws xv yv
    (map (fun z => z * ((Rmax_list xv - Rmin_list xv) / 2) + (Rmax_list xv + Rmin_list xv) / 2) zs) res ->
  data_ok zs ws xv yv res.
Proof.
  intros zs ws xv yv res. unfold data_ok_at, data_ok. intros [_ [y [Hin Hy]]]. exists y. split; [exact Hin|].
  unfold integrate_data, integrate_func. rewrite map2_map_l in Hy. exact Hy.
Qed.

(* frame conditions: a zero-width range integrates to 0; setup with no count or the current count leaves
   the object (count and rule) untouched *)
Theorem C17_zero_width_integrates_to_zero : forall zs ws a f, integrate_func zs ws a a f = 0.
Proof. intros zs ws a f. unfold integrate_func. replace ((a - a) / 2) with 0 by field. ring. Qed.

Theorem C17_setup_frame : forall (T : Type) (G : Z -> result T) (st : @qstate T),
  setup G st None = (st, None) /\ forall n, st_npts st = Some n -> setup G st (Some n) = (st, None).
Proof.
  intros T G st. split; [reflexivity|]. intros n H. unfold setup, same_npts. rewrite H, Z.eqb_refl. reflexivity.
Qed.

(* the dyadic value of a float literal is the float's value: values enter the checkers through
   [f2d]; for a finite float, dR (f2d f) = (-1)^s m 2^e of its IEEE decomposition *)
Theorem C17_float_values : forall l r, fl2d l = Some r -> map dR r = map f2R l /\ length r = length l.
Proof. intros l r H. split; [exact (fl2d_values l r H) | exact (fl2d_length l r H)]. Qed.

(* Non-vacuity.  (1) the exact two-point rule meets the moment hypothesis with eps = 0;
   (2) the three floats gauleg(-1,1,3) returns are certified by the checker, and the chain
   checker -> moments_ok -> exact_to_degree applies to them. *)
Example C17_nonvacuous_exact_rule :
  moments_ok [- R_sqrt.sqrt (/ 3); R_sqrt.sqrt (/ 3)] [1; 1] 4 0.
Proof.
  assert (S2 : R_sqrt.sqrt (/ 3) * R_sqrt.sqrt (/ 3) = / 3) by (apply sqrt_sqrt; lra).
  set (s := R_sqrt.sqrt (/ 3)) in *. clearbody s.
  intros k Hk. unfold moment, m_exact.
  (* each of the four moments is a polynomial in s that vanishes with s^2 = 1/3 *)
  destruct k as [|[|[|[|k]]]]; try lia; simpl;
    match goal with |- Rabs ?e <= 0 => replace e with 0 by nra; rewrite Rabs_R0; lra end.
Qed.

Example C17_nonvacuous_float_rule :
  let xs := [(-0x1.8c97ef43f7248p-1)%float; 0%float; 0x1.8c97ef43f7248p-1%float] in
  let ws := [0x1.1c71c71c71c58p-1%float; 0x1.c71c71c71c71cp-1%float; 0x1.1c71c71c71c58p-1%float] in
  exists dxs dws, fl2d xs = Some dxs /\ fl2d ws = Some dws /\
    moments_ok (map dR dxs) (map dR dws) 6 eps_m /\
    forall a b p, (length p <= 6)%nat ->
      Rabs (Qrule (map_nodes a b (map dR dxs)) (map_weights a b (map dR dws)) (peval p) - RInt (peval p) a b)
      <= Rabs (b - a) / 2 * (eps_m * norm1 (pcomp p ((a + b) / 2) ((b - a) / 2))).
Proof.
  intros xs ws. eexists. eexists. split; [lazy; reflexivity|]. split; [lazy; reflexivity|].
  enough (M : moments_ok (map dR _) (map dR _) 6 eps_m)
    by (split; [exact M|]; intros a b p L; apply (C17_exact_to_degree _ _ 6); assumption).
  apply moments_check_sound. vm_compute. reflexivity.
Qed.
