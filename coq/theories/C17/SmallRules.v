(* C17 — the rules for n = 1..10 certified once and for all inside Coq (not per run):
   with the start values libm's cos returns (the table below; the harness re-measures them on every run
   and compares: v_small_table), the bit-exact model of gauleg(-1,1,n) returns n points whose 2n
   moments are within 5e-10 of the exact ones; hence, on EVERY interval [a,b] and for EVERY polynomial
   of degree <= 2n-1 the mapped rule is exact up to the certified error. *)
From Coq Require Import Reals PrimFloat Lra.
From Coquelicot Require Import Coquelicot.
From EsVerif.Common Require Import Base.
From EsVerif.C17 Require Import Model Dyadic Spec FillProofs Proofs Integral CheckProofs.
Import RM.

(* n |-> cos(pi*(i-0.25)/(n+.5)), i = 1..(n+1)/2, as returned by libm (glibc, binary64) *)
Definition cos_table : list (Z * list float) := [
  (1%Z, [(0x1.1a62633145c07p-54)%float]);
  (2%Z, [(0x1.2cf2304755a5ep-1)%float]);
  (3%Z, [(0x1.904c37505de4bp-1)%float; (0x1.1a62633145c07p-54)%float]);
  (4%Z, [(0x1.bb67ae8584cabp-1)%float; (0x1.5e3a8748a0bf7p-2)%float]);
  (5%Z, [(0x1.d1bb48eee2c14p-1)%float; (0x1.14cedf8bb580cp-1)%float; (0x1.469898cc51702p-52)%float]);
  (6%Z, [(0x1.deba72ef20147p-1)%float; (0x1.5384d024c2f85p-1)%float; (0x1.ea1e54bc48dc9p-3)%float]);
  (7%Z, [(0x1.e6f0e134454ffp-1)%float; (0x1.7c7d7a833bec2p-1)%float; (0x1.a07f921061ad4p-2)%float; (0x1.469898cc51702p-52)%float]);
  (8%Z, [(0x1.ec746923c349fp-1)%float; (0x1.9895b6c9a05f7p-1)%float; (0x1.0d8884363dd82p-1)%float; (0x1.7851aacd6c6bbp-3)%float]);
  (9%Z, [(0x1.f0553b4de2e18p-1)%float; (0x1.aca115aae3de5p-1)%float; (0x1.3a7a16b394424p-1)%float; (0x1.4c7e04850cfabp-2)%float; (0x1.1a62633145c07p-54)%float]);
  (10%Z, [(0x1.f329c0558e969p-1)%float; (0x1.bb67ae8584cabp-1)%float; (0x1.5c3f99e0b6b96p-1)%float; (0x1.bc4c04d71abc2p-2)%float; (0x1.313d125796513p-3)%float]) ].

Local Open Scope R_scope.

(* ---- A rule on [-1,1] that is its own mirror image: nodes hx, then mx (zeros), then -hx backwards; weights hw,
   mw, hw backwards.  Its odd moments vanish, and its moment 2j is the j-th moment of the half rule in y = x^2
   with doubled weights.  gauleg(-1,1,n) returns such a rule exactly (x = 0 -+ 1*z, w copied), so half the
   nodes and the even moments are enough.  The detour is taken because the exact powers x^k (53 k bits each)
   are what makes the table check slow for the kernel's evaluator. *)
Lemma moment_mirror hx hw mx mw k : length hx = length hw -> length mx = length mw ->
  moment (hx ++ mx ++ rev (map Ropp hx)) (hw ++ mw ++ rev hw) k =
  Qrule hx hw (fun x => x ^ k + (- x) ^ k) + Qrule mx mw (fun x => x ^ k).
Proof.
  intros Lh Lm. unfold moment. rewrite !Qrule_app by assumption.
  rewrite Qrule_rev by (rewrite map_length; exact Lh). rewrite Qrule_map_nodes, Qrule_plus. ring.
Qed.

Lemma pow_even_sq x j : x ^ (2 * j) = (x * x) ^ j.
Proof. rewrite pow_mult. f_equal. ring. Qed.

Lemma moment_mirror_even hx hw mx mw j : length hx = length hw -> length mx = length mw ->
  moment (hx ++ mx ++ rev (map Ropp hx)) (hw ++ mw ++ rev hw) (2 * j) =
  moment (map (fun x => x * x) (hx ++ mx)) (map (Rmult 2) hw ++ mw) j.
Proof.
  intros Lh Lm. rewrite moment_mirror by assumption. unfold moment.
  rewrite map_app, Qrule_app by (rewrite !map_length; exact Lh).
  rewrite !Qrule_map_nodes, Qrule_scal_weights, <- Qrule_scal. f_equal; apply Qrule_ext; intros x.
  - rewrite !pow_even_sq. replace (- x * - x) with (x * x) by ring. ring.
  - apply pow_even_sq.
Qed.

Lemma moment_mirror_odd hx hw mx mw j : length hx = length hw -> length mx = length mw ->
  Forall (fun x => x = 0) mx ->
  moment (hx ++ mx ++ rev (map Ropp hx)) (hw ++ mw ++ rev hw) (S (2 * j)) = 0.
Proof.
  intros Lh Lm Z. rewrite moment_mirror by assumption.
  rewrite (Qrule_ext hx hw _ (fun _ => 0)), Qrule_zero.
  - rewrite Rplus_0_l. clear Lm. revert mw. induction Z as [|x t -> _ IH]; intros [|w wt]; simpl; try reflexivity.
    rewrite IH. ring.
  - intros x. cbn [pow]. rewrite !pow_even_sq. replace (- x * - x) with (x * x) by ring. ring.
Qed.

(* the even moments of the half rule, with the powers of y carried along as in Spec.moments_loop *)
Fixpoint even_moments_loop (cnt j : nat) (ys ws ps : list dy) : bool :=
  match cnt with
  | O => true
  | S c =>
    let kk := Z.of_nat (S (2 * j)) in
    dleb (dscale (2 * 10 ^ 9) (dabs (dsub (dscale kk (ddot ws ps)) (dz 2)))) (dz kk)
    && even_moments_loop c (S j) ys ws (map2 dmul ys ps)
  end.

Lemma even_moments_loop_sound ys ws : forall cnt j ps,
  map dR ps = map (fun y => y ^ j) (map dR ys) ->
  even_moments_loop cnt j ys ws ps = true ->
  forall i, (i < cnt)%nat ->
    Rabs (moment (map dR ys) (map dR ws) (j + i) - m_exact (2 * (j + i))) <= eps_m.
Proof.
  induction cnt as [|c IH]; intros j ps Hps H i Hi; [lia|].
  cbn [even_moments_loop] in H. apply andb_true_iff in H as [H1 H2].
  destruct i as [|i].
  - rewrite Nat.add_0_r. apply (moment_test_sound ys ws ps j) in H1; [|exact Hps|lia].
    unfold m_exact. replace (Nat.even (2 * j)) with true by (symmetry; apply Nat.even_spec; exists j; reflexivity).
    rewrite (INR_IZR_INZ (S (2 * j))). exact H1.
  - replace (j + S i)%nat with (S j + i)%nat by lia.
    apply (IH (S j) (map2 dmul ys ps)); [apply powers_step; exact Hps | exact H2 | lia].
Qed.

(* the n nodes and weights are a mirror image around the middle n mod 2 entries, the middle node is 0, and
   the half rule has the first n even moments *)
Definition sym_moments_check (n : nat) (xs ws : list dy) : bool :=
  let h := (n / 2)%nat in
  let hx := firstn h xs in let mx := firstn (n - 2 * h) (skipn h xs) in
  let hw := firstn h ws in let mw := firstn (n - 2 * h) (skipn h ws) in
  list_eqb dy_eqb xs (hx ++ mx ++ rev (map dopp hx)) && list_eqb dy_eqb ws (hw ++ mw ++ rev hw)
  && forallb (fun d => dm d =? 0)%Z mx
  && Nat.eqb (length hx) (length hw) && Nat.eqb (length mx) (length mw)
  && let ys := map (fun d => dmul d d) (hx ++ mx) in
     even_moments_loop n 0 ys (map (dscale 2) hw ++ mw) (map (fun _ => dz 1) ys).

Theorem sym_moments_check_sound n xs ws :
  sym_moments_check n xs ws = true -> moments_ok (map dR xs) (map dR ws) (2 * n) eps_m.
Proof.
  unfold sym_moments_check.
  set (hx := firstn _ xs). set (mx := firstn _ (skipn _ xs)).
  set (hw := firstn _ ws). set (mw := firstn _ (skipn _ ws)). cbv zeta. intros H.
  rewrite !andb_true_iff in H. destruct H as [[[[[Ex Ew] Z] Lh] Lm] M].
  apply (list_eqb_spec _ dy_eqb_spec) in Ex. apply (list_eqb_spec _ dy_eqb_spec) in Ew.
  apply Nat.eqb_eq in Lh. apply Nat.eqb_eq in Lm.
  assert (EX : map dR xs = map dR hx ++ map dR mx ++ rev (map Ropp (map dR hx))).
  { rewrite Ex at 1. rewrite !map_app, map_rev, !map_map. do 3 f_equal. apply map_ext. exact dR_opp. }
  assert (EW : map dR ws = map dR hw ++ map dR mw ++ rev (map dR hw)).
  { rewrite Ew at 1. rewrite !map_app, map_rev. reflexivity. }
  rewrite EX, EW. clear Ex Ew EX EW.
  intros k Hk. destruct (Nat.Even_or_Odd k) as [[j ->]|[j ->]].
  - rewrite moment_mirror_even by (rewrite !map_length; assumption).
    replace (map (fun x => x * x) (map dR hx ++ map dR mx)) with (map dR (map (fun d => dmul d d) (hx ++ mx)))
      by (rewrite <- map_app, !map_map; apply map_ext; intros d; apply dR_mul).
    replace (map (Rmult 2) (map dR hw) ++ map dR mw) with (map dR (map (dscale 2) hw ++ mw))
      by (rewrite map_app, !map_map; f_equal; apply map_ext; intros d; apply dR_scale).
    apply (even_moments_loop_sound _ _ n 0 _) with (i := j) in M; [exact M | | lia].
    rewrite !map_map. apply map_ext. intros d. rewrite dR_dz. reflexivity.
  - replace (2 * j + 1)%nat with (S (2 * j)) by lia.
    rewrite moment_mirror_odd; try (rewrite !map_length; assumption).
    + unfold m_exact. destruct (Nat.even (S (2 * j))) eqn:E.
      * apply Nat.even_spec in E. destruct E as [i E]. lia.
      * rewrite Rminus_0_r, Rabs_R0. unfold eps_m. apply Rlt_le, Rdiv_lt_0_compat; [lra | apply pow_lt; lra].
    + revert Z. apply forallb_Forall_iff. intros d. rewrite Z.eqb_eq. symmetry. apply dR_sign.
Qed.

Local Close Scope R_scope.

Definition rule_certified (n : Z) (coss : list float) : bool :=
  match F.gauleg (-1)%float 1%float n coss with
  | Ok (xs, ws) =>
    match fl2d xs, fl2d ws with
    | Some dxs, Some dws => sym_moments_check (Z.to_nat n) dxs dws
    | _, _ => false
    end
  | Err _ => false
  end.

Lemma cos_table_certified : forallb (fun p => rule_certified (fst p) (snd p)) cos_table = true.
Proof. vm_compute. reflexivity. Qed.

Local Open Scope R_scope.

Theorem small_rules_exact : forall n coss, In (n, coss) cos_table ->
  exists xs ws dxs dws,
    F.gauleg (-1)%float 1%float n coss = Ok (xs, ws) /\ length xs = Z.to_nat n /\ length ws = Z.to_nat n /\
    fl2d xs = Some dxs /\ fl2d ws = Some dws /\
    moments_ok (map dR dxs) (map dR dws) (Z.to_nat (2 * n)) eps_m /\
    forall a b p, (length p <= Z.to_nat (2 * n))%nat ->
      Rabs (Qrule (map_nodes a b (map dR dxs)) (map_weights a b (map dR dws)) (peval p) - RInt (peval p) a b)
      <= Rabs (b - a) / 2 * (eps_m * norm1 (pcomp p ((a + b) / 2) ((b - a) / 2))).
Proof.
  intros n coss Hin.
  pose proof cos_table_certified as Hm. rewrite forallb_forall in Hm. specialize (Hm _ Hin).
  cbn [fst snd] in Hm. unfold rule_certified in Hm.
  destruct (F.gauleg (-1)%float 1%float n coss) as [[xs ws]|e] eqn:E; [|discriminate].
  destruct (gauleg_lengths_and_weight_symmetry _ _ _ _ _ _ _ E) as (_ & Hx & Hw & _).
  destruct (fl2d xs) as [dxs|] eqn:Ex; [|discriminate].
  destruct (fl2d ws) as [dws|] eqn:Ew; [|discriminate].
  exists xs, ws, dxs, dws.
  assert (M : moments_ok (map dR dxs) (map dR dws) (Z.to_nat (2 * n)) eps_m).
  { replace (Z.to_nat (2 * n)) with (2 * Z.to_nat n)%nat by lia. apply sym_moments_check_sound. exact Hm. }
  repeat split; auto.
  intros a b p L. rewrite peval_RInt. apply (affine_rule_poly _ _ (Z.to_nat (2 * n))); assumption.
Qed.
