(* C17 — the model over the reals (Model.RM) and the cache: a rule is a linear functional [Qrule], and every statement
   about the integrators is a statement about [Qrule] of the affinely mapped rule. *)
From Coq Require Import Reals Lra.
From EsVerif.Common Require Import Base.
From EsVerif.C17 Require Import Model Spec FillProofs.
Import RM.

Local Open Scope R_scope.

Lemma Rsum_app l1 l2 : Rsum (l1 ++ l2) = Rsum l1 + Rsum l2.
Proof. unfold Rsum. induction l1 as [|a t IH]; simpl; [lra | rewrite IH; lra]. Qed.

Lemma Qrule_ext xs ws f g : (forall x, f x = g x) -> Qrule xs ws f = Qrule xs ws g.
Proof.
  intros E. revert ws; induction xs as [|x xt IH]; intros [|w wt]; simpl; auto.
  rewrite E, IH. reflexivity.
Qed.

Lemma Qrule_plus xs ws f g : Qrule xs ws (fun x => f x + g x) = Qrule xs ws f + Qrule xs ws g.
Proof.
  revert ws; induction xs as [|x xt IH]; intros [|w wt]; simpl; try lra.
  rewrite IH. ring.
Qed.

Lemma Qrule_scal xs ws c f : Qrule xs ws (fun x => c * f x) = c * Qrule xs ws f.
Proof.
  revert ws; induction xs as [|x xt IH]; intros [|w wt]; simpl; try lra.
  rewrite IH. ring.
Qed.

Lemma Qrule_zero xs ws : Qrule xs ws (fun _ => 0) = 0.
Proof. rewrite (Qrule_ext _ _ _ (fun x => 0 * 0)) by (intros; ring). rewrite Qrule_scal. ring. Qed.

Lemma Qrule_const_one xs ws : length xs = length ws -> Qrule xs ws (fun _ => 1) = Rsum ws.
Proof.
  revert ws; induction xs as [|x xt IH]; intros [|w wt] L; simpl in *; try lia; try reflexivity.
  rewrite IH by lia. unfold Rsum; simpl. ring.
Qed.

Lemma Qrule_app xs1 ws1 xs2 ws2 f : length xs1 = length ws1 ->
  Qrule (xs1 ++ xs2) (ws1 ++ ws2) f = Qrule xs1 ws1 f + Qrule xs2 ws2 f.
Proof.
  revert ws1; induction xs1 as [|x xt IH]; intros [|w wt] L; simpl in *; try lia; [lra|].
  rewrite IH by lia. ring.
Qed.

(* the order of the nodes does not matter *)
Lemma Qrule_rev xs ws f : length xs = length ws -> Qrule (rev xs) (rev ws) f = Qrule xs ws f.
Proof.
  revert ws; induction xs as [|x xt IH]; intros [|w wt] L; simpl in *; try lia; [reflexivity|].
  rewrite Qrule_app, IH by (rewrite ?rev_length; lia). simpl. ring.
Qed.

Lemma Qrule_map_nodes g xs ws f : Qrule (map g xs) ws f = Qrule xs ws (fun x => f (g x)).
Proof. revert ws; induction xs as [|x xt IH]; intros [|w wt]; simpl; auto. rewrite IH. reflexivity. Qed.

Lemma Qrule_scal_weights c xs ws f : Qrule xs (map (Rmult c) ws) f = c * Qrule xs ws f.
Proof.
  revert ws; induction xs as [|x xt IH]; intros [|w wt]; simpl; try lra.
  rewrite IH. ring.
Qed.

Lemma pow_m1 n : (-1) ^ n = if Nat.even n then 1 else -1.
Proof.
  induction n as [|n IH]; [reflexivity|].
  rewrite Nat.even_succ, <- Nat.negb_even. simpl pow. rewrite IH.
  destruct (Nat.even n); simpl; lra.
Qed.

Lemma m_exact_closed k : (1 ^ S k - (-1) ^ S k) / INR (S k) = m_exact k.
Proof.
  unfold m_exact. rewrite pow1, pow_m1, Nat.even_succ, <- Nat.negb_even.
  destruct (Nat.even k); simpl negb; cbv iota; unfold Rdiv; lra.
Qed.

(* both sides are linear in the coefficients: coefficient c_j meets the moment k + j *)
Lemma moments_lift_shift xs ws eps p : forall k,
  (forall j, (j < length p)%nat -> Rabs (moment xs ws (k + j) - m_exact (k + j)) <= eps) ->
  Rabs (Qrule xs ws (fun x => x ^ k * peval p x) - pint_from k (-1) 1 p) <= eps * norm1 p.
Proof.
  unfold norm1, Rsum.
  induction p as [|c t IH]; intros k H; cbn [peval pint_from map fold_right].
  - rewrite (Qrule_ext _ _ _ (fun _ => 0)) by (intros; ring). rewrite Qrule_zero, Rminus_0_r, Rabs_R0. lra.
  - rewrite (Qrule_ext _ _ _ (fun x => c * x ^ k + x ^ S k * peval t x)) by (intros; simpl; ring).
    rewrite Qrule_plus, Qrule_scal. fold (moment xs ws k).
    replace (c * (1 ^ S k - (-1) ^ S k) / INR (S k)) with (c * m_exact k)
      by (rewrite <- m_exact_closed; unfold Rdiv; ring).
    assert (H0 : Rabs (moment xs ws k - m_exact k) <= eps).
    { specialize (H 0%nat). rewrite Nat.add_0_r in H. apply H. simpl; lia. }
    specialize (IH (S k)). set (Q := Qrule _ _ _) in *. set (I := pint_from _ _ _ _) in *.
    assert (Ht : Rabs (Q - I) <= eps * fold_right Rplus 0 (map Rabs t)).
    { apply IH. intros j Hj. replace (S k + j)%nat with (k + S j)%nat by lia. apply H. simpl; lia. }
    replace (c * moment xs ws k + Q - (c * m_exact k + I)) with (c * (moment xs ws k - m_exact k) + (Q - I)) by ring.
    eapply Rle_trans; [apply Rabs_triang|]. rewrite Rabs_mult.
    pose proof (Rabs_pos c). nra.
Qed.

Theorem moments_lift xs ws N eps p :
  moments_ok xs ws N eps -> (length p <= N)%nat ->
  Rabs (Qrule xs ws (peval p) - Pint (-1) 1 p) <= eps * norm1 p.
Proof.
  intros M L. unfold Pint.
  rewrite (Qrule_ext _ _ _ (fun x => x ^ 0 * peval p x)) by (intros; simpl; ring).
  apply moments_lift_shift. intros j Hj. apply M. simpl. lia.
Qed.

Theorem Qrule_affine a b zs ws f :
  Qrule (map_nodes a b zs) (map_weights a b ws) f =
  (b - a) / 2 * Qrule zs ws (fun z => f ((a + b) / 2 + (b - a) / 2 * z)).
Proof. unfold map_nodes, map_weights. rewrite Qrule_map_nodes. apply Qrule_scal_weights. Qed.

Theorem weights_sum a b zs ws N eps :
  moments_ok zs ws N eps -> (0 < N)%nat -> length zs = length ws ->
  Rabs (Rsum (map_weights a b ws) - (b - a)) <= Rabs (b - a) / 2 * eps.
Proof.
  intros M HN L. specialize (M 0%nat HN). unfold moment, m_exact in M. cbn [Nat.even INR pow] in M.
  rewrite <- (Qrule_const_one zs) by (unfold map_weights; rewrite map_length; exact L).
  unfold map_weights. rewrite Qrule_scal_weights. set (Q := Qrule zs ws _) in *.
  (* only the moment 0 is used: m_exact 0 = 2 / INR 1 *)
  replace ((b - a) / 2 * Q - (b - a)) with ((b - a) / 2 * (Q - 2 / 1)) by field.
  rewrite Rabs_mult. unfold Rdiv at 1. rewrite Rabs_mult, (Rabs_pos_eq (/ 2)) by lra.
  pose proof (Rabs_pos (b - a)). unfold Rdiv. nra.
Qed.

Lemma peval_padd p q x : peval (padd p q) x = peval p x + peval q x.
Proof.
  revert q; induction p as [|a p' IH]; intros [|b q']; simpl; try lra.
  rewrite IH. ring.
Qed.

Lemma peval_pscale c p x : peval (pscale c p) x = c * peval p x.
Proof. unfold pscale. induction p as [|a t IH]; simpl; [lra | rewrite IH; ring]. Qed.

Lemma peval_pcomp p xm xl t : peval (pcomp p xm xl) t = peval p (xm + xl * t).
Proof.
  induction p as [|c r IH]; [reflexivity|].
  cbn [pcomp]. rewrite !peval_padd. cbn [peval]. rewrite !peval_pscale, IH. ring.
Qed.

Lemma length_padd p q : length (padd p q) = Nat.max (length p) (length q).
Proof.
  revert q; induction p as [|a p' IH]; intros [|b q']; simpl; try lia.
  rewrite IH. reflexivity.
Qed.

Lemma length_pcomp p xm xl : length (pcomp p xm xl) = length p.
Proof.
  induction p as [|c r IH]; [reflexivity|].
  cbn [pcomp]. rewrite !length_padd. cbn [length]. unfold pscale. rewrite !map_length, IH. lia.
Qed.

Lemma nth_map_R (f : R -> R) l j : (j < length l)%nat -> nth j (map f l) 0 = f (nth j l 0).
Proof. intros H. rewrite (nth_indep _ 0 (f 0)) by (rewrite map_length; exact H). apply map_nth. Qed.

Theorem mirror_symmetric n xm xl zs wl :
  let m := length zs in
  length wl = m -> (n = 2 * m \/ S n = 2 * m)%nat ->
  ((S n = 2 * m)%nat -> nth (m - 1)%nat zs 0 = 0) ->
  let xs := mirror_nodes n xm xl zs in
  let ws := mirror_weights n wl in
  length xs = n /\ length ws = n /\
  forall i, (i < n)%nat ->
    nth i xs 0 + nth (n - 1 - i) xs 0 = 2 * xm /\ nth i ws 0 = nth (n - 1 - i) ws 0.
Proof.
  intros m Lw Hn Hmid xs ws.
  assert (Hm : (n <= 2 * m <= n + 1)%nat) by lia.
  split; [apply length_mirror_fill; rewrite !map_length; auto|].
  split; [apply length_mirror_fill; rewrite ?Lw; auto|].
  intros i Hi. split.
  - apply (mirror_fill_rel (fun x y => x + y = 2 * xm) 0); rewrite ?map_length; auto.
    + intros j Hj. rewrite !nth_map_R by exact Hj. split; ring.
    + fold m. intros Hodd. rewrite !nth_map_R by (fold m; lia). rewrite (Hmid Hodd). ring.
  - apply (mirror_fill_rel eq 0); rewrite ?Lw; auto.
Qed.

Lemma Rsum_map2_Qrule (g : R -> R) zs ws :
  Rsum (map2 (fun z w => g z * w) zs ws) = Qrule zs ws g.
Proof.
  unfold Rsum. revert ws; induction zs as [|z zt IH]; intros [|w wt]; simpl; try lra.
  rewrite IH. ring.
Qed.

Theorem integrate_func_is_Qrule zs ws x1 x2 f :
  integrate_func zs ws x1 x2 f = Qrule (map_nodes x1 x2 zs) (map_weights x1 x2 ws) f.
Proof.
  unfold integrate_func. rewrite Qrule_affine.
  rewrite (Rsum_map2_Qrule (fun z => f (z * ((x2 - x1) / 2) + (x2 + x1) / 2))).
  f_equal. apply Qrule_ext. intros z. f_equal. field.
Qed.

Theorem integrate_data_is_Qrule zs ws xv yv :
  integrate_data zs ws xv yv =
  Qrule (map_nodes (Rmin_list xv) (Rmax_list xv) zs) (map_weights (Rmin_list xv) (Rmax_list xv) ws)
        (interplin yv xv).
Proof. unfold integrate_data. apply integrate_func_is_Qrule. Qed.

Lemma map2_map_both {A B C D E} (f : C -> D -> E) (g : A -> C) (h : B -> D) l1 l2 :
  map2 f (map g l1) (map h l2) = map2 (fun a b => f (g a) (h b)) l1 l2.
Proof. revert l2; induction l1 as [|a t IH]; intros [|b t2]; simpl; auto. rewrite IH. reflexivity. Qed.

Lemma map2_map_l {A B C D} (f : B -> C -> D) (g : A -> B) l1 l2 :
  map2 f (map g l1) l2 = map2 (fun a c => f (g a) c) l1 l2.
Proof. rewrite <- (map_id l2) at 1. apply (map2_map_both f g (fun c => c)). Qed.

Theorem integrate_func_vals zs ws x1 x2 f :
  integrate_func zs ws x1 x2 f =
  integrate_vals ws x1 x2 (map (fun z => f (z * ((x2 - x1) / 2) + (x2 + x1) / 2)) zs).
Proof. unfold integrate_func, integrate_vals. rewrite map2_map_l. reflexivity. Qed.

Lemma Rsum_row (g : R -> R) c x wx :
  Rsum (map2 (fun xj wxj => g xj * (wxj * c)) x wx) = c * Qrule x wx g.
Proof.
  unfold Rsum. revert wx; induction x as [|a t IH]; intros [|w wt]; simpl; try lra.
  rewrite IH. ring.
Qed.

Theorem tensor_product_sum x wx y wy x1 x2 y1 y2 f :
  integrate_func2 x wx y wy x1 x2 y1 y2 f =
  Qrule (map_nodes y1 y2 y) (map_weights y1 y2 wy)
        (fun yy => Qrule (map_nodes x1 x2 x) (map_weights x1 x2 wx) (fun xx => f xx yy)).
Proof.
  unfold integrate_func2.
  set (xf1 := (x2 - x1) / 2). set (xf2 := (x2 + x1) / 2).
  set (yf1 := (y2 - y1) / 2). set (yf2 := (y2 + y1) / 2).
  assert (E : forall wy',
    Rsum (flat_map (fun yw : R * R => map2 (fun xj wxj => f (xj * xf1 + xf2) (fst yw * yf1 + yf2) * (wxj * snd yw)) x wx)
                   (combine y wy')) =
    Qrule y wy' (fun yi => Qrule x wx (fun xj => f (xj * xf1 + xf2) (yi * yf1 + yf2)))).
  { induction y as [|yi yt IH]; intros [|wyi wyt]; simpl; try reflexivity.
    rewrite Rsum_app, IH.
    rewrite (Rsum_row (fun xj => f (xj * xf1 + xf2) (yi * yf1 + yf2))). reflexivity. }
  rewrite E. rewrite Qrule_affine.
  rewrite (Qrule_ext y wy
             (fun z => Qrule (map_nodes x1 x2 x) (map_weights x1 x2 wx) (fun xx => f xx ((y1 + y2) / 2 + (y2 - y1) / 2 * z)))
             (fun yi => xf1 * Qrule x wx (fun xj => f (xj * xf1 + xf2) (yi * yf1 + yf2)))).
  - rewrite Qrule_scal. unfold yf1, xf1, Rdiv. ring.
  - intros yi. rewrite Qrule_affine. unfold xf1 at 1. f_equal. apply Qrule_ext. intros xj.
    f_equal; unfold xf1, xf2, yf1, yf2; field.
Qed.

Lemma map2_app {A B C} (f : A -> B -> C) l1 l1' l2 l2' :
  length l1 = length l2 -> map2 f (l1 ++ l1') (l2 ++ l2') = map2 f l1 l2 ++ map2 f l1' l2'.
Proof.
  revert l2; induction l1 as [|a t IH]; intros [|b t2] L; simpl in *; try lia; [reflexivity|].
  rewrite IH by lia. reflexivity.
Qed.

Lemma map2_nil_r {A B C} (f : A -> B -> C) l : map2 f l [] = [].
Proof. destruct l; reflexivity. Qed.

(* the two-dimensional integrator on the values the function takes on the exact grid *)
Theorem integrate_func2_vals x wx y wy x1 x2 y1 y2 f :
  length x = length wx ->
  integrate_func2 x wx y wy x1 x2 y1 y2 f =
  integrate_vals2 wx wy x1 x2 y1 y2
    (flat_map (fun yi => map (fun xj => f (xj * ((x2 - x1) / 2) + (x2 + x1) / 2) (yi * ((y2 - y1) / 2) + (y2 + y1) / 2)) x) y).
Proof.
  intros Lx. unfold integrate_func2, integrate_vals2, grid_wR. f_equal.
  revert wy; induction y as [|yi yt IH]; intros [|wyi wyt]; simpl; try reflexivity.
  - rewrite map2_nil_r. reflexivity.
  - rewrite map2_app by (rewrite !map_length; exact Lx).
    rewrite !Rsum_app, IH. f_equal. rewrite map2_map_both. reflexivity.
Qed.

(* ---- linear interpolation: on ascending abscissae interplin IS the chord through the
        bracketing pair of tabulated points *)
Lemma increasing_head_lt x t : increasing (x :: t) -> forall j, (j < length t)%nat -> x < nth j t 0.
Proof.
  revert x; induction t as [|y t IH]; intros x H j Hj; simpl in *; [lia|].
  destruct H as [Hxy Ht]. destruct j as [|j]; [exact Hxy|].
  apply Rlt_trans with y; [exact Hxy|]. apply IH; [exact Ht | lia].
Qed.

Lemma increasing_tail x t : increasing (x :: t) -> increasing t.
Proof. simpl. intros [_ H]; exact H. Qed.

Lemma increasing_step l : increasing l -> forall j, (S j < length l)%nat -> nth j l 0 < nth (S j) l 0.
Proof.
  induction l as [|x t IH]; intros H j Hj; simpl in Hj; [lia|].
  destruct j as [|j]; [apply (increasing_head_lt x t H 0%nat); lia|].
  apply (IH (increasing_tail _ _ H)). lia.
Qed.

Definition count_lt (l : list R) (u : R) : nat := length (filter (fun xi => Rltb xi u) l).

Lemma Rltb_true a b : Rltb a b = true <-> a < b.
Proof. unfold Rltb. destruct (Rlt_dec a b); split; intros; try assumption; try reflexivity; try discriminate; contradiction. Qed.

Lemma Rltb_false a b : Rltb a b = false <-> b <= a.
Proof. unfold Rltb. destruct (Rlt_dec a b); split; intros; try discriminate; try reflexivity; lra. Qed.

(* searchsorted on an ascending table: exactly the entries before position count_lt are below u *)
Lemma count_lt_spec l u : increasing l -> forall i, (i < length l)%nat ->
  if (i <? count_lt l u)%nat then nth i l 0 < u else u <= nth i l 0.
Proof.
  unfold count_lt. induction l as [|x t IH]; intros H i Hi; simpl in Hi; [lia|].
  specialize (IH (increasing_tail _ _ H)). cbn [filter].
  destruct (Rltb x u) eqn:E; cbn [length].
  - apply Rltb_true in E. destruct i as [|i]; [exact E|]. apply (IH i). lia.
  - apply Rltb_false in E.
    assert (Z : length (filter (fun xi => Rltb xi u) t) = 0%nat).
    { destruct t as [|y t']; [reflexivity|]. specialize (IH 0%nat ltac:(simpl; lia)).
      pose proof (increasing_head_lt x (y :: t') H 0%nat ltac:(simpl; lia)) as Hxy. simpl in Hxy, IH.
      destruct (length _); [reflexivity | simpl in IH; lra]. }
    rewrite Z. destruct i as [|i]; [exact E|].
    pose proof (increasing_head_lt x t H i ltac:(lia)). simpl. lra.
Qed.

Definition chord (xv yv : list R) (j : nat) (u : R) : R :=
  nth j yv 0 + (u - nth j xv 0) * (nth (S j) yv 0 - nth j yv 0) / (nth (S j) xv 0 - nth j xv 0).

Lemma interplin_at_index xv yv u (j : nat) :
  interp_index xv u = Z.of_nat j -> interplin yv xv u = chord xv yv j u.
Proof.
  intros E. unfold interplin, chord, rnth. rewrite E.
  replace (Z.to_nat (Z.of_nat j + 1)) with (S j) by lia. rewrite Nat2Z.id. ring.
Qed.

(* the index selection of the code: searchsorted's answer minus one, clipped to the brackets 0 .. size-2 *)
Lemma interp_index_clip xv u :
  interp_index xv u = Z.max 0 (Z.min (Z.of_nat (length xv) - 2) (Z.of_nat (count_lt xv u) - 1)).
Proof.
  unfold interp_index, searchsorted. fold (count_lt xv u). cbv zeta.
  destruct (Z.leb_spec (Z.of_nat (length xv) - 1) (Z.of_nat (count_lt xv u) - 1)).
  - destruct (Z.ltb_spec (Z.of_nat (length xv) - 2) 0); lia.
  - destruct (Z.ltb_spec (Z.of_nat (count_lt xv u) - 1) 0); lia.
Qed.

Lemma interp_index_at xv u i : (S i < length xv)%nat ->
  (count_lt xv u = S i \/ (i = 0 /\ count_lt xv u = 0))%nat -> interp_index xv u = Z.of_nat i.
Proof. intros Hi Hc. rewrite interp_index_clip. lia. Qed.

Theorem interplin_is_chord xv yv u j :
  increasing xv -> (S j < length xv)%nat ->
  nth j xv 0 <= u <= nth (S j) xv 0 ->
  interplin yv xv u = chord xv yv j u.
Proof.
  intros Hinc Hj [Hlo Hhi].
  pose proof (count_lt_spec xv u Hinc (S j) Hj) as A. pose proof (count_lt_spec xv u Hinc j ltac:(lia)) as B.
  destruct (Nat.ltb_spec (S j) (count_lt xv u)) as [|Hup]; [lra|].
  destruct (Nat.ltb_spec j (count_lt xv u)) as [Hc|Hc].
  - (* x_j < u <= x_{j+1}: the code selects the bracket j *)
    apply interplin_at_index, interp_index_at; [exact Hj | left; lia].
  - (* u = x_j: the code selects bracket j-1 (or 0), whose chord also passes through (x_j, y_j) *)
    assert (Heq : nth j xv 0 = u) by lra. destruct j as [|j'].
    + apply interplin_at_index, interp_index_at; [exact Hj | right; lia].
    + pose proof (increasing_step xv Hinc j' ltac:(lia)) as S1.
      pose proof (increasing_step xv Hinc (S j') Hj) as S2.
      pose proof (count_lt_spec xv u Hinc j' ltac:(lia)) as C.
      destruct (Nat.ltb_spec j' (count_lt xv u)); [|lra].
      rewrite (interplin_at_index xv yv u j') by (apply interp_index_at; [lia | left; lia]).
      unfold chord. rewrite <- Heq. field. lra.
Qed.

(* every abscissa inside the table lies between two neighbouring tabulated points: interplin never
   extrapolates there and is the chord *)
Lemma bracket_exists : forall (xv : list R) u, increasing xv -> (2 <= length xv)%nat ->
  nth 0 xv 0 <= u <= nth (length xv - 1) xv 0 ->
  exists j, (S j < length xv)%nat /\ nth j xv 0 <= u <= nth (S j) xv 0.
Proof.
  intros xv u Hinc L [Hlo Hhi].
  pose proof (count_lt_spec xv u Hinc (length xv - 1) ltac:(lia)) as Last.
  destruct (Nat.ltb_spec (length xv - 1) (count_lt xv u)) as [|Hc]; [lra|].
  destruct (count_lt xv u) as [|c] eqn:E.
  - exists 0%nat. pose proof (count_lt_spec xv u Hinc 1%nat ltac:(lia)) as B. rewrite E in B. simpl in B.
    split; [lia | lra].
  - exists c. pose proof (count_lt_spec xv u Hinc c ltac:(lia)) as A.
    pose proof (count_lt_spec xv u Hinc (S c) ltac:(lia)) as B. rewrite E in A, B.
    rewrite (proj2 (Nat.ltb_lt c (S c))) in A by lia. rewrite Nat.ltb_irrefl in B. split; [lia | lra].
Qed.

Theorem interplin_is_chord_everywhere_inside xv yv u :
  increasing xv -> (2 <= length xv)%nat -> nth 0 xv 0 <= u <= nth (length xv - 1) xv 0 ->
  exists j, (S j < length xv)%nat /\ nth j xv 0 <= u <= nth (S j) xv 0 /\ interplin yv xv u = chord xv yv j u.
Proof.
  intros Hinc L Hu. destruct (bracket_exists xv u Hinc L Hu) as [j [Hj Hb]].
  exists j. split; [exact Hj|]. split; [exact Hb|]. apply interplin_is_chord; assumption.
Qed.

Section CacheProofs.
  Context {T Arg Out : Type}.
  Variable G : Z -> result T.
  Variable I : T -> Arg -> result Out.

  (* the cached rule is gauleg of the cached point count *)
  Definition cache_inv (st : @qstate T) : Prop :=
    match st_npts st with
    | None => True
    | Some n => exists r, G n = Ok r /\ st_rule st = Some r
    end.

  (* gauleg accepts the count, if one is given *)
  Definition accepted (npts : option Z) : Prop := forall k, npts = Some k -> exists r, G k = Ok r.

  Lemma same_npts_true s n : same_npts s n = true -> s = Some n.
  Proof. destruct s as [k|]; simpl; intros H; [|discriminate]. apply Z.eqb_eq in H. subst. reflexivity. Qed.

  Lemma setup_valid st npts :
    cache_inv st -> accepted npts ->
    snd (setup G st npts) = None /\ cache_inv (fst (setup G st npts)) /\
    st_npts (fst (setup G st npts)) = spec_eff (st_npts st) npts.
  Proof.
    intros Hinv Hv. destruct npts as [n|]; simpl.
    - destruct (same_npts (st_npts st) n) eqn:E; simpl.
      + apply same_npts_true in E. repeat split; auto.
      + destruct (Hv n eq_refl) as [r Hr]. rewrite Hr. simpl.
        split; [reflexivity|]. split; [|reflexivity].
        unfold cache_inv; simpl. exists r. auto.
    - repeat split; auto.
  Qed.

  Lemma q_integrate_valid st npts a :
    cache_inv st -> accepted npts ->
    snd (q_integrate G I st npts a) = fresh_result G I (spec_eff (st_npts st) npts) a /\
    cache_inv (fst (q_integrate G I st npts a)) /\
    st_npts (fst (q_integrate G I st npts a)) = spec_eff (st_npts st) npts.
  Proof.
    intros Hinv Hv. destruct (setup_valid st npts Hinv Hv) as [E [Hinv' Hn]].
    unfold q_integrate. destruct (setup G st npts) as [st' e]. simpl in *. subst e.
    unfold cache_inv in Hinv'. rewrite <- Hn.
    destruct (st_npts st') as [k|] eqn:Ek.
    - destruct Hinv' as [r [Hr Hs]]. rewrite Hs. simpl. rewrite Hr.
      repeat split; auto. unfold cache_inv. rewrite Ek. exists r; auto.
    - simpl. repeat split; auto. unfold cache_inv. rewrite Ek. exact Logic.I.
  Qed.

  Lemma q_run_valid ops : forall st,
    cache_inv st -> Forall (fun op : option Z * Arg => accepted (fst op)) ops ->
    snd (q_run G I st ops) = spec_run G I (st_npts st) ops /\ cache_inv (fst (q_run G I st ops)).
  Proof.
    induction ops as [|[n a] t IH]; intros st Hinv Hv; [split; [reflexivity | exact Hinv]|].
    inversion Hv as [|? ? Hop Ht]; subst. simpl in Hop.
    destruct (q_integrate_valid st n a Hinv Hop) as [E1 [E2 E3]].
    simpl. destruct (q_integrate G I st n a) as [st' o] eqn:Eq. simpl in *.
    specialize (IH st' E2 Ht). destruct (q_run G I st' t) as [st'' os]. simpl in *. destruct IH as [IH1 IH2].
    split; [rewrite E1, IH1, E3; reflexivity | exact IH2].
  Qed.

  Theorem cache_history_independent n0 ops :
    valid_counts G n0 ops ->
    snd (q_init G n0) = None /\
    snd (q_run G I (fst (q_init G n0)) ops) = spec_run G I n0 ops.
  Proof.
    intros [H0 Hops].
    assert (Hnone : cache_inv (@q_none T)) by exact Logic.I.
    destruct (setup_valid q_none n0 Hnone H0) as [E [Hinv Hn]].
    unfold q_init. split; [exact E|].
    rewrite (proj1 (q_run_valid ops _ Hinv Hops)). rewrite Hn. simpl. destruct n0; reflexivity.
  Qed.

  (* a call with an explicit point count returns what a fresh object with that count returns,
     whatever (valid) calls came before *)
  Corollary explicit_npts_fresh n0 ops n a :
    valid_counts G n0 ops -> (exists r, G n = Ok r) ->
    snd (q_integrate G I (fst (q_run G I (fst (q_init G n0)) ops)) (Some n) a) = qgauss_fn G I (Some n) a.
  Proof.
    intros [H0 Hops] [r Hr]. unfold q_init.
    destruct (setup_valid q_none n0 Logic.I H0) as [_ [Hinv _]].
    destruct (q_run_valid ops _ Hinv Hops) as [_ Hinv'].
    destruct (q_integrate_valid _ (Some n) a Hinv') as [E _]; [intros k [= <-]; exists r; exact Hr|].
    rewrite E. unfold qgauss_fn, q_init. simpl. rewrite Hr. reflexivity.
  Qed.
End CacheProofs.
