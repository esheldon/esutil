(* C17 — soundness of the boolean checkers of Spec.v: what vm_compute decides on the exact
   values of the implementation's floats implies the real-number Props.  The rule checker and the history
   checker are also complete: they accept exactly the outputs that satisfy their Prop, so a rejection by the
   correspondence run is a violation of the stated bounds and never an artefact of the checker. *)
From Coq Require Import Reals QArith Qreals Lra.
From EsVerif.Common Require Import Base.
From EsVerif.C17 Require Import Model Dyadic Spec Proofs.
Import RM.

Local Open Scope R_scope.

Lemma IZR_1e9 : IZR (10 ^ 9) = 10 ^ 9.
Proof. change (10 ^ 9)%Z with 1000000000%Z. simpl. lra. Qed.

(* how every checker tests "e <= 1e-9 s" without dividing *)
Lemma tol_scale e s : 10 ^ 9 * e <= s <-> e <= tol * s.
Proof.
  unfold tol. assert (P : 0 < 10 ^ 9) by (apply pow_lt; lra). split; intros H.
  - apply Rmult_le_reg_l with (10 ^ 9); [exact P|]. rewrite <- Rmult_assoc, Rinv_r, Rmult_1_l by lra. exact H.
  - apply Rmult_le_compat_l with (r := 10 ^ 9) in H; [|lra]. rewrite <- Rmult_assoc, Rinv_r, Rmult_1_l in H by lra. exact H.
Qed.

Lemma tol_le_iff e s : tol_le e s = true <-> dR e <= tol * dR s.
Proof. unfold tol_le. rewrite dleb_spec, dR_scale, IZR_1e9. apply tol_scale. Qed.

Lemma tol_le_abs e s : tol_le (dabs e) s = true <-> Rabs (dR e) <= tol * dR s.
Proof. rewrite tol_le_iff, dR_abs. tauto. Qed.

Lemma and_iff_both (A A' B B' : Prop) : (A <-> A') -> (B <-> B') -> (A /\ B <-> A' /\ B').
Proof. tauto. Qed.

Lemma forallb2_Forall2 {A B} (f : A -> B -> bool) (P : R -> R -> Prop) (g : A -> R) (h : B -> R) :
  (forall a b, f a b = true -> P (g a) (h b)) ->
  forall l1 l2, forallb2 f l1 l2 = true -> Forall2 P (map g l1) (map h l2).
Proof.
  intros Hf. induction l1 as [|a t IH]; intros [|b t2] H; simpl in *; try discriminate; [constructor|].
  apply andb_true_iff in H as [H1 H2]. constructor; [apply Hf; exact H1 | apply IH; exact H2].
Qed.

Lemma forallb2_Forall2_iff {A B} (f : A -> B -> bool) (P : R -> R -> Prop) (g : A -> R) (h : B -> R) :
  (forall a b, f a b = true <-> P (g a) (h b)) ->
  forall l1 l2, forallb2 f l1 l2 = true <-> Forall2 P (map g l1) (map h l2).
Proof.
  intros Hf l1 l2. split; [apply forallb2_Forall2; intros a b; apply Hf|].
  revert l2. induction l1 as [|a t IH]; intros [|b t2] H; simpl in *; inversion H; subst; try reflexivity.
  apply andb_true_iff. split; [apply Hf; assumption | apply IH; assumption].
Qed.

Lemma increasing_b_iff l : increasing_b l = true <-> increasing (map dR l).
Proof.
  induction l as [|x t IH]; simpl; [tauto|]. rewrite andb_true_iff, IH. apply and_iff_both; [|tauto].
  destruct t as [|y t']; simpl; [tauto | apply dltb_spec].
Qed.

Lemma forallb_Forall_iff (f : dy -> bool) (P : R -> Prop) :
  (forall a, f a = true <-> P (dR a)) -> forall l, forallb f l = true <-> Forall P (map dR l).
Proof.
  intros Hf. induction l as [|a t IH]; simpl; [split; [constructor | reflexivity]|].
  rewrite andb_true_iff, Hf, IH. split; [intros [? ?]; constructor; assumption | intros H; inversion H; auto].
Qed.

Theorem rule_check_iff a b xs ws refz refw :
  rule_check a b xs ws refz refw = true <->
  rule_ok (dR a) (dR b) (map dR xs) (map dR ws) (map dR refz) (map dR refw).
Proof.
  unfold rule_check, rule_ok. rewrite !andb_true_iff, orb_true_iff, !andb_true_iff, !and_assoc.
  repeat apply and_iff_both.
  - rewrite !map_length. apply Nat.eqb_eq.
  - rewrite !dltb_spec, !increasing_b_iff. cbn [map]. rewrite !map_app, map_rev. cbn [map].
    rewrite (forallb_Forall_iff _ (fun w => 0 < w)), (forallb_Forall_iff _ (fun w => w < 0)); [tauto | |];
      intros w; rewrite dltb_spec, dR_dz; tauto.
  - rewrite <- map_rev. apply forallb2_Forall2_iff. intros x x'. rewrite tol_le_abs. autorewrite with dR. tauto.
  - rewrite <- map_rev. apply forallb2_Forall2_iff. intros w w'. rewrite tol_le_abs. autorewrite with dR. tauto.
  - rewrite tol_le_abs. autorewrite with dR. rewrite dR_sum. tauto.
  - apply forallb2_Forall2_iff. intros x z. rewrite tol_le_abs. autorewrite with dR. tauto.
  - apply forallb2_Forall2_iff. intros w v. rewrite tol_le_abs. autorewrite with dR. tauto.
Qed.

Lemma Qrule_as_sum xs ws f : Qrule xs ws f = Rsum (map2 Rmult ws (map f xs)).
Proof.
  unfold Rsum. revert ws; induction xs as [|x xt IH]; intros [|w wt]; simpl; try reflexivity.
  rewrite IH. reflexivity.
Qed.

Lemma map_dR_map2_dmul l1 l2 : map dR (map2 dmul l1 l2) = map2 Rmult (map dR l1) (map dR l2).
Proof.
  revert l2; induction l1 as [|a t IH]; intros [|b t2]; simpl; try reflexivity.
  rewrite dR_mul, IH. reflexivity.
Qed.

Lemma dR_ddot ws ps : dR (ddot ws ps) = Rsum (map2 Rmult (map dR ws) (map dR ps)).
Proof. unfold ddot. rewrite dR_sum, map_dR_map2_dmul. reflexivity. Qed.

Lemma map2_mult_self (f : R -> R) l : map2 Rmult l (map f l) = map (fun x => x * f x) l.
Proof. induction l as [|a t IH]; simpl; [reflexivity | rewrite IH; reflexivity]. Qed.

Lemma eps_m_bound (kk S M : R) :
  0 < kk -> IZR (2 * 10 ^ 9) * Rabs (kk * S - M) <= kk -> Rabs (S - M / kk) <= eps_m.
Proof.
  intros Hk H. unfold eps_m.
  replace (IZR (2 * 10 ^ 9)) with (2 * 10 ^ 9) in H by (change (2 * 10 ^ 9)%Z with 2000000000%Z; simpl; lra).
  replace (kk * S - M) with (kk * (S - M / kk)) in H by (field; lra).
  rewrite Rabs_mult, (Rabs_pos_eq kk) in H by lra.
  change (10 ^ 10) with (10 * 10 ^ 9). assert (P : 0 < 10 ^ 9) by (apply pow_lt; lra).
  set (A := Rabs _) in *. set (t := 10 ^ 9) in *. clearbody t A.
  apply Rmult_le_reg_r with (10 * t); [lra|]. unfold Rdiv. rewrite Rmult_assoc, Rinv_l by lra. nra.
Qed.

(* one moment test of the loops: [ps] holds the k-th powers of the nodes *)
Lemma moment_test_sound xs ws ps k kk M :
  map dR ps = map (fun x => x ^ k) (map dR xs) -> (0 < kk)%Z ->
  dleb (dscale (2 * 10 ^ 9) (dabs (dsub (dscale kk (ddot ws ps)) (dz M)))) (dz kk) = true ->
  Rabs (moment (map dR xs) (map dR ws) k - IZR M / IZR kk) <= eps_m.
Proof.
  intros Hps Hk H. apply dleb_spec in H. revert H. autorewrite with dR. rewrite dR_ddot, Hps. intros H.
  unfold moment. rewrite Qrule_as_sum. apply eps_m_bound; [apply IZR_lt; exact Hk | exact H].
Qed.

Lemma powers_step xs ps k :
  map dR ps = map (fun x => x ^ k) (map dR xs) ->
  map dR (map2 dmul xs ps) = map (fun x => x ^ S k) (map dR xs).
Proof. intros Hps. rewrite map_dR_map2_dmul, Hps, map2_mult_self. reflexivity. Qed.

Lemma moments_loop_sound xs ws : forall cnt k ps,
  map dR ps = map (fun x => x ^ k) (map dR xs) ->
  moments_loop cnt k xs ws ps = true ->
  forall j, (j < cnt)%nat ->
    Rabs (moment (map dR xs) (map dR ws) (k + j) - m_exact (k + j)) <= eps_m.
Proof.
  induction cnt as [|c IH]; intros k ps Hps H j Hj; [lia|].
  cbn [moments_loop] in H. apply andb_true_iff in H as [H1 H2].
  destruct j as [|j].
  - rewrite Nat.add_0_r. apply (moment_test_sound xs ws ps k) in H1; [|exact Hps|lia].
    unfold m_exact. rewrite (INR_IZR_INZ (S k)).
    destruct (Nat.even k); [exact H1|]. unfold Rdiv in H1. rewrite Rmult_0_l in H1. exact H1.
  - replace (k + S j)%nat with (S k + j)%nat by lia.
    apply (IH (S k) (map2 dmul xs ps)); [apply powers_step; exact Hps | exact H2 | lia].
Qed.

Theorem moments_check_sound xs ws N :
  moments_check xs ws N = true -> moments_ok (map dR xs) (map dR ws) N eps_m.
Proof.
  unfold moments_check, moments_ok. intros H k Hk.
  apply (moments_loop_sound xs ws N 0 (map (fun _ => dz 1) xs)); [|exact H|exact Hk].
  rewrite !map_map. apply map_ext. intros x. rewrite dR_dz. reflexivity.
Qed.

Lemma dR_dpeval p x : dR (dpeval p x) = peval (map dR p) (dR x).
Proof. induction p as [|c t IH]; simpl; [apply dR_dz | autorewrite with dR; rewrite IH; reflexivity]. Qed.

Lemma dR_dQrule xs ws (f : dy -> dy) (g : R -> R) :
  (forall x, dR (f x) = g (dR x)) ->
  dR (dQrule xs ws f) = Qrule (map dR xs) (map dR ws) g.
Proof.
  intros Hf. unfold dQrule. rewrite dR_sum. unfold Rsum.
  revert ws; induction xs as [|x xt IH]; intros [|w wt]; simpl; try reflexivity.
  rewrite IH. autorewrite with dR. rewrite Hf. reflexivity.
Qed.

Lemma dpint_from_sound FF a b p : forall k r,
  dpint_from FF k a b p = Some r ->
  dR r = IZR FF * pint_from k (dR a) (dR b) (map dR p).
Proof.
  induction p as [|c t IH]; intros k r H; cbn [dpint_from] in H.
  - inversion H; subst. rewrite dR_dz. simpl. ring.
  - destruct (FF mod Z.of_nat (S k) =? 0)%Z eqn:Em; [|discriminate].
    destruct (dpint_from FF (S k) a b t) as [r'|] eqn:Er; [|discriminate].
    injection H as Hr. subst r. autorewrite with dR. rewrite !dR_pow, (IH _ _ Er).
    cbn [map pint_from pow]. rewrite (INR_IZR_INZ (S k)).
    change (Z.pos (Pos.of_succ_nat k)) with (Z.of_nat (S k)).
    set (kk := Z.of_nat (S k)) in *.
    assert (Hk : IZR kk <> 0) by (apply not_0_IZR; unfold kk; lia).
    assert (Hd : IZR FF = IZR kk * IZR (FF / kk)).
    { rewrite <- mult_IZR. f_equal. apply Z.eqb_eq in Em.
      apply Z.div_exact in Em; [exact Em | unfold kk; lia]. }
    rewrite Hd. field. exact Hk.
Qed.

Lemma between_b_sound a b t : between_b a b t = true -> between (dR a) (dR b) (dR t).
Proof.
  unfold between_b, between. intros H. apply orb_true_iff in H. destruct H as [H|H];
    apply andb_true_iff in H as [H1 H2]; apply dleb_spec in H1; apply dleb_spec in H2; [left|right]; lra.
Qed.

Theorem poly_check_sound a b xs ws p t FF :
  poly_check a b xs ws p t FF = true ->
  poly_ok (dR a) (dR b) (map dR xs) (map dR ws) (map dR p).
Proof.
  unfold poly_check, poly_ok. rewrite !andb_true_iff. intros [[H1 H2] H3].
  destruct (dpint_from FF 0 a b p) as [Iv|] eqn:EI; [|discriminate].
  exists (dR t). split; [apply between_b_sound; exact H2|].
  apply dleb_spec in H3. revert H3. autorewrite with dR.
  rewrite (dR_dQrule xs ws (dpeval p) (peval (map dR p))) by (intros; apply dR_dpeval).
  rewrite (dpint_from_sound _ _ _ _ _ _ EI), dR_dpeval, IZR_1e9.
  fold (Pint (dR a) (dR b) (map dR p)).
  set (Qv := Qrule _ _ _). set (Pv := Pint _ _ _). set (Mv := Rabs (peval _ _)). set (Wv := Rabs (dR b - dR a)).
  intros H3. apply Z.ltb_lt in H1. assert (HF : 0 < IZR FF) by (apply IZR_lt; exact H1).
  replace (IZR FF * Qv - IZR FF * Pv) with (IZR FF * (Qv - Pv)) in H3 by ring.
  rewrite Rabs_mult, (Rabs_pos_eq (IZR FF)) in H3 by lra.
  rewrite Rmult_assoc. apply tol_scale. apply Rmult_le_reg_l with (IZR FF); [exact HF|].
  replace (IZR FF * (10 ^ 9 * Rabs (Qv - Pv))) with (10 ^ 9 * (IZR FF * Rabs (Qv - Pv))) by ring.
  exact H3.
Qed.

Lemma dR_dvals ws x1 x2 ys :
  dR (dvals ws x1 x2 ys) = integrate_vals (map dR ws) (dR x1) (dR x2) (map dR ys).
Proof.
  unfold dvals, integrate_vals. autorewrite with dR. rewrite dR_sum, map_dR_map2_dmul. reflexivity.
Qed.

Theorem func_check_sound zs ws x1 x2 xi ys res :
  func_check zs ws x1 x2 xi ys res = true ->
  func_ok (map dR zs) (map dR ws) (dR x1) (dR x2) (map dR xi) (map dR ys) (dR res).
Proof.
  unfold func_check, func_ok. rewrite andb_true_iff. intros [H1 H2]. split.
  - revert H1. apply forallb2_Forall2. intros u z Hu.
    apply tol_le_abs in Hu. autorewrite with dR in Hu. exact Hu.
  - apply existsb_exists in H2 as [y [Hin Hy]]. exists (dR y). split; [apply in_map; exact Hin|].
    apply tol_le_abs in Hy. autorewrite with dR in Hy. rewrite dR_dvals in Hy.
    rewrite Rmult_assoc. exact Hy.
Qed.

Lemma map_dR_grid (f : dy -> dy -> dy) (g : R -> R -> R) x y :
  (forall a b, dR (f a b) = g (dR a) (dR b)) ->
  map dR (flat_map (fun a => map (f a) x) y) = flat_map (fun a => map (g a) (map dR x)) (map dR y).
Proof.
  intros H. induction y as [|a t IH]; simpl; [reflexivity|].
  rewrite map_app, IH, !map_map. f_equal. apply map_ext. intros b. apply H.
Qed.

Lemma dR_dgrid_x x y xf1 xf2 :
  map dR (dgrid_x x y xf1 xf2) = grid_xR (map dR x) (map dR y) (dR xf1) (dR xf2).
Proof. apply (map_dR_grid (fun _ xj => dadd (dmul xj xf1) xf2)). intros. autorewrite with dR. reflexivity. Qed.

Lemma dR_dgrid_y x y yf1 yf2 :
  map dR (dgrid_y x y yf1 yf2) = grid_yR (map dR x) (map dR y) (dR yf1) (dR yf2).
Proof. apply (map_dR_grid (fun yi _ => dadd (dmul yi yf1) yf2)). intros. autorewrite with dR. reflexivity. Qed.

Lemma dR_dgrid_w wx wy : map dR (dgrid_w wx wy) = grid_wR (map dR wx) (map dR wy).
Proof. apply (map_dR_grid (fun wyi wxj => dmul wxj wyi)). intros. autorewrite with dR. reflexivity. Qed.

Lemma dR_dvals2 wx wy x1 x2 y1 y2 zv :
  dR (dvals2 wx wy x1 x2 y1 y2 zv) =
  integrate_vals2 (map dR wx) (map dR wy) (dR x1) (dR x2) (dR y1) (dR y2) (map dR zv).
Proof.
  unfold dvals2, integrate_vals2. autorewrite with dR. rewrite dR_sum, map_dR_map2_dmul, dR_dgrid_w. reflexivity.
Qed.

Lemma forallb2_Forall2_r {A} (f : A -> dy -> bool) (P : R -> R -> Prop) (g : A -> R) l2R :
  forall l1 l2, map dR l2 = l2R ->
  (forall a b, f a b = true -> P (g a) (dR b)) ->
  forallb2 f l1 l2 = true -> Forall2 P (map g l1) l2R.
Proof. intros l1 l2 E Hf H. subst. revert H. apply forallb2_Forall2. exact Hf. Qed.

Theorem func2_check_sound x wx y wy x1 x2 y1 y2 xg yg zv res :
  func2_check x wx y wy x1 x2 y1 y2 xg yg zv res = true ->
  func2_ok (map dR x) (map dR wx) (map dR y) (map dR wy) (dR x1) (dR x2) (dR y1) (dR y2)
           (map dR xg) (map dR yg) (map dR zv) (dR res).
Proof.
  unfold func2_check, func2_ok. rewrite !andb_true_iff. intros [[H1 H2] H3].
  split; [|split].
  - eapply forallb2_Forall2_r; [| |exact H1].
    + rewrite dR_dgrid_x. autorewrite with dR. reflexivity.
    + intros u g Hu. apply tol_le_abs in Hu. autorewrite with dR in Hu. exact Hu.
  - eapply forallb2_Forall2_r; [| |exact H2].
    + rewrite dR_dgrid_y. autorewrite with dR. reflexivity.
    + intros u g Hu. apply tol_le_abs in Hu. autorewrite with dR in Hu. exact Hu.
  - apply existsb_exists in H3 as [z [Hin Hz]]. exists (dR z). split; [apply in_map; exact Hin|].
    apply tol_le_abs in Hz. autorewrite with dR in Hz. rewrite dR_dvals2 in Hz.
    rewrite !Rmult_assoc in *. exact Hz.
Qed.

Lemma Q2R_inject_Z z : Q2R (inject_Z z) = IZR z.
Proof. unfold Q2R, inject_Z; simpl. rewrite Rinv_1. ring. Qed.

Lemma powerRZ_2_inv e : / powerRZ 2 (- e) = powerRZ 2 e.
Proof.
  pose proof (powerRZ_2_pos (- e)) as P.
  apply Rmult_eq_reg_l with (powerRZ 2 (- e)); [|lra].
  rewrite Rinv_r by lra. rewrite <- powerRZ_add by apply two_neq0.
  replace (- e + e)%Z with 0%Z by lia. reflexivity.
Qed.

Lemma Q2R_Qpow2 e : Q2R (Qpow2 e) = powerRZ 2 e.
Proof.
  unfold Qpow2. destruct (0 <=? e)%Z eqn:E.
  - rewrite Q2R_inject_Z. apply IZR_pow2. lia.
  - rewrite Q2R_inv.
    + rewrite Q2R_inject_Z, IZR_pow2 by lia. apply powerRZ_2_inv.
    + unfold Qeq, inject_Z; simpl. assert (0 < 2 ^ (- e))%Z by (apply Z.pow_pos_nonneg; lia). lia.
Qed.

Lemma Q2R_d2Q d : Q2R (d2Q d) = dR d.
Proof. unfold d2Q, dR. rewrite Q2R_mult, Q2R_inject_Z, Q2R_Qpow2. reflexivity. Qed.

Lemma Qle_bool_R a b : if Qle_bool a b then Q2R a <= Q2R b else Q2R b < Q2R a.
Proof.
  destruct (Qle_bool a b) eqn:E; [apply Qle_Rle, Qle_bool_iff, E|].
  apply Qlt_Rlt, Qnot_le_lt. intros C. apply Qle_bool_iff in C. congruence.
Qed.

Lemma Qltb_Rltb a b : Qltb a b = Rltb (Q2R a) (Q2R b).
Proof.
  unfold Qltb, Rltb. pose proof (Qle_bool_R b a) as H.
  destruct (Qle_bool b a), (Rlt_dec (Q2R a) (Q2R b)); simpl; try reflexivity; lra.
Qed.

Lemma searchsorted_Q_R x u : searchsorted_Q x u = searchsorted (map Q2R x) (Q2R u).
Proof.
  unfold searchsorted_Q, searchsorted. f_equal.
  induction x as [|a t IH]; simpl; [reflexivity|].
  rewrite <- Qltb_Rltb. destruct (Qltb a u); simpl; rewrite IH; reflexivity.
Qed.

Lemma interp_index_Q_R x u : interp_index_Q x u = interp_index (map Q2R x) (Q2R u).
Proof. unfold interp_index_Q, interp_index. rewrite map_length, searchsorted_Q_R. reflexivity. Qed.

Lemma Q2R_qnth l i : Q2R (qnth l i) = rnth (map Q2R l) i.
Proof.
  unfold qnth, rnth.
  replace (nth (Z.to_nat i) (map Q2R l) 0%R) with (nth (Z.to_nat i) (map Q2R l) (Q2R 0))
    by (f_equal; apply RMicromega.Q2R_0).
  rewrite map_nth. reflexivity.
Qed.

Lemma increasing_Q_R l : increasing_Q l = true -> increasing (map Q2R l).
Proof.
  induction l as [|x t IH]; simpl; [tauto|]. rewrite andb_true_iff. intros [H1 H2]. split; [|apply IH; exact H2].
  destruct t as [|y t']; simpl; [exact Logic.I|]. apply Rltb_true. rewrite <- Qltb_Rltb. exact H1.
Qed.

Lemma Q2R_interplin_Q v x u :
  increasing_Q x = true -> (2 <= length x)%nat ->
  Q2R (interplin_Q v x u) = interplin (map Q2R v) (map Q2R x) (Q2R u).
Proof.
  intros Hinc L. unfold interplin_Q, interplin. rewrite <- interp_index_Q_R.
  assert (Hr : (0 <= interp_index_Q x u <= Z.of_nat (length x) - 2)%Z)
    by (rewrite interp_index_Q_R, interp_index_clip, map_length; lia).
  set (i := interp_index_Q x u) in *.
  assert (Hlt : rnth (map Q2R x) i < rnth (map Q2R x) (i + 1)).
  { unfold rnth. replace (Z.to_nat (i + 1)) with (S (Z.to_nat i)) by lia.
    apply increasing_step; [apply increasing_Q_R; exact Hinc | rewrite map_length; lia]. }
  rewrite Q2R_plus, Q2R_div, Q2R_mult, !Q2R_minus, !Q2R_qnth; [reflexivity|].
  intros C. apply Qeq_eqR in C. rewrite Q2R_minus, !Q2R_qnth, RMicromega.Q2R_0 in C. lra.
Qed.

Lemma Q2R_Qminb a b : Q2R (Qminb a b) = Rmin (Q2R a) (Q2R b).
Proof.
  unfold Qminb. pose proof (Qle_bool_R a b) as H.
  destruct (Qle_bool a b); [rewrite Rmin_left | rewrite Rmin_right]; lra.
Qed.

Lemma Q2R_Qmaxb a b : Q2R (Qmaxb a b) = Rmax (Q2R a) (Q2R b).
Proof.
  unfold Qmaxb. pose proof (Qle_bool_R a b) as H.
  destruct (Qle_bool a b); [rewrite Rmax_right | rewrite Rmax_left]; lra.
Qed.

Lemma Q2R_fold_left (fQ : Q -> Q -> Q) (fR : R -> R -> R) :
  (forall a b, Q2R (fQ a b) = fR (Q2R a) (Q2R b)) ->
  forall l a, Q2R (fold_left fQ l a) = fold_left fR (map Q2R l) (Q2R a).
Proof. intros H. induction l as [|b t IH]; intros a; simpl; [reflexivity | rewrite IH, H; reflexivity]. Qed.

Lemma Q2R_Qmin_list l : Q2R (Qmin_list l) = Rmin_list (map Q2R l).
Proof. destruct l; [apply RMicromega.Q2R_0 | apply Q2R_fold_left, Q2R_Qminb]. Qed.

Lemma Q2R_Qmax_list l : Q2R (Qmax_list l) = Rmax_list (map Q2R l).
Proof. destruct l; [apply RMicromega.Q2R_0 | apply Q2R_fold_left, Q2R_Qmaxb]. Qed.

Lemma Q2R_half : Q2R (1 # 2) = / 2.
Proof. unfold Q2R; simpl. lra. Qed.

Lemma Q2R_weighted (fQ : Q -> Q) (fR : R -> R) : (forall q, Q2R (fQ q) = fR (Q2R q)) ->
  forall xi ws, Q2R (Qsum (map2 (fun u w => fQ u * w)%Q xi ws))
                = Rsum (map2 (fun u w => fR u * w) (map Q2R xi) (map Q2R ws)).
Proof.
  intros Hf. induction xi as [|u t IH]; intros [|w wt]; simpl; try (unfold Q2R; simpl; lra).
  rewrite Q2R_plus, Q2R_mult, Hf, IH. reflexivity.
Qed.

Lemma Q2R_integrate_func_Q zs ws x1 x2 (fQ : Q -> Q) (fR : R -> R) :
  (forall q, Q2R (fQ q) = fR (Q2R q)) ->
  Q2R (integrate_func_Q zs ws x1 x2 fQ) = integrate_func (map Q2R zs) (map Q2R ws) (Q2R x1) (Q2R x2) fR.
Proof.
  intros Hf. unfold integrate_func_Q, integrate_func.
  rewrite Q2R_mult, (Q2R_weighted _ (fun u => fR (u * ((Q2R x2 - Q2R x1) / 2) + (Q2R x2 + Q2R x1) / 2))).
  - rewrite Q2R_mult, Q2R_minus, Q2R_half. reflexivity.
  - intros q. rewrite Hf, Q2R_plus, !Q2R_mult, Q2R_minus, Q2R_plus, Q2R_half. reflexivity.
Qed.

Lemma Q2R_Qabsb a : Q2R (Qabsb a) = Rabs (Q2R a).
Proof.
  unfold Qabsb. pose proof (Qle_bool_R 0 a) as H. rewrite RMicromega.Q2R_0 in H.
  destruct (Qle_bool 0 a); [rewrite Rabs_pos_eq | rewrite Q2R_opp, Rabs_left]; lra.
Qed.

Local Hint Rewrite Q2R_mult Q2R_plus Q2R_minus Q2R_Qabsb Q2R_inject_Z Q2R_half : q2r.

Theorem data_check_sound zs ws xv yv res :
  data_check zs ws xv yv res = true ->
  data_ok (map Q2R zs) (map Q2R ws) (map Q2R xv) (map Q2R yv) (Q2R res).
Proof.
  unfold data_check, data_ok. rewrite !andb_true_iff. intros [[[H1 H2] _] H4]. apply Nat.leb_le in H2.
  apply existsb_exists in H4. destruct H4 as [y [Hin Hy]].
  exists (Q2R y). split; [apply in_map; exact Hin|].
  apply Qle_bool_iff in Hy. apply Qle_Rle in Hy.
  rewrite !Q2R_mult, !Q2R_Qabsb, !Q2R_minus, Q2R_inject_Z, IZR_1e9 in Hy.
  rewrite Q2R_Qmax_list, Q2R_Qmin_list in Hy.
  unfold integrate_data_Q in Hy.
  rewrite (Q2R_integrate_func_Q zs ws _ _ (interplin_Q yv xv) (interplin (map Q2R yv) (map Q2R xv))) in Hy
    by (intros q; apply Q2R_interplin_Q; assumption).
  rewrite Q2R_Qmax_list, Q2R_Qmin_list in Hy.
  fold (integrate_data (map Q2R zs) (map Q2R ws) (map Q2R xv) (map Q2R yv)) in Hy.
  rewrite Rmult_assoc. apply tol_scale. exact Hy.
Qed.

Lemma map_Q2R_d2Q l : map Q2R (map d2Q l) = map dR l.
Proof. rewrite map_map. apply map_ext. exact Q2R_d2Q. Qed.

Corollary data_check_sound_dy zs ws xv yv res :
  data_check (map d2Q zs) (map d2Q ws) (map d2Q xv) (map d2Q yv) (d2Q res) = true ->
  data_ok (map dR zs) (map dR ws) (map dR xv) (map dR yv) (dR res).
Proof.
  intros H. apply data_check_sound in H. rewrite !map_Q2R_d2Q, Q2R_d2Q in H. exact H.
Qed.

Lemma IZR_2p50 : IZR (2 ^ 50) = 2 ^ 50.
Proof. change (2 ^ 50)%Z with 1125899906842624%Z. simpl. lra. Qed.

Theorem data_check_at_sound zs ws xv yv xi res :
  data_check_at zs ws xv yv xi res = true ->
  data_ok_at (map Q2R zs) (map Q2R ws) (map Q2R xv) (map Q2R yv) (map Q2R xi) (Q2R res).
Proof.
  unfold data_check_at, data_ok_at. cbv zeta. rewrite !andb_true_iff. intros [[[H1 H2] _] [H4 H5]].
  apply Nat.leb_le in H2.
  rewrite <- Q2R_Qmin_list, <- Q2R_Qmax_list.
  split.
  - revert H4. apply forallb2_Forall2. intros u z Hu.
    apply Qle_bool_iff in Hu. apply Qle_Rle in Hu.
    autorewrite with q2r in Hu. rewrite IZR_2p50 in Hu.
    unfold ulp_tol. assert (P : 0 < 2 ^ 50) by (apply pow_lt; lra).
    apply Rmult_le_reg_l with (2 ^ 50); [exact P|].
    rewrite <- Rmult_assoc, Rinv_r, Rmult_1_l by lra. unfold Rdiv. exact Hu.
  - apply existsb_exists in H5. destruct H5 as [y [Hin Hy]].
    exists (Q2R y). split; [apply in_map; exact Hin|].
    apply Qle_bool_iff in Hy. apply Qle_Rle in Hy.
    autorewrite with q2r in Hy. rewrite IZR_1e9 in Hy.
    rewrite (Q2R_weighted (interplin_Q yv xv) (interplin (map Q2R yv) (map Q2R xv))) in Hy
      by (intros q; apply Q2R_interplin_Q; assumption).
    rewrite Rmult_assoc. apply tol_scale. unfold Rdiv. exact Hy.
Qed.

Corollary data_check_at_sound_dy zs ws xv yv xi res :
  data_check_at (map d2Q zs) (map d2Q ws) (map d2Q xv) (map d2Q yv) (map d2Q xi) (d2Q res) = true ->
  data_ok_at (map dR zs) (map dR ws) (map dR xv) (map dR yv) (map dR xi) (dR res).
Proof.
  intros H. apply data_check_at_sound in H. rewrite !map_Q2R_d2Q, Q2R_d2Q in H. exact H.
Qed.

(* interplin as the checkers evaluate it (over Q, any ascending table, however far from the origin)
   is the chord through the two tabulated points that bracket the abscissa *)
Theorem interplin_Q_is_chord xv yv u j :
  increasing_Q xv = true -> (2 <= length xv)%nat -> (S j < length xv)%nat ->
  Q2R (nth j xv 0%Q) <= Q2R u <= Q2R (nth (S j) xv 0%Q) ->
  Q2R (interplin_Q yv xv u) = chord (map Q2R xv) (map Q2R yv) j (Q2R u).
Proof.
  intros Hinc L Hj Hu. rewrite Q2R_interplin_Q by assumption.
  apply interplin_is_chord.
  - apply increasing_Q_R. exact Hinc.
  - rewrite map_length. exact Hj.
  - replace 0 with (Q2R 0) by (unfold Q2R; simpl; lra). rewrite !map_nth. exact Hu.
Qed.

(* one observation, for an effective count that gauleg accepts *)
Lemma obs_ok_iff c o : match c with Some k => (0 <? k)%Z = true | None => True end ->
  (obs_ok c o = true <->
   obs_count o = fresh_result G_count (fun r (_ : unit) => Ok r) c tt /\ obs_bits_ok o).
Proof.
  intros V. destruct c as [m|], o as [[k [r fr]]|e]; simpl; unfold G_count.
  - destruct (Z.leb_spec m 0); [lia|]. rewrite andb_true_iff, Z.eqb_eq.
    split; [intros [-> B]; auto | intros [[= ->] B]; auto].
  - destruct (Z.leb_spec m 0); [lia|]. split; [discriminate | intros [E _]; discriminate].
  - split; [discriminate | intros [E _]; discriminate].
  - split; auto.
Qed.

Theorem history_check_iff ops : forall cur os, counts_valid cur ops = true ->
  (history_check cur ops os = true <-> history_ok cur ops os).
Proof.
  unfold history_ok, counts_valid.
  induction ops as [|n t IH]; intros cur [|o ot] Hv; cbn [history_check map spec_run].
  - split; [intros _; split; [reflexivity | constructor] | reflexivity].
  - split; [discriminate | intros [E _]; discriminate].
  - split; [discriminate | intros [E _]; discriminate].
  - cbn [forallb] in Hv. apply andb_true_iff in Hv as [Hc Hv]. apply andb_true_iff in Hv as [Hn Hv].
    assert (V : match spec_eff cur n with Some k => (0 <? k)%Z = true | None => True end).
    { destruct n as [k|]; simpl; [exact Hn|]. destruct cur as [k|]; [exact Hc | exact Logic.I]. }
    rewrite andb_true_iff, (obs_ok_iff _ o V), (IH (spec_eff cur n) ot).
    + split.
      * intros [[E B] [Et Bt]]. split; [rewrite E, Et; reflexivity | constructor; assumption].
      * intros [E B]. injection E as E Et. inversion B; subst. auto.
    + cbn [forallb]. rewrite Hv, andb_true_r. destruct (spec_eff cur n); [exact V | reflexivity].
Qed.
