(* C01/Proofs.v — the round trip over the abstract Python layer: dict algebra, what _make_header and _match_key do,
   roundtrip_ordered and its corollary roundtrip; the low-level round trip; the checkers decide their Props. *)
From Coq Require Import ZArith List Bool Lia ZifyBool ZifyNat.
From Coq.Strings Require Import Byte String.
From EsVerif.Common Require Import Base Bytes.
From EsVerif.C01 Require Import Framing FramingProofs Model Spec Layout LayoutProofs.
Import ListNotations.
Open Scope Z_scope.
Open Scope list_scope.
Notation length := List.length.

(* case analysis on bytes_eqb a b, the equality recorded as E : a = b resp. E : bytes_eqb a b = false *)
Ltac beq a b E := destruct (bytes_eqb a b) eqn:E; [apply bytes_eqb_eq in E | ].

Lemma sfile_file_eq d rows : hdr_text_ok d = true ->
  sfile_file d rows = mk_header (Z.of_nat (length rows)) d ++ bin_write rows.
Proof.
  intro T. unfold sfile_file, write_header. rewrite clean_cstr; [reflexivity|].
  apply mk_header_clean; [lia | apply hdr_text_ok_clean, T].
Qed.

(* what the reader finds at the head of a file that starts with a written header *)
Lemma sfile_read_raw_written n d data : 0 <= n -> hdr_text_ok d = true ->
  sfile_read_raw (mk_header n d ++ data) = Ok (n, join [sp] (split_nl d), length (mk_header n d)).
Proof.
  intros H T. unfold sfile_read_raw. rewrite read_sfile_header_spec by assumption. cbn [bind fst snd].
  rewrite parse_header_spec by exact H. reflexivity.
Qed.

Lemma view_rows_fit dt v : in_bounds v = true -> Z.of_nat (v_item v) = rowsize dt ->
  rows_fit dt (view_rows v).
Proof.
  intros IB E. unfold rows_fit. eapply Forall_impl; [|apply view_rows_item; exact IB].
  intros r Hr. cbv beta in Hr. rewrite Hr. exact E.
Qed.

Lemma view_rows_nonempty v : (1 <= view_size v)%nat -> view_rows v <> [].
Proof. intros H E. rewrite <- view_rows_count, E in H. cbn in H. lia. Qed.

Section PyProofs.
  Variable pyval : Type.
  Variable pyeq : pyval -> pyval -> Prop.
  Variable v_str : list byte -> pyval.
  Variable v_int : Z -> pyval.
  Variable v_descr : dtype -> pyval.
  Variable np_dtype : pyval -> option dtype.
  Variable pformat : hdict pyval -> list byte.
  Variable pyeval : list byte -> option (hdict pyval).

  Notation hd := (hdict pyval).
  Notation get := (dget pyval).
  Notation put := (dset pyval).
  Notation del := (ddel pyval).
  Notation mkh := (make_header pyval v_str v_descr).

  Lemma get_put_same k v (h : hd) : get k (put k v h) = Some v.
  Proof.
    induction h as [|[k' v'] t IH]; simpl.
    - rewrite bytes_eqb_refl. reflexivity.
    - beq k k' E; simpl.
      + rewrite bytes_eqb_refl. reflexivity.
      + rewrite E. exact IH.
  Qed.

  Lemma get_put_other k k0 v (h : hd) : k <> k0 -> get k (put k0 v h) = get k h.
  Proof.
    intro N. induction h as [|[k' v'] t IH]; simpl.
    - rewrite (bytes_eqb_neq _ _ N). reflexivity.
    - beq k0 k' E; simpl.
      + subst k'. rewrite !(bytes_eqb_neq _ _ N). reflexivity.
      + rewrite IH. reflexivity.
  Qed.

  Lemma get_del k k0 (h : hd) : get k (del k0 h) = if bytes_eqb k k0 then None else get k h.
  Proof.
    induction h as [|[k' v'] t IH]; simpl.
    - destruct (bytes_eqb k k0); reflexivity.
    - beq k0 k' E.
      + subst k'. rewrite IH. destruct (bytes_eqb k k0); reflexivity.
      + simpl. rewrite IH. beq k k' E'; [|reflexivity].
        subst k'. rewrite (bytes_eqb_neq k k0); [reflexivity|].
        intro X; subst. rewrite bytes_eqb_refl in E. discriminate.
  Qed.

  Lemma get_strip (h : hd) k : get k (strip_reserved pyval h) = if is_stripped k then None else get k h.
  Proof.
    induction h as [|[k' v'] t IH]; simpl.
    - destruct (is_stripped k); reflexivity.
    - destruct (is_stripped k') eqn:S'.
      + rewrite IH. beq k k' E; [subst k'; rewrite S'; reflexivity | reflexivity].
      + simpl. beq k k' E; [subst k'; rewrite S'; reflexivity | exact IH].
  Qed.

  Lemma in_keys_get k (h : hd) : In k (keys pyval h) <-> get k h <> None.
  Proof.
    induction h as [|[k' v'] t IH]; simpl.
    - split; [intros [] | intro H; apply H; reflexivity].
    - beq k k' E.
      + subst. split; [intros _; discriminate | intros _; left; reflexivity].
      + rewrite <- IH. split; [intros [X|X]; [subst; rewrite bytes_eqb_refl in E; discriminate | exact X]
                              | intro X; right; exact X].
  Qed.

  Lemma reserved_split k : reserved k = false ->
    is_stripped k = false /\ k <> B "_DTYPE" /\ k <> B "_VERSION".
  Proof.
    unfold reserved. intro H.
    apply orb_false_iff in H as [H1 H2]. split; [exact H1|]. simpl in H2.
    apply orb_false_iff in H2 as [H2 H3]. apply orb_false_iff in H3 as [H3 _].
    split; apply bytes_eqb_false; assumption.
  Qed.

  Lemma user_keys_kept hdr dt k : reserved k = false -> get k (mkh hdr dt) = get k hdr.
  Proof.
    intro R. destruct (reserved_split k R) as [D [N1 N2]]. unfold make_header.
    rewrite get_put_other by exact N2. rewrite get_put_other by exact N1.
    rewrite get_strip, D. reflexivity.
  Qed.

  Lemma head_dtype hdr dt : get (B "_DTYPE") (mkh hdr dt) = Some (v_descr dt).
  Proof.
    unfold make_header. rewrite get_put_other by discriminate. apply get_put_same.
  Qed.

  Lemma head_version hdr dt : get (B "_VERSION") (mkh hdr dt) = Some (v_str sfile_version).
  Proof. unfold make_header. apply get_put_same. Qed.

  Lemma head_key_cases hdr dt k : get k (mkh hdr dt) <> None ->
    k = B "_VERSION" \/ k = B "_DTYPE"
    \/ (is_stripped k = false /\ In k (keys pyval hdr)).
  Proof.
    intro H. beq k (B "_VERSION") E; [left; exact E|]. right.
    beq k (B "_DTYPE") E0; [left; exact E0|]. right.
    unfold make_header in H.
    rewrite get_put_other in H by (apply bytes_eqb_false; exact E).
    rewrite get_put_other in H by (apply bytes_eqb_false; exact E0).
    rewrite get_strip in H. destruct (is_stripped k); [contradiction|].
    split; [reflexivity | apply in_keys_get; exact H].
  Qed.

  Lemma match_key_none (h : hd) key :
    (forall k, In k (keys pyval h) -> bytes_eqb (lower k) (lower key) = false) ->
    match_key pyval h key = None.
  Proof.
    induction h as [|[k v] t IH]; simpl; intro H; [reflexivity|].
    rewrite (H k) by (left; reflexivity). apply IH. intros k' I. apply H. right. exact I.
  Qed.

  Lemma equiv_get_some (h' head : hd) k v : dict_equiv pyval pyeq h' head -> get k head = Some v ->
    exists v', get k h' = Some v' /\ pyeq v' v.
  Proof.
    intros Q G. specialize (Q k). rewrite G in Q. destruct (get k h') as [v'|]; [|contradiction].
    exists v'. split; [reflexivity | exact Q].
  Qed.

  Lemma equiv_keys (h' head : hd) k : dict_equiv pyval pyeq h' head -> get k h' <> None -> get k head <> None.
  Proof.
    intros Q G X. specialize (Q k). rewrite X in Q. destruct (get k h'); [contradiction | apply G; reflexivity].
  Qed.

  Lemma finish_header_eq hdr dt h' n : dict_equiv pyval pyeq h' (mkh hdr dt) ->
    finish_header pyval v_str v_int n h' = put (B "_SIZE") (v_int n) h'.
  Proof.
    intro Q. unfold finish_header.
    destruct (equiv_get_some _ _ _ _ Q (head_version hdr dt)) as [v' [G _]].
    replace (has pyval (B "_VERSION") (put (B "_SIZE") (v_int n) h')) with true.
    - rewrite orb_true_r. reflexivity.
    - unfold has. rewrite get_put_other by discriminate. rewrite G. reflexivity.
  Qed.

  (* the first key, in dict order, that lower-cases like [key]: what _match_key finds *)
  Fixpoint first_key (h : hd) (key : list byte) : option (list byte) :=
    match h with
    | [] => None
    | (k, v) :: t => if bytes_eqb (lower k) (lower key) then Some k else first_key t key
    end.

  Lemma first_key_lower (h : hd) key k0 : first_key h key = Some k0 -> bytes_eqb (lower k0) (lower key) = true.
  Proof.
    induction h as [|[k v] t IH]; simpl; [discriminate|].
    destruct (bytes_eqb (lower k) (lower key)) eqn:E; [intro X; inversion X; subst; exact E | exact IH].
  Qed.

  Lemma match_key_first (h : hd) key k0 : first_key h key = Some k0 -> match_key pyval h key = get k0 h.
  Proof.
    induction h as [|[k v] t IH]; simpl; [discriminate|].
    destruct (bytes_eqb (lower k) (lower key)) eqn:E.
    - intro X. inversion X; subst. rewrite bytes_eqb_refl. reflexivity.
    - intro X. rewrite (IH X). beq k0 k E'; [|reflexivity].
      subst k0. rewrite (first_key_lower t key k X) in E. discriminate.
  Qed.

  Lemma first_key_put (h : hd) k0 v key : bytes_eqb (lower k0) (lower key) = false ->
    first_key (put k0 v h) key = first_key h key.
  Proof.
    intro N. induction h as [|[k v'] t IH]; simpl.
    - rewrite N. reflexivity.
    - beq k0 k E; simpl.
      + subst k. rewrite N. reflexivity.
      + rewrite IH. reflexivity.
  Qed.

  Lemma first_key_unique (h : hd) key k0 :
    In k0 (keys pyval h) -> bytes_eqb (lower k0) (lower key) = true ->
    (forall k, In k (keys pyval h) -> bytes_eqb (lower k) (lower key) = true -> k = k0) ->
    first_key h key = Some k0.
  Proof.
    intros I L. induction h as [|[k v] t IH]; simpl in *; intro H; [contradiction|].
    destruct (bytes_eqb (lower k) (lower key)) eqn:E.
    - rewrite (H k (or_introl eq_refl) E). reflexivity.
    - apply IH; [destruct I as [->|I]; [congruence | exact I] | intros k' I'; apply H; right; exact I'].
  Qed.

  Lemma no_delim hdr dt h' n :
    dict_equiv pyval pyeq h' (mkh hdr dt) ->
    match_key pyval (put (B "_SIZE") (v_int n) h') (B "_delim") = None.
  Proof.
    intros Q. apply match_key_none. intros k I.
    beq k (B "_SIZE") E; [subst; reflexivity|].
    apply in_keys_get in I. rewrite get_put_other in I by (apply bytes_eqb_false; exact E).
    apply (equiv_keys _ _ _ Q) in I. apply head_key_cases in I.
    destruct I as [->|[->|[D _]]]; try reflexivity.
    (* a key that lower-cases to _delim is stripped: _delim is one of reserved_lower *)
    change (lower (B "_delim")) with (B "_delim").
    destruct (bytes_eqb (lower k) (B "_delim")) eqn:X; [|reflexivity].
    assert (S : is_stripped k = true) by (apply existsb_exists; exists (B "_delim"); split; [do 2 right; left; reflexivity | exact X]).
    congruence.
  Qed.

  (* the round trip for EVERY user header, given that in the evaluated dict the first key that
     lower-cases to _dtype is _DTYPE itself (true of what pformat prints: it sorts the keys and
     _DTYPE sorts before every other spelling; decided on the real text by Uncond.hpf_check_all) *)
  Theorem roundtrip_ordered hdr dt rows h' :
    hdr_text_ok (pformat (mkh hdr dt)) = true ->
    pyeval (join [sp] (split_nl (pformat (mkh hdr dt)))) = Some h' ->
    dict_equiv pyval pyeq h' (mkh hdr dt) ->
    (forall v, get (B "_DTYPE") h' = Some v -> np_dtype v = Some dt) ->
    first_key h' (B "_dtype") = Some (B "_DTYPE") ->
    rows <> [] -> rows_fit dt rows -> 0 < rowsize dt ->
    exists out, sfile_read pyval v_str v_int np_dtype pyeval
                  (sfile_write pyval v_str v_descr pformat hdr dt rows) = Ok out
                /\ roundtrip_ok pyval pyeq v_int np_dtype hdr dt rows out.
  Proof.
    intros T Ev Q Dt FK NE F R.
    destruct (equiv_get_some _ _ _ _ Q (head_dtype hdr dt)) as [dv [Gd _]].
    set (n := Z.of_nat (length rows)).
    exists (dt, rows, put (B "_SIZE") (v_int n) h'). split.
    - unfold sfile_read, sfile_write. rewrite sfile_file_eq, sfile_read_raw_written by (lia || exact T). cbn [bind].
      rewrite Ev. rewrite (finish_header_eq hdr dt h' _ Q).
      rewrite (no_delim hdr dt h' _ Q).
      rewrite (match_key_first _ (B "_dtype") (B "_DTYPE")) by (rewrite first_key_put by reflexivity; exact FK).
      rewrite get_put_other by discriminate. rewrite Gd, (Dt dv Gd).
      rewrite recfile_read_spec; auto.
    - unfold roundtrip_ok. split; [reflexivity|]. split; [reflexivity|].
      split; [apply get_put_same|]. split.
      + exists dv. rewrite get_put_other by discriminate. split; [exact Gd | exact (Dt dv Gd)].
      + intros k v Rk G. rewrite <- (user_keys_kept hdr dt k Rk) in G.
        destruct (equiv_get_some _ _ _ _ Q G) as [v' [G' P]]. exists v'. split; [|exact P].
        rewrite get_put_other; [exact G'|]. intro X; subst k. discriminate.
  Qed.

  (* when no user key spells _dtype otherwise than _DTYPE, the order of the evaluated dict does not matter *)
  Lemma dtype_first_key hdr dt h' :
    dict_equiv pyval pyeq h' (mkh hdr dt) -> user_hdr_ok pyval hdr ->
    first_key h' (B "_dtype") = Some (B "_DTYPE").
  Proof.
    intros Q U. destruct (equiv_get_some _ _ _ _ Q (head_dtype hdr dt)) as [dv [Gd _]].
    apply first_key_unique.
    - apply in_keys_get. rewrite Gd. discriminate.
    - reflexivity.
    - intros k I L. apply in_keys_get in I. apply (equiv_keys _ _ _ Q), head_key_cases in I.
      destruct I as [->|[->|[_ I]]]; [discriminate L | reflexivity |].
      specialize (U k I). unfold user_key_ok in U. change (lower (B "_dtype")) with (B "_dtype") in L.
      rewrite L in U. apply bytes_eqb_eq. exact U.
  Qed.

  Theorem roundtrip hdr dt rows :
    H_pf pyval pyeq pformat pyeval np_dtype (mkh hdr dt) dt ->
    user_hdr_ok pyval hdr ->
    rows <> [] -> rows_fit dt rows -> 0 < rowsize dt ->
    exists out, sfile_read pyval v_str v_int np_dtype pyeval
                  (sfile_write pyval v_str v_descr pformat hdr dt rows) = Ok out
                /\ roundtrip_ok pyval pyeq v_int np_dtype hdr dt rows out.
  Proof.
    intros [T [h' [Ev [Q Dt]]]] U. apply (roundtrip_ordered hdr dt rows h' T Ev Q Dt), (dtype_first_key hdr dt h' Q U).
  Qed.

  (* the function evaluated by the case files is the model's read with the Python steps
     (eval, numpy.dtype) resolved *)
  Lemma sfile_read_c_is_model f dt rows h :
    sfile_read pyval v_str v_int np_dtype pyeval f = Ok (dt, rows, h) ->
    exists size, sfile_read_c f dt = Ok (size, rows).
  Proof.
    unfold sfile_read, sfile_read_c. destruct (sfile_read_raw f) as [[[size dtext] off]|e]; cbn [bind]; [|discriminate].
    destruct (pyeval dtext) as [h0|]; [|discriminate].
    destruct (match_key pyval _ (B "_delim")); [discriminate|].
    destruct (match_key pyval _ (B "_dtype")) as [dv|]; [|discriminate].
    destruct (np_dtype dv) as [dt'|]; [|discriminate].
    destruct (recfile_read f (Z.of_nat off) (rowsize dt') (Some size)) as [rows'|e] eqn:R; cbn [bind]; [|discriminate].
    intro X. inversion X; subst. exists size. rewrite R. reflexivity.
  Qed.
End PyProofs.

Theorem size_line_spec n : 0 <= n ->
  parse_size (size_line n) = Ok n /\ (n < 10 ^ 20 -> length (size_line n) = 27%nat).
Proof.
  intro H. split; [apply parse_size_size_line; exact H|]. intro L. apply size_line_length. lia.
Qed.

Theorem scan_end_spec n d data : 0 <= n -> hdr_text_ok d = true ->
  scan_end (mk_header n d ++ data) = Ok (length (mk_header n d)).
Proof.
  intros H T. unfold scan_end. rewrite read_sfile_header_spec by assumption. reflexivity.
Qed.

Lemma field_eqb_eq a b : field_eqb a b = true <-> a = b.
Proof.
  unfold field_eqb. rewrite !andb_true_iff, bytes_eqb_eq, !byte_eqb_eq, Z.eqb_eq, zlist_eqb_spec.
  destruct a, b; simpl. split.
  - intros [[[[-> ->] ->] ->] ->]. reflexivity.
  - intro E. inversion E. auto.
Qed.

Lemma dtype_eqb_eq a b : dtype_eqb a b = true <-> a = b.
Proof. apply list_eqb_spec. apply field_eqb_eq. Qed.

Lemma rows_eqb_eq a b : rows_eqb a b = true <-> a = b.
Proof. apply list_eqb_spec. apply bytes_eqb_eq. Qed.

Lemma key_kept_iff o k : key_kept o k = true <-> In (k, true) (o_keys o).
Proof.
  unfold key_kept. rewrite existsb_exists. split.
  - intros [[k' b] [I E]]. cbn [fst snd] in E. apply andb_true_iff in E as [E ->].
    apply bytes_eqb_eq in E. subst k'. exact I.
  - intro I. exists (k, true). cbn [fst snd]. rewrite bytes_eqb_refl. auto.
Qed.

Theorem sf_check_iff dt rows ukeys o : sf_check dt rows ukeys o = true <-> sf_ok dt rows ukeys o.
Proof.
  unfold sf_check, sf_ok. rewrite !andb_true_iff, !dtype_eqb_eq, rows_eqb_eq, Z.eqb_eq, forallb_forall.
  assert (K : forall k, reserved k || key_kept o k = true <-> (reserved k = false -> In (k, true) (o_keys o))).
  { intro k. rewrite orb_true_iff, key_kept_iff. destruct (reserved k); intuition discriminate. }
  split.
  - intros [[[[H1 H2] H3] H4] H5]. repeat (split; [assumption|]). intros k I. apply (proj1 (K k)), H5, I.
  - intros [H1 [H2 [H3 [H4 H5]]]]. split; [repeat split; assumption|]. intros k I. apply (proj2 (K k)), H5, I.
Qed.

Theorem rf_check_iff dt rows o : rf_check dt rows o = true <-> rf_ok dt rows o.
Proof. unfold rf_check, rf_ok. rewrite andb_true_iff, dtype_eqb_eq, rows_eqb_eq. reflexivity. Qed.
