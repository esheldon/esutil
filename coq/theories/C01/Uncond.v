(* C01/Uncond.v — the Python layer made concrete: header values are [pv], pformat is [pv_print],
   eval is [pv_parse], numpy.dtype(descr) is [py_np_dtype].  The contract H_pf is then a theorem
   for every well-formed header and packed dtype (H_pf_holds), so that the round trip of C01_roundtrip
   holds without any hypothesis about pformat / eval / numpy.dtype; and a checker decides the
   contract on a real pformat text (hpf_check_sound). *)
From Coq Require Import ZArith List Bool Lia ZifyBool ZifyNat.
From Coq.Strings Require Import Byte String.
From EsVerif.Common Require Import Base Bytes.
From EsVerif.C01 Require Import Framing FramingProofs Model Spec Proofs Pyval PyvalProofs.
Import ListNotations.
Open Scope Z_scope.
Open Scope list_scope.
Notation length := List.length.

Definition py_vstr (s : list byte) : pv := PStr s.
Definition py_vint (z : Z) : pv := PInt z.

(* data.dtype.descr: [('name', '<f8'), ('name', '<f8', (2, 3)), ...] *)
Definition typestr (f : field) : list byte := f_order f :: f_kind f :: dec (f_size f).
Definition descr_field (f : field) : pv :=
  match f_shape f with
  | [] => PTuple [PStr (f_name f); PStr (typestr f)]
  | sh => PTuple [PStr (f_name f); PStr (typestr f); PTuple (map PInt sh)]
  end.
Definition py_vdescr (dt : dtype) : pv := PList (map descr_field dt).

(* numpy.dtype(descr) on such lists *)
Fixpoint ints_of (l : list pv) : option (list Z) :=
  match l with
  | [] => Some []
  | PInt z :: t => match ints_of t with Some r => Some (z :: r) | None => None end
  | _ => None
  end.
Definition mk_field (n ts : list byte) (sh : list Z) : option field :=
  match ts with
  | o :: k :: ds => if all_digits ds
                    then Some {| f_name := n; f_order := o; f_kind := k; f_size := fst (read_digits 0 ds); f_shape := sh |}
                    else None
  | _ => None
  end.
Definition field_of (v : pv) : option field :=
  match v with
  | PTuple [PStr n; PStr ts] => mk_field n ts []
  | PTuple [PStr n; PStr ts; PTuple sh] => match ints_of sh with Some s => mk_field n ts s | None => None end
  | _ => None
  end.
Fixpoint fields_of (l : list pv) : option dtype :=
  match l with
  | [] => Some []
  | v :: t => match field_of v, fields_of t with Some f, Some r => Some (f :: r) | _, _ => None end
  end.
Definition py_np_dtype (v : pv) : option dtype := match v with PList l => fields_of l | _ => None end.

Definition py_pformat (h : hdict pv) : list byte := pv_print (PDict h).
Definition py_eval (t : list byte) : option (hdict pv) :=
  match pv_parse t with Some (PDict h) => Some h | _ => None end.

(* the dtypes of the statement: sizes are not negative, names and type characters are text *)
Definition wf_field (f : field) : bool :=
  (0 <=? f_size f) && no_ff (f_name f) && negb (byte_eqb (f_order f) xff) && negb (byte_eqb (f_kind f) xff).
Definition wf_dtype (dt : dtype) : bool := forallb wf_field dt.

Lemma ints_of_map l : ints_of (map PInt l) = Some l.
Proof. induction l as [|z t IH]; [reflexivity|]. cbn [map ints_of]. rewrite IH. reflexivity. Qed.

Lemma mk_field_typestr f : 0 <= f_size f ->
  mk_field (f_name f) (typestr f) (f_shape f) = Some f.
Proof.
  intro H. unfold mk_field, typestr. rewrite all_digits_dec, read_digits_dec by exact H.
  destruct f; reflexivity.
Qed.

Lemma field_of_descr f : 0 <= f_size f -> field_of (descr_field f) = Some f.
Proof.
  intro H. unfold descr_field. destruct (f_shape f) as [|z sh] eqn:E.
  - cbn [field_of]. rewrite <- E. apply mk_field_typestr. exact H.
  - cbn [field_of]. rewrite ints_of_map, <- E. apply mk_field_typestr. exact H.
Qed.

Lemma np_dtype_descr dt : wf_dtype dt = true -> py_np_dtype (py_vdescr dt) = Some dt.
Proof.
  unfold py_np_dtype, py_vdescr, wf_dtype. induction dt as [|f t IH]; intro W; [reflexivity|].
  cbn [forallb] in W. apply andb_true_iff in W as [Wf Wt]. cbn [map fields_of].
  unfold wf_field in Wf. repeat (let X := fresh "X" in apply andb_true_iff in Wf as [Wf X]).
  rewrite field_of_descr by (apply Z.leb_le, Wf). rewrite (IH Wt). reflexivity.
Qed.

Lemma no_ff_dec n : 0 <= n -> no_ff (dec n) = true.
Proof.
  intro H. destruct (dec_spec n H) as [_ [F _]]. unfold no_ff. apply forallb_forall. intros x I.
  rewrite Forall_forall in F. specialize (F x I). destruct (byte_eqb x xff) eqn:E; [|reflexivity].
  apply byte_eqb_eq in E. subst x. discriminate F.
Qed.

Lemma wf_descr_field f : wf_field f = true -> wf (descr_field f) = true.
Proof.
  unfold wf_field. intro W. repeat (let X := fresh "X" in apply andb_true_iff in W as [W X]).
  assert (T : no_ff (typestr f) = true).
  { unfold typestr, no_ff. cbn [forallb]. rewrite X0, X. cbn [andb]. apply no_ff_dec. lia. }
  unfold descr_field. destruct (f_shape f) as [|z sh].
  - rewrite wf_tuple. cbn [forallb wf]. rewrite X1, T. reflexivity.
  - rewrite wf_tuple. cbn [forallb].
    change (wf (PStr (f_name f))) with (no_ff (f_name f)). change (wf (PStr (typestr f))) with (no_ff (typestr f)).
    rewrite X1, T. cbn [andb]. rewrite wf_tuple. rewrite andb_true_r. apply forallb_forall. intros x I.
    apply in_map_iff in I as [y [<- _]]. reflexivity.
Qed.

Lemma wf_vdescr dt : wf_dtype dt = true -> wf (py_vdescr dt) = true.
Proof.
  intro W. unfold py_vdescr. rewrite wf_list. apply forallb_forall. intros x I.
  apply in_map_iff in I as [f [<- If]]. apply wf_descr_field.
  unfold wf_dtype in W. rewrite forallb_forall in W. exact (W f If).
Qed.

Lemma wf_items_ddel k h : wf_items h = true -> wf_items (ddel pv k h) = true.
Proof.
  unfold wf_items. induction h as [|[k' v] t IH]; intro W; [reflexivity|].
  cbn [forallb] in W. apply andb_true_iff in W as [W1 W2]. cbn [ddel].
  destruct (bytes_eqb k k'); [auto|]. cbn [forallb]. rewrite W1, IH by exact W2. reflexivity.
Qed.

Lemma wf_items_dset k v h : no_ff k = true -> wf v = true -> wf_items h = true -> wf_items (dset pv k v h) = true.
Proof.
  unfold wf_items. intros Wk Wv. induction h as [|[k' v'] t IH]; intro W.
  - cbn [dset forallb fst snd]. rewrite Wk, Wv. reflexivity.
  - cbn [forallb] in W. apply andb_true_iff in W as [W1 W2]. cbn [fst snd] in W1. cbn [dset].
    destruct (bytes_eqb k k'); cbn [forallb fst snd].
    + rewrite Wk, Wv, W2. reflexivity.
    + rewrite W1, IH by exact W2. reflexivity.
Qed.

Lemma wf_items_strip h : wf_items h = true -> wf_items (strip_reserved pv h) = true.
Proof.
  unfold wf_items. induction h as [|[k v] t IH]; intro W; [reflexivity|].
  cbn [forallb] in W. apply andb_true_iff in W as [W1 W2]. cbn [strip_reserved].
  destruct (is_stripped k); [auto|]. cbn [forallb]. rewrite W1, IH by exact W2. reflexivity.
Qed.

Lemma wf_make_header hdr dt : wf_items hdr = true -> wf_dtype dt = true ->
  wf_items (make_header pv py_vstr py_vdescr hdr dt) = true.
Proof.
  intros Wh Wd. unfold make_header. apply wf_items_dset; [reflexivity | reflexivity |].
  apply wf_items_dset; [reflexivity | apply wf_vdescr; exact Wd |]. apply wf_items_strip. exact Wh.
Qed.

Lemma py_pformat_text_ok h : wf_items h = true -> hdr_text_ok (py_pformat h) = true.
Proof.
  intro W. unfold py_pformat. assert (Wd : wf (PDict h) = true) by (rewrite wf_dict; exact W).
  destruct (pv_print_line _ Wd) as [C N].
  unfold hdr_text_ok. rewrite C. cbn [andb]. unfold split_nl. rewrite split_on_nosep by exact N.
  cbn [forallb]. rewrite andb_true_r.
  unfold pv_print. rewrite print_dict. reflexivity.
Qed.

Lemma py_eval_pformat h : wf_items h = true ->
  py_eval (join [sp] (split_nl (py_pformat h))) = Some h.
Proof.
  intro W. assert (Wd : wf (PDict h) = true) by (rewrite wf_dict; exact W).
  destruct (pv_print_line _ Wd) as [_ N].
  unfold split_nl, py_pformat. rewrite split_on_nosep by exact N. cbn [join].
  unfold py_eval. rewrite pv_parse_print by exact Wd. reflexivity.
Qed.

Theorem H_pf_holds hdr dt : wf_items hdr = true -> wf_dtype dt = true ->
  H_pf pv eq py_pformat py_eval py_np_dtype (make_header pv py_vstr py_vdescr hdr dt) dt.
Proof.
  intros Wh Wd. pose proof (wf_make_header hdr dt Wh Wd) as W.
  split; [apply py_pformat_text_ok; exact W|].
  exists (make_header pv py_vstr py_vdescr hdr dt). split; [apply py_eval_pformat; exact W|]. split.
  - intro k. destruct (dget pv k (make_header pv py_vstr py_vdescr hdr dt)); [reflexivity | exact I].
  - intros v G. rewrite head_dtype in G. inversion G; subst. apply np_dtype_descr. exact Wd.
Qed.

(* d1 == d2 for association lists without duplicate keys, values compared on their printed form *)
Fixpoint nodupb (l : list (list byte)) : bool :=
  match l with [] => true | k :: t => negb (existsb (bytes_eqb k) t) && nodupb t end.
Definition equivb (h head : hdict pv) : bool :=
  (length h =? length head)%nat && nodupb (keys pv h) && nodupb (keys pv head)
  && forallb (fun kv => match dget pv (fst kv) h with
                        | Some v => wf v && bytes_eqb (pv_print v) (pv_print (snd kv))
                        | None => false
                        end) head.

(* [real]: the text the real pprint.pformat produced; [uhdr]: the user's header; [head]: the dict the
   real _make_header built (both in dict order, nested dicts sorted as pformat prints them) *)
Definition hpf_check (real : list byte) (uhdr head : hdict pv) (dt : dtype) : bool :=
  hdr_text_ok real && wf_items uhdr && wf_items head && wf_dtype dt
  && bytes_eqb (py_pformat (make_header pv py_vstr py_vdescr uhdr dt)) (py_pformat head)
  && match py_eval (join [sp] (split_nl real)) with Some h => equivb h head | None => false end.

Lemma nodupb_NoDup l : nodupb l = true -> NoDup l.
Proof.
  induction l as [|k t IH]; intro H; [constructor|]. cbn [nodupb] in H. apply andb_true_iff in H as [H1 H2].
  constructor; [|auto]. intro I. apply negb_true_iff in H1.
  assert (X : existsb (bytes_eqb k) t = true) by (apply existsb_exists; exists k; split; [exact I | apply bytes_eqb_refl]).
  rewrite X in H1. discriminate.
Qed.

Lemma dget_In (h : hdict pv) k v : dget pv k h = Some v -> In (k, v) h.
Proof.
  induction h as [|[k' v'] t IH]; cbn [dget]; [discriminate|].
  destruct (bytes_eqb k k') eqn:E; intro H.
  - apply bytes_eqb_eq in E. inversion H. subst. left. reflexivity.
  - right. apply IH. exact H.
Qed.

(* the keys of [head] are distinct, all occur in [h], and [h] has no more of them: the key sets agree *)
Lemma equivb_sound h head : wf_items head = true -> equivb h head = true -> dict_equiv pv eq h head.
Proof.
  intros Wh E. unfold equivb in E. repeat (let X := fresh "X" in apply andb_true_iff in E as [E X]).
  apply Nat.eqb_eq in E. apply nodupb_NoDup in X0. rewrite forallb_forall in X.
  unfold wf_items in Wh. rewrite forallb_forall in Wh.
  assert (Inc : incl (keys pv h) (keys pv head)).
  { apply NoDup_length_incl; [exact X0 | unfold keys; rewrite !map_length; lia |].
    intros k I. unfold keys in I. apply in_map_iff in I as [[k' v] [<- I]]. specialize (X _ I).
    apply in_keys_get. cbn [fst] in *. destruct (dget pv k' h); [discriminate | discriminate X]. }
  intro k. destruct (dget pv k head) as [b|] eqn:Gh.
  - apply dget_In in Gh. specialize (X _ Gh). specialize (Wh _ Gh). cbn [fst snd] in X, Wh.
    destruct (dget pv k h) as [v'|]; [|discriminate].
    apply andb_true_iff in X as [W' P]. apply andb_true_iff in Wh as [_ Wb].
    apply pv_print_inj; [exact W' | exact Wb | apply bytes_eqb_eq, P].
  - destruct (dget pv k h) eqn:Gk; [|exact I]. apply (proj1 (in_keys_get pv k head)); [|exact Gh].
    apply Inc, in_keys_get. rewrite Gk. discriminate.
Qed.

(* the checker is sound: H_pf holds for the real text (pformat is whatever function returned it) *)
Theorem hpf_check_sound real uhdr head dt : hpf_check real uhdr head dt = true ->
  forall pformat, pformat (make_header pv py_vstr py_vdescr uhdr dt) = real ->
  H_pf pv eq pformat py_eval py_np_dtype (make_header pv py_vstr py_vdescr uhdr dt) dt.
Proof.
  intros C pformat Ep. unfold hpf_check in C. repeat (let X := fresh "X" in apply andb_true_iff in C as [C X]).
  apply bytes_eqb_eq in X0.
  assert (Wm := wf_make_header uhdr dt X3 X1).
  assert (Em : make_header pv py_vstr py_vdescr uhdr dt = head).
  { assert (Q : PDict (make_header pv py_vstr py_vdescr uhdr dt) = PDict head).
    { apply pv_print_inj; [rewrite wf_dict; exact Wm | rewrite wf_dict; exact X2 | exact X0]. }
    inversion Q. reflexivity. }
  unfold H_pf. rewrite Ep. split; [unfold hdr_text_ok; rewrite C, X4; reflexivity|].
  destruct (py_eval (join [sp] (split_nl real))) as [h|]; [|discriminate].
  exists h. split; [reflexivity|]. split.
  - rewrite Em. apply equivb_sound; assumption.
  - intros v G. pose proof (equivb_sound h head X2 X) as Q. specialize (Q (B "_DTYPE")). rewrite G in Q.
    rewrite <- Em, head_dtype in Q. subst v. apply np_dtype_descr. exact X1.
Qed.

(* additionally: in the dict the verified parser reads from the real text, the first key that
   lower-cases to _dtype is _DTYPE itself (pformat sorts the keys) *)
Definition dtype_first (real : list byte) : bool :=
  match py_eval (join [sp] (split_nl real)) with
  | Some h => match first_key pv h (B "_dtype") with Some k => bytes_eqb k (B "_DTYPE") | None => false end
  | None => false
  end.
Definition hpf_check_all (real : list byte) (uhdr head : hdict pv) (dt : dtype) : bool :=
  hpf_check real uhdr head dt && dtype_first real.
