(* C01 — the property theorems.  The general results are proved in FramingProofs.v / Proofs.v / Uncond.v
   and the other proof files; what is a short step from them, and what holds by evaluating an instance
   of Witness.v, is proved here.

   "Binary record files reproduce the written table bit-for-bit."  The model describes the
   code AFTER the repair in fixes/C01 (read_sfile_header looks for the line END instead of the
   first occurrence of the characters END).  pprint.pformat, eval and numpy.dtype are not
   modelled: they are universally quantified below and constrained only by the premise
   [H_pf] on the one header that is written, which the harness monitors on every case. *)
From Coq Require Import ZArith List Bool Lia ZifyBool ZifyNat.
From Coq.Strings Require Import Byte String.
From EsVerif.Common Require Import Base Bytes.
From EsVerif.C01 Require Import Framing FramingProofs Model Spec Layout LayoutProofs Entry Gen GenProofs Big BigProofs Proofs Pyval PyvalProofs Uncond Frame FrameProofs Witness.
Import ListNotations.
Open Scope Z_scope.
Open Scope list_scope.
Notation length := List.length.

(* The size line "SIZE = %20d" parses back to the number for EVERY n >= 0 and has the fixed
   length 27 (needed for in-place updates) whenever n < 10^20. *)
Theorem C01_size_line_spec : forall n, 0 <= n ->
  parse_size (size_line n) = Ok n /\ (n < 10 ^ 20 -> length (size_line n) = 27%nat).
Proof. exact size_line_spec. Qed.

(* The (repaired) scanner returns exactly the end of the header, whatever follows it, as soon
   as the dict text has no NUL/0xFF byte and none of its LINES is END.  Occurrences of the
   characters END inside a line ('THE END', TREND) are allowed. *)
Theorem C01_scan_end_spec : forall n d data, 0 <= n -> hdr_text_ok d = true ->
  scan_end (mk_header n d ++ data) = Ok (length (mk_header n d)).
Proof. exact scan_end_spec. Qed.

(* The scanner of the unchanged tree (first occurrence of E,N,D; +2) does not: the header
   value 'THE END' and the field name TREND are witnesses that satisfy the same premise. *)
Theorem C01_unrepaired_scanner_refuted :
  exists n d data, 0 <= n /\ hdr_text_ok d = true
    /\ offset_v0 (mk_header n d ++ data) <> Ok (length (mk_header n d)).
Proof.
  exists 2, w_text_value, [x01; x00; xff; x7f]. split; [lia|]. split; [reflexivity|].
  vm_compute. intro X. discriminate X.
Qed.

Theorem C01_unrepaired_scanner_refuted_field_name :
  exists n d data, 0 <= n /\ hdr_text_ok d = true
    /\ offset_v0 (mk_header n d ++ data) <> Ok (length (mk_header n d)).
Proof.
  exists 2, w_text_field, [x01; x00; xff; x7f]. split; [lia|]. split; [reflexivity|].
  vm_compute. intro X. discriminate X.
Qed.

(* Round trip through the self-describing module (SFile, sfile.write/read, io.write/io.read):
   for every header dict, packed dtype and non-empty table whose rows have the dtype's row
   size, reading the written file returns the same dtype (names, types, sub-array shapes,
   byte order), identical bytes in every row, _SIZE = number of rows, a _DTYPE entry from
   which numpy.dtype reconstructs the dtype, and every non-reserved user key with an equal
   value. *)
Theorem C01_roundtrip :
  forall (pyval : Type) (pyeq : pyval -> pyval -> Prop)
         (v_str : list byte -> pyval) (v_int : Z -> pyval) (v_descr : dtype -> pyval)
         (np_dtype : pyval -> option dtype) (pformat : hdict pyval -> list byte)
         (pyeval : list byte -> option (hdict pyval))
         (hdr : hdict pyval) (dt : dtype) (rows : list (list byte)),
    H_pf pyval pyeq pformat pyeval np_dtype (make_header pyval v_str v_descr hdr dt) dt ->
    user_hdr_ok pyval hdr ->
    rows <> [] -> rows_fit dt rows -> 0 < rowsize dt ->
    exists out, sfile_read pyval v_str v_int np_dtype pyeval
                  (sfile_write pyval v_str v_descr pformat hdr dt rows) = Ok out
                /\ roundtrip_ok pyval pyeq v_int np_dtype hdr dt rows out.
Proof. exact roundtrip. Qed.

(* What is left of the premise [user_hdr_ok] — a user key spelling _dtype otherwise than _DTYPE —
   cannot be dropped from the abstract theorem: H_pf does not fix the ORDER of the evaluated dict and
   the reader takes the first key that lower-cases to _dtype (the real code is safe: pformat sorts,
   _DTYPE sorts first; the harness generates such keys and the checker judges the real code on them). *)
Theorem C01_roundtrip_needs_user_hdr_ok :
  H_pf (list byte) eq bad_pformat bad_pyeval bad_np_dtype bad_head ex_dt
  /\ ~ user_hdr_ok (list byte) bad_hdr
  /\ ex_rows <> [] /\ rows_fit ex_dt ex_rows /\ 0 < rowsize ex_dt
  /\ reserved (B "_dtype") = false
  /\ sfile_read (list byte) ex_vstr dec bad_np_dtype bad_pyeval
       (sfile_write (list byte) ex_vstr ex_vdescr bad_pformat bad_hdr ex_dt ex_rows) = Err EType.
Proof.
  split; [|split; [|split; [|split; [|split; [|split]]]]].
  - split; [reflexivity|]. exists bad_head. split; [reflexivity|]. split.
    + intro k. destruct (dget (list byte) k bad_head); reflexivity || exact I.
    + intros v G. vm_compute in G. inversion G; subst. reflexivity.
  - intro U. specialize (U (B "_dtype") (or_introl eq_refl)). vm_compute in U. discriminate U.
  - discriminate.
  - repeat constructor.
  - reflexivity.
  - reflexivity.
  - vm_compute. reflexivity.
Qed.

(* _make_header as found (only all-lower / all-upper spellings removed) let a user key _Delim
   through: the binary file was then taken for a text file.  The repaired one (any spelling) strips
   it, keeps the other keys, and the table comes back (defect C01-mixed-case-reserved-key, /repo 04e3f20). *)
Theorem C01_unrepaired_make_header_refuted :
  user_hdr_ok (list byte) mc_hdr
  /\ dget (list byte) (B "_Delim") (make_header_v0 mc_hdr) = Some (B "','")
  /\ sfile_read (list byte) ex_vstr dec ex_np_dtype mc_pyeval_v0 (sfile_file w_text_field ex_rows) = Err EOther
  /\ dget (list byte) (B "_Delim") mc_head = None /\ dget (list byte) (B "keep") mc_head = Some (B "1")
  /\ exists h, sfile_read (list byte) ex_vstr dec ex_np_dtype mc_pyeval (sfile_file w_text_field ex_rows) = Ok (ex_dt, ex_rows, h).
Proof.
  split. { intros k I. cbn in I. destruct I as [<-|[<-|[]]]; reflexivity. }
  split; [reflexivity|]. split; [vm_compute; reflexivity|]. split; [reflexivity|]. split; [reflexivity|].
  eexists. vm_compute. reflexivity.
Qed.

(* _make_header keeps every user key other than the reserved names, with its value. *)
Theorem C01_user_keys_kept :
  forall (pyval : Type) (v_str : list byte -> pyval) (v_descr : dtype -> pyval)
         (hdr : hdict pyval) (dt : dtype) (k : list byte),
    reserved k = false ->
    dget pyval k (make_header pyval v_str v_descr hdr dt) = dget pyval k hdr.
Proof. exact user_keys_kept. Qed.

(* Low-level reader (recfile.write/read, Recfile): rows counted from the file size, or the
   row count given. *)
Theorem C01_recfile_roundtrip : forall dt rows nrows,
  rows <> [] -> rows_fit dt rows -> 0 < rowsize dt ->
  (nrows = None \/ (exists m, nrows = Some m /\ m < 0) \/ nrows = Some (Z.of_nat (length rows))) ->
  recfile_read0 (recfile_write rows) dt nrows = Ok rows.
Proof. intros dt rows nrows NE F R HN. exact (recfile_read_spec [] rows (rowsize dt) nrows R NE F HN). Qed.

(* Row count derived from the file size equals the number of rows written, after any header. *)
Theorem C01_count_nrows : forall (hdr : list byte) dt rows,
  rows_fit dt rows -> 0 < rowsize dt ->
  count_nrows (Z.of_nat (length (hdr ++ bin_write rows))) (Z.of_nat (length hdr)) (rowsize dt)
  = Z.of_nat (length rows).
Proof.
  intros hdr dt rows F R. apply count_nrows_spec; [exact R|]. apply concat_length_Z; [exact F | lia].
Qed.

(* A file written through the self-describing module, read by the low-level reader given the
   dtype and the data offset found by the scanner: the bytes after the END line are the rows. *)
Theorem C01_sfile_data_region :
  forall (pyval : Type) (v_str : list byte -> pyval) (v_descr : dtype -> pyval)
         (pformat : hdict pyval -> list byte) (hdr : hdict pyval) (dt : dtype)
         (rows : list (list byte)) (nrows : option Z),
    hdr_text_ok (pformat (make_header pyval v_str v_descr hdr dt)) = true ->
    rows <> [] -> rows_fit dt rows -> 0 < rowsize dt ->
    (nrows = None \/ nrows = Some (Z.of_nat (length rows))) ->
    let f := sfile_write pyval v_str v_descr pformat hdr dt rows in
    exists off, scan_end f = Ok off
      /\ skipn off f = bin_write rows
      /\ recfile_read f (Z.of_nat off) (rowsize dt) nrows = Ok rows.
Proof.
  intros pyval v_str v_descr pformat hdr dt rows nrows T NE F R HN f. subst f.
  unfold sfile_write. rewrite sfile_file_eq by exact T.
  exists (length (mk_header (Z.of_nat (length rows)) (pformat (make_header pyval v_str v_descr hdr dt)))).
  split; [|split].
  - apply scan_end_spec; [lia | exact T].
  - rewrite skipn_app, skipn_all, Nat.sub_diag, skipn_O. reflexivity.
  - apply recfile_read_spec; auto. destruct HN as [->| ->]; auto.
Qed.

(* "any structured array": the memory layout of the array handed to the writer (Layout.v).

   Recfile.write (after fixes/C01/0002: numpy.ascontiguousarray first) leaves exactly the rows of
   the table, in order, for EVERY layout: strided slices, reversed views, transposed or sliced
   n-d arrays, 0-d arrays — any offsets/strides that stay inside the buffer. *)
Theorem C01_write_any_layout : forall v, in_bounds v = true ->
  recfile_write_view v = bin_write (view_rows v).
Proof. exact write_any_layout. Qed.

(* The writer of the unchanged tree (one fwrite of size*itemsize bytes from the address of
   element 0) does so for C-contiguous arrays ... *)
Theorem C01_unrepaired_write_contiguous : forall v, kf_noncontiguous_write v = false -> in_bounds v = true ->
  0 <= v_start v -> v_start v + Z.of_nat (view_size v * v_item v) <= Z.of_nat (length (v_buf v)) ->
  recfile_write_view_v0 v = bin_write (view_rows v).
Proof.
  intros v K. apply write_v0_contiguous. unfold kf_noncontiguous_write in K.
  destruct (is_c_contiguous v); [reflexivity | discriminate K].
Qed.

(* ... and not for others: data[::2] and a transposed 2x2 table are witnesses (the repaired
   writer is right on the same witnesses). *)
Theorem C01_unrepaired_write_refuted :
  exists v, in_bounds v = true /\ view_rows v <> []
            /\ recfile_write_view_v0 v <> bin_write (view_rows v)
            /\ recfile_write_view v = bin_write (view_rows v).
Proof.
  exists w_strided. split; [reflexivity|]. split; [discriminate|]. split; [|reflexivity].
  vm_compute. intro X. discriminate X.
Qed.

Theorem C01_unrepaired_write_refuted_transposed :
  exists v, in_bounds v = true /\ view_rows v <> []
            /\ recfile_write_view_v0 v <> bin_write (view_rows v)
            /\ recfile_write_view v = bin_write (view_rows v).
Proof.
  exists w_transposed. split; [reflexivity|]. split; [discriminate|]. split; [|reflexivity].
  vm_compute. intro X. discriminate X.
Qed.

(* The round trip of C01_roundtrip for the array as numpy holds it. *)
Theorem C01_roundtrip_any_layout :
  forall (pyval : Type) (pyeq : pyval -> pyval -> Prop)
         (v_str : list byte -> pyval) (v_int : Z -> pyval) (v_descr : dtype -> pyval)
         (np_dtype : pyval -> option dtype) (pformat : hdict pyval -> list byte)
         (pyeval : list byte -> option (hdict pyval))
         (hdr : hdict pyval) (dt : dtype) (v : ndview),
    H_pf pyval pyeq pformat pyeval np_dtype (make_header pyval v_str v_descr hdr dt) dt ->
    user_hdr_ok pyval hdr ->
    in_bounds v = true -> (1 <= view_size v)%nat -> Z.of_nat (v_item v) = rowsize dt -> 0 < rowsize dt ->
    exists out, sfile_read pyval v_str v_int np_dtype pyeval
                  (sfile_write_view pyval v_str v_descr pformat hdr dt v) = Ok out
                /\ roundtrip_ok pyval pyeq v_int np_dtype hdr dt (view_rows v) out.
Proof.
  intros pyval pyeq v_str v_int v_descr np_dtype pformat pyeval hdr dt v H U IB N E R.
  rewrite sfile_write_view_eq by exact IB.
  apply roundtrip; auto using view_rows_nonempty, view_rows_fit.
Qed.

Theorem C01_recfile_roundtrip_any_layout : forall dt v nrows,
  in_bounds v = true -> (1 <= view_size v)%nat -> Z.of_nat (v_item v) = rowsize dt -> 0 < rowsize dt ->
  (nrows = None \/ (exists m, nrows = Some m /\ m < 0) \/ nrows = Some (Z.of_nat (view_size v))) ->
  recfile_read0 (recfile_write_view v) dt nrows = Ok (view_rows v).
Proof.
  intros dt v nrows IB N E R HN. rewrite write_any_layout by exact IB.
  apply C01_recfile_roundtrip; auto using view_rows_nonempty, view_rows_fit.
  rewrite view_rows_count. exact HN.
Qed.

(* the entry points (Entry.v): SFile / sfile.write+read (either argument order) / io.write+read
   denote the same model functions, Recfile / recfile.write+read likewise ... *)
Theorem C01_entrypoints_agree :
  forall (pyval : Type) (v_str : list byte -> pyval) (v_int : Z -> pyval) (v_descr : dtype -> pyval)
         (np_dtype : pyval -> option dtype) (pformat : hdict pyval -> list byte)
         (pyeval : list byte -> option (hdict pyval)),
    (forall sw h dt v, sfile_write_fn pyval v_str v_descr pformat sw h dt v = SFile_write pyval v_str v_descr pformat h dt v)
    /\ (forall h dt v, io_write pyval v_str v_descr pformat h dt v = SFile_write pyval v_str v_descr pformat h dt v)
    /\ (forall dt v, SFile_write pyval v_str v_descr pformat None dt v = SFile_write pyval v_str v_descr pformat (Some []) dt v)
    /\ (forall h dt v, SFile_write pyval v_str v_descr pformat (Some h) dt v = sfile_write_view pyval v_str v_descr pformat h dt v)
    /\ (forall f, sfile_read_fn pyval v_str v_int np_dtype pyeval f = SFile_read pyval v_str v_int np_dtype pyeval f)
    /\ (forall f, io_read pyval v_str v_int np_dtype pyeval f = SFile_read pyval v_str v_int np_dtype pyeval f)
    /\ (forall f, SFile_read pyval v_str v_int np_dtype pyeval f = sfile_read pyval v_str v_int np_dtype pyeval f)
    /\ (forall v, recfile_write_fn v = Recfile_write v) /\ (forall v, Recfile_write v = recfile_write_view v)
    /\ (forall f dt n, recfile_read_fn f dt n = Recfile_read f dt n)
    /\ (forall f dt n, Recfile_read f dt n = recfile_read0 f dt n).
Proof. intros. repeat split; reflexivity. Qed.

(* ... hence the round trip holds for every writer/reader combination of the self-describing
   family, header given or None. *)
Theorem C01_roundtrip_every_entry_point :
  forall (pyval : Type) (pyeq : pyval -> pyval -> Prop)
         (v_str : list byte -> pyval) (v_int : Z -> pyval) (v_descr : dtype -> pyval)
         (np_dtype : pyval -> option dtype) (pformat : hdict pyval -> list byte)
         (pyeval : list byte -> option (hdict pyval))
         (hdr : option (hdict pyval)) (dt : dtype) (v : ndview),
    H_pf pyval pyeq pformat pyeval np_dtype (make_header pyval v_str v_descr (hdr_arg pyval hdr) dt) dt ->
    user_hdr_ok pyval (hdr_arg pyval hdr) ->
    in_bounds v = true -> (1 <= view_size v)%nat -> Z.of_nat (v_item v) = rowsize dt -> 0 < rowsize dt ->
    forall w r,
      In w [SFile_write pyval v_str v_descr pformat; sfile_write_fn pyval v_str v_descr pformat false;
            sfile_write_fn pyval v_str v_descr pformat true; io_write pyval v_str v_descr pformat] ->
      In r [SFile_read pyval v_str v_int np_dtype pyeval; sfile_read_fn pyval v_str v_int np_dtype pyeval;
            io_read pyval v_str v_int np_dtype pyeval] ->
      exists out, r (w hdr dt v) = Ok out
                  /\ roundtrip_ok pyval pyeq v_int np_dtype (hdr_arg pyval hdr) dt (view_rows v) out.
Proof.
  intros pyval pyeq v_str v_int v_descr np_dtype pformat pyeval hdr dt v H U IB N E R w r Hw Hr.
  cbn [In] in Hw, Hr.
  destruct Hw as [<-|[<-|[<-|[<-|[]]]]]; destruct Hr as [<-|[<-|[<-|[]]]];
    apply C01_roundtrip_any_layout; assumption.
Qed.

(* tie to the source (Gen.v is regenerated from sfile.py / Util.py / records.cpp on every run
   by harness/props/c01_translate.py; these statements are re-checked when it changes).

   The constants of the model are the constants of the source. *)
Theorem C01_gen_consts :
  gen_sfile_version = sfile_version
  /\ gen_reserved = reserved_lower
  /\ gen_scan_pat = pat /\ gen_scan_incr = blank_extra
  /\ gen_update_prefix = gen_size_prefix /\ gen_update_width = gen_size_width
  /\ forall n, size_line n = gen_size_prefix ++ pad_left gen_size_width (dec n).
Proof. exact gen_consts. Qed.

(* The model's _make_header is the translation, statement by statement, of SFile._make_header
   (reserved list, case-insensitive deletion loop, order of the _DTYPE / _VERSION entries). *)
Theorem C01_gen_make_header : forall (pyval : Type) (v_str : list byte -> pyval) (v_descr : dtype -> pyval)
                                     (hdr : hdict pyval) (dt : dtype),
  gen_make_header pyval v_str v_descr hdr dt = make_header pyval v_str v_descr hdr dt.
Proof. exact gen_make_header_eq. Qed.

(* The header framing (size line, dict text, END, blank line, joined by newlines) is the translation
   of the list SFile._write_header joins; the reader's choice of lines (lines[0], lines[1:len-3] joined
   by blanks) is the translation of the indices and the slice in SFile.read_header. *)
Theorem C01_gen_mk_header : forall n d, gen_mk_header n d = mk_header n d.
Proof. exact gen_mk_header_eq. Qed.

Theorem C01_gen_parse_header : forall hs, gen_parse_header hs = parse_header hs.
Proof. exact gen_parse_header_eq. Qed.

(* The model's low-level read is the composition of the translated integer functions
   (_count_nrows, Records::process_nrows, _get_slice_nrows, Records::process_slice) with the fread. *)
Theorem C01_gen_recfile_read : forall f offset rs nrows,
  recfile_read f offset rs nrows = recfile_read_gen f offset rs nrows.
Proof. exact recfile_read_is_gen. Qed.

(* C's truncating / and % in Records::process_slice and Python's floor // and % in
   Recfile._get_slice_nrows agree on every slice the reader accepts. *)
Theorem C01_gen_slice_agree : forall n r1 r2 s, 0 <= r1 -> r1 <= r2 -> r2 <= n -> 0 < s ->
  gen_process_slice n r1 r2 s = gen_get_slice_nrows r1 r2 s.
Proof. exact gen_slice_agree. Qed.

(* What the case files evaluate ([sfile_read_c]) is the model's read with eval / numpy.dtype
   resolved. *)
Theorem C01_exec_read_is_model :
  forall (pyval : Type) (v_str : list byte -> pyval) (v_int : Z -> pyval)
         (np_dtype : pyval -> option dtype) (pyeval : list byte -> option (hdict pyval))
         f dt rows h,
    sfile_read pyval v_str v_int np_dtype pyeval f = Ok (dt, rows, h) ->
    exists size, sfile_read_c f dt = Ok (size, rows).
Proof. exact sfile_read_c_is_model. Qed.

(* the Python layer made concrete (Pyval.v, Uncond.v): header values [pv] (int, float token,
   None, bool, str, bytes, list, tuple, dict with str keys), a printer and a parser for Python's
   literal syntax.  For every well-formed value the parser reads the printed text back. *)
Theorem C01_pv_parse_print : forall v, wf v = true -> pv_parse (pv_print v) = Some v.
Proof. exact pv_parse_print. Qed.

Theorem C01_pv_print_injective : forall a b, wf a = true -> wf b = true -> pv_print a = pv_print b -> a = b.
Proof. exact pv_print_inj. Qed.

(* The printed header is one line without NUL / 0xFF bytes, none of whose lines is END: clause (a)
   of H_pf, whatever text the keys and values contain. *)
Theorem C01_pformat_text_ok : forall h, wf_items h = true -> hdr_text_ok (py_pformat h) = true.
Proof. exact py_pformat_text_ok. Qed.

(* The model of numpy.dtype reconstructs every packed dtype from its descr: clause (c). *)
Theorem C01_np_dtype_descr : forall dt, wf_dtype dt = true -> py_np_dtype (py_vdescr dt) = Some dt.
Proof. exact np_dtype_descr. Qed.

(* Hence the contract H_pf — so far a hypothesis monitored per case — is a theorem for this
   printer / parser / numpy.dtype model, for every well-formed header and dtype ... *)
Theorem C01_H_pf_holds : forall hdr dt, wf_items hdr = true -> wf_dtype dt = true ->
  H_pf pv eq py_pformat py_eval py_np_dtype (make_header pv py_vstr py_vdescr hdr dt) dt.
Proof. exact H_pf_holds. Qed.

(* ... and the round trip holds without any hypothesis about pformat / eval / numpy.dtype. *)
Theorem C01_roundtrip_unconditional : forall hdr dt rows,
  wf_items hdr = true -> wf_dtype dt = true -> user_hdr_ok pv hdr ->
  rows <> [] -> rows_fit dt rows -> 0 < rowsize dt ->
  exists out, sfile_read pv py_vstr py_vint py_np_dtype py_eval
                (sfile_write pv py_vstr py_vdescr py_pformat hdr dt rows) = Ok out
              /\ roundtrip_ok pv eq py_vint py_np_dtype hdr dt rows out.
Proof.
  intros hdr dt rows Wh Wd U NE F R. apply roundtrip; auto. apply H_pf_holds; assumption.
Qed.

(* For the REAL pformat text of a case the contract is decided inside Coq by a verified checker
   (model _make_header = the real header dict; the verified parser reads the real text back to an
   equal dict; clause (a)): if it accepts, H_pf holds for that text, and with it the round trip. *)
Theorem C01_hpf_check_sound : forall real uhdr head dt, hpf_check real uhdr head dt = true ->
  forall pformat, pformat (make_header pv py_vstr py_vdescr uhdr dt) = real ->
  H_pf pv eq pformat py_eval py_np_dtype (make_header pv py_vstr py_vdescr uhdr dt) dt.
Proof. exact hpf_check_sound. Qed.

Theorem C01_roundtrip_real_text : forall real uhdr head dt rows, hpf_check real uhdr head dt = true ->
  user_hdr_ok pv uhdr -> rows <> [] -> rows_fit dt rows -> 0 < rowsize dt ->
  exists out, sfile_read pv py_vstr py_vint py_np_dtype py_eval
                (sfile_write pv py_vstr py_vdescr (fun _ => real) uhdr dt rows) = Ok out
              /\ roundtrip_ok pv eq py_vint py_np_dtype uhdr dt rows out.
Proof.
  intros real uhdr head dt rows C U NE F R. apply roundtrip; auto.
  apply (hpf_check_sound real uhdr head dt C). reflexivity.
Qed.

(* The same for EVERY user header (no premise on its keys), given that in the evaluated dict the
   first key that lower-cases to _dtype is _DTYPE itself — which the checker [hpf_check_all] decides
   on the real text (pformat sorts the keys; _DTYPE sorts before every other spelling). *)
Theorem C01_roundtrip_ordered :
  forall (pyval : Type) (pyeq : pyval -> pyval -> Prop)
         (v_str : list byte -> pyval) (v_int : Z -> pyval) (v_descr : dtype -> pyval)
         (np_dtype : pyval -> option dtype) (pformat : hdict pyval -> list byte)
         (pyeval : list byte -> option (hdict pyval))
         (hdr : hdict pyval) (dt : dtype) (rows : list (list byte)) (h' : hdict pyval),
    hdr_text_ok (pformat (make_header pyval v_str v_descr hdr dt)) = true ->
    pyeval (join [sp] (split_nl (pformat (make_header pyval v_str v_descr hdr dt)))) = Some h' ->
    dict_equiv pyval pyeq h' (make_header pyval v_str v_descr hdr dt) ->
    (forall v, dget pyval (B "_DTYPE") h' = Some v -> np_dtype v = Some dt) ->
    first_key pyval h' (B "_dtype") = Some (B "_DTYPE") ->
    rows <> [] -> rows_fit dt rows -> 0 < rowsize dt ->
    exists out, sfile_read pyval v_str v_int np_dtype pyeval
                  (sfile_write pyval v_str v_descr pformat hdr dt rows) = Ok out
                /\ roundtrip_ok pyval pyeq v_int np_dtype hdr dt rows out.
Proof. exact roundtrip_ordered. Qed.

Theorem C01_roundtrip_real_text_all_keys : forall real uhdr head dt rows, hpf_check_all real uhdr head dt = true ->
  rows <> [] -> rows_fit dt rows -> 0 < rowsize dt ->
  exists out, sfile_read pv py_vstr py_vint py_np_dtype py_eval
                (sfile_write pv py_vstr py_vdescr (fun _ => real) uhdr dt rows) = Ok out
              /\ roundtrip_ok pv eq py_vint py_np_dtype uhdr dt rows out.
Proof.
  intros real uhdr head dt rows C NE F R. unfold hpf_check_all in C. apply andb_true_iff in C as [C D].
  destruct (hpf_check_sound real uhdr head dt C (fun _ => real) eq_refl) as [T [h' [Ev [Q Dt]]]].
  unfold dtype_first in D. rewrite Ev in D.
  destruct (first_key pv h' (B "_dtype")) as [k|] eqn:FK; [|discriminate]. apply bytes_eqb_eq in D. subst k.
  apply (roundtrip_ordered pv eq py_vstr py_vint py_vdescr py_np_dtype (fun _ => real) py_eval uhdr dt rows h'); auto.
Qed.

(* frame conditions and history (Frame.v): the entry points as steps on a file system.
   Reads change no file; a write changes exactly the file it names. *)
Theorem C01_read_frame : forall s o, writes o = None -> fst (step s o) = s.
Proof. exact read_frame. Qed.

Theorem C01_write_frame : forall s o p q, writes o = Some p -> q <> p -> fst (step s o) q = s q.
Proof. exact write_frame. Qed.

(* The model's answer depends on the call's own arguments only: after ANY history, and with any
   traffic in between that does not write the path, write + read answers as write + read alone. *)
Theorem C01_history_independent : forall before between p hdr dt rows,
  forallb (fun o => negb (touches p o)) between = true ->
  forall s0,
  snd (step (run (fst (step (run s0 before) (WriteSelf p hdr dt rows))) between) (ReadSelf p))
  = snd (step (fst (step fs_empty (WriteSelf p hdr dt rows))) (ReadSelf p)).
Proof. exact history_independent. Qed.

Theorem C01_history_independent_recfile : forall before between p rows dt nrows,
  forallb (fun o => negb (touches p o)) between = true ->
  forall s0,
  snd (step (run (fst (step (run s0 before) (WriteRec p rows))) between) (ReadRec p dt nrows))
  = snd (step (fst (step fs_empty (WriteRec p rows))) (ReadRec p dt nrows)).
Proof.
  intros before between p rows dt nrows H s0. cbn [step fst snd]. rewrite written_stays by exact H.
  unfold fs_set. rewrite Nat.eqb_refl. reflexivity.
Qed.

(* The in-place update of the row count (Records::update_row_count) rewrites the SIZE line and
   leaves every other byte — the rest of the header and all rows — as it is; the file is the one
   a fresh write with the new count has. *)
Theorem C01_size_update_frame : forall m n d data, 0 <= m < 10 ^ 20 -> 0 <= n < 10 ^ 20 ->
  size_update (mk_header m d ++ data) n = mk_header n d ++ data
  /\ length (size_update (mk_header m d ++ data) n) = length (mk_header m d ++ data)
  /\ skipn 28 (size_update (mk_header m d ++ data) n) = skipn 28 (mk_header m d ++ data).
Proof. exact size_update_frame. Qed.

(* rejections.  The row reader rejects a request exactly when the data are shorter than
   nrows * rowsize, the only error class is ERuntime, and what it accepts are the first nrows * rowsize
   bytes cut into rows. *)
Theorem C01_take_rows_rejects : forall rs n f,
  (take_rows rs n f = Err ERuntime <-> (length f < n * rs)%nat)
  /\ (forall e, take_rows rs n f = Err e -> e = ERuntime)
  /\ (forall rows, take_rows rs n f = Ok rows -> length rows = n /\ Forall (fun r => length r = rs) rows
                                                /\ concat rows = firstn (n * rs) f).
Proof.
  intros rs n f. rewrite take_rows_fast_eq. unfold take_rows_fast. destruct (length f <? n * rs)%nat eqn:E.
  - (* too short: Err ERuntime *)
    split; [|split].
    + split; [lia | reflexivity].
    + intros e H. inversion H. reflexivity.
    + intros rows H. discriminate H.
  - (* long enough: Ok (chunks rs n f) *)
    split; [|split].
    + split; [intro H; discriminate H | lia].
    + intros e H. discriminate H.
    + intros rows H. inversion H. apply chunks_spec. lia.
Qed.

(* A self-describing file whose data region lost its last k bytes (1 <= k <= all of them) is rejected
   with ERuntime: a truncated file is never read as a shorter or shifted table. *)
Theorem C01_truncated_rejected : forall d dt rows k, hdr_text_ok d = true ->
  rows <> [] -> rows_fit dt rows -> 0 < rowsize dt ->
  (1 <= k <= length (bin_write rows))%nat ->
  let f := sfile_file d rows in
  sfile_read_c (firstn (length f - k) f) dt = Err ERuntime.
Proof.
  intros d dt rows k T NE F R K f. subst f. rewrite sfile_file_eq by exact T.
  set (hd := mk_header (Z.of_nat (length rows)) d). set (data := bin_write rows) in *.
  rewrite app_length. replace (length hd + length data - k)%nat with (length hd + (length data - k))%nat by lia.
  rewrite firstn_app_2. unfold sfile_read_c, hd. rewrite sfile_read_raw_written by (lia || exact T). cbn [bind].
  rewrite recfile_read_app. cbv zeta.
  assert (L : 1 <= Z.of_nat (length rows)) by (destruct rows; [contradiction | cbn [length]; lia]).
  replace (Z.of_nat (length rows) <? 0) with false by lia. replace (Z.of_nat (length rows) <? 1) with false by lia.
  pose proof (concat_length_rows _ rows (row_lengths_nat _ _ F)) as Ld. fold (bin_write rows) in Ld. fold data in Ld.
  rewrite take_rows_fast_eq. unfold take_rows_fast.
  replace (_ <? _)%nat with true; [reflexivity|]. rewrite firstn_length. clear - K Ld. lia.
Qed.

(* The readers evaluated on the many-rows cases (Big.v: the length of the file is asked once, not
   before every row) are the model's readers. *)
Theorem C01_fast_readers_are_model :
  (forall rs n f, take_rows_fast rs n f = take_rows rs n f)
  /\ (forall f offset rs nrows, recfile_read_fast f offset rs nrows = recfile_read f offset rs nrows)
  /\ (forall f dt, sfile_read_c_fast f dt = sfile_read_c f dt)
  /\ (forall f dt nrows, recfile_read0_fast f dt nrows = recfile_read0 f dt nrows).
Proof.
  exact (conj (fun rs n f => eq_sym (take_rows_fast_eq rs n f))
          (conj recfile_read_fast_eq (conj sfile_read_c_fast_eq recfile_read0_fast_eq))).
Qed.

(* Checker soundness: what the correspondence run evaluates on the implementation's outputs. *)
Theorem C01_checkers_sound :
  (forall dt rows ukeys o, sf_check dt rows ukeys o = true -> sf_ok dt rows ukeys o)
  /\ (forall dt rows o, rf_check dt rows o = true -> rf_ok dt rows o)
  /\ (forall dt rows, rows_fit_b dt rows = true -> rows_fit dt rows).
Proof.
  split; [intros dt rows ukeys o; apply sf_check_iff|]. split; [intros dt rows o; apply rf_check_iff|].
  intros dt rows H. apply Forall_forall. intros r I. apply Z.eqb_eq. revert r I. apply forallb_forall. exact H.
Qed.

(* ... and complete: they reject nothing that meets the property (no false alarm from the checker). *)
Theorem C01_checkers_complete :
  (forall dt rows ukeys o, sf_ok dt rows ukeys o -> sf_check dt rows ukeys o = true)
  /\ (forall dt rows o, rf_ok dt rows o -> rf_check dt rows o = true).
Proof. split; [intros dt rows ukeys o; apply sf_check_iff | intros dt rows o; apply rf_check_iff]. Qed.

(* Non-vacuity: a closed instance meets every premise of C01_roundtrip (header value 'THE END',
   a reserved user key that is dropped) and the round trip computes. *)
Example C01_nonvacuous :
  H_pf (list byte) eq ex_pformat ex_pyeval ex_np_dtype ex_head ex_dt
  /\ user_hdr_ok (list byte) ex_hdr
  /\ ex_rows <> [] /\ rows_fit ex_dt ex_rows /\ 0 < rowsize ex_dt
  /\ sfile_read (list byte) ex_vstr dec ex_np_dtype ex_pyeval
       (sfile_write (list byte) ex_vstr ex_vdescr ex_pformat ex_hdr ex_dt ex_rows)
     = Ok (ex_dt, ex_rows,
           [(B "k", B "'THE END'"); (B "_DTYPE", B "[('x', '<i2')]"); (B "_VERSION", B "'1.0'"); (B "_SIZE", B "2")])
  /\ scan_end (mk_header 2 w_text_value ++ concat ex_rows) = Ok 95%nat.
Proof.
  split; [|split; [|split; [|split; [|split; [|split]]]]].
  - split; [reflexivity|]. exists ex_head. split; [reflexivity|]. split.
    + intro k. destruct (dget (list byte) k ex_head); reflexivity || exact I.
    + intros v _. reflexivity.
  - intros k I. simpl in I. destruct I as [<-|[<-|[]]]; reflexivity.
  - discriminate.
  - repeat constructor.
  - reflexivity.
  - vm_compute. reflexivity.
  - vm_compute. reflexivity.
Qed.

(* Non-vacuity of the layout theorems: data[::2] meets every premise of the any-layout round trip
   (and the unrepaired writer returns other rows on it); a C-contiguous slice meets every premise
   of C01_unrepaired_write_contiguous. *)
Example C01_layout_nonvacuous :
  (in_bounds w_strided = true /\ (1 <= view_size w_strided)%nat
   /\ Z.of_nat (v_item w_strided) = rowsize ex_dt1 /\ 0 < rowsize ex_dt1
   /\ recfile_read0 (recfile_write_view w_strided) ex_dt1 None = Ok [[x01]; [x03]]
   /\ recfile_read0 (recfile_write_view_v0 w_strided) ex_dt1 None = Ok [[x01]; [x02]])
  /\ (kf_noncontiguous_write w_contig = false /\ in_bounds w_contig = true /\ 0 <= v_start w_contig
      /\ v_start w_contig + Z.of_nat (view_size w_contig * v_item w_contig) <= Z.of_nat (length (v_buf w_contig))
      /\ recfile_write_view_v0 w_contig = [x02; x03]).
Proof.
  split.
  - split; [reflexivity|]. split; [apply le_S, le_n|]. repeat split; reflexivity.
  - repeat split; try reflexivity; vm_compute; discriminate.
Qed.

(* Non-vacuity of the unconditional round trip: a header with values of every kind (negative int,
   float token, None, bool, bytes with NUL/0xFF/END, a tuple holding a str with quote, newline,
   backslash and UTF-8, a nested dict with key END, a reserved key), a two-field dtype with a
   sub-array and both byte orders, rows containing the bytes of an END line; and the parser on
   pformat-style text (adjacent literals, parenthesised values). *)
Example C01_unconditional_nonvacuous :
  wf_items u_hdr = true /\ wf_dtype u_dt = true /\ user_hdr_ok pv u_hdr
  /\ u_rows <> [] /\ rows_fit u_dt u_rows /\ 0 < rowsize u_dt
  /\ (exists h, sfile_read pv py_vstr py_vint py_np_dtype py_eval
                  (sfile_write pv py_vstr py_vdescr py_pformat u_hdr u_dt u_rows) = Ok (u_dt, u_rows, h)
                /\ dget pv (B "n") h = dget pv (B "n") u_hdr /\ dget pv (B "_SIZE") h = Some (PInt 2))
  /\ pv_parse (B "{'a': ('x' 'y'), 'b': (1), 'c': (1,), 'e': -0.0, 'f': [1, 2]}")
     = Some (PDict [(B "a", PStr (B "xy")); (B "b", PInt 1); (B "c", PTuple [PInt 1]); (B "e", PFloat (B "-0.0"));
                    (B "f", PList [PInt 1; PInt 2])]).
Proof.
  split; [reflexivity|]. split; [reflexivity|]. split.
  { intros k I. cbn in I. destruct I as [<-|[<-|[<-|[]]]]; reflexivity. }
  split; [discriminate|]. split; [repeat constructor|]. split; [reflexivity|]. split.
  - eexists. split; [vm_compute; reflexivity|]. split; reflexivity.
  - vm_compute. reflexivity.
Qed.

Example C01_frame_nonvacuous :
  forallb (fun o => negb (touches 1%nat o)) [WriteRec 2%nat u_rows; ReadSelf 1%nat; ReadRec 2%nat u_dt None] = true
  /\ snd (step (run (fst (step fs_empty (WriteSelf 1%nat u_hdr u_dt u_rows)))
                     [WriteRec 2%nat u_rows; ReadSelf 1%nat; ReadRec 2%nat u_dt None]) (ReadRec 2%nat u_dt None))
     = ARec (Ok u_rows)
  /\ 0 <= 2 < 10 ^ 20
  /\ parse_size (firstn 27 (size_update (mk_header 2 (B "{}") ++ concat u_rows) 12345)) = Ok 12345.
Proof. split; [reflexivity|]. split; [vm_compute; reflexivity|]. split; [lia|]. vm_compute. reflexivity. Qed.

Example C01_hpf_check_nonvacuous : hpf_check r_text r_uhdr r_head ex_dt = true /\ user_hdr_ok pv r_uhdr.
Proof. split; [vm_compute; reflexivity|]. intros k I. cbn in I. destruct I as [<-|[]]. reflexivity. Qed.

Example C01_reject_nonvacuous :
  hdr_text_ok w_text_value = true /\ ex_rows <> [] /\ rows_fit ex_dt ex_rows /\ 0 < rowsize ex_dt
  /\ (1 <= 3 <= length (bin_write ex_rows))%nat
  /\ sfile_read_c (firstn (length (sfile_file w_text_value ex_rows) - 3) (sfile_file w_text_value ex_rows)) ex_dt = Err ERuntime
  /\ sfile_read_c (sfile_file w_text_value ex_rows) ex_dt = Ok (2, ex_rows)
  /\ take_rows 2 2 [x01; x02; x03] = Err ERuntime.
Proof.
  split; [reflexivity|]. split; [discriminate|]. split; [repeat constructor|]. split; [reflexivity|].
  split; [cbn; lia|]. split; [vm_compute; reflexivity|]. split; [vm_compute; reflexivity | reflexivity].
Qed.

(* hpf_check_all accepts a real pformat text whose user header is OUTSIDE user_hdr_ok (two other
   spellings of _dtype, a mixed-case _Delim that was stripped). *)
Example C01_hpf_check_all_nonvacuous :
  hpf_check_all a_text a_uhdr a_head ex_dt = true /\ ~ user_hdr_ok pv a_uhdr.
Proof.
  split; [vm_compute; reflexivity|]. intro U. specialize (U (B "_dtype") (or_introl eq_refl)). vm_compute in U. discriminate U.
Qed.
