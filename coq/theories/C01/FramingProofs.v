(* C01/FramingProofs.v — what is written by the framing model is read back by it: the size line parses to its
   number, the scanner stops exactly at the line END, the header splits into its lines, the row reader
   returns the rows after any header.  Imported by C03. *)
From Coq Require Import ZArith List Bool Lia ZifyBool ZifyNat.
From Coq.Strings Require Import Byte String.
From EsVerif.Common Require Import Base Bytes.
From EsVerif.C01 Require Import Framing.
Import ListNotations.
Open Scope Z_scope.
Open Scope list_scope.
Notation length := List.length.

Lemma byte_eqb_refl b : byte_eqb b b = true.
Proof. apply byte_eqb_eq; reflexivity. Qed.

Lemma byte_eqb_neq a b : a <> b -> byte_eqb a b = false.
Proof. intro H. destruct (byte_eqb a b) eqn:E; [apply byte_eqb_eq in E; contradiction | reflexivity]. Qed.

Lemma byte_eqb_false a b : byte_eqb a b = false -> a <> b.
Proof. intros H E. subst. rewrite byte_eqb_refl in H. discriminate. Qed.

Lemma bytes_eqb_refl l : bytes_eqb l l = true.
Proof. apply bytes_eqb_eq; reflexivity. Qed.

Lemma bytes_eqb_neq a b : a <> b -> bytes_eqb a b = false.
Proof. intro H. destruct (bytes_eqb a b) eqn:E; [apply bytes_eqb_eq in E; contradiction | reflexivity]. Qed.

Lemma bytes_eqb_false a b : bytes_eqb a b = false -> a <> b.
Proof. intros H E. subst. rewrite bytes_eqb_refl in H. discriminate. Qed.

(* a byte as its number: facts about classes of bytes become linear arithmetic *)
Lemma bZ_range b : 0 <= bZ b < 256.
Proof. unfold bZ. pose proof (Byte.to_N_bounded b). lia. Qed.

Lemma byte_eqb_bZ a b : byte_eqb a b = (bZ a =? bZ b).
Proof. unfold byte_eqb, bZ. lia. Qed.

Lemma Zb_bZ b : Zb (bZ b) = b.
Proof.
  unfold Zb, byte_of_N. rewrite Z.mod_small by apply bZ_range.
  unfold bZ. rewrite N2Z.id, Byte.of_to_N. reflexivity.
Qed.

Lemma bZ_Zb z : 0 <= z < 256 -> bZ (Zb z) = z.
Proof.
  intro H. unfold Zb, bZ, byte_of_N. rewrite Z.mod_small by exact H.
  destruct (Byte.of_N (Z.to_N z)) as [b|] eqn:E.
  - apply Byte.to_of_N in E. lia.
  - apply Byte.of_N_None_iff in E. lia.
Qed.

Lemma Forall_notin {A} (P : A -> Prop) (l : list A) (c : A) :
  Forall P l -> ~ P c -> ~ In c l.
Proof. intros H N I. rewrite Forall_forall in H. apply N, H, I. Qed.

Lemma Forall_repeat {A} (P : A -> Prop) (x : A) n : P x -> Forall P (repeat x n).
Proof. intro H. induction n; simpl; constructor; auto. Qed.

Lemma clean_app a b : clean (a ++ b) = clean a && clean b.
Proof. apply forallb_app. Qed.

Lemma clean_cstr l : clean l = true -> cstr l = l.
Proof.
  induction l as [|b t IH]; simpl; intro H; [reflexivity|].
  apply andb_true_iff in H as [H1 H2]. unfold clean_b in H1.
  apply andb_true_iff in H1 as [H1 _]. apply negb_true_iff in H1. rewrite H1, IH; auto.
Qed.

Lemma clean_not_ff l x : clean l = true -> In x l -> x <> xff.
Proof.
  intros H I. unfold clean in H. rewrite forallb_forall in H. specialize (H x I).
  unfold clean_b in H. apply andb_true_iff in H as [_ H]. apply negb_true_iff in H.
  apply byte_eqb_false; exact H.
Qed.

Lemma Forall_clean (P : byte -> Prop) l :
  Forall P l -> (forall b, P b -> clean_b b = true) -> clean l = true.
Proof. intros H Q. apply forallb_forall. intros x I. rewrite Forall_forall in H. auto. Qed.

Definition digsp (b : byte) : Prop := is_digit b = true \/ b = sp.

Lemma digit_cases d : 0 <= d < 10 ->
  is_digit (digit d) = true /\ bZ (digit d) - 48 = d.
Proof.
  intro H.
  assert (C : d = 0 \/ d = 1 \/ d = 2 \/ d = 3 \/ d = 4 \/ d = 5 \/ d = 6 \/ d = 7 \/ d = 8 \/ d = 9) by lia.
  repeat (destruct C as [C|C]; [subst d; split; reflexivity|]). subst d; split; reflexivity.
Qed.

(* one step of Framing.read_digits *)
Definition dstep (a : Z) (b : byte) : Z := 10 * a + (bZ b - 48).

Lemma dec_aux_S f n acc : dec_aux (S f) n acc =
  if n <? 10 then digit (n mod 10) :: acc else dec_aux f (n / 10) (digit (n mod 10) :: acc).
Proof. reflexivity. Qed.

Lemma div10_bound n k : 0 <= n < 10 ^ Z.of_nat (S k) -> 0 <= n / 10 < 10 ^ Z.of_nat k.
Proof.
  intro H. rewrite Nat2Z.inj_succ, Z.pow_succ_r in H by apply Nat2Z.is_nonneg.
  split; [apply Z.div_pos | apply Z.div_lt_upper_bound]; lia.
Qed.

(* n < 10 is printed as its one digit, whatever the fuel *)
Lemma dec_aux_one_digit f n acc : 0 <= n -> (n <? 10) = true ->
  exists ds, dec_aux (S f) n acc = ds ++ acc /\ ds <> [] /\ Forall (fun b => is_digit b = true) ds
             /\ fold_left dstep ds 0 = n.
Proof.
  intros H E. rewrite dec_aux_S, E. rewrite Z.mod_small by lia.
  destruct (digit_cases n) as [D1 D2]; [lia|].
  exists [digit n]. split; [reflexivity|]. split; [discriminate|]. split; [constructor; auto|].
  simpl. unfold dstep. lia.
Qed.

(* with enough fuel dec_aux prepends the decimal digits of n (most significant first) *)
Lemma dec_aux_spec : forall f n acc, 0 <= n < 10 ^ Z.of_nat (S f) ->
  exists ds, dec_aux (S f) n acc = ds ++ acc /\ ds <> [] /\ Forall (fun b => is_digit b = true) ds
             /\ fold_left dstep ds 0 = n.
Proof.
  induction f as [|f IH]; intros n acc H; destruct (n <? 10) eqn:E.
  - apply dec_aux_one_digit; [lia | exact E].
  - change (Z.of_nat 1) with 1 in H. lia.
  - apply dec_aux_one_digit; [lia | exact E].
  - rewrite dec_aux_S, E.
    destruct (digit_cases (n mod 10)) as [D1 D2]; [apply Z.mod_pos_bound; reflexivity|].
    destruct (IH (n / 10) (digit (n mod 10) :: acc) (div10_bound n (S f) H)) as [ds [E1 [N1 [F1 V1]]]].
    exists (ds ++ [digit (n mod 10)]). repeat split.
    + rewrite E1, <- app_assoc. reflexivity.
    + intro X. apply app_eq_nil in X as [_ X]. discriminate.
    + apply Forall_app; split; auto.
    + rewrite fold_left_app. simpl. unfold dstep at 1. rewrite V1, D2.
      pose proof (Z.div_mod n 10) as M. clear - M. lia.
Qed.

Lemma dec_fuel n : 0 <= n -> n < 10 ^ Z.of_nat (S (Z.to_nat (Z.log2 n))).
Proof.
  intro H. rewrite Nat2Z.inj_succ, Z2Nat.id by apply Z.log2_nonneg.
  destruct (Z.eq_dec n 0) as [->|N]; [reflexivity|].
  pose proof (Z.log2_spec n ltac:(lia)) as [_ L].
  eapply Z.lt_le_trans; [exact L|].
  apply Z.pow_le_mono_l. lia.
Qed.

Lemma dec_spec n : 0 <= n ->
  dec n <> [] /\ Forall (fun b => is_digit b = true) (dec n) /\ fold_left dstep (dec n) 0 = n.
Proof.
  intro H. unfold dec.
  destruct (dec_aux_spec _ n [] (conj H (dec_fuel n H))) as [ds [E [N [F V]]]].
  rewrite E, app_nil_r. auto.
Qed.

(* also for n < 0: the fuel is 1 and n mod 10 is a digit *)
Lemma dec_digits n : Forall (fun b => is_digit b = true) (dec n).
Proof.
  destruct (Z_le_gt_dec 0 n) as [H|H]; [apply dec_spec; exact H|].
  unfold dec. rewrite Z.log2_nonpos by lia. cbn [Z.to_nat dec_aux].
  replace (n <? 10) with true by lia. constructor; [|constructor].
  apply digit_cases. apply Z.mod_pos_bound. lia.
Qed.

Lemma dec_aux_length : forall f n acc k, 0 <= n < 10 ^ Z.of_nat k -> (1 <= k)%nat ->
  (length (dec_aux f n acc) <= k + length acc)%nat.
Proof.
  induction f as [|f IH]; intros n acc k H K; simpl; [lia|].
  destruct (n <? 10) eqn:E; [simpl; lia|].
  destruct k as [|[|k]]; [lia | simpl in H; lia |].
  specialize (IH (n / 10) (digit (n mod 10) :: acc) (S k) (div10_bound n (S k) H)). simpl in IH. lia.
Qed.

Lemma dec_length_20 n : 0 <= n < 10 ^ 20 -> (length (dec n) <= 20)%nat.
Proof.
  intro H. unfold dec.
  pose proof (dec_aux_length (S (Z.to_nat (Z.log2 n))) n [] 20%nat) as L.
  simpl length in L. rewrite Nat.add_0_r in L. apply L; [|lia].
  change (Z.of_nat 20) with 20. exact H.
Qed.

Lemma pad_left_digsp w n : Forall digsp (pad_left w (dec n)).
Proof.
  unfold pad_left. apply Forall_app; split.
  - apply Forall_repeat. right; reflexivity.
  - eapply Forall_impl; [|apply dec_digits]. intros b Hb; left; exact Hb.
Qed.

Lemma digsp_neq c b : is_digit c = false -> c <> sp -> digsp b -> b <> c.
Proof. intros D S [H|H] E; subst; congruence. Qed.

Lemma pad_left_notin w n c : is_digit c = false -> c <> sp -> ~ In c (pad_left w (dec n)).
Proof.
  intros D S. eapply Forall_notin; [apply pad_left_digsp|].
  intro X. exact (digsp_neq c c D S X eq_refl).
Qed.

Lemma size_line_notin n c : is_digit c = false -> c <> sp -> ~ In c (B "SIZE = ") ->
  ~ In c (size_line n).
Proof.
  intros D S N I. unfold size_line in I. apply in_app_or in I as [I|I]; [auto|].
  exact (pad_left_notin 20 n c D S I).
Qed.

Lemma size_line_no_nl n : ~ In nl (size_line n).
Proof.
  apply size_line_notin; [reflexivity | discriminate |].
  simpl. intros X. repeat (destruct X as [X|X]; [discriminate|]). exact X.
Qed.

Lemma size_line_clean n : clean (size_line n) = true.
Proof.
  unfold size_line. rewrite clean_app. apply andb_true_iff; split; [reflexivity|].
  eapply Forall_clean; [apply pad_left_digsp|].
  intros b [D | ->]; [|reflexivity].
  unfold clean_b. apply andb_true_iff; split; apply negb_true_iff; apply byte_eqb_neq; intro; subst; discriminate.
Qed.

Lemma size_line_length n : 0 <= n < 10 ^ 20 -> length (size_line n) = 27%nat.
Proof.
  intro H. unfold size_line, pad_left. rewrite !app_length, repeat_length.
  pose proof (dec_length_20 n H). change (length (B "SIZE = ")) with 7%nat. lia.
Qed.

Lemma split_on_nonempty sep l : split_on sep l <> [].
Proof.
  induction l as [|b t IH]; simpl; [discriminate|].
  destruct (byte_eqb b sep); [discriminate|]. destruct (split_on sep t); discriminate.
Qed.

Lemma split_on_nosep sep a : ~ In sep a -> split_on sep a = [a].
Proof.
  induction a as [|b t IH]; simpl; intro H; [reflexivity|].
  rewrite byte_eqb_neq by (intro; subst; apply H; left; reflexivity).
  rewrite IH by (intro; apply H; right; assumption). reflexivity.
Qed.

Lemma split_on_app sep a b : split_on sep (a ++ sep :: b) = split_on sep a ++ split_on sep b.
Proof.
  induction a as [|x t IH]; simpl.
  - rewrite byte_eqb_refl. reflexivity.
  - destruct (byte_eqb x sep); [rewrite IH; reflexivity|].
    rewrite IH. destruct (split_on sep t) as [|c r] eqn:E; [exfalso; exact (split_on_nonempty _ _ E)|].
    reflexivity.
Qed.

Lemma drop_ws_spaces k l : drop_ws (repeat sp k ++ l) = drop_ws l.
Proof. induction k; simpl; auto. Qed.

Lemma drop_ws_digit b t : is_digit b = true -> drop_ws (b :: t) = b :: t.
Proof.
  intro H. simpl. replace (is_ws b) with false; [reflexivity|].
  unfold is_digit, is_ws in *. lia.
Qed.

Lemma read_digits_all : forall l acc, Forall (fun b => is_digit b = true) l ->
  read_digits acc l = (fold_left dstep l acc, []).
Proof.
  induction l as [|b t IH]; intros acc H; simpl; [reflexivity|].
  inversion H; subst. rewrite H2. apply IH; assumption.
Qed.

Lemma eval_int_padded k n : 0 <= n -> eval_int (repeat sp k ++ dec n) = Ok n.
Proof.
  intro H. destruct (dec_spec n H) as [N [F V]]. unfold eval_int.
  rewrite drop_ws_spaces. destruct (dec n) as [|b t] eqn:E; [contradiction|].
  assert (Db : is_digit b = true) by (inversion F; assumption).
  rewrite drop_ws_digit by exact Db. rewrite Db.
  rewrite read_digits_all by exact F. rewrite V. reflexivity.
Qed.

Lemma parse_size_size_line n : 0 <= n -> parse_size (size_line n) = Ok n.
Proof.
  intro H. unfold parse_size, size_line.
  change (B "SIZE = " ++ pad_left 20 (dec n)) with (B "SIZE " ++ "="%byte :: (sp :: pad_left 20 (dec n))).
  rewrite split_on_app.
  rewrite (split_on_nosep _ (B "SIZE ")).
  2:{ simpl. intros X. repeat (destruct X as [X|X]; [discriminate|]). exact X. }
  rewrite (split_on_nosep _ (sp :: pad_left 20 (dec n))).
  2:{ intros [X|X]; [discriminate|]. revert X. apply pad_left_notin; [reflexivity | discriminate]. }
  cbn [app]. change (bytes_eqb (upper (strip (B "SIZE "))) (B "SIZE")) with true. cbn [orb].
  unfold pad_left. exact (eval_int_padded (S (20 - length (dec n))) n H).
Qed.

Definition z5 : list byte := [x00; x00; x00; x00; x00].

Lemma wl_shift junk w x : junk ++ wl w ++ [x] = (junk ++ [fst (fst (fst (fst w)))]) ++ wl (shift w x).
Proof. destruct w as [[[[a b] c] d] e]. simpl. rewrite <- app_assoc. reflexivity. Qed.

(* Running the loop over a stretch [a] in which no prefix ends with the pattern "\nEND\n"
   and no byte is 0xFF leaves the window holding the last five bytes read. *)
Lemma scan_loop_run : forall a rest w cnt pre junk,
  z5 ++ pre = junk ++ wl w ->
  (forall a1 x a2, a = a1 ++ x :: a2 -> x <> xff /\ forall u, z5 ++ pre ++ a1 ++ [x] <> u ++ pat) ->
  exists w' junk', z5 ++ pre ++ a = junk' ++ wl w' /\
    scan_loop w cnt (a ++ rest) = scan_loop w' (cnt + length a) rest.
Proof.
  induction a as [|x a IH]; intros rest w cnt pre junk Hw Hno.
  - exists w, junk. rewrite app_nil_r, Nat.add_0_r. split; [exact Hw | reflexivity].
  - destruct (Hno [] x a eq_refl) as [Hx Hu]. simpl in Hu.
    assert (Hw' : z5 ++ (pre ++ [x]) = (junk ++ [fst (fst (fst (fst w)))]) ++ wl (shift w x)).
    { rewrite <- wl_shift. rewrite (app_assoc z5 pre [x]), Hw, <- app_assoc. reflexivity. }
    assert (He : is_end (shift w x) = false).
    { destruct (is_end (shift w x)) eqn:E; [|reflexivity]. exfalso.
      unfold is_end in E. apply bytes_eqb_eq in E.
      apply (Hu (junk ++ [fst (fst (fst (fst w)))])). rewrite <- E. exact Hw'. }
    cbn [app scan_loop]. rewrite (byte_eqb_neq _ _ Hx), He.
    destruct (IH rest (shift w x) (S cnt) (pre ++ [x]) _ Hw') as [w' [junk' [E1 E2]]].
    { intros a1 y a2 Ea. subst a. destruct (Hno (x :: a1) y a2 eq_refl) as [Hy Hv]. split; [exact Hy|].
      intros u. specialize (Hv u). rewrite <- !app_assoc. exact Hv. }
    exists w', junk'. split.
    + rewrite <- E1. rewrite <- !app_assoc. reflexivity.
    + rewrite E2. f_equal. simpl. lia.
Qed.

Lemma split_nl_END : split_nl (B "END") = [B "END"].
Proof. reflexivity. Qed.

Lemma hdr_text_ok_clean d : hdr_text_ok d = true -> clean d = true.
Proof. intro T. unfold hdr_text_ok in T. apply andb_true_iff in T. apply T. Qed.

Lemma no_end_line d : hdr_text_ok d = true -> ~ In (B "END") (split_nl d).
Proof.
  intros H I. unfold hdr_text_ok in H. apply andb_true_iff in H as [_ H].
  rewrite forallb_forall in H. specialize (H _ I). rewrite bytes_eqb_refl in H. discriminate.
Qed.

(* the stretch scanned before the END line: size line, newline, dict text, newline *)
Definition before_end (n : Z) (d : list byte) : list byte := size_line n ++ nl :: d ++ [nl].

Lemma mk_header_split n d : mk_header n d = before_end n d ++ B "END" ++ [nl; nl].
Proof. unfold mk_header, before_end. rewrite <- !app_assoc. simpl. rewrite <- app_assoc. reflexivity. Qed.

Lemma before_end_clean n d : clean d = true -> clean (before_end n d) = true.
Proof.
  intro C. unfold before_end. rewrite clean_app, size_line_clean.
  change (nl :: d ++ [nl]) with ([nl] ++ d ++ [nl]). rewrite !clean_app, C. reflexivity.
Qed.

Lemma before_end_no_pat n d : 0 <= n -> hdr_text_ok d = true ->
  forall a1 x a2 u, before_end n d = a1 ++ x :: a2 -> z5 ++ a1 ++ [x] <> u ++ pat.
Proof.
  intros H T a1 x a2 u E X.
  assert (S : z5 ++ before_end n d = u ++ nl :: (B "END" ++ nl :: a2)).
  { rewrite E. transitivity ((z5 ++ a1 ++ [x]) ++ a2).
    - simpl. rewrite <- app_assoc. reflexivity.
    - rewrite X. unfold pat. rewrite <- app_assoc. reflexivity. }
  apply (f_equal split_nl) in S. unfold split_nl in S.
  rewrite split_on_app, split_on_app in S.
  unfold before_end in S. rewrite app_assoc in S. rewrite split_on_app, split_on_app in S.
  rewrite (split_nl_END : split_on nl (B "END") = _) in S.
  rewrite (split_on_nosep nl (z5 ++ size_line n)) in S.
  2:{ intro I. apply in_app_or in I as [I|I].
      - simpl in I. repeat (destruct I as [I|I]; [discriminate|]). exact I.
      - exact (size_line_no_nl n I). }
  assert (I : In (B "END") ([z5 ++ size_line n] ++ split_on nl d ++ split_on nl [])).
  { rewrite S. apply in_or_app. right. left. reflexivity. }
  apply in_app_or in I as [I|I].
  - destruct I as [I|[]]. discriminate.
  - apply in_app_or in I as [I|I].
    + exact (no_end_line d T I).
    + simpl in I. destruct I as [I|[]]. discriminate.
Qed.

Lemma window_ends_nl (junk : list byte) q a b c d e :
  q ++ [nl] = junk ++ [a; b; c; d; e] -> e = nl.
Proof.
  intro H. change [a; b; c; d; e] with ([a; b; c; d] ++ [e]) in H. rewrite app_assoc in H.
  apply app_inj_tail in H. symmetry. apply H.
Qed.

Lemma is_end_last a b c d e : e <> nl -> is_end (a, b, c, d, e) = false.
Proof.
  intro H. unfold is_end. apply bytes_eqb_neq. intro X. unfold wl, pat in X. simpl in X.
  inversion X. congruence.
Qed.

Lemma scan_tail a b c e cnt data :
  scan_loop (a, b, c, e, nl) cnt ("E"%byte :: "N"%byte :: "D"%byte :: nl :: nl :: data) = Ok (cnt + 4)%nat.
Proof.
  cbn [scan_loop shift].
  change (byte_eqb "E" xff) with false. change (byte_eqb "N" xff) with false.
  change (byte_eqb "D" xff) with false. change (byte_eqb nl xff) with false. cbv iota.
  rewrite !is_end_last by discriminate.
  change (is_end (nl, "E"%byte, "N"%byte, "D"%byte, nl)) with true. cbv iota. f_equal. lia.
Qed.

(* The scanner stops exactly at the newline that ends the END line. *)
Lemma scan_loop_header n d data : 0 <= n -> hdr_text_ok d = true ->
  scan_loop w0 0 (mk_header n d ++ data) = Ok (length (before_end n d) + 4)%nat.
Proof.
  intros H T.
  pose proof (hdr_text_ok_clean d T) as C.
  rewrite mk_header_split, <- app_assoc.
  destruct (scan_loop_run (before_end n d) ((B "END" ++ [nl; nl]) ++ data) w0 0%nat [] [] eq_refl)
    as [w' [junk' [E1 E2]]].
  { intros a1 x a2 E. split.
    - apply (clean_not_ff (before_end n d)); [apply before_end_clean; exact C|].
      rewrite E. apply in_or_app. right. left. reflexivity.
    - intro u. exact (before_end_no_pat n d H T a1 x a2 u E). }
  rewrite E2. destruct w' as [[[[a b] c] e] g]. cbn [wl] in E1.
  assert (G : g = nl).
  { apply (window_ends_nl junk' (z5 ++ size_line n ++ nl :: d) a b c e g). rewrite <- E1.
    unfold before_end. rewrite <- !app_assoc. reflexivity. }
  subst g. change ((B "END" ++ [nl; nl]) ++ data) with ("E"%byte :: "N"%byte :: "D"%byte :: nl :: nl :: data).
  rewrite scan_tail. f_equal.
Qed.

Lemma mk_header_length n d : length (mk_header n d) = (length (before_end n d) + 5)%nat.
Proof. rewrite mk_header_split, app_length. reflexivity. Qed.

Lemma mk_header_clean n d : 0 <= n -> clean d = true -> clean (mk_header n d) = true.
Proof.
  intros H C. rewrite mk_header_split, clean_app, before_end_clean by exact C. reflexivity.
Qed.

Lemma read_sfile_header_spec n d data : 0 <= n -> hdr_text_ok d = true ->
  read_sfile_header (mk_header n d ++ data) = Ok (mk_header n d, length (mk_header n d)).
Proof.
  intros H T.
  pose proof (hdr_text_ok_clean d T) as C.
  unfold read_sfile_header, blank_extra. rewrite scan_loop_header by assumption. cbn [bind].
  replace (length (before_end n d) + 4 + 1)%nat with (length (mk_header n d))
    by (rewrite mk_header_length; lia).
  replace (length (mk_header n d ++ data) <? length (mk_header n d))%nat with false
    by (rewrite app_length; symmetry; apply Nat.ltb_ge; lia).
  rewrite firstn_app, firstn_all, Nat.sub_diag, firstn_O, app_nil_r.
  rewrite clean_cstr by (apply mk_header_clean; assumption). reflexivity.
Qed.

Lemma split_nl_mk_header n d : 0 <= n ->
  split_nl (mk_header n d) = size_line n :: split_nl d ++ [B "END"; []; []].
Proof.
  intro H. unfold mk_header, split_nl. rewrite split_on_app, split_on_app.
  rewrite (split_on_nosep nl (size_line n)) by apply size_line_no_nl. reflexivity.
Qed.

Lemma parse_header_spec n d : 0 <= n ->
  parse_header (mk_header n d) = Ok (n, join [sp] (split_nl d)).
Proof.
  intro H. unfold parse_header. rewrite split_nl_mk_header by exact H.
  rewrite parse_size_size_line by exact H. cbn [bind]. f_equal. f_equal. f_equal.
  cbn [length]. rewrite app_length. cbn [length].
  replace (S (length (split_nl d) + 3) - 3 - 1)%nat with (length (split_nl d)) by lia.
  rewrite firstn_app, firstn_all, Nat.sub_diag, firstn_O, app_nil_r. reflexivity.
Qed.

Lemma take_rows_concat rs : forall rows extra,
  Forall (fun r => length r = rs) rows ->
  take_rows rs (length rows) (concat rows ++ extra) = Ok rows.
Proof.
  induction rows as [|r t IH]; intros extra H; [reflexivity|].
  inversion H; subst. cbn [length take_rows concat]. rewrite <- app_assoc.
  replace (length (r ++ concat t ++ extra) <? length r)%nat with false
    by (rewrite app_length; symmetry; apply Nat.ltb_ge; lia).
  rewrite skipn_app, skipn_all, Nat.sub_diag, skipn_O. cbn [app].
  rewrite IH by assumption. cbn [bind].
  rewrite firstn_app, firstn_all, Nat.sub_diag, firstn_O, app_nil_r. reflexivity.
Qed.

Lemma concat_length_rows rs : forall rows : list (list byte),
  Forall (fun r => length r = rs) rows -> length (concat rows) = (length rows * rs)%nat.
Proof.
  induction rows as [|r t IH]; intro H; [reflexivity|].
  inversion H; subst. simpl. rewrite app_length, IH by assumption. reflexivity.
Qed.

Lemma row_lengths_nat rs (rows : list (list byte)) :
  Forall (fun r => Z.of_nat (length r) = rs) rows -> Forall (fun r => length r = Z.to_nat rs) rows.
Proof. apply Forall_impl. intros r Hr. lia. Qed.

Lemma concat_length_Z rs (rows : list (list byte)) :
  Forall (fun r => Z.of_nat (length r) = rs) rows -> 0 <= rs ->
  Z.of_nat (length (concat rows)) = Z.of_nat (length rows) * rs.
Proof. intros F R. rewrite (concat_length_rows _ _ (row_lengths_nat _ _ F)). lia. Qed.

Lemma count_nrows_spec (hdr data : list byte) rs k :
  0 < rs -> Z.of_nat (length data) = k * rs ->
  count_nrows (Z.of_nat (length (hdr ++ data))) (Z.of_nat (length hdr)) rs = k.
Proof.
  intros R H. unfold count_nrows. rewrite app_length, Nat2Z.inj_add, Z.add_simpl_l, H.
  apply Z.div_mul. lia.
Qed.

(* the reader seeks past the header: what it does depends on the data region only *)
Lemma recfile_read_app (hdr data : list byte) rs nrows :
  recfile_read (hdr ++ data) (Z.of_nat (length hdr)) rs nrows
  = let n := match nrows with
             | Some n => if n <? 0 then Z.of_nat (length data) / rs else n
             | None => Z.of_nat (length data) / rs
             end in
    if n <? 1 then Err ERuntime else take_rows (Z.to_nat rs) (Z.to_nat n) data.
Proof.
  unfold recfile_read, count_nrows.
  rewrite app_length, Nat2Z.inj_add, Z.add_simpl_l, Nat2Z.id, skipn_app, skipn_all, Nat.sub_diag, skipn_O.
  reflexivity.
Qed.

(* reading the data region written by bin_write, rows counted from the file size or given *)
Lemma recfile_read_spec (hdr : list byte) rows rs (nrows : option Z) :
  0 < rs -> rows <> [] -> Forall (fun r => Z.of_nat (length r) = rs) rows ->
  (nrows = None \/ (exists m, nrows = Some m /\ m < 0) \/ nrows = Some (Z.of_nat (length rows))) ->
  recfile_read (hdr ++ bin_write rows) (Z.of_nat (length hdr)) rs nrows = Ok rows.
Proof.
  intros R NE F HN. rewrite recfile_read_app. unfold bin_write.
  rewrite (concat_length_Z rs rows F), Z.div_mul by lia.
  assert (L : 1 <= Z.of_nat (length rows)) by (destruct rows; [contradiction | simpl; lia]).
  replace (match nrows with Some n => if n <? 0 then Z.of_nat (length rows) else n | None => Z.of_nat (length rows) end)
    with (Z.of_nat (length rows)).
  - cbv zeta. replace (Z.of_nat (length rows) <? 1) with false by lia. rewrite Nat2Z.id.
    rewrite <- (app_nil_r (concat rows)). apply take_rows_concat, row_lengths_nat, F.
  - destruct HN as [-> | [[m [-> Hm]] | ->]]; [reflexivity | | ].
    + replace (m <? 0) with true by lia. reflexivity.
    + replace (Z.of_nat (length rows) <? 0) with false by lia. reflexivity.
Qed.
