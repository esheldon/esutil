(* C01/BigProofs.v — take_rows in closed form (take_rows_fast_eq: one length test, then chunks), hence the fast
   readers of Big.v are the model's readers; every row of a decoded run has the run's row length. *)
From Coq Require Import ZArith List Bool Lia ZifyBool ZifyNat.
From Coq.Strings Require Import Byte.
From EsVerif.Common Require Import Base Bytes.
From EsVerif.C01 Require Import Framing Model Big.
Import ListNotations.
Open Scope Z_scope.
Open Scope list_scope.
Notation length := List.length.

Lemma take_rows_fast_eq rs : forall n f, take_rows rs n f = take_rows_fast rs n f.
Proof.
  induction n as [|n IH]; intro f.
  - unfold take_rows_fast. cbn. reflexivity.
  - cbn [take_rows]. unfold take_rows_fast in *. cbn [chunks].
    destruct (length f <? rs)%nat eqn:E1.
    + replace (length f <? S n * rs)%nat with true by lia. reflexivity.
    + rewrite IH. rewrite skipn_length.
      destruct (length f - rs <? n * rs)%nat eqn:E2.
      * replace (length f <? S n * rs)%nat with true by lia. reflexivity.
      * replace (length f <? S n * rs)%nat with false by lia. reflexivity.
Qed.

(* what the closed form returns when the data are long enough: n rows of rs bytes, the first n * rs bytes *)
Lemma chunks_spec rs : forall n f, (n * rs <= length f)%nat ->
  length (chunks rs n f) = n /\ Forall (fun r => length r = rs) (chunks rs n f)
  /\ concat (chunks rs n f) = firstn (n * rs) f.
Proof.
  induction n as [|n IH]; intros f L; [cbn; repeat split; constructor|].
  cbn [chunks length concat]. destruct (IH (skipn rs f)) as [I1 [I2 I3]]; [rewrite skipn_length; lia|].
  split; [lia|]. split.
  - constructor; [rewrite firstn_length; lia | exact I2].
  - rewrite I3. replace (S n * rs)%nat with (rs + n * rs)%nat by lia.
    rewrite <- (firstn_skipn rs (firstn (rs + n * rs) f)). rewrite firstn_firstn, Nat.min_l by lia. f_equal.
    rewrite skipn_firstn_comm. f_equal. lia.
Qed.

Theorem recfile_read_fast_eq f offset rs nrows :
  recfile_read_fast f offset rs nrows = recfile_read f offset rs nrows.
Proof. unfold recfile_read_fast, recfile_read. rewrite take_rows_fast_eq. reflexivity. Qed.

Theorem sfile_read_c_fast_eq f dt : sfile_read_c_fast f dt = sfile_read_c f dt.
Proof.
  unfold sfile_read_c_fast, sfile_read_c. destruct (sfile_read_raw f) as [[[size dtext] off]|e]; cbn [bind]; [|reflexivity].
  rewrite recfile_read_fast_eq. reflexivity.
Qed.

Theorem recfile_read0_fast_eq f dt nrows : recfile_read0_fast f dt nrows = recfile_read0 f dt nrows.
Proof. unfold recfile_read0_fast, recfile_read0. apply recfile_read_fast_eq. Qed.

(* every row of a run has the length of its first row's digit list (when the step has it too) *)
Lemma add_carry_length : forall a b c, length a = length b -> length (add_carry a b c) = length a.
Proof.
  induction a as [|x ta IH]; intros [|y tb] c H; cbn in *; try reflexivity; try discriminate.
  destruct (x + y + c <? 256); cbn; rewrite IH by lia; reflexivity.
Qed.

Lemma ap_run_rows n : forall cur step, length cur = length step ->
  Forall (fun r => length r = length cur) (ap_run n cur step).
Proof.
  induction n as [|n IH]; intros cur step H; cbn [ap_run]; constructor.
  - unfold row_of. apply map_length.
  - specialize (IH (add_carry cur step 0) step). rewrite add_carry_length in IH by exact H.
    apply IH. exact H.
Qed.

Lemma ap_run_count n : forall cur step, length (ap_run n cur step) = n.
Proof. induction n as [|n IH]; intros; cbn; [reflexivity | rewrite IH; reflexivity]. Qed.
