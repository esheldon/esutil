(* C01/FrameProofs.v — frame conditions and independence of history for the model. *)
From Coq Require Import ZArith List Bool Lia ZifyBool ZifyNat.
From Coq.Strings Require Import Byte String.
From EsVerif.Common Require Import Base Bytes.
From EsVerif.C01 Require Import Framing FramingProofs Frame.
Import ListNotations.
Open Scope Z_scope.
Open Scope list_scope.
Notation length := List.length.

(* reads change no file *)
Theorem read_frame s o : writes o = None -> fst (step s o) = s.
Proof. destruct o; cbn [writes step fst]; intro H; try discriminate H; reflexivity. Qed.

(* a write changes exactly the file it names *)
Theorem write_frame s o p q : writes o = Some p -> q <> p -> fst (step s o) q = s q.
Proof.
  intros W N. assert (S : forall f, fs_set s p f q = s q).
  { intro f. unfold fs_set. destruct (Nat.eqb_spec q p); [contradiction | reflexivity]. }
  destruct o; cbn [writes] in W; try discriminate W; injection W as ->; cbn [step fst]; apply S.
Qed.

(* operations that do not write p leave p's file alone, however many there are *)
Theorem run_frame ops : forall s p, forallb (fun o => negb (touches p o)) ops = true -> run s ops p = s p.
Proof.
  induction ops as [|o t IH]; intros s p H; [reflexivity|].
  cbn [forallb] in H. apply andb_true_iff in H as [H1 H2]. cbn [run]. rewrite IH by exact H2.
  unfold touches in H1. destruct (writes o) as [q|] eqn:W.
  - apply (write_frame s o q p W). apply negb_true_iff in H1. intro X. subst. rewrite Nat.eqb_refl in H1. discriminate.
  - rewrite read_frame by exact W. reflexivity.
Qed.

(* a file written under p is still there after any traffic that does not write p *)
Lemma written_stays s p f ops : forallb (fun o => negb (touches p o)) ops = true ->
  run (fs_set s p f) ops p = Some f.
Proof. intro H. rewrite run_frame by exact H. unfold fs_set. rewrite Nat.eqb_refl. reflexivity. Qed.

(* history does not matter: whatever ran before, and whatever ran in between as long as it did not
   write p, a read of p after a write of p answers exactly as the same write + read alone *)
Theorem history_independent before between p hdr dt rows :
  forallb (fun o => negb (touches p o)) between = true ->
  forall s0,
  snd (step (run (fst (step (run s0 before) (WriteSelf p hdr dt rows))) between) (ReadSelf p))
  = snd (step (fst (step fs_empty (WriteSelf p hdr dt rows))) (ReadSelf p)).
Proof.
  intros H s0. cbn [step fst snd]. rewrite written_stays by exact H.
  unfold fs_set. rewrite Nat.eqb_refl. reflexivity.
Qed.

Lemma overwrite_app (p q r : list byte) : length p = length q -> overwrite p (q ++ r) = p ++ r.
Proof. intro L. unfold overwrite. rewrite L, skipn_app, skipn_all, Nat.sub_diag, skipn_O. reflexivity. Qed.

(* the first 28 bytes of a file are the size line and its newline; the rest does not depend on the count *)
Lemma file_shape n d data : 0 <= n < 10 ^ 20 ->
  mk_header n d ++ data = (size_line n ++ [nl]) ++ d ++ nl :: B "END" ++ nl :: nl :: data
  /\ length (size_line n ++ [nl]) = 28%nat.
Proof.
  intro H. split.
  - unfold mk_header. rewrite <- !app_assoc. cbn [app]. rewrite <- app_assoc. reflexivity.
  - rewrite app_length, size_line_length by exact H. reflexivity.
Qed.

(* the update rewrites the first line and leaves every other byte of the file — the rest of the
   header and all rows — as it is; the result is the file a fresh write with the new count has *)
Theorem size_update_frame m n d data : 0 <= m < 10 ^ 20 -> 0 <= n < 10 ^ 20 ->
  size_update (mk_header m d ++ data) n = mk_header n d ++ data
  /\ length (size_update (mk_header m d ++ data) n) = length (mk_header m d ++ data)
  /\ skipn 28 (size_update (mk_header m d ++ data) n) = skipn 28 (mk_header m d ++ data).
Proof.
  intros Hm Hn. destruct (file_shape m d data Hm) as [Em Lm]. destruct (file_shape n d data Hn) as [En Ln].
  set (hm := size_line m ++ [nl]) in *. set (hn := size_line n ++ [nl]) in *.
  assert (E : size_update (mk_header m d ++ data) n = mk_header n d ++ data).
  { unfold size_update. rewrite Em, En. apply overwrite_app. congruence. }
  rewrite E, Em, En. split; [reflexivity|]. split.
  - rewrite !app_length, Lm, Ln. reflexivity.
  - rewrite <- Ln at 1. rewrite <- Lm. rewrite !skipn_app, !skipn_all, !Nat.sub_diag. reflexivity.
Qed.
