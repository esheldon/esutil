(* C01/PyvalProofs.v — parse (print v) = v for the header-value model, and what the printed text
   looks like (one line, no NUL / 0xFF byte). *)
From Coq Require Import ZArith List Bool Lia ZifyBool ZifyNat.
From Coq.Strings Require Import Byte String.
From EsVerif.Common Require Import Base Bytes.
From EsVerif.C01 Require Import Framing FramingProofs Pyval.
Import ListNotations.
Open Scope Z_scope.
Open Scope list_scope.
Notation length := List.length.

(* the local fixpoints of print_toks and wf are print_seq, print_items, forallb wf, wf_items *)
Lemma print_seq_fix close l :
  (fix ps (l : list pv) : list tok := match l with [] => [close] | v :: t => print_toks v ++ TComma :: ps t end) l
  = print_seq l close.
Proof. induction l as [|v t IH]; [reflexivity|]. cbn [print_seq]. rewrite <- IH. reflexivity. Qed.

Lemma print_list l : print_toks (PList l) = TLB :: print_seq l TRB.
Proof. cbn [print_toks]. rewrite print_seq_fix. reflexivity. Qed.
Lemma print_tuple l : print_toks (PTuple l) = TLP :: print_seq l TRP.
Proof. cbn [print_toks]. rewrite print_seq_fix. reflexivity. Qed.
Lemma print_dict l : print_toks (PDict l) = TLC :: print_items l.
Proof. cbn [print_toks]. apply f_equal. induction l as [|[k v] t IH]; [reflexivity|]. cbn [print_items]. rewrite <- IH. reflexivity. Qed.

Lemma wf_seq_fix l :
  (fix wl (l : list pv) : bool := match l with [] => true | v :: t => wf v && wl t end) l = forallb wf l.
Proof. induction l as [|v t IH]; [reflexivity|]. cbn [forallb]. rewrite <- IH. reflexivity. Qed.

Lemma wf_list l : wf (PList l) = forallb wf l.
Proof. cbn [wf]. apply wf_seq_fix. Qed.
Lemma wf_tuple l : wf (PTuple l) = forallb wf l.
Proof. cbn [wf]. apply wf_seq_fix. Qed.
Lemma wf_dict l : wf (PDict l) = wf_items l.
Proof.
  cbn [wf]. unfold wf_items. induction l as [|[k v] t IH]; [reflexivity|]. cbn [forallb fst snd]. rewrite <- IH. reflexivity.
Qed.

Section PvInd.
  Variable P : pv -> Prop.
  Hypothesis Hint : forall z, P (PInt z).
  Hypothesis Hfloat : forall t, P (PFloat t).
  Hypothesis Hnone : P PNone.
  Hypothesis Hbool : forall b, P (PBool b).
  Hypothesis Hstr : forall s, P (PStr s).
  Hypothesis Hbytes : forall s, P (PBytes s).
  Hypothesis Hlist : forall l, Forall P l -> P (PList l).
  Hypothesis Htuple : forall l, Forall P l -> P (PTuple l).
  Hypothesis Hdict : forall l, Forall (fun kv => P (snd kv)) l -> P (PDict l).
  Fixpoint pv_induct (v : pv) : P v :=
    match v with
    | PInt z => Hint z | PFloat t => Hfloat t | PNone => Hnone | PBool b => Hbool b
    | PStr s => Hstr s | PBytes s => Hbytes s
    | PList l => Hlist l ((fix go (l : list pv) : Forall P l :=
                             match l with [] => Forall_nil P | v :: t => Forall_cons v (pv_induct v) (go t) end) l)
    | PTuple l => Htuple l ((fix go (l : list pv) : Forall P l :=
                               match l with [] => Forall_nil P | v :: t => Forall_cons v (pv_induct v) (go t) end) l)
    | PDict l => Hdict l ((fix go (l : list (list byte * pv)) : Forall (fun kv => P (snd kv)) l :=
                             match l with
                             | [] => Forall_nil _
                             | kv :: t => Forall_cons kv (pv_induct (snd kv)) (go t)
                             end) l)
    end.
End PvInd.

Lemma read_digits_dec n : 0 <= n -> read_digits 0 (dec n) = (n, []).
Proof. intro H. destruct (dec_spec n H) as [_ [F V]]. rewrite read_digits_all by exact F. rewrite V. reflexivity. Qed.

Lemma all_digits_dec n : 0 <= n -> all_digits (dec n) = true.
Proof.
  intro H. destruct (dec_spec n H) as [N [F _]]. unfold all_digits. destruct (dec n) as [|b t]; [contradiction|].
  apply forallb_forall. intros x I. rewrite Forall_forall in F. exact (F x I).
Qed.

Lemma dec_head_not_minus n : 0 <= n -> forall c t, dec n = c :: t -> byte_eqb c minus = false.
Proof.
  intros H c t E. destruct (dec_spec n H) as [_ [F _]]. rewrite E in F. inversion F as [|x y Dx _]; subst.
  destruct (byte_eqb c minus) eqn:X; [|reflexivity]. apply byte_eqb_eq in X. subst c. discriminate Dx.
Qed.

Lemma num_val_int z : num_val (int_text z) = PInt z.
Proof.
  unfold int_text. destruct (z <? 0) eqn:E.
  - unfold num_val. rewrite byte_eqb_refl, all_digits_dec by lia. cbn [andb].
    rewrite read_digits_dec by lia. cbn [fst]. f_equal. lia.
  - assert (H : 0 <= z) by lia. unfold num_val. destruct (dec z) as [|c t] eqn:D.
    + destruct (dec_spec z H) as [N _]. contradiction.
    + rewrite (dec_head_not_minus z H c t D). cbn [andb]. rewrite <- D, all_digits_dec by exact H.
      rewrite read_digits_dec by exact H. reflexivity.
Qed.

Lemma num_val_float t : float_tok t = true -> num_val t = PFloat t.
Proof.
  unfold float_tok, num_val. destruct t as [|c r]; [discriminate|]. intro H.
  (* of the four conjuncts of float_tok the last two say: not the syntax of an int *)
  apply andb_true_iff in H as [H Nneg]. apply andb_true_iff in H as [_ Npos].
  cbn [tl] in Nneg. apply negb_true_iff in Nneg, Npos. rewrite Nneg, Npos. reflexivity.
Qed.

Definition follow_ok (ts : list tok) : Prop :=
  match ts with TStr _ :: _ | TBytes _ :: _ => False | _ => True end.

Lemma absorb_str_stop s ts : follow_ok ts -> absorb_str s ts = (s, ts).
Proof. destruct ts as [|[] r]; cbn; intro H; try reflexivity; contradiction. Qed.
Lemma absorb_bytes_stop s ts : follow_ok ts -> absorb_bytes s ts = (s, ts).
Proof. destruct ts as [|[] r]; cbn; intro H; try reflexivity; contradiction. Qed.

(* a printed value starts with a token that closes nothing *)
Lemma print_head v : exists c r, print_toks v = c :: r /\ forall close, tok_is close c = false.
Proof.
  destruct v as [z|t| |[|]|s|s|l|l|l]; rewrite ?print_list, ?print_tuple, ?print_dict;
    eexists; eexists; (split; [reflexivity | intros []; reflexivity]).
Qed.

(* one element of a sequence, one item of a dict *)
Lemma parse_seq_cons f c r close v r2 l b r3 :
  tok_is close c = false -> parse_val f (c :: r) = Some (v, TComma :: r2) ->
  parse_seq f r2 close = Some (l, b, r3) ->
  parse_seq (S f) (c :: r) close = Some (v :: l, true, r3).
Proof. intros H1 H2 H3. cbn [parse_seq]. rewrite H1, H2, H3. reflexivity. Qed.

Lemma parse_dict_cons f k r v r2 l r3 :
  parse_val f r = Some (v, TComma :: r2) -> parse_dict f r2 = Some (l, r3) ->
  parse_dict (S f) (TStr k :: TColon :: r) = Some ((k, v) :: l, r3).
Proof. intros H2 H3. cbn [parse_dict absorb_str]. rewrite H2, H3. reflexivity. Qed.

(* fuel is counted in tokens: [parse_toks] supplies one more than the text has *)
Definition Pval (v : pv) : Prop :=
  wf v = true -> forall f rest, (length (print_toks v) <= S f)%nat -> follow_ok rest ->
  parse_val (S f) (print_toks v ++ rest) = Some (v, rest).

Lemma parse_seq_print close : tok_is close close = true ->
  forall l, Forall Pval l -> forallb wf l = true ->
  forall fuel rest, (length (print_seq l close) <= fuel)%nat ->
  parse_seq fuel (print_seq l close ++ rest) close = Some (l, negb (match l with [] => true | _ => false end), rest).
Proof.
  intros C l F. induction F as [|v t Hv _ IH]; intros W fuel rest N.
  - destruct fuel as [|f]; [cbn in N; lia|]. cbn [print_seq app parse_seq]. rewrite C. reflexivity.
  - cbn [forallb] in W. apply andb_true_iff in W as [Wv Wt].
    cbn [print_seq] in *. rewrite app_length in N. rewrite <- app_assoc. cbn [app length] in *.
    specialize (Hv Wv). destruct (print_head v) as [c [r [E O]]]. rewrite E in *. cbn [app length] in *.
    (* lia is dear under the induction hypotheses: it gets N alone *)
    destruct fuel as [|[|f]]; [clear - N; lia | clear - N; lia |].
    eapply parse_seq_cons; [apply O | apply Hv; [clear - N; lia | exact I] | apply IH; [exact Wt | clear - N; lia]].
Qed.

Lemma parse_dict_print : forall l, Forall (fun kv => Pval (snd kv)) l -> wf_items l = true ->
  forall fuel rest, (length (print_items l) <= fuel)%nat ->
  parse_dict fuel (print_items l ++ rest) = Some (l, rest).
Proof.
  intros l F. induction F as [|[k v] t Hv _ IH]; intros W fuel rest N.
  - destruct fuel as [|f]; [cbn in N; lia | reflexivity].
  - unfold wf_items in W. cbn [forallb fst snd] in W, Hv. apply andb_true_iff in W as [Wkv Wt].
    apply andb_true_iff in Wkv as [_ Wv].
    cbn [print_items] in *. cbn [length] in N. rewrite app_length in N. cbn [app length] in *. rewrite <- app_assoc. cbn [app].
    destruct fuel as [|[|f]]; [clear - N; lia | clear - N; lia |].
    eapply parse_dict_cons; [apply Hv; [exact Wv | clear - N; lia | exact I] | apply IH; [exact Wt | clear - N; lia]].
Qed.

Lemma parse_val_print v : Pval v.
Proof.
  induction v as [z|t| |b|s|s|l IH|l IH|l IH] using pv_induct; unfold Pval; intros W f rest N Fo.
  - cbn [print_toks app parse_val]. rewrite num_val_int. reflexivity.
  - cbn [print_toks app parse_val]. cbn [wf] in W. rewrite num_val_float by exact W. reflexivity.
  - reflexivity.
  - destruct b; reflexivity.
  - cbn [print_toks app parse_val]. rewrite absorb_str_stop by exact Fo. reflexivity.
  - cbn [print_toks app parse_val]. rewrite absorb_bytes_stop by exact Fo. reflexivity.
  - rewrite print_list in *. rewrite wf_list in W. cbn [app parse_val length] in *.
    rewrite (parse_seq_print TRB eq_refl l IH W f rest) by lia. reflexivity.
  - rewrite print_tuple in *. rewrite wf_tuple in W. cbn [app parse_val length] in *.
    rewrite (parse_seq_print TRP eq_refl l IH W f rest) by lia.
    destruct l as [|v [|v2 t]]; reflexivity.
  - rewrite print_dict in *. rewrite wf_dict in W. cbn [app parse_val length] in *.
    rewrite (parse_dict_print l IH W f rest) by lia. reflexivity.
Qed.

Theorem parse_toks_print v : wf v = true -> parse_toks (print_toks v) = Some v.
Proof.
  intro W. unfold parse_toks. rewrite <- (app_nil_r (print_toks v)) at 2.
  rewrite (parse_val_print v W _ [] (Nat.le_succ_diag_r _) I). reflexivity.
Qed.

(* a byte that may stand in the one-line header text: not NUL, not 0xFF, not a newline *)
Definition okb (b : byte) : bool := clean_b b && negb (byte_eqb b nl).

Lemma okb_bZ b : okb b = negb ((bZ b =? 0) || (bZ b =? 255) || (bZ b =? 10)).
Proof.
  unfold okb, clean_b. rewrite !byte_eqb_bZ.
  change (bZ x00) with 0. change (bZ xff) with 255. change (bZ nl) with 10. lia.
Qed.

Lemma hexd_spec n : 0 <= n < 16 -> hexv (hexd n) = Some n /\ okb (hexd n) = true.
Proof.
  intro H. rewrite okb_bZ. unfold hexv, hexd.
  destruct (n <? 10) eqn:E; rewrite bZ_Zb by lia.
  - replace ((48 <=? 48 + n) && (48 + n <=? 57)) with true by lia. split; [f_equal|]; lia.
  - replace ((48 <=? 87 + n) && (87 + n <=? 57)) with false by lia.
    replace ((97 <=? 87 + n) && (87 + n <=? 102)) with true by lia. split; [f_equal|]; lia.
Qed.

Lemma nibbles z : 0 <= z < 256 -> 0 <= z / 16 < 16 /\ 0 <= z mod 16 < 16.
Proof. intro H. pose proof (Z.div_mod z 16). pose proof (Z.mod_pos_bound z 16). lia. Qed.

Lemma hex2_hexd z : 0 <= z < 256 -> hex2 (hexd (z / 16)) (hexd (z mod 16)) = Some z.
Proof.
  intro H. destruct (nibbles z H) as [Hq Hr]. unfold hex2.
  destruct (hexd_spec _ Hq) as [-> _]. destruct (hexd_spec _ Hr) as [-> _].
  f_equal. pose proof (Z.div_mod z 16). lia.
Qed.

Lemma read_lit_plain bm q c r : byte_eqb c q = false -> byte_eqb c bslash = false ->
  read_lit bm q (c :: r) = pre [c] (read_lit bm q r).
Proof. intros H1 H2. cbn [read_lit]. rewrite H1, H2. reflexivity. Qed.

Lemma read_lit_hex bm h1 h2 v r : hex2 h1 h2 = Some v ->
  read_lit bm q1 (bslash :: "x"%byte :: h1 :: h2 :: r) = pre (code bm v) (read_lit bm q1 r).
Proof. intro H. cbn [read_lit]. rewrite H. reflexivity. Qed.

(* the bytes [esc_byte] writes as \xHH; in a str literal they are below 128, where UTF-8 is the identity *)
Definition hex_escaped (bm : bool) (z : Z) : bool := (z <? 32) || (z =? 127) || (bm && (128 <=? z)).

Lemma code_byte bm b : hex_escaped bm (bZ b) = true -> code bm (bZ b) = [b].
Proof.
  unfold hex_escaped, code, utf8. intro H.
  destruct bm; [|replace (bZ b <? 128) with true by lia]; rewrite Zb_bZ; reflexivity.
Qed.

Lemma read_lit_esc_byte bm b tail :
  read_lit bm q1 (esc_byte bm b ++ tail) = pre [b] (read_lit bm q1 tail).
Proof.
  unfold esc_byte.
  destruct (byte_eqb b bslash) eqn:E1; [apply byte_eqb_eq in E1; subst b; reflexivity|].
  destruct (byte_eqb b q1) eqn:E2; [apply byte_eqb_eq in E2; subst b; reflexivity|].
  destruct (byte_eqb b nl) eqn:E3; [apply byte_eqb_eq in E3; subst b; reflexivity|].
  fold (hex_escaped bm (bZ b)). destruct (hex_escaped bm (bZ b)) eqn:E4.
  - cbn [app]. rewrite (read_lit_hex bm _ _ (bZ b)) by (apply hex2_hexd, bZ_range).
    rewrite code_byte by exact E4. reflexivity.
  - apply read_lit_plain; assumption.
Qed.

Lemma read_lit_esc bm s rest : read_lit bm q1 (esc bm s ++ q1 :: rest) = Some (s, rest).
Proof.
  induction s as [|b t IH]; [reflexivity|].
  unfold esc in *. cbn [flat_map]. rewrite <- app_assoc, read_lit_esc_byte, IH. reflexivity.
Qed.

(* every byte of an escaped literal may stand in the header text (0xFF itself is not escaped in a str) *)
Lemma esc_byte_ok bm b : bm || negb (byte_eqb b xff) = true -> forallb okb (esc_byte bm b) = true.
Proof.
  intro H. unfold esc_byte.
  destruct (byte_eqb b bslash); [reflexivity|]. destruct (byte_eqb b q1); [reflexivity|].
  destruct (byte_eqb b nl) eqn:E3; [reflexivity|].
  destruct (_ || _ || _) eqn:E4; cbn [forallb].
  - destruct (nibbles _ (bZ_range b)) as [Hq Hr].
    destruct (hexd_spec _ Hq) as [_ ->]. destruct (hexd_spec _ Hr) as [_ ->]. reflexivity.
  - rewrite okb_bZ. rewrite byte_eqb_bZ in H, E3. change (bZ xff) with 255 in H. change (bZ nl) with 10 in E3. lia.
Qed.

Definition num_tok (t : list byte) : bool :=
  match t with c :: _ => num_start c && forallb num_char t | [] => false end.
Definition tok_ok (t : tok) : Prop :=
  match t with
  | TNum t => num_tok t = true
  | TName n => n = B "None" \/ n = B "True" \/ n = B "False"
  | TStr s => no_ff s = true
  | _ => True
  end.

Lemma digit_num_char c : is_digit c = true -> num_char c = true.
Proof. intro H. unfold num_char, num_start. rewrite H. reflexivity. Qed.

Lemma num_tok_digits l : all_digits l = true -> num_tok l = true.
Proof.
  unfold all_digits, num_tok. destruct l as [|c r]; [discriminate|]. intro H.
  assert (F : forall x, In x (c :: r) -> is_digit x = true) by (apply forallb_forall; exact H).
  apply andb_true_iff. split.
  - unfold num_start. rewrite (F c (or_introl eq_refl)). reflexivity.
  - apply forallb_forall. intros x I. apply digit_num_char. exact (F x I).
Qed.

Lemma num_tok_int z : num_tok (int_text z) = true.
Proof.
  unfold int_text. destruct (z <? 0) eqn:E.
  - assert (D := all_digits_dec (- z) ltac:(lia)). apply num_tok_digits in D.
    unfold num_tok in *. destruct (dec (- z)) as [|c r] eqn:X; [discriminate|].
    apply andb_true_iff in D as [_ D].
    change (num_start minus && (num_char minus && forallb num_char (c :: r)) = true). rewrite D. reflexivity.
  - apply num_tok_digits, all_digits_dec. lia.
Qed.

Lemma num_tok_float t : float_tok t = true -> num_tok t = true.
Proof.
  unfold float_tok, num_tok. destruct t as [|c r]; [discriminate|]. intro H.
  repeat (let X := fresh "X" in apply andb_true_iff in H as [H X]). rewrite H, X1. reflexivity.
Qed.

Lemma print_seq_ok close l : tok_ok close ->
  Forall (fun v => wf v = true -> Forall tok_ok (print_toks v)) l -> forallb wf l = true ->
  Forall tok_ok (print_seq l close).
Proof.
  intros C F. induction F as [|v t Hv _ IH]; intro W; cbn [print_seq]; [repeat constructor; exact C|].
  cbn [forallb] in W. apply andb_true_iff in W as [Wv Wt].
  apply Forall_app. split; [auto | constructor; [exact I | auto]].
Qed.

Lemma print_toks_ok v : wf v = true -> Forall tok_ok (print_toks v).
Proof.
  induction v as [z|t| |b|s|s|l IH|l IH|l IH] using pv_induct; intro W.
  - repeat constructor. apply num_tok_int.
  - repeat constructor. apply num_tok_float. exact W.
  - constructor; [cbn; auto | constructor].
  - destruct b; (constructor; [cbn; auto | constructor]).
  - constructor; [exact W | constructor].
  - constructor; [exact I | constructor].
  - rewrite print_list. rewrite wf_list in W. constructor; [exact I | apply print_seq_ok; [exact I | exact IH | exact W]].
  - rewrite print_tuple. rewrite wf_tuple in W. constructor; [exact I | apply print_seq_ok; [exact I | exact IH | exact W]].
  - rewrite print_dict. rewrite wf_dict in W. constructor; [exact I|].
    induction IH as [|[k v] t Hv _ IHt]; [repeat constructor|].
    unfold wf_items in W. cbn [forallb fst snd] in W. apply andb_true_iff in W as [Wkv Wt].
    apply andb_true_iff in Wkv as [Wk Wv]. cbn [print_items snd] in *.
    constructor; [exact Wk|]. constructor; [exact I|].
    apply Forall_app. split; [auto | constructor; [exact I | auto]].
Qed.

(* a byte that starts a number is no blank, no bracket, no quote and not the prefix b *)
Lemma num_start_dispatch c : num_start c = true ->
  is_blank c = false /\ punct c = None /\ is_quote c = false /\ byte_eqb c "b"%byte = false.
Proof.
  unfold num_start, is_digit, is_blank, punct, is_quote. rewrite !byte_eqb_bZ.
  (* c is seen through its number z only; the other bytes are literals, whose numbers are evaluated *)
  generalize (bZ c). intro z. cbv [bZ Byte.to_N Z.of_N minus sp nl q1 q2]. intro H.
  repeat split; try lia.
  (* punct: none of its eight comparisons holds *)
  repeat match goal with |- context [if z =? ?k then _ else _] => replace (z =? k) with false by lia end. reflexivity.
Qed.

Lemma span_all p t c rest : forallb p t = true -> p c = false -> span p (t ++ c :: rest) = (t, c :: rest).
Proof.
  intros H Hc. induction t as [|x r IH]; cbn [app span].
  - rewrite Hc. reflexivity.
  - cbn [forallb] in H. apply andb_true_iff in H as [Hx Hr]. rewrite Hx, (IH Hr). reflexivity.
Qed.

Lemma lex_blank f rest : lex (S f) (sp :: rest) = lex f rest.
Proof. reflexivity. Qed.

Lemma lex_tok t f rest : tok_ok t ->
  lex (S (S f)) (tok_text t ++ sp :: rest) = consT t (lex f rest).
Proof.
  intro K. destruct t as [| | | | | | | |s|s|n|n]; try reflexivity.
  - (* TStr *) cbn [tok_text app]. rewrite <- app_assoc. cbn [app lex]. rewrite read_lit_esc. reflexivity.
  - (* TBytes *) cbn [tok_text app]. rewrite <- app_assoc. cbn [app lex]. rewrite read_lit_esc. reflexivity.
  - (* TNum *) cbn [tok_text tok_ok] in *. unfold num_tok in K. destruct n as [|c r]; [discriminate|].
    apply andb_true_iff in K as [K1 K2]. destruct (num_start_dispatch c K1) as [D1 [D2 [D3 D4]]].
    cbn [app]. cbn [lex]. rewrite D1, D2, D3, D4, K1. cbn [andb].
    change (c :: r ++ sp :: rest) with ((c :: r) ++ sp :: rest).
    rewrite (span_all num_char (c :: r) sp rest K2 eq_refl). reflexivity.
  - (* TName *) cbn [tok_ok] in K. destruct K as [-> | [-> | ->]]; reflexivity.
Qed.

Lemma tok_text_nonempty t : tok_ok t -> (1 <= length (tok_text t))%nat.
Proof.
  destruct t as [| | | | | | | |s|s|n|n]; cbn; intro K; try lia.
  - unfold num_tok in K. destruct n; [discriminate | cbn; lia].
  - destruct K as [-> | [-> | ->]]; cbn; lia.
Qed.

Lemma unlex_cons t ts : unlex (t :: ts) = tok_text t ++ sp :: unlex ts.
Proof. unfold unlex. cbn [flat_map]. rewrite <- app_assoc. reflexivity. Qed.

Lemma lex_unlex ts : Forall tok_ok ts -> forall fuel, (length (unlex ts) < fuel)%nat -> lex fuel (unlex ts) = Some ts.
Proof.
  intro F. induction F as [|t r Ht _ IH]; intros fuel N.
  - destruct fuel; [lia | reflexivity].
  - rewrite unlex_cons in *. rewrite app_length in N. cbn [length] in N.
    pose proof (tok_text_nonempty t Ht).
    destruct fuel as [|[|f]]; try lia.
    rewrite lex_tok by exact Ht. rewrite IH by lia. reflexivity.
Qed.

Theorem pv_parse_print v : wf v = true -> pv_parse (pv_print v) = Some v.
Proof.
  intro W. unfold pv_parse, pv_print.
  rewrite lex_unlex by (try apply print_toks_ok; try exact W; lia).
  apply parse_toks_print. exact W.
Qed.

Corollary pv_print_inj a b : wf a = true -> wf b = true -> pv_print a = pv_print b -> a = b.
Proof.
  intros Wa Wb E. apply (f_equal pv_parse) in E. rewrite !pv_parse_print in E by assumption. congruence.
Qed.

Lemma num_char_ok c : num_char c = true -> okb c = true.
Proof.
  rewrite okb_bZ. unfold num_char, num_start, is_digit. rewrite !byte_eqb_bZ.
  generalize (bZ c). intro z. cbv [bZ Byte.to_N Z.of_N minus]. lia.
Qed.

Lemma forallb_flat_map {A B} (p : B -> bool) (f : A -> list B) l :
  (forall x, In x l -> forallb p (f x) = true) -> forallb p (flat_map f l) = true.
Proof.
  induction l as [|x t IH]; intro H; [reflexivity|].
  cbn [flat_map]. rewrite forallb_app, (H x (or_introl eq_refl)), IH; [reflexivity|].
  intros y I. apply H. right. exact I.
Qed.

Lemma tok_text_ok t : tok_ok t -> forallb okb (tok_text t ++ [sp]) = true.
Proof.
  destruct t as [| | | | | | | |s|s|n|n]; intro K; try reflexivity.
  - cbn [tok_text tok_ok] in *. cbn [app forallb]. rewrite <- app_assoc, forallb_app.
    replace (okb q1) with true by reflexivity. cbn [andb].
    unfold esc. rewrite forallb_flat_map; [reflexivity|].
    intros b I. apply esc_byte_ok. unfold no_ff in K. rewrite forallb_forall in K. exact (K b I).
  - cbn [tok_text]. cbn [app forallb]. rewrite <- app_assoc, forallb_app.
    replace (okb "b"%byte) with true by reflexivity. replace (okb q1) with true by reflexivity. cbn [andb].
    unfold esc. rewrite forallb_flat_map; [reflexivity|]. intros b _. apply esc_byte_ok. reflexivity.
  - cbn [tok_text tok_ok] in *. rewrite forallb_app. unfold num_tok in K. destruct n as [|c r]; [discriminate|].
    apply andb_true_iff in K as [_ K]. apply andb_true_iff. split; [|reflexivity].
    apply forallb_forall. intros x I. apply num_char_ok. rewrite forallb_forall in K. exact (K x I).
  - cbn [tok_ok] in K. destruct K as [-> | [-> | ->]]; reflexivity.
Qed.

(* the printed value is one line without NUL / 0xFF *)
Lemma pv_print_line v : wf v = true -> clean (pv_print v) = true /\ ~ In nl (pv_print v).
Proof.
  intro W. assert (H : forall x, In x (pv_print v) -> okb x = true).
  { apply forallb_forall. unfold pv_print, unlex. apply forallb_flat_map. intros t I.
    apply tok_text_ok. pose proof (print_toks_ok v W) as F. rewrite Forall_forall in F. exact (F t I). }
  split.
  - apply forallb_forall. intros x I. specialize (H x I). unfold okb in H. apply andb_true_iff in H. apply H.
  - intro I. specialize (H nl I). discriminate H.
Qed.
