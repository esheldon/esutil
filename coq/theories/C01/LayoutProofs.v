(* C01/LayoutProofs.v — after numpy.ascontiguousarray the one fwrite leaves the rows of the table for every in-bounds
   view (write_any_layout); the writer as found does so for C-contiguous views only (write_v0_contiguous). *)
From Coq Require Import ZArith List Bool Lia ZifyBool ZifyNat.
From Coq.Strings Require Import Byte.
From EsVerif.Common Require Import Base Bytes.
From EsVerif.C01 Require Import Framing FramingProofs Model Layout.
Import ListNotations.
Open Scope Z_scope.
Open Scope list_scope.
Notation length := List.length.

Lemma flat_map_const_length {A B} (f : A -> list B) k l :
  (forall x, length (f x) = k) -> length (flat_map f l) = (length l * k)%nat.
Proof.
  intro H. induction l as [|x t IH]; [reflexivity|].
  cbn [flat_map length]. rewrite app_length, H, IH. lia.
Qed.

Lemma offsets_length dims : forall b, length (offsets dims b) = nprod (map fst dims).
Proof.
  induction dims as [|[n s] t IH]; intro b; [reflexivity|].
  cbn [offsets map fst nprod fold_right].
  rewrite (flat_map_const_length _ (nprod (map fst t))) by (intro x; apply IH).
  rewrite seq_length. reflexivity.
Qed.

Lemma c_dims_fst ns item : map fst (c_dims ns item) = ns.
Proof. induction ns as [|n t IH]; [reflexivity|]. cbn [c_dims map fst]. rewrite IH. reflexivity. Qed.

Lemma view_rows_count v : length (view_rows v) = view_size v.
Proof. unfold view_rows, view_size. apply map_length. Qed.

Lemma ascontiguous_size v : view_size (ascontiguous v) = view_size v.
Proof.
  unfold view_size, view_offsets, ascontiguous. cbn [v_dims v_start].
  rewrite !offsets_length, c_dims_fst. reflexivity.
Qed.

Lemma slice_length buf o len :
  0 <= o -> o + Z.of_nat len <= Z.of_nat (length buf) -> length (slice buf o len) = len.
Proof.
  intros H0 H1. unfold slice. replace (o <? 0) with false by lia.
  rewrite firstn_length, skipn_length. lia.
Qed.

Lemma slice_0_all (l : list byte) : slice l 0 (length l) = l.
Proof. unfold slice. cbn. apply firstn_all. Qed.

Lemma view_rows_item v : in_bounds v = true ->
  Forall (fun r => length r = v_item v) (view_rows v).
Proof.
  unfold in_bounds, view_rows. intro H. rewrite forallb_forall in H.
  apply Forall_forall. intros r Hr. apply in_map_iff in Hr as [o [<- Ho]].
  specialize (H o Ho). apply slice_length; lia.
Qed.

(* After numpy.ascontiguousarray the single fwrite writes exactly the rows of the table, in
   order, for EVERY layout of the array that was passed in. *)
Theorem write_any_layout v : in_bounds v = true ->
  recfile_write_view v = bin_write (view_rows v).
Proof.
  intro IB. unfold recfile_write_view, write_buffer. rewrite ascontiguous_size.
  cbn [ascontiguous v_buf v_start v_item]. unfold bin_write.
  replace (view_size v * v_item v)%nat with (length (concat (view_rows v))).
  - apply slice_0_all.
  - rewrite (concat_length_rows (v_item v)) by (apply view_rows_item; exact IB).
    rewrite view_rows_count. reflexivity.
Qed.

(* hence the self-describing writer on a view is the writer on its rows *)
Lemma sfile_write_view_eq (pyval : Type) v_str v_descr pformat hdr dt v : in_bounds v = true ->
  sfile_write_view pyval v_str v_descr pformat hdr dt v
  = sfile_write pyval v_str v_descr pformat hdr dt (view_rows v).
Proof.
  intro IB. unfold sfile_write_view, sfile_write, sfile_file.
  rewrite write_any_layout by exact IB. rewrite view_rows_count. reflexivity.
Qed.

Lemma skipn_add {A} (l : list A) : forall a b, skipn (a + b) l = skipn b (skipn a l).
Proof.
  intros a; revert l. induction a as [|a IH]; intros l b; [reflexivity|].
  destruct l as [|x t]; [cbn; rewrite skipn_nil; reflexivity|]. cbn [Nat.add skipn]. apply IH.
Qed.

(* consecutive slices of equal length *)
Lemma concat_slices buf sz : forall n b,
  0 <= b -> b + Z.of_nat (n * sz) <= Z.of_nat (length buf) ->
  concat (map (fun i => slice buf (b + Z.of_nat i * Z.of_nat sz) sz) (seq 0 n)) = slice buf b (n * sz).
Proof.
  induction n as [|n IH]; intros b H0 H1.
  - cbn. unfold slice. replace (b <? 0) with false by lia. reflexivity.
  - cbn [seq map concat]. rewrite <- seq_shift, map_map. rewrite Nat.mul_succ_l, Nat2Z.inj_add in H1.
    rewrite (map_ext _ (fun i => slice buf ((b + Z.of_nat sz) + Z.of_nat i * Z.of_nat sz) sz))
      by (intro i; f_equal; lia).
    rewrite IH by lia.
    replace (b + Z.of_nat 0 * Z.of_nat sz) with b by lia.
    unfold slice. replace (b <? 0) with false by lia. replace (b + Z.of_nat sz <? 0) with false by lia.
    replace (Z.to_nat (b + Z.of_nat sz)) with (Z.to_nat b + sz)%nat by lia.
    rewrite skipn_add. set (l := skipn (Z.to_nat b) buf).
    replace (S n * sz)%nat with (sz + n * sz)%nat by lia.
    rewrite <- (firstn_skipn sz (firstn (sz + n * sz) l)).
    rewrite firstn_firstn, Nat.min_l by lia. f_equal.
    rewrite skipn_firstn_comm. f_equal. lia.
Qed.

Lemma concat_flat_map {A B} (g : A -> list B) (f : nat -> list A) l :
  concat (map g (flat_map f l)) = concat (map (fun i => concat (map g (f i))) l).
Proof.
  induction l as [|x t IH]; [reflexivity|].
  cbn [flat_map map concat]. rewrite map_app, concat_app, IH. reflexivity.
Qed.

Lemma contiguous_rows buf item : forall ns b,
  0 <= b -> b + Z.of_nat (nprod ns * item) <= Z.of_nat (length buf) ->
  concat (map (fun o => slice buf o item) (offsets (c_dims ns item) b)) = slice buf b (nprod ns * item).
Proof.
  induction ns as [|n t IH]; intros b H0 H1.
  - cbn [c_dims offsets map concat nprod fold_right]. rewrite app_nil_r. f_equal. lia.
  - cbn [c_dims offsets]. rewrite concat_flat_map. change (nprod (n :: t)) with (n * nprod t)%nat in *.
    set (sz := (nprod t * item)%nat) in *.
    rewrite (map_ext_in _ (fun i => slice buf (b + Z.of_nat i * Z.of_nat sz) sz)).
    + replace (n * nprod t * item)%nat with (n * sz)%nat by (subst sz; lia).
      apply concat_slices; [exact H0|]. subst sz. nia.
    + intros i Hi. apply in_seq in Hi. apply IH; subst sz; nia.
Qed.

(* The writer of the unchanged tree is right for C-contiguous arrays (so the copy that the
   repair inserts changes nothing for them) ... *)
Theorem write_v0_contiguous v : is_c_contiguous v = true -> in_bounds v = true ->
  0 <= v_start v -> v_start v + Z.of_nat (view_size v * v_item v) <= Z.of_nat (length (v_buf v)) ->
  recfile_write_view_v0 v = bin_write (view_rows v).
Proof.
  intros C IB H0 H1. unfold recfile_write_view_v0, write_buffer, bin_write, view_rows, view_offsets in *.
  unfold is_c_contiguous in C.
  assert (E : v_dims v = c_dims (map fst (v_dims v)) (v_item v)).
  { apply (list_eqb_spec (fun a b => Nat.eqb (fst a) (fst b) && (snd a =? snd b))); [|exact C].
    intros [a1 a2] [b1 b2]. cbn [fst snd]. split.
    - intro X. apply andb_true_iff in X as [X1 X2]. apply Nat.eqb_eq in X1. apply Z.eqb_eq in X2. congruence.
    - intro X. inversion X; subst. rewrite Nat.eqb_refl, Z.eqb_refl. reflexivity. }
  unfold view_size, view_offsets in *. rewrite offsets_length in *.
  rewrite E at 2. symmetry. apply contiguous_rows; assumption.
Qed.

(* ... and wrong for the others.  Witnesses of Properties.C01_unrepaired_write_refuted and _transposed:
   data[::2] of a four-row table (the as-found writer writes rows 0,1 instead of 0,2) *)
Definition w_strided : ndview :=
  {| v_buf := [x01; x02; x03; x04]; v_start := 0; v_dims := [(2%nat, 2)]; v_item := 1 |}.
(* a transposed 2x2 table *)
Definition w_transposed : ndview :=
  {| v_buf := [x01; x02; x03; x04]; v_start := 0; v_dims := [(2%nat, 1); (2%nat, 2)]; v_item := 1 |}.

