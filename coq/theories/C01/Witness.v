(* C01/Witness.v — the concrete instances that the refutations and the non-vacuity examples of
   Properties.v are stated over: headers, dtypes, tables, views, and the as-found scanner and
   _make_header. *)
From Coq Require Import ZArith List Bool.
From Coq.Strings Require Import Byte String.
From EsVerif.Common Require Import Base Bytes.
From EsVerif.C01 Require Import Framing Model Layout Pyval.
Import ListNotations.
Open Scope Z_scope.
Open Scope list_scope.
Notation length := List.length.

(* pformat({'_DTYPE': [('x', '<i2')], '_VERSION': '1.0', 'k': 'THE END'}) wraps at 80 columns *)
Definition w_text_value : list byte :=
  B "{'_DTYPE': [('x', '<i2')], '_VERSION': '1.0', 'k': 'THE END'}".
(* a field named TREND *)
Definition w_text_field : list byte :=
  B "{'_DTYPE': [('TREND', '<i2')], '_VERSION': '1.0'}".

Definition offset_v0 (f : file) : result nat := do r <- read_sfile_header_v0 f; Ok (snd r).

(* ---- a closed instance of every premise of the round-trip theorem.  Header values are
   modelled here by their repr text; pformat/eval/numpy.dtype are the (trivially correct)
   functions that know this one header. *)
Definition ex_dt : dtype :=
  [{| f_name := B "x"; f_order := "<"%byte; f_kind := "i"%byte; f_size := 2; f_shape := [] |}].
Definition ex_hdr : hdict (list byte) := [(B "k", B "'THE END'"); (B "_size", B "7")].
Definition ex_rows : list (list byte) := [[x01; x00]; [xff; x7f]].
Definition ex_vstr (s : list byte) : list byte := B "'" ++ s ++ B "'".
Definition ex_vdescr (_ : dtype) : list byte := B "[('x', '<i2')]".
Definition ex_head := make_header (list byte) ex_vstr ex_vdescr ex_hdr ex_dt.
Definition ex_pformat (_ : hdict (list byte)) : list byte := w_text_value.
Definition ex_pyeval (_ : list byte) : option (hdict (list byte)) := Some ex_head.
Definition ex_np_dtype (_ : list byte) : option dtype := Some ex_dt.

(* ---- closed instances of the premises of the layout theorems *)
Definition ex_dt1 : dtype :=
  [{| f_name := B "b"; f_order := "|"%byte; f_kind := "u"%byte; f_size := 1; f_shape := [] |}].
Definition w_contig : ndview :=
  {| v_buf := [x01; x02; x03; x04]; v_start := 1; v_dims := [(2%nat, 1)]; v_item := 1 |}.

(* ---- what is left of the premise user_hdr_ok (a user key that spells _dtype otherwise than _DTYPE)
   cannot be dropped from the ABSTRACT theorem: the contract H_pf says nothing about the order of the
   evaluated dict, and the reader takes the first key that lower-cases to _dtype.  Here eval returns
   the header in the order it was built (user keys first).  The real code is safe because pformat
   sorts the keys and _DTYPE sorts before every other spelling. *)
Definition bad_hdr : hdict (list byte) := [(B "_dtype", B "'f8'")].
Definition bad_text : list byte := B "{'_dtype': 'f8', '_DTYPE': [('x', '<i2')], '_VERSION': '1.0'}".
Definition bad_head := make_header (list byte) ex_vstr ex_vdescr bad_hdr ex_dt.
Definition bad_pformat (_ : hdict (list byte)) : list byte := bad_text.
Definition bad_pyeval (_ : list byte) : option (hdict (list byte)) := Some bad_head.
Definition bad_np_dtype (v : list byte) : option dtype :=
  if bytes_eqb v (B "[('x', '<i2')]") then Some ex_dt else None.

(* ---- _make_header as found (before /repo 04e3f20): only the all-lower and all-upper spellings of
   the five names were removed.  A user key _Delim then survives into the file, the reader's
   case-insensitive lookup takes the binary file for a text file; with the repaired _make_header
   the same header round-trips. *)
Definition deleted_keys_v0 : list (list byte) :=
  [B "_size"; B "_SIZE"; B "_nrows"; B "_NROWS"; B "_delim"; B "_DELIM";
   B "_shape"; B "_SHAPE"; B "_has_fields"; B "_HAS_FIELDS"].
Definition make_header_v0 (hdr : hdict (list byte)) : hdict (list byte) :=
  dset (list byte) (B "_VERSION") (ex_vstr sfile_version)
    (dset (list byte) (B "_DTYPE") (ex_vdescr ex_dt)
       (fold_left (fun h k => ddel (list byte) k h) deleted_keys_v0 hdr)).
Definition mc_hdr : hdict (list byte) := [(B "_Delim", B "','"); (B "keep", B "1")].
Definition mc_pyeval_v0 (_ : list byte) : option (hdict (list byte)) := Some (make_header_v0 mc_hdr).
Definition mc_head := make_header (list byte) ex_vstr ex_vdescr mc_hdr ex_dt.
Definition mc_pyeval (_ : list byte) : option (hdict (list byte)) := Some mc_head.

(* ---- a closed instance of the unconditional round trip (Uncond.v): header values of every kind *)
Definition u_hdr : hdict pv :=
  [(B "k", PStr (B "THE END")); (B "_size", PInt 7);
   (B "n", PList [PInt (-3); PFloat (B "1e+300"); PNone; PBool true; PBytes [x00; xff; x45; x4e; x44];
                  PTuple [PStr [x61; x27; x0a; x5c; xc3; xa9]]; PDict [(B "END", PTuple [])]])].
Definition u_dt : dtype :=
  [{| f_name := B "TREND"; f_order := "<"%byte; f_kind := "i"%byte; f_size := 2; f_shape := [] |};
   {| f_name := B "y"; f_order := ">"%byte; f_kind := "f"%byte; f_size := 4; f_shape := [2; 1] |}].
Definition u_rows : list (list byte) := [[x01; x00; x7f; xc0; x00; x01; x00; x00; x00; x80];
                                         [xff; x7f; x0a; x45; x4e; x44; x0a; x0a; xff; x00]].

(* ---- the H_pf checker on a real pformat text (three lines, as pprint wraps it) *)
Definition r_text : list byte :=
  B "{'_DTYPE': [('x', '<i2')]," ++ nl :: B " '_VERSION': '1.0'," ++ nl :: B " 'k': 'THE END'}".
Definition r_uhdr : hdict pv := [(B "k", PStr (B "THE END"))].
Definition r_head : hdict pv :=
  [(B "k", PStr (B "THE END")); (B "_DTYPE", PList [PTuple [PStr (B "x"); PStr (B "<i2")]]); (B "_VERSION", PStr (B "1.0"))].

(* ---- hpf_check_all on a real pformat text whose user header spells _dtype in two other ways and
   _delim in mixed case (stripped): accepted, because pformat put _DTYPE first *)
Definition a_text : list byte :=
  B "{'_DTYPE': [('x', '<i2')]," ++ nl :: B " '_DtYpE': 3," ++ nl :: B " '_VERSION': '1.0'," ++ nl :: B " '_dtype': 'junk'}".
Definition a_uhdr : hdict pv := [(B "_dtype", PStr (B "junk")); (B "_Delim", PStr (B ",")); (B "_DtYpE", PInt 3)].
Definition a_head : hdict pv :=
  [(B "_dtype", PStr (B "junk")); (B "_DtYpE", PInt 3); (B "_DTYPE", PList [PTuple [PStr (B "x"); PStr (B "<i2")]]);
   (B "_VERSION", PStr (B "1.0"))].
