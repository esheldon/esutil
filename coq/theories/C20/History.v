(* C20 — the history dimension as a model: calls act on a heap of objects.
   Arguments are addresses of objects the caller owns.  The EFFECT of a call is computed from the call and the
   contents of the cells it reads, nothing else (locality holds by construction and is stated as a theorem);
   the in-place sorts write their argument(s) and nothing else; isplit / splitarray / pmap ALLOCATE their result
   (a cell that did not exist before) and write nothing; pbar only reads.
   Theorems: frame (no other cell changes), locality, no buffer reuse (a result cell is never changed by a later
   call that does not name it; a returned address never existed before).
   Not modelled: aliasing between the chunks returned by splitarray and its ndarray argument (they are views),
   quicksort_keyvalue with the same object as keys and values or with different lengths (answer AUnmodelled). *)
From Coq Require Import ZifyBool.
From EsVerif.Common Require Import Base.
From EsVerif.C20 Require Import Model Model2 Spec Proofs.

Inductive value := VList (l : list Z) | VPairs (l : list (Z * Z)) | VChunks (l : list (list Z)).
Definition heap := list value.
Definition vdflt : value := VList [].
Definition hget (h : heap) (a : nat) : value := nth a h vdflt.

Inductive call :=
| CNew (l : list Z)                              (* the caller creates an array *)
| CWrite (a : nat) (v : value)                   (* the caller overwrites object a in place (also: scribbles over a result) *)
| CQuicksort (a : nat)
| CQuicksortKV (k v : nat)
| CIsplit (num nchunks : Z)
| CSplitarray (nper : Z) (a : nat)
| CPbar (c : pcfg) (a : nat)
| CPmap (fa fb : Z) (a : nat) (chunksize : Z) (schedule : list Z).

Inductive answer :=
| ANone                                           (* returns None (in-place operations, caller's own writes) *)
| AAddr (a : nat)                                 (* returns the object at this address *)
| AErr (e : err)
| AYield (out : list (Z * Z) * option err)
| AUnmodelled.

(* the cells a call reads / may write (addresses it was given) *)
Definition reads (c : call) : list nat :=
  match c with
  | CNew _ | CWrite _ _ | CIsplit _ _ => []
  | CQuicksort a | CSplitarray _ a | CPbar _ a | CPmap _ _ a _ _ => [a]
  | CQuicksortKV k v => [k; v]
  end.
Definition writes (c : call) : list nat :=
  match c with
  | CWrite a _ | CQuicksort a => [a]
  | CQuicksortKV k v => [k; v]
  | _ => []
  end.

(* effect = (cells written with their new contents, newly allocated object, answer when nothing is allocated) *)
Definition effect := (list (nat * value) * option value * answer)%type.
Definition no_effect (a : answer) : effect := ([], None, a).

Definition eff (c : call) (args : list value) : effect :=
  match c, args with
  | CNew l, _ => ([], Some (VList l), ANone)
  | CWrite a v, _ => ([(a, v)], None, ANone)
  | CQuicksort a, [VList l] =>
      match quicksort l with Some l' => ([(a, VList l')], None, ANone) | None => no_effect (AErr EFuel) end
  | CQuicksortKV k v, [VList ks; VList vs] =>
      if (k =? v)%nat || negb (length ks =? length vs)%nat then no_effect AUnmodelled
      else match quicksort_keyvalue (combine ks vs) with
           | Some kv => ([(k, VList (map fst kv)); (v, VList (map snd kv))], None, ANone)
           | None => no_effect (AErr EFuel)
           end
  | CIsplit num nchunks, _ =>
      match isplit num nchunks with Ok l => ([], Some (VPairs l), ANone) | Err e => no_effect (AErr e) end
  | CSplitarray nper _, [VList l] =>
      match splitarray nper l with Ok cs => ([], Some (VChunks cs), ANone) | Err e => no_effect (AErr e) end
  | CPbar c _, [VList l] => no_effect (AYield (pbar c l))
  | CPmap fa fb _ chunksize schedule, [VList l] =>
      match pmap (fun x => fa * x * x + fb) l chunksize schedule with
      | Some r => ([], Some (VList r), ANone)
      | None => no_effect AUnmodelled
      end
  | _, _ => no_effect (AErr EType)
  end.

Definition write_all (h : heap) (ws : list (nat * value)) : heap :=
  fold_left (fun h p => set_nth h (fst p) (snd p)) ws h.

Definition commit (h : heap) (e : effect) : heap * answer :=
  let '(ws, new, ans) := e in
  let h' := write_all h ws in
  match new with
  | Some v => (h' ++ [v], AAddr (length h'))
  | None => (h', ans)
  end.

Definition valid (h : heap) (c : call) : bool :=
  forallb (fun a => (a <? length h)%nat) (reads c ++ writes c).

Definition step (h : heap) (c : call) : heap * answer :=
  if valid h c then commit h (eff c (map (hget h) (reads c))) else (h, AErr EIndex).

Fixpoint run (h : heap) (cs : list call) : heap * list answer :=
  match cs with
  | [] => (h, [])
  | c :: t => let '(h2, r) := run (fst (step h c)) t in (h2, snd (step h c) :: r)
  end.

Lemma write_all_length h ws : length (write_all h ws) = length h.
Proof.
  revert h; induction ws as [|p t IH]; intro h; cbn [write_all fold_left]; [reflexivity|].
  change (length (write_all (set_nth h (fst p) (snd p)) t) = length h). rewrite IH. apply set_nth_length.
Qed.

(* the address an allocation hands out depends on the size of the heap only *)
Lemma commit_answer h1 h2 e : length h1 = length h2 -> snd (commit h1 e) = snd (commit h2 e).
Proof.
  intro L. destruct e as [[ws new] ans]. unfold commit. destruct new; cbn [snd]; [|reflexivity].
  rewrite !write_all_length, L. reflexivity.
Qed.

Lemma write_all_other h ws b : (forall p, In p ws -> fst p <> b) -> hget (write_all h ws) b = hget h b.
Proof.
  revert h; induction ws as [|p t IH]; intros h H; cbn [write_all fold_left]; [reflexivity|].
  change (hget (write_all (set_nth h (fst p) (snd p)) t) b = hget h b).
  rewrite IH by (intros q Hq; apply H; right; exact Hq).
  unfold hget. apply nth_set_nth_neq. apply H. left. reflexivity.
Qed.

(* what every effect of a call that may write the cells W looks like: it writes only cells of W, and its answer is
   never an address (AAddr comes from commit, for an allocation) *)
Definition shape_ok (W : list nat) (e : effect) : Prop :=
  (forall p, In p (fst (fst e)) -> In (fst p) W) /\ (forall a, snd e <> AAddr a).

Lemma shape_none W ans : (forall a, ans <> AAddr a) -> forall new, shape_ok W ([], new, ans).
Proof. intros H new. split; [intros p []|exact H]. Qed.

Lemma eff_shape c args : shape_ok (writes c) (eff c args).
Proof.
  assert (N : forall W new, shape_ok W ([], new, ANone)) by (intros; apply shape_none; discriminate).
  assert (E : forall W a, (forall x, a <> AAddr x) -> shape_ok W (no_effect a)) by (intros; apply shape_none; assumption).
  destruct c as [l|a v|a|k v|num n|nper a|c a|fa fb a cs sch]; cbn [eff writes].
  - (* CNew allocates *) apply N.
  - (* CWrite a v writes a *) split; [intros p [<-|[]]; left; reflexivity|discriminate].
  - (* CQuicksort a writes a *)
    destruct args as [|[l| |] [|? ?]]; try (apply E; discriminate).
    destruct (quicksort l); [|apply E; discriminate].
    split; [intros p [<-|[]]; left; reflexivity|discriminate].
  - (* CQuicksortKV k v writes k and v *)
    destruct args as [|[ks| |] [|[vs| |] [|? ?]]]; try (apply E; discriminate).
    destruct (_ || _); [apply E; discriminate|].
    destruct (quicksort_keyvalue _); [|apply E; discriminate].
    split; [intros p [<-|[<-|[]]]; [left|right; left]; reflexivity|discriminate].
  - (* CIsplit allocates *) destruct (isplit num n); [apply N|apply E; discriminate].
  - (* CSplitarray allocates *)
    destruct args as [|[l| |] [|? ?]]; try (apply E; discriminate).
    destruct (splitarray nper l); [apply N|apply E; discriminate].
  - (* CPbar only answers *) destruct args as [|[l| |] [|? ?]]; apply E; discriminate.
  - (* CPmap allocates *)
    destruct args as [|[l| |] [|? ?]]; try (apply E; discriminate).
    destruct (pmap _ l cs sch); [apply N|apply E; discriminate].
Qed.

(* a call changes no existing cell except the ones it names in [writes]; the heap never shrinks and grows by
   at most one cell, at the end *)
Lemma step_frame h c :
  (length h <= length (fst (step h c)) <= S (length h))%nat
  /\ forall b, (b < length h)%nat -> ~ In b (writes c) -> hget (fst (step h c)) b = hget h b.
Proof.
  unfold step. destruct (valid h c); cbn [fst]; [|split; [lia|reflexivity]].
  pose proof (proj1 (eff_shape c (map (hget h) (reads c)))) as W.
  destruct (eff c (map (hget h) (reads c))) as [[ws new] ans]. cbn [fst] in W. unfold commit.
  assert (O : forall b, ~ In b (writes c) -> hget (write_all h ws) b = hget h b).
  { intros b N. apply write_all_other. intros p Hp E. apply N. rewrite <- E. apply W. exact Hp. }
  destruct new as [v|]; cbn [fst].
  - rewrite app_length, write_all_length. cbn [length]. split; [lia|]. intros b L N.
    unfold hget at 1. rewrite app_nth1 by (rewrite write_all_length; exact L). apply O. exact N.
  - rewrite write_all_length. split; [lia|]. intros b _ N. apply O. exact N.
Qed.

(* two heaps of the same size that agree on the cells a call reads undergo THE SAME EFFECT: same answer, same
   contents written to the named cells, same newly allocated object *)
Lemma step_local h1 h2 c :
  length h1 = length h2 ->
  (forall a, In a (reads c) -> hget h1 a = hget h2 a) ->
  (valid h1 c = false /\ step h1 c = (h1, AErr EIndex) /\ step h2 c = (h2, AErr EIndex))
  \/ exists e, step h1 c = commit h1 e /\ step h2 c = commit h2 e.
Proof.
  intros L R. unfold step, valid. rewrite <- L.
  destruct (forallb (fun a => (a <? length h1)%nat) (reads c ++ writes c)) eqn:V.
  - right. exists (eff c (map (hget h1) (reads c))). split; [reflexivity|].
    f_equal. f_equal. apply map_ext_in. intros a Ha. symmetry. apply R. exact Ha.
  - left. repeat split.
Qed.

(* an object handed out as a result did not exist before the call *)
Lemma result_is_fresh h c a :
  snd (step h c) = AAddr a -> a = length h /\ length (fst (step h c)) = S (length h).
Proof.
  unfold step. destruct (valid h c); cbn [snd fst]; [|discriminate].
  pose proof (proj2 (eff_shape c (map (hget h) (reads c)))) as N.
  destruct (eff c (map (hget h) (reads c))) as [[ws new] ans]. cbn [snd] in N. unfold commit.
  destruct new as [v|]; cbn [snd fst].
  - intro H. inversion H. rewrite app_length, write_all_length. cbn [length]. split; [reflexivity|lia].
  - intro H. destruct (N a H).
Qed.

Lemma run_length_mono h cs : (length h <= length (fst (run h cs)))%nat.
Proof.
  revert h; induction cs as [|c t IH]; intro h; cbn [run]; [cbn; lia|].
  specialize (IH (fst (step h c))). destruct (run (fst (step h c)) t) as [h2 r]. cbn [fst] in *.
  pose proof (step_frame h c) as [F _]. lia.
Qed.

(* whatever is called later: a cell that no later call names in [writes] keeps its contents (in particular an
   earlier RESULT that the caller does not modify itself) *)
Lemma run_frame cs : forall h b,
  (b < length h)%nat -> (forall c, In c cs -> ~ In b (writes c)) -> hget (fst (run h cs)) b = hget h b.
Proof.
  induction cs as [|c t IH]; intros h b L N; cbn [run]; [reflexivity|].
  pose proof (step_frame h c) as [F1 F2].
  specialize (IH (fst (step h c)) b ltac:(lia) (fun c' H => N c' (or_intror H))).
  destruct (run (fst (step h c)) t) as [h2 r]. cbn [fst] in *.
  rewrite IH. apply F2; [exact L|]. apply N. left. reflexivity.
Qed.

(* the contents of a result are the model function of the argument contents at call time *)
Lemma isplit_result h num nchunks l :
  isplit num nchunks = Ok l -> step h (CIsplit num nchunks) = (h ++ [VPairs l], AAddr (length h)).
Proof. intro E. unfold step, valid. cbn [reads writes app forallb map eff]. rewrite E. reflexivity. Qed.

Lemma quicksort_effect h a l l' :
  (a < length h)%nat -> hget h a = VList l -> quicksort l = Some l' ->
  step h (CQuicksort a) = (set_nth h a (VList l'), ANone).
Proof.
  intros L G Q. unfold step, valid. cbn [reads writes app forallb map eff].
  assert ((a <? length h)%nat = true) as -> by lia. cbn [andb]. rewrite G, Q. reflexivity.
Qed.
