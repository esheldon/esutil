(* C20 — the values of a key-value sort are OPAQUE PAYLOADS: the model never inspects them.
   Naturality of the sort in the record type: for every map g on records that preserves keys
   (key' (g a) = key a), sorting the mapped array is mapping the sorted array.  Consequences: relabelling the
   payloads (any function on values, any payload type) commutes with quicksort_keyvalue; the keys of the result
   are quicksort of the keys alone.  An implementation that compares two VALUES (e.g. sorting (key, value) tuples,
   which falls through to the values on tied keys) cannot satisfy this for payload types without an order. *)
From EsVerif.Common Require Import Base.
From EsVerif.C20 Require Import Model.

Lemma set_nth_map {A B} (g : A -> B) (l : list A) n v : set_nth (map g l) n (g v) = map g (set_nth l n v).
Proof. revert n; induction l as [|x t IH]; intros [|n]; cbn [map set_nth]; try reflexivity. rewrite IH. reflexivity. Qed.

Section Natural.
  Context {A A' : Type} (key : A -> Z) (key' : A' -> Z) (g : A -> A') (dflt : A).
  Hypothesis Hkey : forall a, key' (g a) = key a.

  Lemma aget_map d i : aget (g dflt) (map g d) i = g (aget dflt d i).
  Proof. unfold aget. apply map_nth. Qed.

  Lemma zset_map d i v : zset (map g d) i (g v) = map g (zset d i v).
  Proof. unfold zset. destruct (i <? 0); [reflexivity|apply set_nth_map]. Qed.

  Definition lift (r : option (list A * Z)) : option (list A' * Z) :=
    match r with Some (d, s) => Some (map g d, s) | None => None end.

  Lemma part_natural : forall fuel d pivot bottom top ph,
    part key' (g dflt) fuel (map g d) (g pivot) bottom top ph = lift (part key dflt fuel d pivot bottom top ph).
  Proof.
    induction fuel as [|f IH]; intros d pivot bottom top ph; [reflexivity|].
    cbn [part]. destruct ph.
    - destruct (bottom + 1 =? top); [cbn [lift]; rewrite zset_map; reflexivity|].
      rewrite aget_map, !Hkey. destruct (key (aget dflt d (bottom + 1)) >? key pivot).
      + rewrite zset_map. apply IH.
      + apply IH.
    - destruct (top - 1 =? bottom); [cbn [lift]; rewrite zset_map; reflexivity|].
      rewrite aget_map, !Hkey. destruct (key (aget dflt d (top - 1)) <? key pivot).
      + rewrite zset_map. apply IH.
      + apply IH.
  Qed.

  Lemma partition_natural d s e :
    partition key' (g dflt) (map g d) s e = lift (partition key dflt d s e).
  Proof. unfold partition. rewrite aget_map. apply part_natural. Qed.

  Lemma qs_natural : forall fuel d s e,
    qs key' (g dflt) fuel (map g d) s e = option_map (map g) (qs key dflt fuel d s e).
  Proof.
    induction fuel as [|f IH]; intros d s e; [reflexivity|].
    cbn [qs]. destruct (s <? e); [|reflexivity].
    rewrite partition_natural. destruct (partition key dflt d s e) as [[d1 split]|]; cbn [lift]; [|reflexivity].
    rewrite IH. destruct (qs key dflt f d1 s (split - 1)) as [d2|]; cbn [option_map]; [apply IH|reflexivity].
  Qed.

  Theorem quicksort_gen_natural d :
    quicksort_gen key' (g dflt) (map g d) = option_map (map g) (quicksort_gen key dflt d).
  Proof. unfold quicksort_gen. rewrite map_length. apply qs_natural. Qed.
End Natural.

(* relabelling the payloads, into any payload type, commutes with the key-value sort *)
Definition relabel {B C} (g : B -> C) (p : Z * B) : Z * C := (fst p, g (snd p)).

Theorem keyvalue_payloads_opaque {B C} (g : B -> C) (db : B) (kv : list (Z * B)) :
  quicksort_gen fst (0, g db) (map (relabel g) kv) = option_map (map (relabel g)) (quicksort_gen fst (0, db) kv).
Proof. apply (quicksort_gen_natural fst fst (relabel g) (0, db)). intros [k v]. reflexivity. Qed.

Corollary quicksort_keyvalue_relabel (g : Z -> Z) (kv : list (Z * Z)) :
  g 0 = 0 -> quicksort_keyvalue (map (relabel g) kv) = option_map (map (relabel g)) (quicksort_keyvalue kv).
Proof. intro G. unfold quicksort_keyvalue. rewrite <- (keyvalue_payloads_opaque g 0 kv). rewrite G. reflexivity. Qed.
