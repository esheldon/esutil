(* C20 — what the functions of Model.v compute: isplit_spec, splitarray_spec, pbar_spec (with pbar_defined, the
   configurations in which the wrapper yields everything) and pmap_all_schedules, preceded by the facts on zseq they
   share.  Proofs2.v, Meter.v, Shape.v, History.v, Checkers.v and Tie.v build on this file. *)
From Coq Require Import ZifyBool.
From EsVerif.Common Require Import Base.
From EsVerif.C20 Require Import Model Spec.

Lemma zseq_length s k : length (zseq s k) = k.
Proof. revert s; induction k as [|k IH]; intro s; simpl; auto. Qed.

Lemma in_zseq k s n : In k (zseq s n) <-> s <= k < s + Z.of_nat n.
Proof.
  revert s; induction n as [|n IH]; intro s; simpl; [lia|]. rewrite IH. lia.
Qed.

Lemma zseq_nth s n i d : (i < n)%nat -> nth i (zseq s n) d = s + Z.of_nat i.
Proof. revert s i; induction n as [|n IH]; intros s [|i] H; simpl; try lia. rewrite IH by lia. lia. Qed.

Lemma zseq_map {B} (f : Z -> B) s k : map f (zseq s k) = map (fun j => f (s + Z.of_nat j)) (seq 0 k).
Proof.
  revert s; induction k as [|k IH]; intro s; simpl; [reflexivity|].
  f_equal; [f_equal; lia|]. rewrite IH. rewrite <- seq_shift, map_map.
  apply map_ext. intro j. f_equal. lia.
Qed.

Lemma nth_map_seq {B} (g : nat -> B) s n i d : (i < n)%nat -> nth i (map g (seq s n)) d = g (s + i)%nat.
Proof.
  intro Hi. rewrite (nth_indep _ d (g 0%nat)) by (rewrite map_length, seq_length; exact Hi).
  rewrite map_nth, seq_nth by exact Hi. reflexivity.
Qed.

Lemma nth_map_zseq {B} (g : Z -> B) s n i d : (i < n)%nat -> nth i (map g (zseq s n)) d = g (s + Z.of_nat i).
Proof. intro Hi. rewrite zseq_map, nth_map_seq by exact Hi. reflexivity. Qed.

Lemma zsum_app a b : zsum (a ++ b) = zsum a + zsum b.
Proof. induction a as [|x t IH]; simpl; [reflexivity|]. unfold zsum in *. simpl. lia. Qed.

Lemma zsum_repeat x n : zsum (repeat x n) = x * Z.of_nat n.
Proof. induction n as [|n IH]; [unfold zsum; simpl; lia|]. change (zsum (repeat x (S n))) with (x + zsum (repeat x n)). lia. Qed.

Lemma chain_ranges s l : chain s (s + zsum l) (ranges s l).
Proof.
  revert s; induction l as [|x t IH]; intro s; simpl.
  - unfold zsum; simpl; lia.
  - split; [reflexivity|]. change (zsum (x :: t)) with (x + zsum t).
    replace (s + (x + zsum t)) with ((s + x) + zsum t) by lia. apply IH.
Qed.

Lemma sizes_ranges s l : sizes (ranges s l) = l.
Proof.
  revert s; induction l as [|x t IH]; intro s; simpl; [reflexivity|].
  unfold sizes in *. simpl. rewrite IH. f_equal. lia.
Qed.

Lemma ranges_length s l : length (ranges s l) = length l.
Proof. revert s; induction l as [|x t IH]; intro s; simpl; auto. Qed.

Lemma nonincr_repeat x n : nonincr (repeat x n).
Proof. induction n as [|n IH]; simpl; [exact I|]. split; [|exact IH]. destruct n; simpl; [exact I|lia]. Qed.

Lemma nonincr_app_repeat a b n m : b <= a -> nonincr (repeat a n ++ repeat b m).
Proof.
  intro H. induction n as [|n IH]; simpl; [apply nonincr_repeat|].
  split; [|exact IH]. destruct n; simpl; [destruct m; simpl; [exact I|exact H]|lia].
Qed.

(* section_sizes looks at num only through its quotient q and remainder r by n:
   r sections of q + 1 followed by n - r sections of q *)
Lemma section_sizes_length num n : 0 < n -> Z.of_nat (length (section_sizes num n)) = n.
Proof.
  intro H. pose proof (Z.mod_pos_bound num n H). unfold section_sizes.
  rewrite app_length, !repeat_length. lia.
Qed.

Lemma section_sizes_sum num n : 0 < n -> zsum (section_sizes num n) = num.
Proof.
  intro H. pose proof (Z.mod_pos_bound num n H). pose proof (Z.div_mod num n ltac:(lia)).
  unfold section_sizes. rewrite zsum_app, !zsum_repeat, !Z2Nat.id by lia. lia.
Qed.

Lemma isplit_spec num nchunks :
  0 <= num -> 1 <= nchunks ->
  exists l, isplit num nchunks = Ok l /\ isplit_ok num nchunks l.
Proof.
  intros Hn Hc. unfold isplit. destruct (Z.leb_spec nchunks 0); [lia|].
  eexists; split; [reflexivity|]. unfold isplit_ok.
  rewrite sizes_ranges, ranges_length.
  split; [apply section_sizes_length; lia|].
  split.
  { pose proof (chain_ranges 0 (section_sizes num nchunks)) as C.
    rewrite section_sizes_sum in C by lia. exact C. }
  unfold section_sizes. split; [apply nonincr_app_repeat; lia|].
  pose proof (Z.div_pos num nchunks Hn ltac:(lia)).
  intros x y Hx Hy. apply in_app_or in Hx, Hy.
  destruct Hx as [Hx|Hx]; apply repeat_spec in Hx; destruct Hy as [Hy|Hy]; apply repeat_spec in Hy; lia.
Qed.

(* the chunk count of splitarray is size / nper rounded up; this is all that is used of it *)
Lemma chunk_count_bounds n p :
  0 <= n -> 0 < p ->
  let k := n / p + (if n mod p =? 0 then 0 else 1) in 0 <= k /\ (k - 1) * p < n <= k * p.
Proof.
  intros Hn Hp. pose proof (Z.div_mod n p ltac:(lia)). pose proof (Z.mod_pos_bound n p Hp).
  pose proof (Z.div_pos n p Hn Hp). cbv zeta. destruct (Z.eqb_spec (n mod p) 0); lia.
Qed.

Lemma chunk_count_neg n p :
  0 <= n -> p < 0 -> n / p + (if n mod p =? 0 then 0 else 1) <= 0.
Proof.
  intros Hn Hp. pose proof (Z.div_mod n p ltac:(lia)). pose proof (Z.mod_neg_bound n p Hp).
  assert (n / p <= 0) by nia. destruct (Z.eqb_spec (n mod p) 0); nia.
Qed.

Lemma firstn_skipn_add {A} (l : list A) a b : firstn a l ++ firstn b (skipn a l) = firstn (a + b) l.
Proof.
  revert l; induction a as [|a IH]; intro l; simpl; [reflexivity|].
  destruct l as [|x t]; simpl; [rewrite firstn_nil; reflexivity|]. f_equal. apply IH.
Qed.

(* a list cut into k pieces of p (the last one possibly shorter) *)
Lemma concat_chunks {A} (l : list A) p k :
  concat (map (fun j => firstn p (skipn (j * p) l)) (seq 0 k)) = firstn (k * p) l.
Proof.
  induction k as [|k IH]; [reflexivity|].
  rewrite seq_S, map_app, concat_app, IH. simpl. rewrite app_nil_r.
  rewrite firstn_skipn_add. f_equal. lia.
Qed.

Lemma chunks_spec {A} (l : list A) p k :
  (0 < p)%nat -> (length l <= k * p)%nat -> (forall i, (i < k)%nat -> (i * p < length l)%nat) ->
  let cs := map (fun j => firstn p (skipn (j * p) l)) (seq 0 k) in
  concat cs = l
  /\ (forall i, (i < length cs)%nat -> (1 <= length (nth i cs []) <= p)%nat)
  /\ (forall i, (S i < length cs)%nat -> length (nth i cs []) = p).
Proof.
  intros Hp Hk Hlt cs. subst cs. rewrite map_length, seq_length.
  split; [rewrite concat_chunks; apply firstn_all2; exact Hk|].
  split; intros i Hi; rewrite nth_map_seq, firstn_length, skipn_length by lia.
  - specialize (Hlt i Hi). lia.
  - specialize (Hlt (S i) Hi). lia.
Qed.

Lemma splitarray_spec nper var :
  1 <= nper -> exists cs, splitarray nper var = Ok cs /\ splitarray_ok nper var cs.
Proof.
  intro Hn. unfold splitarray. destruct (Z.eqb_spec nper 0); [lia|].
  eexists; split; [reflexivity|].
  destruct (chunk_count_bounds (Z.of_nat (length var)) nper) as [K0 K]; [lia..|].
  set (k := _ / _ + _) in *. clearbody k.
  rewrite zseq_map.
  rewrite (map_ext _ (fun j => firstn (Z.to_nat nper) (skipn (j * Z.to_nat nper) var)))
    by (intro j; rewrite Z.add_0_l, Z2Nat.inj_mul, Nat2Z.id by lia; reflexivity).
  destruct (chunks_spec var (Z.to_nat nper) (Z.to_nat k)) as (C1 & C2 & C3).
  - lia.
  - rewrite <- Z2Nat.inj_mul by lia. lia.
  - (* chunk i starts at i * nper, which i <= k - 1 puts below the length *)
    intros i Hi. pose proof (Z.mul_le_mono_nonneg_r (Z.of_nat i) (k - 1) nper).
    apply Nat2Z.inj_lt. rewrite Nat2Z.inj_mul, Z2Nat.id by lia. lia.
  - split; [exact C1|]. split; intros i Hi; [specialize (C2 i Hi)|specialize (C3 i Hi)]; lia.
Qed.

Lemma tag_from_fst k items : map fst (tag_from k items) = items.
Proof. revert k; induction items as [|x t IH]; intro k; simpl; [reflexivity|]. f_equal. apply IH. Qed.

Lemma tag_from_length k items : length (tag_from k items) = length items.
Proof. revert k; induction items as [|x t IH]; intro k; simpl; auto. Qed.

Lemma tag_from_snd k items i :
  (i < length items)%nat -> snd (nth i (tag_from k items) (0, 0)) = k + Z.of_nat i.
Proof.
  revert k i; induction items as [|x t IH]; intros k i Hi; simpl in Hi; [lia|].
  destruct i as [|i]; simpl; [lia|]. rewrite IH by lia. lia.
Qed.

(* the only configurations in which the wrapper does not yield everything: the simple bar
   without any total (documented RuntimeError) or with an effective total of zero on a
   non-empty iterable (division by zero after the first item) *)
Definition pbar_defined (c : pcfg) (items : list Z) : Prop :=
  simple c = true ->
  exists t, eff_total c (Z.of_nat (length items)) = Some t /\ (t = 0 -> items = []).

Lemma pbar_defined_out c items : pbar_defined c items -> pbar c items = (tag_from 1 items, None).
Proof.
  intro D. unfold pbar. destruct (simple c) eqn:S; [|reflexivity].
  destruct (D S) as [t [Et Ht]]. rewrite Et.
  destruct ((t =? 0) && negb (Z.of_nat (length items) =? 0)) eqn:Z0; [|reflexivity].
  apply andb_true_iff in Z0 as [Z1 Z2]. assert (items = []) by (apply Ht; lia). subst items. discriminate.
Qed.

Lemma pbar_spec c items : pbar_defined c items -> pbar_ok items (pbar c items).
Proof.
  intro D. rewrite (pbar_defined_out _ _ D). unfold pbar_ok; cbn [fst snd].
  split; [apply tag_from_fst|]. split; [|reflexivity].
  intros k Hk. rewrite tag_from_length in Hk. rewrite tag_from_snd by exact Hk. lia.
Qed.

Lemma pbar_full_always c items : simple c = false -> pbar_ok items (pbar c items).
Proof. intro S. apply pbar_spec. intro S2. congruence. Qed.

(* the executor's store after any schedule: a chunk that completed at least once is found, with its result.
   [lookup]/[complete] of Model.v and [elookup]/[ecomplete] of Model2.v are the instances V = list Z and
   V = result (list Z) (convertible) *)
Section Store.
  Context {V : Type} (g : Z -> V).

  Fixpoint glookup (s : list (Z * V)) (k : Z) : option V :=
    match s with [] => None | (k', v) :: t => if k =? k' then Some v else glookup t k end.

  Lemma glookup_complete sched st k :
    In k sched \/ glookup st k = Some (g k) ->
    glookup (fold_left (fun s k => (k, g k) :: s) sched st) k = Some (g k).
  Proof.
    revert st; induction sched as [|k0 t IH]; intros st H; simpl.
    - destruct H as [[]|H]; exact H.
    - apply IH. destruct (Z.eq_dec k k0) as [->|N].
      + right. cbn [glookup]. rewrite Z.eqb_refl. reflexivity.
      + destruct H as [[H|H]|H]; [congruence|left; exact H|right].
        cbn [glookup]. apply Z.eqb_neq in N. rewrite N. exact H.
  Qed.
End Store.

Lemma lookup_is : lookup = glookup.
Proof. reflexivity. Qed.

Lemma collect_all (f : Z -> Z) (chunks : list (list Z)) st ks :
  (forall k, In k ks -> lookup st k = Some (map f (nth (Z.to_nat k) chunks []))) ->
  collect st ks = Some (concat (map (fun k => map f (nth (Z.to_nat k) chunks [])) ks)).
Proof.
  induction ks as [|k t IH]; intro H; simpl; [reflexivity|].
  rewrite (H k) by (left; reflexivity). rewrite IH by (intros k' Hk'; apply H; right; exact Hk'). reflexivity.
Qed.

Lemma chunks_of_concat {A} fuel n (l : list A) :
  (0 < n)%nat -> (length l <= fuel)%nat -> concat (chunks_of fuel n l) = l.
Proof.
  intro Hn. revert l; induction fuel as [|fuel IH]; intros l Hl.
  - destruct l; [reflexivity|simpl in Hl; lia].
  - simpl. destruct l as [|x t]; [reflexivity|].
    cbn [concat]. rewrite IH; [apply firstn_skipn|].
    rewrite skipn_length. cbn [length] in *. lia.
Qed.

Lemma map_nth_zseq {B} (g : list Z -> B) (chunks : list (list Z)) :
  map (fun k => g (nth (Z.to_nat k) chunks [])) (zseq 0 (length chunks)) = map g chunks.
Proof.
  rewrite zseq_map.
  transitivity (map g (map (fun j => nth j chunks []) (seq 0 (length chunks)))).
  - rewrite map_map. apply map_ext. intro j. do 2 f_equal. lia.
  - f_equal. clear. induction chunks as [|c t IH]; [reflexivity|].
    simpl. f_equal. rewrite <- seq_shift, map_map. exact IH.
Qed.

Lemma pmap_all_schedules f items chunksize schedule :
  1 <= chunksize ->
  (forall k, 0 <= k < Z.of_nat (length (chunks_of (length items) (Z.to_nat chunksize) items)) -> In k schedule) ->
  pmap_ok f items (pmap f items chunksize schedule).
Proof.
  intros Hc Hs. unfold pmap_ok, pmap.
  set (chunks := chunks_of (length items) (Z.to_nat chunksize) items) in *.
  rewrite (collect_all f chunks).
  - f_equal. rewrite (map_nth_zseq (map f) chunks). rewrite <- concat_map. f_equal.
    subst chunks. apply chunks_of_concat; lia.
  - intros k Hk. apply (glookup_complete (fun k => map f (nth (Z.to_nat k) chunks []))).
    left. apply Hs. apply in_zseq in Hk. lia.
Qed.
