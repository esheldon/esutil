(* C20 — what the functions of Model2.v compute: the skeleton interpreter is pbar (run_skel_pbar), the meter schedule of
   the full bar (full_prints_ok), a source that raises (pbar_on_propagates), python's range (py_range_spec), pmap with a
   function that raises (pmap_exn_all_schedules, ref_chunks_vs_sequential), and the empty inputs. *)
From Coq Require Import ZifyBool.
From EsVerif.Common Require Import Base.
From EsVerif.C20 Require Import Model Model2 Spec Proofs.

Lemma run_loop_all b tot k items :
  run_body b tot false = (true, None) -> run_loop b tot k items = (tag_from k items, None).
Proof.
  intro H. revert k; induction items as [|x t IH]; intro k; cbn [run_loop tag_from]; [reflexivity|].
  rewrite H, IH. reflexivity.
Qed.

Lemma run_skel_full c items : run_skel full_skel c items = (tag_from 1 items, None).
Proof.
  unfold run_skel, full_skel. cbn [sk_fallback sk_body].
  destruct (total c), (has_len c); apply run_loop_all; reflexivity.
Qed.

Lemma run_skel_sbar c items : run_skel sbar_skel c items = pbar {| simple := true; has_len := has_len c; total := total c |} items.
Proof.
  unfold run_skel, sbar_skel, pbar, eff_total. cbn [sk_fallback sk_body simple has_len total].
  set (n := Z.of_nat (length items)).
  assert (G : forall t, run_loop [SYield; SCount; SDivTotal; SOut] (Some t) 1 items =
                        (if (t =? 0) && negb (n =? 0) then (firstn 1 (tag_from 1 items), Some EOther)
                         else (tag_from 1 items, None))).
  { intro t. destruct (t =? 0) eqn:T.
    - destruct items as [|x r]; [reflexivity|].
      assert (n =? 0 = false) as -> by (subst n; cbn [length]; lia).
      cbn [run_loop run_body]. rewrite T. reflexivity.
    - cbn [andb]. apply run_loop_all. cbn [run_body]. rewrite T. reflexivity. }
  destruct (total c) as [t|]; [destruct (has_len c); apply G|].
  destruct (has_len c); [apply G|reflexivity].
Qed.

Lemma run_skel_pbar c items : run_skel (if simple c then sbar_skel else full_skel) c items = pbar c items.
Proof.
  destruct c as [s h t]. cbn [simple]. destruct s.
  - rewrite run_skel_sbar. reflexivity.
  - rewrite run_skel_full. reflexivity.
Qed.

Definition fi_value (r : ifmt * list Z) : option Z :=
  match r with
  | (FmtMS, [m; s]) => Some (60 * m + s)
  | (FmtHMS, [h; m; s]) => Some (3600 * h + 60 * m + s)
  | _ => None
  end.
Definition fi_fields_ok (r : ifmt * list Z) : Prop :=
  match r with
  | (FmtMS, [m; s]) => 0 <= m < 60 /\ 0 <= s < 60
  | (FmtHMS, [h; m; s]) => h <> 0 /\ 0 <= m < 60 /\ 0 <= s < 60
  | _ => False
  end.

Lemma format_interval_spec t :
  exists r, format_interval t = Ok r /\ fi_value r = Some t /\ fi_fields_ok r.
Proof.
  pose proof (Z.div_mod t 60 ltac:(lia)). pose proof (Z.mod_pos_bound t 60 ltac:(lia)).
  pose proof (Z.div_mod (t / 60) 60 ltac:(lia)). pose proof (Z.mod_pos_bound (t / 60) 60 ltac:(lia)).
  unfold format_interval. destruct (Z.eqb_spec (t / 60 / 60) 0); eexists; (split; [reflexivity|]);
    cbn [fi_value fi_fields_ok]; (split; [f_equal|]); lia.
Qed.

Fixpoint increasing_from (a : Z) (l : list (Z * option Z)) : Prop :=
  match l with [] => True | p :: t => a < fst p /\ increasing_from (fst p) t end.

Definition prints_ok (n : Z) (leave : bool) (tot : option Z) (ps : list (Z * option Z)) : Prop :=
  exists rest, ps = (0, meter_total 0 tot) :: rest
    /\ increasing_from 0 rest
    /\ Forall (fun p => snd p = meter_total (fst p) tot /\ fst p <= n) ps
    /\ (leave = true -> fst (last ps (0, None)) = n).

Lemma last_cons {B} (l : list B) x d : List.last (x :: l) d = List.last l x.
Proof.
  revert x d; induction l as [|y t IH]; intros x d; [reflexivity|].
  change (List.last (y :: t) d = List.last (y :: t) x). rewrite !IH. reflexivity.
Qed.

(* the count shown by the last meter of ps, a when there is none *)
Definition lastc (a : Z) (ps : list (Z * option Z)) : Z := fst (List.last ps (a, None)).

Lemma lastc_cons a p ps : lastc a (p :: ps) = lastc (fst p) ps.
Proof.
  unfold lastc. rewrite last_cons. destruct ps as [|q t]; [reflexivity|]. rewrite !last_cons. reflexivity.
Qed.

Lemma increasing_from_le a b l : a <= b -> increasing_from b l -> increasing_from a l.
Proof. destruct l as [|p t]; [trivial|]. cbn [increasing_from]. intros H [H1 H2]. split; [lia|exact H2]. Qed.

Lemma increasing_from_app a l b : increasing_from a l -> lastc a l < fst b -> increasing_from a (l ++ [b]).
Proof.
  revert a; induction l as [|p t IH]; intros a H1 H2; cbn [app increasing_from] in *.
  - split; [exact H2|exact I].
  - rewrite lastc_cons in H2. split; [apply H1|apply IH; [apply H1|exact H2]].
Qed.

Lemma full_loop_spec m tot items : forall n last ps n' l,
  last <= n -> full_loop m tot n last items = (ps, n', l) ->
  n' = n + Z.of_nat (length items)
  /\ increasing_from n ps
  /\ Forall (fun p => snd p = meter_total (fst p) tot /\ fst p <= n') ps
  /\ l = lastc last ps /\ l <= n'.
Proof.
  induction items as [|x t IH]; intros n last ps n' l Hl H; cbn [full_loop length] in *.
  - injection H as <- <- <-. repeat split; try lia; constructor.
  - unfold n_step, iter_test in H. destruct (n + 1 - last >=? m).
    + destruct (full_loop m tot (n + 1) (n + 1) t) as [[ps1 n1] l1] eqn:F.
      destruct (IH (n + 1) (n + 1) ps1 n1 l1 ltac:(lia) F) as (A1 & A2 & A3 & A4 & A5).
      injection H as <- <- <-. rewrite lastc_cons.
      split; [|split; [|split; [|split]]].
      * lia.
      * split; [cbn [fst]; lia|exact A2].
      * constructor; [cbn [fst snd]; split; [reflexivity|lia]|exact A3].
      * exact A4.
      * lia.
    + destruct (IH (n + 1) last ps n' l ltac:(lia) H) as (A1 & A2 & A3 & A4 & A5).
      split; [|split; [|split; [|split]]].
      * lia.
      * apply (increasing_from_le n (n + 1)); [lia|exact A2].
      * exact A3.
      * exact A4.
      * lia.
Qed.

Lemma full_prints_ok miniters leave c items :
  prints_ok (Z.of_nat (length items)) leave (eff_total c (Z.of_nat (length items))) (full_prints miniters leave c items).
Proof.
  unfold full_prints, prints_ok.
  set (tot := eff_total c (Z.of_nat (length items))).
  destruct (full_loop miniters tot 0 0 items) as [[ps n] l] eqn:F.
  destruct (full_loop_spec miniters tot items 0 0 ps n l ltac:(lia) F) as (A1 & A2 & A3 & A4 & A5).
  rewrite Z.add_0_l in A1. subst n.
  eexists; split; [reflexivity|].
  change (fst (List.last ?ps (0, None))) with (lastc 0 ps). rewrite lastc_cons. cbn [fst].
  assert (M0 : snd (0, meter_total 0 tot) = meter_total (fst (0, meter_total 0 tot)) tot
               /\ fst (0, meter_total 0 tot) <= Z.of_nat (length items)) by (split; [reflexivity|cbn [fst]; lia]).
  unfold final_test. destruct (leave && (l <? Z.of_nat (length items))) eqn:L.
  - split; [apply increasing_from_app; [exact A2|cbn [fst]; lia]|]. split.
    + constructor; [exact M0|]. apply Forall_app; split; [exact A3|]. repeat constructor. cbn [fst]. lia.
    + intros _. unfold lastc. rewrite last_last. reflexivity.
  - rewrite app_nil_r. split; [exact A2|]. split; [constructor; [exact M0|exact A3]|].
    intro Lv. subst leave. cbn [andb] in L. lia.
Qed.

Lemma pbar_on_none c items : pbar_on c items None = pbar c items.
Proof. unfold pbar_on. destruct (pbar c items) as [ys [e|]]; reflexivity. Qed.

(* a wrapper over a source that raises at the end yields every item, lazily, and then lets that exception through *)
Lemma pbar_on_propagates c items e :
  pbar_defined c items -> pbar_on c items e = (tag_from 1 items, e).
Proof. intro D. unfold pbar_on. rewrite (pbar_defined_out _ _ D). reflexivity. Qed.

Lemma combine_tag k items : combine items (map snd (tag_from k items)) = tag_from k items.
Proof. revert k; induction items as [|x t IH]; intro k; cbn [tag_from map combine snd]; [reflexivity|]. rewrite IH. reflexivity. Qed.

(* a range with d > 0 to cover in steps of p > 0 has (d - 1) / p + 1 elements: the offsets i * p stay below d,
   and one more step reaches it *)
Lemma range_len_spec d p :
  0 < p -> 0 < d ->
  let n := (d - 1) / p + 1 in 0 < n /\ d <= n * p /\ forall i, 0 <= i < n -> 0 <= i * p < d.
Proof.
  intros Hp Hd. pose proof (Z.div_mod (d - 1) p ltac:(lia)). pose proof (Z.mod_pos_bound (d - 1) p Hp).
  pose proof (Z.div_pos (d - 1) p ltac:(lia) Hp). cbv zeta. split; [lia|]. split; [lia|]. intros i Hi.
  pose proof (Z.mul_le_mono_nonneg_r i ((d - 1) / p) p). pose proof (Z.mul_nonneg_nonneg i p). lia.
Qed.

Lemma py_range_spec start stop step l :
  py_range start stop step = Ok l ->
  step <> 0
  /\ (forall k, (k < length l)%nat -> nth k l 0 = start + Z.of_nat k * step)
  /\ (0 < step -> (forall x, In x l -> start <= x < stop) /\ stop <= start + Z.of_nat (length l) * step)
  /\ (step < 0 -> (forall x, In x l -> stop < x <= start) /\ start + Z.of_nat (length l) * step <= stop).
Proof.
  unfold py_range. destruct (Z.eqb_spec step 0) as [|S0]; [discriminate|]. intro H. injection H as <-.
  rewrite map_length, zseq_length. split; [exact S0|]. split; [|split].
  - intros k Hk. rewrite nth_map_zseq by exact Hk. lia.
  - intro P. unfold py_range_len. destruct (Z.ltb_spec 0 step); [|lia].
    destruct (Z.ltb_spec start stop); [|cbn; split; [intros x []|lia]].
    destruct (range_len_spec (stop - start) step) as (N & B & E); [lia..|].
    set (n := _ / _ + 1) in *. clearbody n. rewrite Z2Nat.id by lia. split; [|lia].
    intros x Hx. apply in_map_iff in Hx as (i & <- & Hi). apply in_zseq in Hi. specialize (E i). lia.
  - intro P. unfold py_range_len. destruct (Z.ltb_spec 0 step); [lia|].
    destruct (Z.ltb_spec stop start); [|cbn; split; [intros x []|lia]].
    destruct (range_len_spec (start - stop) (- step)) as (N & B & E); [lia..|].
    set (n := _ / _ + 1) in *. clearbody n. rewrite Z2Nat.id by lia. split; [|lia].
    intros x Hx. apply in_map_iff in Hx as (i & <- & Hi). apply in_zseq in Hi. specialize (E i). lia.
Qed.

Lemma ecollect_all (f : Z -> result Z) (chunks : list (list Z)) st ks :
  (forall k, In k ks -> elookup st k = Some (mapM f (nth (Z.to_nat k) chunks []))) ->
  ecollect st ks = Some (ref_chunks f (map (fun k => nth (Z.to_nat k) chunks []) ks)).
Proof.
  induction ks as [|k t IH]; intro H; cbn [ecollect map ref_chunks]; [reflexivity|].
  rewrite (H k) by (left; reflexivity).
  destruct (mapM f (nth (Z.to_nat k) chunks [])) as [v|e]; [|reflexivity].
  rewrite IH by (intros k' Hk'; apply H; right; exact Hk').
  destruct (ref_chunks f (map (fun k0 => nth (Z.to_nat k0) chunks []) t)). reflexivity.
Qed.

Lemma elookup_is : elookup = glookup.
Proof. reflexivity. Qed.

Lemma pmap_exn_all_schedules f items chunksize schedule :
  (forall k, 0 <= k < Z.of_nat (length (chunks_of (length items) (Z.to_nat chunksize) items)) -> In k schedule) ->
  pmap_exn f items chunksize schedule = Some (ref_chunks f (chunks_of (length items) (Z.to_nat chunksize) items)).
Proof.
  intro Hs. unfold pmap_exn.
  set (chunks := chunks_of (length items) (Z.to_nat chunksize) items) in *.
  rewrite (ecollect_all f chunks).
  - rewrite (map_nth_zseq (fun c => c) chunks), map_id. reflexivity.
  - intros k Hk. apply (glookup_complete (fun k => mapM f (nth (Z.to_nat k) chunks []))).
    left. apply Hs. apply in_zseq in Hk. lia.
Qed.

(* chunked retrieval vs. the sequential list(map(fn, items)): the same exception (the first failing item in
   input order), and the values that got through are a prefix of the sequential ones *)
Lemma mapM_seq_run f c :
  match mapM f c with
  | Ok v => seq_run f c = (v, None)
  | Err e => exists pre, seq_run f c = (pre, Some e)
  end.
Proof.
  induction c as [|x t IH]; cbn [mapM seq_run]; [reflexivity|].
  destruct (f x) as [y|e]; [|exists []; reflexivity].
  destruct (mapM f t) as [v|e].
  - rewrite IH. reflexivity.
  - destruct IH as [pre IH]. rewrite IH. exists (y :: pre). reflexivity.
Qed.

Lemma seq_run_app f a b :
  seq_run f (a ++ b) = match seq_run f a with
                       | (ra, None) => let '(rb, e) := seq_run f b in (ra ++ rb, e)
                       | (ra, Some e) => (ra, Some e)
                       end.
Proof.
  induction a as [|x t IH]; cbn [app seq_run].
  - destruct (seq_run f b). reflexivity.
  - destruct (f x) as [y|e]; [|reflexivity]. rewrite IH.
    destruct (seq_run f t) as [ra [e|]]; [reflexivity|]. destruct (seq_run f b). reflexivity.
Qed.

Lemma ref_chunks_vs_sequential f chunks :
  snd (ref_chunks f chunks) = snd (seq_run f (concat chunks))
  /\ exists rest, fst (seq_run f (concat chunks)) = fst (ref_chunks f chunks) ++ rest
                  /\ (snd (ref_chunks f chunks) = None -> rest = []).
Proof.
  induction chunks as [|c t IH]; cbn [ref_chunks concat].
  - split; [reflexivity|]. exists []. split; reflexivity.
  - rewrite seq_run_app. pose proof (mapM_seq_run f c) as M.
    destruct (mapM f c) as [v|e].
    + rewrite M. destruct IH as [I1 [rest [I2 I3]]].
      destruct (ref_chunks f t) as [r e]. destruct (seq_run f (concat t)) as [rb eb].
      cbn [fst snd] in *. split; [exact I1|]. exists rest. split; [rewrite I2; apply app_assoc|exact I3].
    + destruct M as [pre M]. rewrite M. cbn [fst snd]. split; [reflexivity|].
      exists pre. split; [reflexivity|discriminate].
Qed.

(* a function that never raises: the sequential run is a plain map *)
Lemma seq_run_total g l : seq_run (fun x => Ok (g x)) l = (map g l, None).
Proof. induction l as [|x t IH]; cbn [seq_run map]; [reflexivity|]. rewrite IH. reflexivity. Qed.

Lemma chunks_of_one {A} (l : list A) n : l <> [] -> (length l <= n)%nat -> chunks_of (length l) n l = [l].
Proof.
  intros Hl Hn. destruct l as [|x t]; [congruence|]. cbn [length] in Hn. cbn [length chunks_of].
  rewrite firstn_all2 by (cbn [length]; lia). rewrite skipn_all2 by (cbn [length]; lia).
  destruct (length t); reflexivity.
Qed.

Lemma empty_inputs :
  (forall n, 1 <= n -> isplit 0 n = Ok (repeat (0, 0) (Z.to_nat n)))
  /\ (forall nper, nper <> 0 -> splitarray nper (@nil Z) = Ok [])
  /\ quicksort [] = Some [] /\ quicksort_keyvalue [] = Some []
  /\ (forall c, pbar c [] = if simple c && negb (has_len c) && match total c with None => true | Some _ => false end
                            then ([], Some ERuntime) else ([], None))
  /\ (forall f chunksize schedule, pmap f [] chunksize schedule = Some [])
  /\ (forall f chunksize schedule, pmap_exn f [] chunksize schedule = Some ([], None)).
Proof.
  repeat apply conj.
  - intros n Hn. unfold isplit. destruct (n <=? 0) eqn:E; [lia|]. f_equal.
    unfold section_sizes. rewrite Z.div_0_l, Z.mod_0_l by lia. cbn [Z.to_nat repeat app].
    replace (Z.to_nat (n - 0)) with (Z.to_nat n) by lia.
    generalize (Z.to_nat n). intro k. induction k as [|k IH]; [reflexivity|].
    cbn [repeat ranges]. change (0 + 0) with 0. rewrite IH. reflexivity.
  - intros nper Hn. unfold splitarray. destruct (nper =? 0) eqn:E; [lia|]. cbn [length].
    rewrite Z.div_0_l, Z.mod_0_l by lia. reflexivity.
  - reflexivity.
  - reflexivity.
  - intros [s h tot]. destruct s; [|reflexivity]. destruct tot as [t|].
    + (* the test for a zero total is masked by the empty input *)
      unfold pbar, eff_total. cbn. rewrite andb_false_r. destruct h; reflexivity.
    + destruct h; reflexivity.
  - reflexivity.
  - reflexivity.
Qed.
