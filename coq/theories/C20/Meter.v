(* C20 — the frame of format_meter's float branch and StatusPrinter's output protocol.
   (1) Every division of the bar branch (`float(n)/total`, `n / elapsed`, `elapsed / n`, `elapsed / n * (total-n)`)
       with the path condition under which it is evaluated, restricted to the tests that mention only the
       parameters (n, total, elapsed); the list is regenerated from the source (Gen.gen_meter_divisions).  A
       division raises ZeroDivisionError iff its path holds and its divisor is zero.  Theorem: no division of
       the branch raises unless n = 0 and elapsed > 0, and the full bar never calls it that way.
       The float elapsed enters only through its sign.
   (2) StatusPrinter.print_status writes '\r' + s + blanks; on a terminal line ('\r' = back to column 0,
       characters overwrite) the visible line is always the last status followed only by blanks. *)
From Coq Require Import ZifyBool.
From EsVerif.Common Require Import Base.
From EsVerif.C20 Require Import Model Model2 Spec Proofs Proofs2.

Inductive sgn := SNeg | SZero | SPos.
Inductive mvar := MTotal | MElapsed | MN.
Inductive matom := ATotalTrue | AElapsedPos | ANTrue.

Definition mvar_zero (v : mvar) (n total : Z) (el : sgn) : bool :=
  match v with
  | MTotal => total =? 0
  | MElapsed => match el with SZero => true | _ => false end
  | MN => n =? 0
  end.
Definition atom_holds (n total : Z) (el : sgn) (a : matom) : bool :=
  match a with
  | ATotalTrue => negb (total =? 0)
  | AElapsedPos => match el with SPos => true | _ => false end
  | ANTrue => negb (n =? 0)
  end.

(* the divisions of the branch `if total:` in source order *)
Definition meter_divisions : list (mvar * list matom) :=
  [ (MTotal, [ATotalTrue]);                       (* frac = float(n) / total *)
    (MElapsed, [ATotalTrue; AElapsedPos]);        (* it_per_second = n / elapsed *)
    (MN, [ATotalTrue; AElapsedPos]);              (* second_per_it = elapsed / n   (also under `not it_per_second > 1`) *)
    (MN, [ATotalTrue; ANTrue]) ].                 (* elapsed / n * (total-n) if n else '?' *)

Definition division_raises (n total : Z) (el : sgn) (d : mvar * list matom) : bool :=
  forallb (atom_holds n total el) (snd d) && mvar_zero (fst d) n total el.
Definition divisions_raise (ds : list (mvar * list matom)) (n total : Z) (el : sgn) : bool :=
  existsb (division_raises n total el) ds.

(* format_meter(n, total, elapsed): ZeroDivisionError? *)
Definition format_meter_raises (n : Z) (total : option Z) (el : sgn) : bool :=
  match meter_total n total with
  | Some t => divisions_raise meter_divisions n t el
  | None => false
  end.

Lemma meter_total_nonzero n total t : meter_total n total = Some t -> t <> 0.
Proof.
  unfold meter_total. destruct total as [t0|]; [|discriminate].
  destruct (n >? t0); [discriminate|]. destruct (Z.eqb_spec t0 0); [discriminate|]. congruence.
Qed.

(* with a total that is not zero only the third division can raise: elapsed > 0 and n = 0 *)
Lemma divisions_raise_nonzero n t el :
  t <> 0 -> divisions_raise meter_divisions n t el = match el with SPos => n =? 0 | _ => false end.
Proof.
  intro T. apply Z.eqb_neq in T.
  unfold divisions_raise, meter_divisions, division_raises. cbn [existsb forallb fst snd atom_holds mvar_zero].
  rewrite T. destruct el, (n =? 0); reflexivity.
Qed.

Lemma meter_raises_iff n total el :
  format_meter_raises n total el = true <->
  (exists t, meter_total n total = Some t) /\ n = 0 /\ el = SPos.
Proof.
  unfold format_meter_raises. destruct (meter_total n total) as [t|] eqn:M.
  - rewrite (divisions_raise_nonzero n t el (meter_total_nonzero _ _ _ M)). split.
    + intro H. split; [exists t; reflexivity|]. destruct el; [discriminate H|discriminate H|].
      split; [apply Z.eqb_eq; exact H|reflexivity].
    + intros (_ & -> & ->). reflexivity.
  - split; [discriminate|]. intros ([t E] & _). discriminate.
Qed.

Lemma meter_safe n total el : (n = 0 -> el <> SPos) -> format_meter_raises n total el = false.
Proof.
  intro H. destruct (format_meter_raises n total el) eqn:R; [|reflexivity].
  apply meter_raises_iff in R as (_ & N & E). exfalso. exact (H N E).
Qed.

(* the calls the full bar makes: the first meter is format_meter(0, total, 0) (literal elapsed 0, pinned by the
   translator's template), every later one shows a count >= 1 *)
Lemma increasing_from_pos a l : 0 <= a -> increasing_from a l -> Forall (fun p => 0 < fst p) l.
Proof.
  revert a; induction l as [|p t IH]; intros a Ha H; [constructor|]. cbn [increasing_from] in H. destruct H as [H1 H2].
  constructor; [lia|]. apply (IH (fst p)); [lia|exact H2].
Qed.

Lemma full_bar_meter_calls_safe miniters leave c items :
  let tot := eff_total c (Z.of_nat (length items)) in
  exists rest, full_prints miniters leave c items = (0, meter_total 0 tot) :: rest
    /\ format_meter_raises 0 tot SZero = false
    /\ forall p el, In p rest -> format_meter_raises (fst p) tot el = false.
Proof.
  cbv zeta. destruct (full_prints_ok miniters leave c items) as (rest & E & I & _).
  exists rest. split; [exact E|]. split; [apply meter_safe; intros _; discriminate|].
  intros p el Hp. apply meter_safe. intro N. exfalso.
  pose proof (increasing_from_pos 0 rest ltac:(lia) I) as F. rewrite Forall_forall in F. specialize (F p Hp). lia.
Qed.

Section Status.
  Context {A : Type} (blank : A).

  Definition status_pad (last len : Z) : Z := Z.max (last - len) 0.
  (* what print_status(s) writes after the '\r', and the new last_printed_len *)
  Definition print_status (last : Z) (s : list A) : list A * Z :=
    (s ++ repeat blank (Z.to_nat (status_pad last (Z.of_nat (length s)))), Z.of_nat (length s)).
  (* a terminal line: text written from column 0 overwrites what was there *)
  Definition overwrite (line text : list A) : list A := text ++ skipn (length text) line.

  Fixpoint run_status (line : list A) (last : Z) (ss : list (list A)) : list A * Z :=
    match ss with
    | [] => (line, last)
    | s :: t => let '(text, last') := print_status last s in run_status (overwrite line text) last' t
    end.

  Lemma skipn_app_blanks (cur : list A) k m :
    (length cur <= m)%nat -> skipn m (cur ++ repeat blank k) = repeat blank (k - (m - length cur)).
  Proof.
    intro H. rewrite skipn_app. rewrite skipn_all2 by exact H. cbn [app].
    generalize (m - length cur)%nat. clear. intro j. revert j; induction k as [|k IH]; intro j.
    - rewrite skipn_nil. reflexivity.
    - destruct j as [|j]; [reflexivity|]. cbn [repeat skipn]. rewrite IH. reflexivity.
  Qed.

  (* one step keeps the invariant "line = current status ++ blanks, last = its length" *)
  Lemma print_status_line cur k s :
    exists k', overwrite (cur ++ repeat blank k) (fst (print_status (Z.of_nat (length cur)) s)) = s ++ repeat blank k'.
  Proof.
    unfold print_status, overwrite, status_pad. cbn [fst].
    set (p := Z.to_nat (Z.max (Z.of_nat (length cur) - Z.of_nat (length s)) 0)).
    rewrite app_length, repeat_length.
    rewrite skipn_app_blanks by (subst p; lia).
    rewrite <- app_assoc, <- repeat_app. eexists. reflexivity.
  Qed.

  Lemma run_status_line ss : forall cur k,
    exists k', fst (run_status (cur ++ repeat blank k) (Z.of_nat (length cur)) ss) = last ss cur ++ repeat blank k'
               /\ snd (run_status (cur ++ repeat blank k) (Z.of_nat (length cur)) ss) = Z.of_nat (length (last ss cur)).
  Proof.
    induction ss as [|s t IH]; intros cur k.
    - exists k. split; reflexivity.
    - cbn [run_status]. destruct (print_status_line cur k s) as [k1 E].
      unfold print_status in *. cbn [fst] in E. rewrite E.
      destruct (IH s k1) as [k2 [I1 I2]]. exists k2.
      rewrite (last_cons t s cur). split; [exact I1|exact I2].
  Qed.

End Status.
