(* C20 — the property theorems.  Short proofs are given here; the longer ones are lemmas of the other files. *)
From Coq Require Import Sorting.Permutation Sorting.Sorted.
From EsVerif.Common Require Import Base.
From EsVerif.C20 Require Import Model Model2 Spec Proofs SortProofs Proofs2 Exec History Checkers Meter Opaque Shape Gen Tie.

(* The in-place sorts leave a non-decreasing permutation of their input, key-value pairs kept
   together; the recursion always terminates within the model's fuel. *)
Theorem C20_quicksort : forall d, exists d', quicksort d = Some d' /\ sort_ok (fun x => x) d d'.
Proof. exact quicksort_correct. Qed.

Theorem C20_quicksort_keyvalue : forall kv, exists kv', quicksort_keyvalue kv = Some kv' /\ sort_ok fst kv kv'.
Proof. exact quicksort_keyvalue_correct. Qed.

(* Index splitting: nchunks contiguous ranges covering 0..num, sizes differ by <= 1, larger first. *)
Theorem C20_isplit : forall num nchunks, 0 <= num -> 1 <= nchunks ->
  exists l, isplit num nchunks = Ok l /\ isplit_ok num nchunks l.
Proof. exact isplit_spec. Qed.

Theorem C20_isplit_rejects : forall num nchunks, nchunks <= 0 -> isplit num nchunks = Err EValue.
Proof. intros num nchunks H. unfold isplit. destruct (Z.leb_spec nchunks 0); [reflexivity|lia]. Qed.

(* Array splitting: consecutive chunks of exactly nper, last possibly shorter, concatenating to the input. *)
Theorem C20_splitarray : forall nper var, 1 <= nper ->
  exists cs, splitarray nper var = Ok cs /\ splitarray_ok nper var cs.
Proof. exact splitarray_spec. Qed.

(* Progress wrappers yield exactly the items, in order, lazily.  The full statement for every
   configuration; it is false of the simple bar in the two configurations excluded by
   [pbar_defined] (no total at all: documented RuntimeError; total 0 on a non-empty iterable). *)
Theorem C20_pbar : forall c items, pbar_defined c items -> pbar_ok items (pbar c items).
Proof. exact pbar_spec. Qed.

Theorem C20_pbar_full_bar_every_configuration : forall c items, simple c = false -> pbar_ok items (pbar c items).
Proof. exact pbar_full_always. Qed.

Theorem C20_pbar_simple_undefined_refuted :
  exists c items, simple c = true /\ ~ pbar_ok items (pbar c items).
Proof.
  exists {| simple := true; has_len := false; total := None |}, [1; 2]. split; [reflexivity|].
  unfold pbar_ok; simpl. intros [H _]. discriminate.
Qed.

(* Parallel map: for EVERY completion schedule in which each chunk completes (any order, any
   repetition) the in-order retrieval returns list(map(fn, items)). *)
Theorem C20_pmap_all_schedules : forall f items chunksize schedule,
  1 <= chunksize ->
  (forall k, 0 <= k < Z.of_nat (length (chunks_of (length items) (Z.to_nat chunksize) items)) -> In k schedule) ->
  pmap_ok f items (pmap f items chunksize schedule).
Proof. exact pmap_all_schedules. Qed.

(* Checker soundness: what the correspondence run evaluates on the implementation's outputs. *)
Theorem C20_checkers_sound :
  (forall num nchunks l, isplit_check num nchunks l = true -> isplit_ok num nchunks l)
  /\ (forall nper var cs, splitarray_check nper var cs = true -> splitarray_ok nper var cs)
  /\ (forall d d', sort_check d d' = true -> sort_ok (fun x => x) d d')
  /\ (forall d d', sortkv_check d d' = true -> sort_ok fst d d')
  /\ (forall items out, pbar_check items out = true -> pbar_ok items out).
Proof.
  split; [intros num nchunks l; apply isplit_check_spec|]. split; [intros nper var cs; apply splitarray_check_spec|].
  split; [intros d d'; apply sort_check_spec|]. split; [intros d d'; apply sortkv_check_spec|].
  intros items out. apply pbar_check_spec.
Qed.

(* Tie to the source.  C20/Gen.v is regenerated from esutil/algorithm.py, numpy_util.py and pbar.py of the tree
   under check on every run (harness/props/c20_translate.py, fail closed); these theorems say that the
   regenerated definitions ARE the models the theorems above are about, for all inputs. *)
Theorem C20_source_isplit : forall num nchunks, gen_isplit num nchunks = isplit num nchunks.
Proof. exact tie_isplit. Qed.

Theorem C20_source_splitarray : forall (A : Type) nper (var : list A), gen_splitarray nper var = splitarray nper var.
Proof. exact tie_splitarray. Qed.

Theorem C20_source_quicksort : forall d, gen_quicksort (fun x => x) 0 d = quicksort d.
Proof. exact tie_quicksort. Qed.

Theorem C20_source_quicksort_keyvalue : forall kv, gen_quicksort_kv fst (0, 0) kv = quicksort_keyvalue kv.
Proof. exact tie_quicksort_keyvalue. Qed.

Theorem C20_source_format_interval : forall t, gen_format_interval t = format_interval t.
Proof. exact tie_format_interval. Qed.

Theorem C20_source_meter_total : forall n total, gen_meter_total n total = meter_total n total.
Proof. exact tie_meter_total. Qed.

Theorem C20_source_bar_skeletons :
  gen_full_skel = full_skel /\ gen_sbar_skel = sbar_skel
  /\ (forall b, gen_dispatch_simple b = b)
  /\ (forall n, gen_full_n_step n = n_step n)
  /\ (forall i, gen_sbar_i_step i = n_step i)
  /\ (forall n l m, gen_full_iter_test n l m = iter_test n l m)
  /\ (forall n l, gen_full_final_test n l = final_test n l).
Proof. exact tie_bar_skeletons. Qed.

(* the generator skeletons read from the source (fallback of total, loop body in order, dispatch), run by the
   skeleton interpreter, are the pbar model *)
Theorem C20_source_pbar : forall c items,
  run_skel (if gen_dispatch_simple (simple c) then gen_sbar_skel else gen_full_skel) c items = pbar c items.
Proof. exact tie_pbar. Qed.

(* the property clauses stated directly about the regenerated text *)
Theorem C20_isplit_of_source : forall num nchunks, 0 <= num -> 1 <= nchunks ->
  exists l, gen_isplit num nchunks = Ok l /\ isplit_ok num nchunks l.
Proof. exact src_isplit_spec. Qed.

Theorem C20_splitarray_of_source : forall nper (var : list Z), 1 <= nper ->
  exists cs, gen_splitarray nper var = Ok cs /\ splitarray_ok nper var cs.
Proof. exact src_splitarray_spec. Qed.

Theorem C20_pbar_of_source : forall c items, pbar_defined c items ->
  pbar_ok items (run_skel (if gen_dispatch_simple (simple c) then gen_sbar_skel else gen_full_skel) c items).
Proof. exact src_pbar_spec. Qed.

(* format_interval never raises; the fields it prints are in range and determine int(t) *)
Theorem C20_format_interval : forall t,
  exists r, format_interval t = Ok r /\ fi_value r = Some t /\ fi_fields_ok r.
Proof. exact format_interval_spec. Qed.

(* meters written by the full bar (mininterval = 0): the first shows 0, counts increase strictly and never
   exceed the number of items, each shows the total format_meter selects, and with leave=True the last one
   shows the number of items -- for every miniters, every total (smaller, larger, zero, absent) *)
Theorem C20_full_bar_meters : forall miniters leave c items,
  prints_ok (Z.of_nat (length items)) leave (eff_total c (Z.of_nat (length items))) (full_prints miniters leave c items).
Proof. exact full_prints_ok. Qed.

(* a wrapped iterable that raises at its end: every item is yielded first, lazily, then that exception *)
Theorem C20_pbar_source_exception : forall c items e,
  pbar_defined c items -> pbar_on c items e = (tag_from 1 items, e).
Proof. exact pbar_on_propagates. Qed.

(* nested bars: pbar(pbar(source)) yields exactly the items, and the SOURCE is still pulled lazily *)
Theorem C20_pbar_nested : forall co ci items,
  pbar_defined ci items -> pbar_defined (as_generator co) items -> pbar_ok items (pbar_nested co ci items).
Proof.
  intros co ci items Di Do. unfold pbar_nested.
  rewrite (pbar_defined_out _ _ Di), tag_from_fst, (pbar_on_propagates _ _ _ Do), tag_from_fst, combine_tag.
  rewrite <- (pbar_defined_out _ _ Di). apply pbar_spec. exact Di.
Qed.

(* python's range as modelled, and prange(start, stop, step) *)
Theorem C20_py_range : forall start stop step l,
  py_range start stop step = Ok l ->
  step <> 0
  /\ (forall k, (k < length l)%nat -> nth k l 0 = start + Z.of_nat k * step)
  /\ (0 < step -> (forall x, In x l -> start <= x < stop) /\ stop <= start + Z.of_nat (length l) * step)
  /\ (step < 0 -> (forall x, In x l -> stop < x <= start) /\ start + Z.of_nat (length l) * step <= stop).
Proof. exact py_range_spec. Qed.

Theorem C20_prange : forall c args items,
  range_args args = Ok items -> pbar_defined (as_sized c) items -> pbar_ok items (prange c args).
Proof. intros c args items R D. unfold prange. rewrite R. apply pbar_spec. exact D. Qed.

Theorem C20_prange_bad_arguments : forall c args e, range_args args = Err e -> prange c args = ([], Some e).
Proof. intros c args e R. unfold prange. rewrite R. reflexivity. Qed.

(* pmap when the mapped function raises: for EVERY complete schedule the outcome is the in-order retrieval
   (ref_chunks); it ends with the exception sequential list(map(fn, items)) ends with (the first failing item in
   input order) and the values that went through the bar are a prefix of the sequential ones (all of them when
   nothing raised) *)
Theorem C20_pmap_exn_all_schedules : forall f items chunksize schedule,
  (forall k, 0 <= k < Z.of_nat (length (chunks_of (length items) (Z.to_nat chunksize) items)) -> In k schedule) ->
  pmap_exn f items chunksize schedule = Some (ref_chunks f (chunks_of (length items) (Z.to_nat chunksize) items)).
Proof. exact pmap_exn_all_schedules. Qed.

Theorem C20_pmap_exn_sequential : forall f items chunksize schedule,
  1 <= chunksize ->
  (forall k, 0 <= k < Z.of_nat (length (chunks_of (length items) (Z.to_nat chunksize) items)) -> In k schedule) ->
  exists out, pmap_exn f items chunksize schedule = Some out
    /\ snd out = snd (seq_run f items)
    /\ exists rest, fst (seq_run f items) = fst out ++ rest /\ (snd out = None -> rest = []).
Proof.
  intros f items chunksize schedule Hc Hs. rewrite (pmap_exn_all_schedules _ _ _ _ Hs). eexists; split; [reflexivity|].
  pose proof (ref_chunks_vs_sequential f (chunks_of (length items) (Z.to_nat chunksize) items)) as R.
  rewrite chunks_of_concat in R by lia. exact R.
Qed.

(* one worker (nproc = 1: the only schedule is the submission order) and one chunk (chunksize >= len) *)
Theorem C20_pmap_single_worker : forall f items chunksize,
  1 <= chunksize ->
  pmap f items chunksize (zseq 0 (length (chunks_of (length items) (Z.to_nat chunksize) items))) = Some (map f items).
Proof. intros f items chunksize Hc. apply pmap_all_schedules; [exact Hc|]. intros k Hk. apply in_zseq. lia. Qed.

Theorem C20_pmap_one_chunk : forall f items chunksize schedule,
  items <> [] -> Z.of_nat (length items) <= chunksize -> In 0 schedule ->
  pmap f items chunksize schedule = Some (map f items).
Proof.
  intros f items chunksize schedule Hi Hc H0.
  apply pmap_all_schedules; [destruct items; [congruence|cbn [length] in Hc; lia]|].
  rewrite (chunks_of_one items) by (try assumption; lia). cbn [length].
  intros k Hk. assert (k = 0) by lia. subst k. exact H0.
Qed.

Theorem C20_empty_inputs :
  (forall n, 1 <= n -> isplit 0 n = Ok (repeat (0, 0) (Z.to_nat n)))
  /\ (forall nper, nper <> 0 -> splitarray nper (@nil Z) = Ok [])
  /\ quicksort [] = Some [] /\ quicksort_keyvalue [] = Some []
  /\ (forall c, pbar c [] = if simple c && negb (has_len c) && match total c with None => true | Some _ => false end
                            then ([], Some ERuntime) else ([], None))
  /\ (forall f chunksize schedule, pmap f [] chunksize schedule = Some [])
  /\ (forall f chunksize schedule, pmap_exn f [] chunksize schedule = Some ([], None)).
Proof. exact empty_inputs. Qed.

(* the checkers DECIDE their properties: the converse of C20_checkers_sound *)
Theorem C20_checkers_complete :
  (forall num nchunks l, isplit_ok num nchunks l -> isplit_check num nchunks l = true)
  /\ (forall nper var cs, splitarray_ok nper var cs -> splitarray_check nper var cs = true)
  /\ (forall d d', sort_ok (fun x => x) d d' -> sort_check d d' = true)
  /\ (forall d d', sort_ok fst d d' -> sortkv_check d d' = true)
  /\ (forall items out, pbar_ok items out -> pbar_check items out = true).
Proof.
  split; [intros num nchunks l; apply isplit_check_spec|]. split; [intros nper var cs; apply splitarray_check_spec|].
  split; [intros d d'; apply sort_check_spec|]. split; [intros d d'; apply sortkv_check_spec|].
  intros items out. apply pbar_check_spec.
Qed.

(* the schedule-independent meter checker (used when mininterval > 0) is sound *)
Theorem C20_meter_checker_sound : forall n leave tot ps, prints_check n leave tot ps = true -> prints_ok n leave tot ps.
Proof. exact prints_check_sound. Qed.

(* history: calls on a heap of objects.  Frame: nothing but the named cells is written, the heap only grows at its end *)
Theorem C20_call_frame : forall h c,
  (length h <= length (fst (step h c)) <= S (length h))%nat
  /\ forall b, (b < length h)%nat -> ~ In b (writes c) -> hget (fst (step h c)) b = hget h b.
Proof. exact step_frame. Qed.

(* locality: heaps of equal size that agree on the cells a call reads undergo the same effect *)
Theorem C20_call_depends_only_on_its_arguments : forall h1 h2 c,
  length h1 = length h2 -> (forall a, In a (reads c) -> hget h1 a = hget h2 a) ->
  (valid h1 c = false /\ step h1 c = (h1, AErr EIndex) /\ step h2 c = (h2, AErr EIndex))
  \/ exists e, step h1 c = commit h1 e /\ step h2 c = commit h2 e.
Proof. exact step_local. Qed.

Theorem C20_answer_independent_of_history : forall h1 h2 c,
  length h1 = length h2 -> (forall a, In a (reads c) -> hget h1 a = hget h2 a) -> snd (step h1 c) = snd (step h2 c).
Proof.
  intros h1 h2 c L R. destruct (step_local h1 h2 c L R) as [(_ & E1 & E2)|[e [E1 E2]]]; rewrite E1, E2; [reflexivity|].
  apply commit_answer. exact L.
Qed.

(* no buffer reuse: a returned object did not exist before, and no later call that does not name it changes it *)
Theorem C20_result_is_fresh : forall h c a,
  snd (step h c) = AAddr a -> a = length h /\ length (fst (step h c)) = S (length h).
Proof. exact result_is_fresh. Qed.

Theorem C20_results_unchanged_by_later_calls : forall cs h b,
  (b < length h)%nat -> (forall c, In c cs -> ~ In b (writes c)) -> hget (fst (run h cs)) b = hget h b.
Proof. exact run_frame. Qed.

(* format_meter's bar branch: the divisions read from the source raise exactly when n = 0 and elapsed > 0 (inside the
   branch), and the full bar never makes such a call *)
Theorem C20_source_meter_divisions : gen_meter_divisions = meter_divisions /\ (forall a b, gen_status_pad a b = status_pad a b).
Proof. exact (conj tie_meter_divisions tie_status_pad). Qed.

Theorem C20_format_meter_raises_iff : forall n total el,
  format_meter_raises n total el = true <-> (exists t, meter_total n total = Some t) /\ n = 0 /\ el = SPos.
Proof. exact meter_raises_iff. Qed.

Theorem C20_format_meter_safe_of_source : forall n total el, (n = 0 -> el <> SPos) ->
  match meter_total n total with Some t => divisions_raise gen_meter_divisions n t el | None => false end = false.
Proof. exact src_meter_safe. Qed.

Theorem C20_full_bar_never_divides_by_zero : forall miniters leave c items,
  let tot := eff_total c (Z.of_nat (length items)) in
  exists rest, full_prints miniters leave c items = (0, meter_total 0 tot) :: rest
    /\ format_meter_raises 0 tot SZero = false
    /\ forall p el, In p rest -> format_meter_raises (fst p) tot el = false.
Proof. exact full_bar_meter_calls_safe. Qed.

(* StatusPrinter: after any sequence of print_status calls the terminal line is the last status followed by blanks *)
Theorem C20_status_line_shows_last : forall (A : Type) (blank : A) ss s,
  exists k, fst (run_status blank [] 0 (ss ++ [s])) = s ++ repeat blank k.
Proof.
  intros A blank ss s. destruct (run_status_line blank (ss ++ [s]) [] 0%nat) as [k [E _]].
  cbn [app repeat length] in E. change (Z.of_nat 0) with 0 in E. exists k. rewrite E, last_last. reflexivity.
Qed.

(* Values of the key-value sort are opaque payloads: moved, never inspected. *)
(* naturality: any key-preserving map on the records commutes with the sort *)
Theorem C20_sort_natural : forall (A A' : Type) (key : A -> Z) (key' : A' -> Z) (g : A -> A') (dflt : A),
  (forall a, key' (g a) = key a) ->
  forall d, quicksort_gen key' (g dflt) (map g d) = option_map (map g) (quicksort_gen key dflt d).
Proof. exact @quicksort_gen_natural. Qed.

(* relabelling the values, into ANY payload type (no order, no equality needed), commutes with the key-value sort *)
Theorem C20_keyvalue_payloads_opaque : forall (B C : Type) (g : B -> C) (db : B) (kv : list (Z * B)),
  quicksort_gen fst (0, g db) (map (relabel g) kv) = option_map (map (relabel g)) (quicksort_gen fst (0, db) kv).
Proof. exact @keyvalue_payloads_opaque. Qed.

(* the keys of the result are the plain quicksort of the keys alone *)
Theorem C20_keyvalue_keys_sorted_alone : forall (B : Type) (db : B) (kv : list (Z * B)),
  option_map (map fst) (quicksort_gen fst (0, db) kv) = quicksort (map fst kv).
Proof.
  intros B db kv. unfold quicksort. symmetry.
  apply (quicksort_gen_natural fst (fun x => x) fst (0, db)). reflexivity.
Qed.

(* keyword defaults of pbar / pmap, the literals of the first meter and the counters, the time test and the update of
   last_print_n, and the wrapper expressions of prange and pmap, as read from the source, are the model's *)
Theorem C20_source_shapes :
  gen_pbar_defaults = model_pbar_defaults /\ gen_pmap_defaults = model_pmap_defaults
  /\ gen_full_first_meter = first_meter /\ gen_full_init = full_init
  /\ (forall a b c, gen_full_time_test a b c = time_test a b c)
  /\ (forall n, gen_full_last_update n = last_update n)
  /\ gen_prange_expr = prange_expr /\ gen_pmap_expr = pmap_expr.
Proof. exact tie_shapes. Qed.

(* pmap as the source composes it -- list(pbar(ex.map(fn, iterable, chunksize=chunksize), **kw)) -- evaluated with the
   executor model and the pbar model: list(map(fn, items)) for every complete schedule and every bar configuration in
   which the bar is defined over a generator *)
Theorem C20_pmap_of_source : forall c f items chunksize schedule,
  1 <= chunksize ->
  (forall k, 0 <= k < Z.of_nat (length (chunks_of (length items) (Z.to_nat chunksize) items)) -> In k schedule) ->
  pbar_defined (as_generator c) (map f items) ->
  eval_pmap c f items chunksize schedule gen_pmap_expr = Some (map f items, None).
Proof. exact src_pmap_kw. Qed.

(* option interaction: simple=True forwarded through pmap without total= -- sbar's RuntimeError reaches pmap's caller *)
Theorem C20_pmap_simple_without_total : forall h f items chunksize schedule,
  1 <= chunksize ->
  (forall k, 0 <= k < Z.of_nat (length (chunks_of (length items) (Z.to_nat chunksize) items)) -> In k schedule) ->
  pmap_kw {| simple := true; has_len := h; total := None |} f items chunksize schedule = Some ([], Some ERuntime).
Proof.
  intros h f items chunksize schedule Hc Hs. unfold pmap_kw, pmap_expr. cbn [eval_pmap].
  rewrite (pmap_all_schedules f items chunksize schedule Hc Hs). reflexivity.
Qed.

Theorem C20_prange_of_source : forall c args, eval_prange c args gen_prange_expr = prange c args.
Proof. exact src_prange. Qed.

(* every keyword at its default (as read from the source): the property holds for every iterable, sized or not;
   pmap's default chunksize meets the hypothesis of C20_pmap_all_schedules *)
Theorem C20_pbar_defaults_of_source : forall has_len items, pbar_ok items (pbar (default_cfg gen_pbar_defaults has_len) items).
Proof. exact src_pbar_defaults. Qed.

Theorem C20_pmap_default_chunksize : forall f items schedule,
  (forall k, 0 <= k < Z.of_nat (length (chunks_of (length items) (Z.to_nat (fst model_pmap_defaults)) items)) -> In k schedule) ->
  pmap f items (fst model_pmap_defaults) schedule = Some (map f items).
Proof. intros f items schedule H. apply pmap_all_schedules; [cbn; lia|exact H]. Qed.

(* mininterval = 0 and a clock that does not run backwards: the time test of the meter update always passes *)
Theorem C20_time_test_zero_interval : forall cur last, last <= cur -> time_test cur last 0 = true.
Proof. intros cur last H. unfold time_test. lia. Qed.

(* exactly which configurations end with an exception, and with which class *)
Theorem C20_pbar_rejections : forall c items e,
  snd (pbar c items) = Some e <->
  simple c = true /\ ((eff_total c (Z.of_nat (length items)) = None /\ e = ERuntime)
                      \/ (eff_total c (Z.of_nat (length items)) = Some 0 /\ items <> [] /\ e = EOther)).
Proof. exact pbar_rejections. Qed.

(* splitarray: nper = 0 divides by zero; a negative nper yields no chunks at all *)
Theorem C20_splitarray_rejections : forall (A : Type) nper (var : list A),
  (nper = 0 -> splitarray nper var = Err EOther) /\ (nper < 0 -> splitarray nper var = Ok []).
Proof.
  intros A nper var. unfold splitarray. split; intro H.
  - subst. reflexivity.
  - destruct (Z.eqb_spec nper 0); [lia|]. f_equal.
    pose proof (chunk_count_neg (Z.of_nat (length var)) nper ltac:(lia) H) as K.
    set (k := _ / _ + _) in *. replace (Z.to_nat k) with 0%nat by lia. reflexivity.
Qed.

(* total= influences the items only through None / zero / non-zero: floats, numpy scalars and bools may be driven
   against the integer model *)
Theorem C20_pbar_total_only_zeroness : forall s h t1 t2 items,
  t1 <> 0 -> t2 <> 0 ->
  pbar {| simple := s; has_len := h; total := Some t1 |} items = pbar {| simple := s; has_len := h; total := Some t2 |} items.
Proof.
  intros s h t1 t2 items H1 H2. unfold pbar, eff_total. cbn [simple has_len total]. destruct s; [|reflexivity].
  destruct (Z.eqb_spec t1 0); [lia|]. destruct (Z.eqb_spec t2 0); [lia|]. reflexivity.
Qed.

Definition task_exn_demo (x : Z) : result Z := if x =? 4 then Err EValue else if x =? 5 then Err EKey else Ok (x * x).

(* Non-vacuity: concrete non-trivial instances meet the hypotheses and the conclusions compute. *)
Example C20_nonvacuous :
  isplit 10 3 = Ok [(0, 4); (4, 7); (7, 10)]
  /\ quicksort [3; 1; 2; 3; 0] = Some [0; 1; 2; 3; 3]
  /\ pmap (fun x => x * x) [1; 2; 3; 4; 5] 2 [2; 0; 1] = Some [1; 4; 9; 16; 25]
  /\ pbar_defined {| simple := true; has_len := true; total := None |} [7; 8].
Proof.
  repeat split; try reflexivity. intros _. exists 2. split; [reflexivity|]. intro; discriminate.
Qed.

Example C20_nonvacuous2 :
  py_range 10 0 (-3) = Ok [10; 7; 4; 1]
  /\ format_interval 3725 = Ok (FmtHMS, [1; 2; 5])
  /\ full_prints 2 true {| simple := false; has_len := true; total := Some 3 |} [7; 8; 9; 6; 5]
     = [(0, Some 3); (2, Some 3); (4, None); (5, None)]
  /\ pmap_exn (task_exn_demo) [1; 2; 3; 4; 5; 6] 2 [2; 1; 0] = Some ([1; 4], Some EValue)
  /\ pbar_nested {| simple := true; has_len := true; total := Some 9 |} {| simple := false; has_len := false; total := None |} [5; 6]
     = ([(5, 1); (6, 2)], None).
Proof. repeat split; reflexivity. Qed.

Example C20_nonvacuous3 :
  (* a history: create, sort in place, isplit twice, scribble over the first result: the second is untouched *)
  run [] [CNew [3; 1; 2]; CQuicksort 0; CIsplit 10 3; CIsplit 10 3; CWrite 1 (VPairs [(1000, 997)])]
  = ([VList [1; 2; 3]; VPairs [(1000, 997)]; VPairs [(0, 4); (4, 7); (7, 10)]], [AAddr 0%nat; ANone; AAddr 1%nat; AAddr 2%nat; ANone])
  /\ format_meter_raises 0 (Some 5) SPos = true /\ format_meter_raises 3 (Some 5) SPos = false
  /\ fst (run_status 0 [] 0 [[1; 2; 3; 4]; [7; 8]]) = [7; 8; 0; 0]
  /\ prints_check 5 true (Some 3) [(0, Some 3); (2, Some 3); (5, None)] = true
  /\ sort_check [2; 1; 2] [1; 2; 2] = true.
Proof. repeat split; reflexivity. Qed.

(* payloads without any order (functions): tied keys, the sort goes through *)
Example C20_nonvacuous4 :
  option_map (map (fun p => (fst p, snd p 1))) (quicksort_gen fst (0, fun x : Z => x) [(2, Z.add 10); (1, Z.mul 3); (2, Z.sub 7); (1, Z.add 5)])
  = Some [(1, 6); (1, 3); (2, 6); (2, 11)]
  /\ quicksort_keyvalue (map (relabel (fun v => 2 * v)) [(2, 100); (1, 101); (2, 102); (0, 103); (1, 104)])
     = option_map (map (relabel (fun v => 2 * v))) (quicksort_keyvalue [(2, 100); (1, 101); (2, 102); (0, 103); (1, 104)]).
Proof. split; reflexivity. Qed.

Example C20_nonvacuous5 :
  pmap_kw {| simple := true; has_len := false; total := Some 9 |} (fun x => x + 1) [1; 2; 3; 4; 5] 2 [2; 0; 1] = Some ([2; 3; 4; 5; 6], None)
  /\ pmap_kw {| simple := true; has_len := false; total := None |} (fun x => x + 1) [1; 2; 3] 2 [0; 1] = Some ([], Some ERuntime)
  /\ snd (pbar {| simple := true; has_len := true; total := Some 0 |} [7; 8]) = Some EOther
  /\ splitarray (-2) [1; 2; 3] = Ok [].
Proof. repeat split; reflexivity. Qed.
