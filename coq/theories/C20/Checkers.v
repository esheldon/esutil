(* C20 — the boolean checkers of Spec.v DECIDE their properties (isplit, splitarray, pbar, the two sorts: each
   checker is characterised by an equivalence), and the schedule-independent meter checker used when
   mininterval > 0 is sound. *)
From Coq Require Import Sorting.Permutation Sorting.Sorted ZifyBool.
From EsVerif.Common Require Import Base.
From EsVerif.C20 Require Import Model Model2 Spec Proofs Proofs2 Exec.

Lemma chain_b_spec s e l : chain_b s e l = true <-> chain s e l.
Proof.
  revert s; induction l as [|[a b] t IH]; intro s; cbn [chain_b chain]; [apply Z.eqb_eq|].
  rewrite andb_true_iff, IH, Z.eqb_eq. reflexivity.
Qed.

Lemma nonincr_b_spec l : nonincr_b l = true <-> nonincr l.
Proof.
  induction l as [|x t IH]; cbn [nonincr_b nonincr]; [tauto|].
  rewrite andb_true_iff, IH. destruct t; [tauto|rewrite Z.leb_le; reflexivity].
Qed.

Lemma isplit_check_spec num nchunks l : isplit_check num nchunks l = true <-> isplit_ok num nchunks l.
Proof.
  unfold isplit_check, isplit_ok.
  rewrite !andb_true_iff, chain_b_spec, nonincr_b_spec, Z.eqb_eq, forallb_forall, <- !and_assoc.
  apply and_iff_compat_l. split; intros H x.
  - intros y Hx Hy. specialize (H x Hx). rewrite forallb_forall in H. specialize (H y Hy). lia.
  - intro Hx. apply forallb_forall. intros y Hy. specialize (H x y Hx Hy). lia.
Qed.

(* the two index-quantified clauses of splitarray_ok, peeled by one chunk *)
Lemma chunk_sizes_b_spec nper cs :
  chunk_sizes_b nper cs = true <->
  (forall i, (i < length cs)%nat -> 1 <= Z.of_nat (length (nth i cs [])) <= nper)
  /\ (forall i, (S i < length cs)%nat -> Z.of_nat (length (nth i cs [])) = nper).
Proof.
  induction cs as [|c t IH].
  - split; [intros _; split; intros i Hi; inversion Hi|reflexivity].
  - destruct t as [|c2 t2].
    + cbn [chunk_sizes_b length]. rewrite andb_true_iff, !Z.leb_le. split.
      * intro H. split; intros [|i] Hi; [exact H|lia|lia|lia].
      * intros [A _]. exact (A 0%nat (Nat.lt_0_succ 0)).
    + change (chunk_sizes_b nper (c :: c2 :: t2)) with
        ((Z.of_nat (length c) =? nper) && chunk_sizes_b nper (c2 :: t2)).
      rewrite andb_true_iff, IH, Z.eqb_eq. cbn [length]. split.
      * intros [H1 [A B]]. pose proof (A 0%nat (Nat.lt_0_succ _)) as A0. cbn [nth] in A0.
        split; intros [|i] Hi; cbn [nth].
        -- lia.
        -- apply A. lia.
        -- exact H1.
        -- apply B. lia.
      * intros [A B]. split; [exact (B 0%nat ltac:(lia))|].
        split; intros i Hi; [apply (A (S i))|apply (B (S i))]; lia.
Qed.

Lemma splitarray_check_spec nper var cs : splitarray_check nper var cs = true <-> splitarray_ok nper var cs.
Proof.
  unfold splitarray_check, splitarray_ok. rewrite andb_true_iff, zlist_eqb_spec, chunk_sizes_b_spec. reflexivity.
Qed.

Lemma pbar_check_spec items out : pbar_check items out = true <-> pbar_ok items out.
Proof.
  unfold pbar_check, pbar_ok. rewrite !andb_true_iff, !zlist_eqb_spec. split.
  - intros [[H1 H2] H3]. split; [exact H1|]. split; [|destruct (snd out); [discriminate|reflexivity]].
    intros k Hk. rewrite <- (map_nth snd (fst out) (0, 0) k), H2, zseq_nth by exact Hk. lia.
  - intros (H1 & H2 & ->). split; [split; [exact H1|]|reflexivity].
    apply (nth_ext _ _ 0 0); [rewrite map_length, zseq_length; reflexivity|].
    intros k Hk. rewrite map_length in Hk. rewrite zseq_nth by exact Hk.
    change 0 with (snd (0, 0)) at 1. rewrite map_nth, (H2 k Hk). ring.
Qed.

(* insertion sort over any comparison; insert_z / isort_z and insert_p / isort_p of Spec.v are its instances at
   Z.leb and pair_leb *)
Section Isort.
  Context {A : Type} (leb : A -> A -> bool).

  Fixpoint ins (x : A) (l : list A) : list A :=
    match l with [] => [x] | y :: t => if leb x y then x :: l else y :: ins x t end.
  Definition isort (l : list A) : list A := fold_right ins [] l.

  Lemma ins_perm x l : Permutation (x :: l) (ins x l).
  Proof.
    induction l as [|y t IH]; simpl; [apply Permutation_refl|].
    destruct (leb x y); [apply Permutation_refl|].
    eapply perm_trans; [apply perm_swap|]. apply perm_skip. exact IH.
  Qed.

  Lemma isort_perm l : Permutation l (isort l).
  Proof.
    induction l as [|x t IH]; simpl; [apply perm_nil|].
    eapply perm_trans; [apply perm_skip; exact IH|]. apply ins_perm.
  Qed.

  (* under a total order the result does not depend on the order of the input *)
  Hypothesis total : forall x y, leb x y = false -> leb y x = true.
  Hypothesis antisym : forall x y, leb x y = true -> leb y x = true -> x = y.
  Hypothesis trans : forall x y z, leb x y = true -> leb y z = true -> leb x z = true.

  Lemma ins_comm x y l : ins x (ins y l) = ins y (ins x l).
  Proof.
    (* both go in front of the same tail *)
    assert (front : forall t, (if leb x y then x :: y :: t else y :: x :: t)
                              = (if leb y x then y :: x :: t else x :: y :: t)).
    { intro t. destruct (leb x y) eqn:XY, (leb y x) eqn:YX; try reflexivity.
      - rewrite (antisym x y XY YX). reflexivity.
      - rewrite (total x y XY) in YX. discriminate. }
    induction l as [|z t IH]; cbn [ins]; [apply front|].
    destruct (leb y z) eqn:YZ, (leb x z) eqn:XZ; cbn [ins]; rewrite ?YZ, ?XZ.
    - apply front.
    - destruct (leb x y) eqn:XY; [rewrite (trans x y z XY YZ) in XZ; discriminate|reflexivity].
    - destruct (leb y x) eqn:YX; [rewrite (trans y x z YX XZ) in YZ; discriminate|reflexivity].
    - rewrite IH. reflexivity.
  Qed.

  Lemma isort_eq_iff l l' : isort l = isort l' <-> Permutation l l'.
  Proof.
    split.
    - intro E. eapply perm_trans; [apply isort_perm|]. rewrite E. apply Permutation_sym, isort_perm.
    - induction 1 as [|x l l' _ IH|x y l|l l' l'' _ IH1 _ IH2]; cbn [isort fold_right] in *.
      + reflexivity.
      + unfold isort in IH. rewrite IH. reflexivity.
      + apply ins_comm.
      + congruence.
  Qed.
End Isort.

Lemma isort_z_is : isort_z = isort Z.leb.
Proof. reflexivity. Qed.
Lemma isort_p_is : isort_p = isort pair_leb.
Proof. reflexivity. Qed.

Lemma sorted_b_spec {A} (key : A -> Z) (l : list A) :
  sorted_b (map key l) = true <-> StronglySorted (fun a b => key a <= key b) l.
Proof.
  split.
  - intro H. apply Sorted_StronglySorted; [intros a b c; lia|].
    induction l as [|x t IH]; [constructor|].
    simpl in H. apply andb_true_iff in H as [H1 H2]. constructor; [apply IH; exact H2|].
    destruct t as [|y t2]; constructor. simpl in H1. lia.
  - induction 1 as [|x t S IH F]; cbn [map sorted_b]; [reflexivity|]. rewrite IH.
    destruct t as [|y t2]; [reflexivity|]. inversion F; subst. cbn [map]. lia.
Qed.

Lemma sort_check_spec d d' : sort_check d d' = true <-> sort_ok (fun x => x) d d'.
Proof.
  unfold sort_check, sort_ok. rewrite andb_true_iff, zlist_eqb_spec, isort_z_is.
  rewrite (isort_eq_iff Z.leb) by (intros; lia). rewrite <- (sorted_b_spec (fun x => x)), map_id. apply and_comm.
Qed.

Lemma pair_leb_total p q : pair_leb p q = false -> pair_leb q p = true.
Proof. destruct p, q; unfold pair_leb; cbn [fst snd]. lia. Qed.
Lemma pair_leb_antisym p q : pair_leb p q = true -> pair_leb q p = true -> p = q.
Proof. destruct p, q; unfold pair_leb; cbn [fst snd]. intros. f_equal; lia. Qed.
Lemma pair_leb_trans p q r : pair_leb p q = true -> pair_leb q r = true -> pair_leb p r = true.
Proof. destruct p, q, r; unfold pair_leb; cbn [fst snd]. lia. Qed.

Lemma zpair_eqb_eq p q : zpair_eqb p q = true <-> p = q.
Proof. destruct p, q; unfold zpair_eqb; simpl. split; intro H; [f_equal; lia|inversion H; lia]. Qed.

Lemma sortkv_check_spec d d' : sortkv_check d d' = true <-> sort_ok fst d d'.
Proof.
  unfold sortkv_check, sort_ok. rewrite andb_true_iff, (list_eqb_spec zpair_eqb zpair_eqb_eq), isort_p_is.
  rewrite (isort_eq_iff pair_leb pair_leb_total pair_leb_antisym pair_leb_trans), <- sorted_b_spec. apply and_comm.
Qed.

Lemma increasing_b_sound a l : increasing_b a l = true -> increasing_from a l.
Proof.
  revert a; induction l as [|p t IH]; intro a; cbn [increasing_b increasing_from]; intro H; [exact I|].
  apply andb_true_iff in H as [H1 H2]. split; [lia|apply IH; exact H2].
Qed.
Lemma popt_eqb_eq a b : popt_eqb a b = true -> a = b.
Proof. destruct a, b; cbn; intro H; try discriminate; [f_equal; lia|reflexivity]. Qed.
Lemma prints_check_sound n leave tot ps : prints_check n leave tot ps = true -> prints_ok n leave tot ps.
Proof.
  unfold prints_check, prints_ok. destruct ps as [|p0 rest]; [discriminate|]. intro H.
  apply andb_true_iff in H as [H H4]. apply andb_true_iff in H as [H H3]. apply andb_true_iff in H as [H1 H2].
  unfold print_eqb in H1. apply andb_true_iff in H1 as [H1a H1b]. apply popt_eqb_eq in H1b.
  cbn [fst snd] in *. exists rest. split; [destruct p0 as [a b]; cbn [fst snd] in *; assert (a = 0) by lia; subst; reflexivity|].
  split; [apply increasing_b_sound; exact H2|]. split.
  - apply Forall_forall. intros p Hp. rewrite forallb_forall in H3. specialize (H3 p Hp).
    apply andb_true_iff in H3 as [A B]. apply popt_eqb_eq in A. split; [exact A|lia].
  - intro L. subst leave. lia.
Qed.
