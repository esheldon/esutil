(* C20 — further shapes read from the source and their meaning:
   keyword defaults of pbar / pmap, the literals of _pbar_full's first meter and counters, the time test of the meter
   update, and the WRAPPER EXPRESSIONS of prange (`pbar(range( *args), **kwargs)`) and pmap
   (`list(pbar(ex.map(fn, iterable, chunksize=chunksize), **kw))`) as terms with an evaluator; plus the exact
   rejection behaviour of pbar. *)
From Coq Require Import ZifyBool.
From EsVerif.Common Require Import Base.
From EsVerif.C20 Require Import Model Model2 Spec Proofs Proofs2.

Record pbar_defaults := { d_total : option Z; d_leave : bool; d_mininterval : Z * Z (* numerator, denominator *);
                          d_miniters : Z; d_n_bars : Z; d_simple : bool }.
Definition model_pbar_defaults : pbar_defaults :=
  {| d_total := None; d_leave := true; d_mininterval := (1, 2); d_miniters := 1; d_n_bars := 20; d_simple := false |}.
Definition model_pmap_defaults : Z * Z := (1, 1).      (* chunksize, nproc *)

(* pbar(iterable) with every keyword left at its default *)
Definition default_cfg (d : pbar_defaults) (has_len : bool) : pcfg :=
  {| simple := d_simple d; has_len := has_len; total := d_total d |}.

Lemma pbar_defaults_ok has_len items : pbar_ok items (pbar (default_cfg model_pbar_defaults has_len) items).
Proof. apply pbar_full_always. reflexivity. Qed.

Definition first_meter : Z * Z := (0, 0).        (* format_meter(0, total, 0): count shown, elapsed passed *)
Definition full_init : Z * Z := (0, 0).          (* n = 0, last_print_n = 0 *)
Definition time_test (cur_t last_print_t mininterval : Z) : bool := cur_t - last_print_t >=? mininterval.
Definition last_update (n : Z) : Z := n.

(* with a positive interval the time test fails when no time has passed: only the counter test and the final meter remain *)
Lemma time_test_no_time cur mininterval : 0 < mininterval -> time_test cur cur mininterval = false.
Proof. unfold time_test. lia. Qed.

Inductive wchunk := ChunkParam | ChunkDefault.
Inductive wexpr :=
| WArgIterable                              (* the parameter `iterable` *)
| WRangeOfArgs                              (* range( *args) *)
| WExMap (c : wchunk) (e : wexpr)           (* ex.map(fn, e[, chunksize=chunksize]) *)
| WPbar (e : wexpr)                         (* pbar(e, **kw): the caller's keywords are forwarded *)
| WList (e : wexpr).                        (* list(e) *)

Definition prange_expr : wexpr := WPbar WRangeOfArgs.
Definition pmap_expr : wexpr := WList (WPbar (WExMap ChunkParam WArgIterable)).

(* pmap: the values an expression produces and how its evaluation ends; None = the executor never delivers.
   c = the caller's progress-bar keywords; the bar wraps a generator (ex.map's result has no len()) *)
Fixpoint eval_pmap (c : pcfg) (f : Z -> Z) (items : list Z) (chunksize : Z) (schedule : list Z) (e : wexpr)
  : option (list Z * option err) :=
  match e with
  | WArgIterable => Some (items, None)
  | WRangeOfArgs => None
  | WExMap ck e' =>
      match eval_pmap c f items chunksize schedule e' with
      | Some (l, None) =>
          match pmap f l (match ck with ChunkParam => chunksize | ChunkDefault => fst model_pmap_defaults end) schedule with
          | Some r => Some (r, None)
          | None => None
          end
      | other => other
      end
  | WPbar e' =>
      match eval_pmap c f items chunksize schedule e' with
      | Some (l, src_end) => let '(ys, e) := pbar_on (as_generator c) l src_end in Some (map fst ys, e)
      | None => None
      end
  | WList e' => eval_pmap c f items chunksize schedule e'
  end.

(* pmap(fn, items, chunksize, **kw) as the source composes it *)
Definition pmap_kw (c : pcfg) (f : Z -> Z) (items : list Z) (chunksize : Z) (schedule : list Z) :=
  eval_pmap c f items chunksize schedule pmap_expr.

Lemma pmap_kw_spec c f items chunksize schedule :
  1 <= chunksize ->
  (forall k, 0 <= k < Z.of_nat (length (chunks_of (length items) (Z.to_nat chunksize) items)) -> In k schedule) ->
  pbar_defined (as_generator c) (map f items) ->
  pmap_kw c f items chunksize schedule = Some (map f items, None).
Proof.
  intros Hc Hs D. unfold pmap_kw, pmap_expr. cbn [eval_pmap].
  rewrite (pmap_all_schedules f items chunksize schedule Hc Hs).
  rewrite (pbar_on_propagates _ _ None D). cbn [fst snd]. rewrite tag_from_fst. reflexivity.
Qed.

(* prange: only the two compositions that denote pbar over range( *args) are given a meaning *)
Definition eval_prange (c : pcfg) (args : list Z) (e : wexpr) : list (Z * Z) * option err :=
  match e with
  | WPbar WRangeOfArgs | WPbar (WList WRangeOfArgs) => prange c args
  | _ => ([], Some EOther)
  end.
Lemma eval_prange_expr c args : eval_prange c args prange_expr = prange c args.
Proof. reflexivity. Qed.

(* pbar ends with an exception in exactly two situations, with exactly these classes *)
Lemma pbar_rejections c items e :
  snd (pbar c items) = Some e <->
  simple c = true /\ ((eff_total c (Z.of_nat (length items)) = None /\ e = ERuntime)
                      \/ (eff_total c (Z.of_nat (length items)) = Some 0 /\ items <> [] /\ e = EOther)).
Proof.
  unfold pbar. destruct (simple c); [|cbn [snd]; split; [discriminate|intros [H _]; discriminate]].
  destruct (eff_total c (Z.of_nat (length items))) as [t|].
  - destruct ((t =? 0) && negb (Z.of_nat (length items) =? 0)) eqn:T; cbn [snd].
    + split.
      * intro H. inversion H. split; [reflexivity|]. right. split; [f_equal; lia|]. split; [|reflexivity].
        intro E. subst items. cbn in T. lia.
      * intros [_ [[H _]|[H [_ ->]]]]; [discriminate|reflexivity].
    + split; [discriminate|]. intros [_ [[H _]|[H [N _]]]]; [discriminate|].
      inversion H; subst t. exfalso. destruct items; [congruence|]. cbn [length] in T. lia.
  - cbn [snd]. split.
    + intro H. inversion H. split; [reflexivity|]. left. split; reflexivity.
    + intros [_ [[_ ->]|[H _]]]; [reflexivity|discriminate].
Qed.
