(* C20 — correctness of the hole-based in-place quicksort model (Model.v, Section Sort):
   the fuel given by the model always suffices (the result is never None), the output is a
   permutation of the input, and it is sorted by key. *)
From Coq Require Import Sorting.Permutation Sorting.Sorted.
From EsVerif.Common Require Import Base.
From EsVerif.C20 Require Import Model.

Section ListFacts.
  Context {A : Type} (dflt : A).
  Local Notation ag := (aget dflt).

  Lemma zset_length (l : list A) (i : Z) (v : A) : length (zset l i v) = length l.
  Proof.
    unfold zset. destruct (i <? 0); [reflexivity | apply set_nth_length].
  Qed.

  Lemma aget_zset_eq (l : list A) (i : Z) (v : A) :
    0 <= i < Z.of_nat (length l) -> ag (zset l i v) i = v.
  Proof.
    intros Hi. unfold aget, zset. destruct (Z.ltb_spec i 0) as [Hneg | Hnn]; [lia|].
    apply nth_set_nth_eq. lia.
  Qed.

  Lemma aget_zset_neq (l : list A) (i j : Z) (v : A) :
    i <> j -> 0 <= j -> ag (zset l i v) j = ag l j.
  Proof.
    intros Hij Hj. unfold aget, zset. destruct (Z.ltb_spec i 0) as [Hneg | Hnn]; [reflexivity|].
    apply nth_set_nth_neq. lia.
  Qed.

  (* l' is l with the cells i and j exchanged *)
  Record exchanged (i j : Z) (l l' : list A) : Prop := {
    ex_len : length l' = length l;
    ex_i : ag l' i = ag l j;
    ex_j : ag l' j = ag l i;
    ex_other : forall k, 0 <= k -> k <> i -> k <> j -> ag l' k = ag l k
  }.

  Lemma perm_exchange_nth (l l' : list A) (i j : nat) :
    length l' = length l -> (i < length l)%nat -> (j < length l)%nat ->
    nth i l' dflt = nth j l dflt -> nth j l' dflt = nth i l dflt ->
    (forall k, k <> i -> k <> j -> nth k l' dflt = nth k l dflt) ->
    Permutation l l'.
  Proof.
    intros Hlen Hi Hj Hij Hji Hk.
    apply (Permutation_nth l l' dflt). split; [exact Hlen|].
    exists (fun x => if Nat.eqb x i then j else if Nat.eqb x j then i else x).
    unfold FinFun.bFun, FinFun.bInjective. split; [|split].
    - intros x Hx. destruct (Nat.eqb_spec x i); [lia|]. destruct (Nat.eqb_spec x j); lia.
    - intros x y Hx Hy.
      destruct (Nat.eqb_spec x i), (Nat.eqb_spec y i), (Nat.eqb_spec x j), (Nat.eqb_spec y j); congruence.
    - intros x Hx. destruct (Nat.eqb_spec x i) as [->|Hxi]; [exact Hij|].
      destruct (Nat.eqb_spec x j) as [->|Hxj]; [exact Hji|]. apply Hk; assumption.
  Qed.

  Lemma exchanged_perm {i j : Z} {l l' : list A} :
    0 <= i < Z.of_nat (length l) -> 0 <= j < Z.of_nat (length l) -> exchanged i j l l' -> Permutation l l'.
  Proof.
    intros Hi Hj [Hlen Hij Hji Hk].
    apply (perm_exchange_nth l l' (Z.to_nat i) (Z.to_nat j)); [exact Hlen|lia|lia|exact Hij|exact Hji|].
    intros k Hki Hkj. specialize (Hk (Z.of_nat k)). unfold aget in Hk.
    rewrite Nat2Z.id in Hk. apply Hk; lia.
  Qed.

  (* the array with its hole h filled by v: copying cell j into the hole and making j the new hole exchanges
     the cells h and j of the filled array *)
  Lemma hole_moves (l : list A) (h j : Z) (v : A) :
    0 <= h < Z.of_nat (length l) -> 0 <= j < Z.of_nat (length l) -> h <> j ->
    exchanged h j (zset l h v) (zset (zset l h (ag l j)) j v).
  Proof.
    intros Hh Hj Hne. constructor.
    - rewrite !zset_length. reflexivity.
    - rewrite aget_zset_neq, aget_zset_eq, aget_zset_neq by lia. reflexivity.
    - rewrite !aget_zset_eq by (rewrite ?zset_length; lia). reflexivity.
    - intros k Hk Hkh Hkj. rewrite !aget_zset_neq by lia. reflexivity.
  Qed.

  Lemma sorted_nth_SS (R : A -> A -> Prop) (l : list A) :
    (forall i j, (i < j)%nat -> (j < length l)%nat -> R (nth i l dflt) (nth j l dflt)) ->
    StronglySorted R l.
  Proof.
    induction l as [|a l IH]; intros H; constructor.
    - apply IH. intros i j Hij Hj. apply (H (S i) (S j)); cbn [length]; lia.
    - apply Forall_forall. intros x Hx.
      destruct (In_nth l x dflt Hx) as (n & Hn & Hnx). subst x.
      apply (H O (S n)); cbn [length]; lia.
  Qed.
End ListFacts.

Section SortProofs.
  Context {A : Type} (key : A -> Z) (dflt : A).
  Local Notation ag := (aget dflt).

  (* d' is a rearrangement of d inside the window [s, e] *)
  Record Within (s e : Z) (d d' : list A) : Prop := {
    w_perm : Permutation d d';
    w_out : forall i, 0 <= i -> i < s \/ e < i -> ag d' i = ag d i;
    w_mem : forall i, s <= i <= e -> exists j, s <= j <= e /\ ag d' i = ag d j
  }.

  Lemma Within_length {s e d d'} : Within s e d d' -> length d' = length d.
  Proof. intros [P _ _]. symmetry. apply Permutation_length, P. Qed.

  Lemma Within_refl s e d : Within s e d d.
  Proof.
    constructor; [apply Permutation_refl|reflexivity|].
    intros i Hi. exists i. split; [exact Hi|reflexivity].
  Qed.

  Lemma Within_trans {s e d1 d2 d3} : Within s e d1 d2 -> Within s e d2 d3 -> Within s e d1 d3.
  Proof.
    intros [P1 O1 M1] [P2 O2 M2]. constructor.
    - eapply Permutation_trans; eassumption.
    - intros i Hi0 Hi. rewrite O2, O1 by assumption. reflexivity.
    - intros i Hi. destruct (M2 i Hi) as (j & Hj & ->). apply M1. exact Hj.
  Qed.

  Lemma Within_widen {s e} s' e' {d d'} : Within s e d d' -> 0 <= s' <= s -> e <= e' -> Within s' e' d d'.
  Proof.
    intros [P O M] Hs He. constructor; [exact P|intros i Hi0 Hi; apply O; lia|].
    intros i Hi. destruct (Z_lt_le_dec i s); [|destruct (Z_lt_le_dec e i)].
    - exists i. split; [exact Hi|apply O; lia].
    - exists i. split; [exact Hi|apply O; lia].
    - destruct (M i) as (j & Hj & E); [lia|]. exists j. split; [lia|exact E].
  Qed.

  Lemma Within_exchanged {s e} i j {d d'} :
    0 <= s -> e < Z.of_nat (length d) -> s <= i <= e -> s <= j <= e -> exchanged dflt i j d d' -> Within s e d d'.
  Proof.
    intros Hs He Hi Hj X. pose proof X as [_ Xi Xj Xo]. constructor.
    - refine (exchanged_perm dflt _ _ X); lia.
    - intros k Hk0 Hk. apply Xo; lia.
    - intros k Hk. destruct (Z.eq_dec k i) as [->|Hki]; [|destruct (Z.eq_dec k j) as [->|Hkj]].
      + exists j. split; [exact Hj|exact Xi].
      + exists i. split; [exact Hi|exact Xj].
      + exists k. split; [exact Hk|apply Xo; lia].
  Qed.

  (* the hole of the two-phase partition loop: where the next exchanged element goes *)
  Definition hole (ph : phase) (bottom top : Z) : Z :=
    match ph with Up => top | Down => bottom end.

  Section Partition.
    Variables (d0 : list A) (start end_ : Z) (pivot : A).
    Hypotheses (Hs : 0 <= start) (He : end_ < Z.of_nat (length d0)).

    (* The loop invariant, stated about the array f in which the hole holds the pivot (zset d hole pivot): it does
       not depend on the phase; a step that moves no element leaves f alone, one that does exchanges the hole with
       the element found. *)
    Record PInv (f : list A) (bottom top : Z) : Prop := {
      pi_within : Within start end_ d0 f;
      pi_range : start - 1 <= bottom /\ bottom < top /\ top <= end_;
      pi_low : forall i, start <= i <= bottom -> key (ag f i) <= key pivot;
      pi_high : forall i, top <= i <= end_ -> key pivot <= key (ag f i)
    }.

    Record PPost (d1 : list A) (split : Z) : Prop := {
      pp_within : Within start end_ d0 d1;
      pp_split : start <= split <= end_;
      pp_low : forall i, start <= i < split -> key (ag d1 i) <= key (ag d1 split);
      pp_high : forall i, split < i <= end_ -> key (ag d1 split) <= key (ag d1 i)
    }.

    (* bottom and top have met at the hole *)
    Lemma PInv_exit {f} bottom top {split} :
      PInv f bottom top -> top = bottom + 1 -> bottom <= split <= top -> start <= split ->
      ag f split = pivot -> PPost f split.
    Proof.
      intros [W R L H] E S S0 P. constructor; [exact W|lia|rewrite P..].
      - intros i Hi. apply L. lia.
      - intros i Hi. apply H. lia.
    Qed.

    Lemma PInv_up f bottom top :
      PInv f bottom top -> bottom + 1 < top -> key (ag f (bottom + 1)) <= key pivot -> PInv f (bottom + 1) top.
    Proof.
      intros [W R L H] Hlt Hk. constructor; [exact W|lia| |exact H].
      intros i Hi. destruct (Z.eq_dec i (bottom + 1)) as [->|Hne]; [exact Hk|apply L; lia].
    Qed.

    Lemma PInv_down f bottom top :
      PInv f bottom top -> bottom < top - 1 -> key pivot <= key (ag f (top - 1)) -> PInv f bottom (top - 1).
    Proof.
      intros [W R L H] Hlt Hk. constructor; [exact W|lia|exact L|].
      intros i Hi. destruct (Z.eq_dec i (top - 1)) as [->|Hne]; [exact Hk|apply H; lia].
    Qed.

    (* scanning up found a large element at bottom + 1: it goes into the hole at top *)
    Lemma PInv_move_up {f e bottom top} :
      PInv f bottom top -> ag f top = pivot -> bottom + 1 < top -> key pivot <= key (ag f (bottom + 1)) ->
      exchanged dflt top (bottom + 1) f e -> PInv e (bottom + 1) top.
    Proof.
      intros [W R L H] P Hlt Hk X. pose proof X as [_ Xi Xj Xo]. pose proof (Within_length W) as Hlen. constructor.
      - apply (Within_trans W), (Within_exchanged top (bottom + 1)); [lia..|exact X].
      - lia.
      - intros i Hi. destruct (Z.eq_dec i (bottom + 1)) as [->|Hne].
        + rewrite Xj, P. lia.
        + rewrite Xo by lia. apply L. lia.
      - intros i Hi. destruct (Z.eq_dec i top) as [->|Hne].
        + rewrite Xi. exact Hk.
        + rewrite Xo by lia. apply H. lia.
    Qed.

    (* scanning down found a small element at top - 1: it goes into the hole at bottom *)
    Lemma PInv_move_down {f e bottom top} :
      PInv f bottom top -> ag f bottom = pivot -> start <= bottom -> bottom < top - 1 ->
      key (ag f (top - 1)) <= key pivot ->
      exchanged dflt bottom (top - 1) f e -> PInv e bottom (top - 1).
    Proof.
      intros [W R L H] P Hb Hlt Hk X. pose proof X as [_ Xi Xj Xo]. pose proof (Within_length W) as Hlen. constructor.
      - apply (Within_trans W), (Within_exchanged bottom (top - 1)); [lia..|exact X].
      - lia.
      - intros i Hi. destruct (Z.eq_dec i bottom) as [->|Hne].
        + rewrite Xi. exact Hk.
        + rewrite Xo by lia. apply L. lia.
      - intros i Hi. destruct (Z.eq_dec i (top - 1)) as [->|Hne].
        + rewrite Xj, P. lia.
        + rewrite Xo by lia. apply H. lia.
    Qed.

    Lemma part_spec (fuel : nat) : forall (d : list A) (bottom top : Z) (ph : phase),
      start <= hole ph bottom top ->
      PInv (zset d (hole ph bottom top) pivot) bottom top ->
      top - bottom <= Z.of_nat fuel ->
      exists d1 split, part key dflt fuel d pivot bottom top ph = Some (d1, split) /\ PPost d1 split.
    Proof.
      induction fuel as [|f IH]; intros d bottom top ph Hh Inv Hfuel; pose proof Inv as [W R _ _]; pose proof (Within_length W) as Hlen.
      { (* bottom < top leaves no room for fuel 0 *) lia. }
      rewrite zset_length in Hlen.
      destruct ph; cbn [part hole] in *.
      - (* Up: the hole is at top *)
        destruct (Z.eqb_spec (bottom + 1) top) as [Heq|Hne].
        + eexists _, _. split; [reflexivity|].
          apply (PInv_exit bottom top Inv); [lia..|apply aget_zset_eq; lia].
        + assert (E : ag (zset d top pivot) (bottom + 1) = ag d (bottom + 1)) by (apply aget_zset_neq; lia).
          assert (P : ag (zset d top pivot) top = pivot) by (apply aget_zset_eq; lia).
          destruct (Z.gtb_spec (key (ag d (bottom + 1))) (key pivot)).
          * apply (IH _ (bottom + 1) top Down); cbn [hole]; [lia| |lia].
            apply (PInv_move_up Inv P); [lia|rewrite E; lia|apply hole_moves; lia].
          * apply (IH _ (bottom + 1) top Up); cbn [hole]; [lia| |lia].
            apply PInv_up; [exact Inv|lia|rewrite E; lia].
      - (* Down: the hole is at bottom *)
        destruct (Z.eqb_spec (top - 1) bottom) as [Heq|Hne].
        + eexists _, _. split; [reflexivity|]. rewrite Heq.
          apply (PInv_exit bottom top Inv); [lia..|apply aget_zset_eq; lia].
        + assert (E : ag (zset d bottom pivot) (top - 1) = ag d (top - 1)) by (apply aget_zset_neq; lia).
          assert (P : ag (zset d bottom pivot) bottom = pivot) by (apply aget_zset_eq; lia).
          destruct (Z.ltb_spec (key (ag d (top - 1))) (key pivot)).
          * apply (IH _ bottom (top - 1) Up); cbn [hole]; [lia| |lia].
            apply (PInv_move_down Inv P); [lia|lia|rewrite E; lia|apply hole_moves; lia].
          * apply (IH _ bottom (top - 1) Down); cbn [hole]; [lia| |lia].
            apply PInv_down; [exact Inv|lia|rewrite E; lia].
    Qed.
  End Partition.

  Lemma partition_spec (d : list A) (start end_ : Z) :
    0 <= start -> start < end_ -> end_ < Z.of_nat (length d) ->
    exists d1 split,
      partition key dflt d start end_ = Some (d1, split) /\ PPost d start end_ d1 split.
  Proof.
    intros Hs Hlt He. unfold partition.
    apply (part_spec d start end_ _ Hs He _ d (start - 1) end_ Up); cbn [hole]; [lia| |lia].
    (* before the first step the hole is at end_ and holds the pivot already *)
    constructor; [|lia|intros i Hi; lia|].
    - apply (Within_exchanged end_ end_); [lia..|]. constructor.
      + apply zset_length.
      + apply aget_zset_eq. lia.
      + apply aget_zset_eq. lia.
      + intros k Hk Hne _. apply aget_zset_neq; lia.
    - intros i Hi. replace i with end_ by lia. rewrite aget_zset_eq by lia. lia.
  Qed.

  Definition sorted_win (d : list A) (s e : Z) : Prop :=
    forall i j, s <= i -> i < j -> j <= e -> key (ag d i) <= key (ag d j).

  (* two sorted windows around a cell that bounds the left one from above and the right one from below *)
  Lemma sorted_win_join d s p e :
    sorted_win d s (p - 1) -> sorted_win d (p + 1) e ->
    (forall i, s <= i < p -> key (ag d i) <= key (ag d p)) ->
    (forall i, p < i <= e -> key (ag d p) <= key (ag d i)) ->
    sorted_win d s e.
  Proof.
    intros SL SR L R i j Hi Hij Hj.
    destruct (Z_lt_le_dec j p); [apply SL; lia|]. destruct (Z_lt_le_dec p i); [apply SR; lia|].
    destruct (Z.eq_dec i p) as [->|]; [apply R; lia|].
    destruct (Z.eq_dec j p) as [->|]; [apply L; lia|].
    apply Z.le_trans with (key (ag d p)); [apply L|apply R]; lia.
  Qed.

  (* 0 < fuel is not implied by the bound on the window: an empty window (end_ < start) still costs one unit *)
  Lemma qs_spec : forall (fuel : nat) (d : list A) (start end_ : Z),
    0 <= start -> end_ < Z.of_nat (length d) ->
    end_ - start < Z.of_nat fuel -> (0 < fuel)%nat ->
    exists d', qs key dflt fuel d start end_ = Some d' /\ Within start end_ d d' /\ sorted_win d' start end_.
  Proof.
    induction fuel as [|f IH]; intros d start end_ Hs He Hf Hpos; [lia|].
    cbn [qs]. destruct (Z.ltb_spec start end_) as [Hlt | Hge].
    - destruct (partition_spec d start end_ Hs Hlt He) as (d1 & split & -> & [W1 Hsplit Hlow1 Hhigh1]).
      pose proof (Within_length W1) as Hlen1.
      destruct (IH d1 start (split - 1)) as (d2 & -> & W2 & Hsort2); try lia.
      pose proof (Within_length W2) as Hlen2.
      destruct (IH d2 (split + 1) end_) as (d3 & H3 & W3 & Hsort3); try lia.
      exists d3. split; [exact H3|]. split.
      { apply (Within_trans W1), (Within_trans (d2 := d2)).
        - apply (Within_widen start end_ W2); lia.
        - apply (Within_widen start end_ W3); lia. }
      destruct W2 as [_ Hout2 Hmem2]. destruct W3 as [_ Hout3 Hmem3].
      (* the sorts of the two halves keep their elements, hence the bounds partition established, and leave
         the split cell and each other's half alone *)
      apply (sorted_win_join d3 start split end_).
      + intros i j Hi Hij Hj. rewrite !Hout3 by lia. apply Hsort2; lia.
      + exact Hsort3.
      + intros i Hi. rewrite !Hout3, (Hout2 split) by lia.
        destruct (Hmem2 i) as (j & Hj & ->); [lia|]. apply Hlow1; lia.
      + intros i Hi. rewrite (Hout3 split), (Hout2 split) by lia.
        destruct (Hmem3 i) as (j & Hj & ->); [lia|]. rewrite Hout2 by lia. apply Hhigh1; lia.
    - exists d. split; [reflexivity|]. split; [apply Within_refl|].
      intros i j Hi Hij Hj. lia.
  Qed.
End SortProofs.

Theorem quicksort_gen_correct :
  forall (A : Type) (key : A -> Z) (dflt : A) (d : list A),
    exists d', quicksort_gen key dflt d = Some d'
               /\ Permutation d d'
               /\ StronglySorted (fun a b => key a <= key b) d'.
Proof.
  intros A key dflt d. unfold quicksort_gen.
  destruct (qs_spec key dflt (S (length d)) d 0 (Z.of_nat (length d) - 1))
    as (d' & Hq & [Hperm _ _] & Hsort); try lia.
  exists d'. split; [exact Hq|]. split; [exact Hperm|]. pose proof (Permutation_length Hperm) as Hlen.
  apply (sorted_nth_SS dflt). intros i j Hij Hj.
  specialize (Hsort (Z.of_nat i) (Z.of_nat j)). unfold aget in Hsort.
  rewrite !Nat2Z.id in Hsort. apply Hsort; lia.
Qed.

Corollary quicksort_correct :
  forall d, exists d', quicksort d = Some d' /\ Permutation d d' /\ StronglySorted Z.le d'.
Proof. exact (quicksort_gen_correct Z (fun x => x) 0). Qed.

Corollary quicksort_keyvalue_correct :
  forall kv, exists kv', quicksort_keyvalue kv = Some kv' /\ Permutation kv kv'
                         /\ StronglySorted (fun a b => fst a <= fst b) kv'.
Proof. exact (quicksort_gen_correct (Z * Z) fst (0, 0)). Qed.

Print Assumptions quicksort_gen_correct.
Print Assumptions quicksort_correct.
Print Assumptions quicksort_keyvalue_correct.
