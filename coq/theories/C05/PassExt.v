(* C05 — the pass only looks at bin numbers that are valid bins: two bin-number functions that agree
   on validity and on the valid values give the same arrays.  Hence the partition theorem also holds
   when the bin numbers are non-decreasing only after re-labelling the invalid ones (e.g. data whose
   quotient is NaN or beyond int64 get INT64_MIN although they come last), and so does the data-level
   property under the decidable contracts of Spec.v, strong or weak. *)
From Coq Require Import Sorting.Permutation Sorting.Sorted ZifyBool.
From EsVerif.Common Require Import Base.
From EsVerif.C05 Require Import Model Spec PassProofs Proofs.

Definition agree_valid (nbin : Z) (bn bn' : Z -> Z) (s : list Z) : Prop :=
  forall k, In k s -> valid_bin nbin (bn' k) = valid_bin nbin (bn k)
                      /\ (valid_bin nbin (bn k) = true -> bn' k = bn k).

Lemma agree_valid_refl nbin bn s : agree_valid nbin bn bn s.
Proof. intros k _. split; reflexivity. Qed.

Lemma agree_valid_tail nbin bn bn' k s : agree_valid nbin bn bn' (k :: s) -> agree_valid nbin bn bn' s.
Proof. intros H j Hj. apply H. right. exact Hj. Qed.

Lemma c_loop_ext nbin bn bn' s : agree_valid nbin bn bn' s -> forall i b oe h r,
  c_loop bn nbin s i b oe h r = c_loop bn' nbin s i b oe h r.
Proof.
  induction s as [|k ss IH]; intros A i b oe h r; cbn [c_loop]; [reflexivity|].
  destruct (A k (or_introl eq_refl)) as [V E]. rewrite V.
  destruct (valid_bin nbin (bn k)) eqn:Vk.
  - rewrite (E eq_refl). apply IH. eapply agree_valid_tail; exact A.
  - apply IH. eapply agree_valid_tail; exact A.
Qed.

Lemma chist_ext nbin bn bn' s : agree_valid nbin bn bn' s -> chist bn nbin s = chist bn' nbin s.
Proof. intros A. unfold chist. rewrite (c_loop_ext nbin bn bn' s A). reflexivity. Qed.

Lemma sel_ext nbin bn bn' s i : agree_valid nbin bn bn' s -> 0 <= i < nbin -> sel bn i s = sel bn' i s.
Proof.
  intros A Hi. apply filter_ext_in. intros k Hk. destruct (A k Hk) as [V E].
  destruct (valid_bin nbin (bn k)) eqn:Vk.
  - rewrite (E eq_refl). reflexivity.
  - unfold valid_bin in *. destruct (bn k =? i) eqn:E1; destruct (bn' k =? i) eqn:E2; try reflexivity; lia.
Qed.

Lemma pass_partition_ext nbin bn bn' s hist rev : agree_valid nbin bn bn' s ->
  pass_partition bn' nbin s hist rev -> pass_partition bn nbin s hist rev.
Proof.
  intros A (P1 & P2 & P3 & P4 & P5 & P6).
  split; [exact P1|]. split; [exact P2|]. split; [|split; [|split; [exact P5|]]].
  - intros i Hi. rewrite (sel_ext nbin bn bn' s i A Hi). exact (P3 i Hi).
  - rewrite P4. unfold n_valid. do 2 f_equal. apply filter_ext_in. intros k Hk. apply (A k Hk).
  - intros AC. apply P6. intros k Hk. destruct (A k Hk) as [V _]. rewrite V. apply AC, Hk.
Qed.

(* the partition theorem with the invalid bin numbers re-labelled *)
Theorem pass_partition_relabel eng bn bn' nbin s : 0 <= nbin ->
  agree_valid nbin bn bn' s -> Sorted Z.le (map bn' s) ->
  let '(hist, rev) := match eng with EngC => chist bn nbin s | EngPy => pyhist bn nbin s end in
  pass_partition bn nbin s hist rev.
Proof.
  intros Hn A HS. rewrite engine_pass, (chist_ext nbin bn bn' s A).
  pose proof (chist_partition bn' nbin Hn s HS) as P. destruct (chist bn' nbin s) as [hist rev].
  exact (pass_partition_ext nbin bn bn' s hist rev A P).
Qed.

(* the canonical re-labelling: everything that is not a valid bin counts as "beyond the last bin" *)
Lemma up_bin_agree nbin bn s : agree_valid nbin bn (fun k => up_bin nbin (bn k)) s.
Proof.
  intros k _. unfold up_bin. destruct (valid_bin nbin (bn k)) eqn:V; [split; [exact V|reflexivity]|].
  split; [|discriminate]. unfold valid_bin. lia.
Qed.

Lemma up_bin_range nbin b : 0 <= nbin -> 0 <= up_bin nbin b <= nbin.
Proof. intros Hn. unfold up_bin, valid_bin. destruct ((0 <=? b) && (b <? nbin)) eqn:V; lia. Qed.

(* the bridge, for bin numbers that are non-decreasing after some re-labelling bn' of the invalid ones;
   bn' = bn gives `contracts` of Spec.v, bn' = up_bin its `contracts_w` (neither implies the other:
   `contracts` admits bin numbers below 0 that come first, `contracts_w` invalid ones anywhere) *)
Theorem model_meets_spec_relabel eng x lo hi m o (bn' : Z -> Z) :
  histogram eng x lo hi m = Ok o ->
  let p := o_params o in
  let bn := binnum x (p_dmin p) (p_bsize p) in
  ordered x (o_sort o) ->
  o_wsort o = filter (fun k => in_limits lo hi (fget x k)) (o_sort o) ->
  (forall k, In k (o_wsort o) -> bn k = bin_index (p_dmin p) (p_bsize p) (fget x k)) ->
  agree_valid (p_nbin p) bn bn' (o_wsort o) -> Sorted Z.le (map bn' (o_wsort o)) ->
  hist_ok x lo hi (p_dmin p) (p_bsize p) (p_nbin p) (o_hist o) (o_rev o).
Proof.
  intros H. destruct (histogram_Ok _ _ _ _ _ _ H) as (dmin & dmax & w & bsize & nbin & hist & rev & _ & _ & Hn & C & ->).
  cbv zeta. cbn [o_params o_sort o_wsort o_hist o_rev p_dmin p_bsize p_nbin]. intros K1 K2 K3 A HS.
  apply (hist_ok_of_partition x lo hi dmin bsize nbin _ _ w hist rev (argsort_perm x) K1 K2 K3).
  pose proof (pass_partition_relabel EngC _ bn' nbin w Hn A HS) as P. cbv iota in P. rewrite C in P. exact P.
Qed.

Theorem model_meets_spec eng x lo hi m o :
  histogram eng x lo hi m = Ok o ->
  contracts x lo hi o ->
  hist_ok x lo hi (p_dmin (o_params o)) (p_bsize (o_params o)) (p_nbin (o_params o)) (o_hist o) (o_rev o).
Proof.
  intros H (K1 & K2 & K3 & K4).
  exact (model_meets_spec_relabel eng x lo hi m o _ H K1 K2 K3 (agree_valid_refl _ _ _) K4).
Qed.

Theorem model_meets_spec_w eng x lo hi m o :
  histogram eng x lo hi m = Ok o ->
  contracts_w x lo hi o ->
  hist_ok x lo hi (p_dmin (o_params o)) (p_bsize (o_params o)) (p_nbin (o_params o)) (o_hist o) (o_rev o).
Proof.
  intros H (K1 & K2 & K3 & K4).
  exact (model_meets_spec_relabel eng x lo hi m o _ H K1 K2 K3 (up_bin_agree _ _ _) K4).
Qed.
