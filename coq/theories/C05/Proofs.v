(* C05 — checker soundness; the sort is a permutation; what limits and histogram return case by case;
   hist_ok_of_partition, the step from the arrays of the pass to the data-level property (the theorems
   model_meets_spec* that use it are in PassExt.v); the named constants of Model.v; the Binner object. *)
From Coq Require Import PrimFloat Sorting.Permutation Sorting.Sorted ZifyBool.
From EsVerif.Common Require Import Base.
From EsVerif.C05 Require Import Model Spec PassProofs.

Lemma in_zseq k s n : In k (zseq s n) <-> s <= k < s + Z.of_nat n.
Proof.
  revert s; induction n as [|n IH]; intro s; cbn [zseq In]; [lia|].
  rewrite IH. lia.
Qed.

Lemma zseq_nodup s n : NoDup (zseq s n).
Proof.
  revert s; induction n as [|n IH]; intro s; cbn [zseq]; constructor; [|apply IH].
  rewrite in_zseq. lia.
Qed.

Lemma filter_filter {A} (f g : A -> bool) l : filter f (filter g l) = filter (fun a => g a && f a) l.
Proof.
  induction l as [|a t IH]; [reflexivity|]. cbn [filter]. destruct (g a); cbn [filter andb]; [|exact IH].
  destruct (f a); rewrite IH; reflexivity.
Qed.

Lemma Permutation_filter {A} (f : A -> bool) l l' : Permutation l l' -> Permutation (filter f l) (filter f l').
Proof.
  induction 1 as [|a l l' HP IH|a b l|l l' l'' H1 IH1 H2 IH2]; cbn [filter].
  - constructor.
  - destruct (f a); [constructor|]; exact IH.
  - destruct (f a); destruct (f b); try apply Permutation_refl. apply perm_swap.
  - eapply Permutation_trans; eassumption.
Qed.

Section Checkers.
  Variable x : list float.
  Variable lo hi : option float.
  Variable dmin bsize : float.
  Variable nbin : Z.

  Lemma ordered_b_sound l : ordered_b x l = true -> ordered x l.
  Proof.
    unfold ordered_b. induction l as [|a t IH]; intro H; cbn [with_values map ordered_vb ordered] in *; [exact I|].
    apply andb_true_iff in H. destruct H as [H1 H2]. split; [|apply IH; exact H2].
    rewrite forallb_forall in H1. intros b Hb. unfold before. apply H1.
    apply (in_map (fun k => (k, fget x k))). exact Hb.
  Qed.

  (* the tag table lists, for every position, whether the datum is within the limits and its bin *)
  Lemma tag_from_filter (Q : option Z -> bool) l : forall s,
    map fst (filter (fun kt => Q (snd kt)) (tag_from lo hi dmin bsize s l))
    = filter (fun k => Q (tag_of lo hi dmin bsize (nth (Z.to_nat (k - s)) l nan))) (zseq s (length l)).
  Proof.
    induction l as [|v t IH]; intro s; [reflexivity|].
    assert (E : filter (fun k => Q (tag_of lo hi dmin bsize (nth (Z.to_nat (k - s)) (v :: t) nan))) (zseq (s + 1) (length t))
                = filter (fun k => Q (tag_of lo hi dmin bsize (nth (Z.to_nat (k - (s + 1))) t nan))) (zseq (s + 1) (length t))).
    { apply filter_ext_in. intros k Hk. apply in_zseq in Hk.
      replace (Z.to_nat (k - s)) with (S (Z.to_nat (k - (s + 1)))) by lia. reflexivity. }
    cbn [tag_from length zseq]. cbn [filter snd]. rewrite E. clear E.
    replace (Z.to_nat (s - s)) with O by lia. cbn [nth].
    destruct (Q (tag_of lo hi dmin bsize v)); cbn [map fst]; rewrite IH; reflexivity.
  Qed.

  Lemma members_t_eq i : members_t (tag_from lo hi dmin bsize 0 x) i = members x lo hi dmin bsize i.
  Proof.
    unfold members_t, members, indices. rewrite (tag_from_filter (tag_in i)).
    apply filter_ext_in. intros k Hk. rewrite Z.sub_0_r. unfold in_bin, tag_of, tag_in, fget.
    destruct (in_limits lo hi (nth (Z.to_nat k) x nan)); reflexivity.
  Qed.

  Lemma counted_t_eq :
    length (filter (fun kt => tag_valid nbin (snd kt)) (tag_from lo hi dmin bsize 0 x))
    = length (filter (counted x lo hi dmin bsize nbin) (indices x)).
  Proof.
    rewrite <- (map_length fst). rewrite (tag_from_filter (tag_valid nbin)). unfold indices. f_equal.
    apply filter_ext_in. intros k Hk. rewrite Z.sub_0_r. unfold counted, tag_of, tag_valid, fget.
    destruct (in_limits lo hi (nth (Z.to_nat k) x nan)); reflexivity.
  Qed.

  Lemma ordered_filter f l : ordered x l -> ordered x (filter f l).
  Proof.
    induction l as [|a t IH]; intro H; [exact I|]. cbn [ordered] in H. destruct H as [H1 H2].
    cbn [filter]. destruct (f a); [|apply IH; exact H2]. cbn [ordered]. split; [|apply IH; exact H2].
    intros b Hb. apply filter_In in Hb. apply H1. tauto.
  Qed.

  Lemma nodup_b_sound l : nodup_b l = true -> NoDup l.
  Proof.
    induction l as [|a t IH]; intro H; [constructor|]. cbn [nodup_b] in H.
    apply andb_true_iff in H. destruct H as [H1 H2]. constructor; [|apply IH; exact H2].
    intro Hin. apply negb_true_iff in H1. assert (existsb (Z.eqb a) t = true); [|congruence].
    apply existsb_exists. exists a. split; [exact Hin|apply Z.eqb_refl].
  Qed.

  Lemma perm_b_sound l m : perm_b l m = true -> Permutation l m.
  Proof.
    unfold perm_b. rewrite !andb_true_iff. intros ((H1 & H2) & H3).
    apply NoDup_Permutation_bis.
    - apply nodup_b_sound. exact H2.
    - apply Nat.leb_le. exact H1.
    - intros k Hk. rewrite forallb_forall in H3. specialize (H3 k Hk). apply existsb_exists in H3.
      destruct H3 as [k' [Hk' E]]. apply Z.eqb_eq in E. subst k'. exact Hk'.
  Qed.

  Lemma bin_check_sound hist rev i :
    bin_check x (tag_from lo hi dmin bsize 0 x) hist rev i = true -> bin_ok x lo hi dmin bsize hist rev i.
  Proof.
    unfold bin_check, bin_ok. rewrite !andb_true_iff. intros ((((H1 & H2) & H3) & H4) & H5).
    split; [lia|]. split; [lia|]. split; [rewrite <- members_t_eq; apply perm_b_sound; exact H3|].
    split; [apply ordered_b_sound; exact H4|lia].
  Qed.

  Lemma hist_check_sound hist rev :
    hist_check x lo hi dmin bsize nbin hist rev = true -> hist_ok x lo hi dmin bsize nbin hist rev.
  Proof.
    unfold hist_check, hist_ok. cbv zeta. rewrite !andb_true_iff. intros ((H1 & H2) & H3).
    split; [lia|]. split; [|rewrite <- counted_t_eq; lia]. intros i Hi. apply bin_check_sound.
    rewrite forallb_forall in H2. apply H2. apply in_zseq. lia.
  Qed.
End Checkers.

Lemma nondecr_b_sound l : nondecr_b l = true -> Sorted Z.le l.
Proof.
  induction l as [|a t IH]; intro H; [constructor|]. cbn [nondecr_b] in H.
  apply andb_true_iff in H. destruct H as [H1 H2]. constructor; [apply IH; exact H2|].
  destruct t as [|b u]; constructor. lia.
Qed.

(* the two boolean contract checkers differ only in the labelling f whose values must not decrease *)
Lemma contracts_sound_with (f : Z -> Z) x lo hi o :
  let p := o_params o in
  let bn := binnum x (p_dmin p) (p_bsize p) in
  ordered_b x (o_sort o)
  && zlist_eqb (o_wsort o) (filter (fun k => in_limits lo hi (fget x k)) (o_sort o))
  && forallb (fun k => bn k =? bin_index (p_dmin p) (p_bsize p) (fget x k)) (o_wsort o)
  && nondecr_b (map f (o_wsort o)) = true ->
  ordered x (o_sort o)
  /\ o_wsort o = filter (fun k => in_limits lo hi (fget x k)) (o_sort o)
  /\ (forall k, In k (o_wsort o) -> bn k = bin_index (p_dmin p) (p_bsize p) (fget x k))
  /\ Sorted Z.le (map f (o_wsort o)).
Proof.
  cbv zeta. rewrite !andb_true_iff. intros (((H1 & H2) & H3) & H4).
  split; [apply ordered_b_sound; exact H1|]. split; [apply zlist_eqb_spec; exact H2|].
  split; [|apply nondecr_b_sound; exact H4].
  intros k Hk. rewrite forallb_forall in H3. specialize (H3 k Hk). lia.
Qed.

Lemma insert_kv_perm kv l : Permutation (insert_kv kv l) (kv :: l).
Proof.
  induction l as [|j t IH]; cbn [insert_kv]; [apply Permutation_refl|].
  destruct (PrimFloat.ltb (snd kv) (snd j)); [apply Permutation_refl|].
  eapply Permutation_trans; [apply perm_skip; exact IH|apply perm_swap].
Qed.

Lemma fold_insert_perm ks : forall acc,
  Permutation (fold_left (fun acc kv => insert_kv kv acc) ks acc) (ks ++ acc).
Proof.
  induction ks as [|k ks IH]; intro acc; cbn [fold_left app]; [apply Permutation_refl|].
  eapply Permutation_trans; [apply IH|].
  eapply Permutation_trans; [apply Permutation_app_head; apply insert_kv_perm|].
  apply Permutation_sym. apply Permutation_middle.
Qed.

Lemma enumerate_fst l : forall s, map fst (enumerate s l) = zseq s (length l).
Proof. induction l as [|v t IH]; intro s; [reflexivity|]. cbn [enumerate map fst length zseq]. rewrite IH. reflexivity. Qed.

Lemma argsort_perm x : Permutation (argsort x) (zseq 0 (length x)).
Proof.
  unfold argsort, sort_kv. rewrite <- (enumerate_fst x 0). apply Permutation_map.
  eapply Permutation_trans; [apply fold_insert_perm|]. rewrite app_nil_r. apply Permutation_refl.
Qed.

(* the selection step of limits: the data within [xmin, xmax], an error when there are none *)
Lemma limits_select x s xmin xmax (r : result (float * float * list Z)) :
  r = match filter (fun k => within xmin xmax (fget x k)) s with [] => Err EValue | w => Ok (xmin, xmax, w) end ->
  (filter (fun k => within xmin xmax (fget x k)) s = [] /\ r = Err EValue)
  \/ (filter (fun k => within xmin xmax (fget x k)) s <> [] /\ r = Ok (xmin, xmax, filter (fun k => within xmin xmax (fget x k)) s)).
Proof. intros ->. destruct (filter _ s); [left|right]; split; reflexivity || discriminate. Qed.

Lemma limits_Ok x s lo hi dmin dmax w : limits x s lo hi = Ok (dmin, dmax, w) ->
  dmin = match lo with Some v => v | None => fget x (hd 0 s) end
  /\ dmax = match hi with Some v => v | None => fget x (last s 0) end
  /\ w <> []
  /\ (w = filter (fun k => within dmin dmax (fget x k)) s \/ lo = None /\ hi = None /\ w = s).
Proof.
  intros E. destruct s as [|k0 t]; [destruct lo, hi; discriminate E|].
  destruct lo as [l|], hi as [h|]; cbn -[filter last] in E.
  4:{ (* no limit given: nothing is filtered *)
       injection E as E1 E2 E3. subst dmin dmax w. repeat split; [discriminate|right; auto]. }
  (* a limit is given: the selection is not empty *)
  all: symmetry in E; apply limits_select in E as [[_ E]|[N E]]; [discriminate E|].
  all: injection E as E1 E2 E3; subst dmin dmax w; repeat split; [exact N|left; reflexivity].
Qed.

Lemma limits_rejections x s lo hi e : limits x s lo hi = Err e ->
  (e = EIndex /\ s = [] /\ (lo = None \/ hi = None))
  \/ (e = EValue /\ (lo <> None \/ hi <> None)
      /\ exists xmin xmax, filter (fun k => within xmin xmax (fget x k)) s = []
                           /\ xmin = match lo with Some v => v | None => fget x (hd 0 s) end
                           /\ xmax = match hi with Some v => v | None => fget x (last s 0) end).
Proof.
  intros E.
  assert (Sel : forall xmin xmax,
            Err e = match filter (fun k => within xmin xmax (fget x k)) s with [] => Err EValue | w => Ok (xmin, xmax, w) end ->
            e = EValue /\ filter (fun k => within xmin xmax (fget x k)) s = []).
  { intros xmin xmax H. apply limits_select in H as [[F H]|[_ H]]; [|discriminate H]. injection H as ->. auto. }
  destruct lo as [l|], hi as [h|].
  - (* both limits given: the sort index is not looked at *)
    right. destruct (Sel l h (eq_sym E)) as [-> F]. split; [reflexivity|]. split; [left; discriminate|]. exists l, h. auto.
  - destruct s as [|k0 t]; [injection E as <-; left; auto|].
    right. destruct (Sel l _ (eq_sym E)) as [-> F]. split; [reflexivity|]. split; [left; discriminate|]. eexists _, _. split; [exact F|]. auto.
  - destruct s as [|k0 t]; [injection E as <-; left; auto|].
    right. destruct (Sel _ h (eq_sym E)) as [-> F]. split; [reflexivity|]. split; [right; discriminate|]. eexists _, _. split; [exact F|]. auto.
  - destruct s as [|k0 t]; [injection E as <-; left; auto|discriminate E].
Qed.

Lemma histogram_Ok eng x lo hi m o : histogram eng x lo hi m = Ok o ->
  exists dmin dmax w bsize nbin hist rev,
    limits x (argsort x) lo hi = Ok (dmin, dmax, w) /\ derive dmin dmax m = Ok (bsize, nbin) /\ 0 <= nbin
    /\ chist (binnum x dmin bsize) nbin w = (hist, rev)
    /\ o = mkOut (mkParams dmin dmax bsize nbin) (argsort x) w hist rev.
Proof.
  unfold histogram. intro H.
  destruct (limits x (argsort x) lo hi) as [[[dmin dmax] w]|e]; [|discriminate].
  destruct (derive dmin dmax m) as [[bsize nbin]|e] eqn:D; [|discriminate].
  destruct (nbin <? 0) eqn:En; [discriminate|]. rewrite engine_pass in H.
  destruct (chist (binnum x dmin bsize) nbin w) as [hist rev] eqn:C. injection H as <-.
  exists dmin, dmax, w, bsize, nbin, hist, rev. split; [reflexivity|]. split; [exact D|]. split; [lia|]. split; [exact C|reflexivity].
Qed.

Lemma histogram_api_Ok eng a x lo hi k nb o :
  histogram_api eng a x lo hi k nb = Ok o -> exists m, histogram eng x lo hi m = Ok o.
Proof.
  unfold histogram_api. destruct (resolve a k nb) as [m|]; [exists m; assumption|].
  destruct (limits _ _ _ _); discriminate.
Qed.

Lemma histogram_engines_equal x lo hi m : histogram EngC x lo hi m = histogram EngPy x lo hi m.
Proof.
  unfold histogram. destruct (limits x (argsort x) lo hi) as [[[dmin dmax] w]|e]; [|reflexivity].
  destruct (derive dmin dmax m) as [[bsize nbin]|e]; [|reflexivity]. rewrite engines_equal. reflexivity.
Qed.

Lemma pass_partition_both eng bn nbin s : 0 <= nbin -> Sorted Z.le (map bn s) ->
  let '(hist, rev) := match eng with EngC => chist bn nbin s | EngPy => pyhist bn nbin s end in
  pass_partition bn nbin s hist rev.
Proof. intros Hn HS. rewrite engine_pass. exact (chist_partition bn nbin Hn s HS). Qed.

(* s is the sort index, w its part within the limits; the arrays of the pass over w with bin numbers
   that are the bin indices of the data satisfy the property on the data *)
Lemma hist_ok_of_partition x lo hi dmin bsize nbin (bn : Z -> Z) s w hist rev :
  Permutation s (indices x) -> ordered x s ->
  w = filter (fun k => in_limits lo hi (fget x k)) s ->
  (forall k, In k w -> bn k = bin_index dmin bsize (fget x k)) ->
  pass_partition bn nbin w hist rev ->
  hist_ok x lo hi dmin bsize nbin hist rev.
Proof.
  intros HP K1 K2 K3 (P1 & _ & P3 & P4 & _).
  assert (Hperm : forall (f g : Z -> bool), (forall k, In k w -> f k = g k) ->
            Permutation (filter f w) (filter (fun k => in_limits lo hi (fget x k) && g k) (indices x))).
  { intros f g Hfg. rewrite (filter_ext_in f g w Hfg), K2, filter_filter. apply Permutation_filter, HP. }
  split; [exact P1|]. split.
  - intros i Hi. destruct (P3 i Hi) as (Q1 & Q2 & Q3 & Q4). unfold bin_ok. rewrite Q3 in *.
    split; [lia|]. split; [lia|]. split; [|split; [|exact Q4]].
    + apply (Hperm (fun k => bn k =? i) (fun k => bin_index dmin bsize (fget x k) =? i)).
      intros k Hk. rewrite (K3 k Hk). reflexivity.
    + unfold sel. rewrite K2. apply ordered_filter, ordered_filter, K1.
  - rewrite P4. unfold n_valid. f_equal. apply Permutation_length.
    apply (Hperm (fun k => valid_bin nbin (bn k)) (fun k => valid_bin nbin (bin_index dmin bsize (fget x k)))).
    intros k Hk. rewrite (K3 k Hk). reflexivity.
Qed.

(* each named constant is what the model's functions use (all by computation) *)
Lemma derive_binsize_const dmin dmax b :
  derive dmin dmax (ByBinsize b) = Ok (b, f2z_trunc (PrimFloat.div (PrimFloat.sub dmax dmin) b) + nbin_plus).
Proof. reflexivity. Qed.

Lemma within_const xmin xmax v :
  within xmin xmax v = (if lo_inclusive then PrimFloat.leb xmin v else PrimFloat.ltb xmin v)
                       && (if hi_inclusive then PrimFloat.leb v xmax else PrimFloat.ltb v xmax).
Proof. reflexivity. Qed.

Lemma chist_const bn nbin s :
  chist bn nbin s =
  let nrev := Z.of_nat (length s) + nbin + rev_extra in
  let '(binold, offset_end, hist, rev) :=
    c_loop bn nbin s 0 binold_init (nbin + offset_end_init) (zeros nbin) (zeros nrev) in
  (hist, fill rev (binold + 1) (Z.to_nat (nbin - binold)) offset_end).
Proof. reflexivity. Qed.

Lemma pyhist_const bn nbin s :
  pyhist bn nbin s =
  let nrev := Z.of_nat (length s) + nbin + rev_extra in
  let '(binold, offset_end, hist, rev) :=
    py_loop bn nbin s (nbin + offset_init) binold_init (nbin + offset_end_init) (zeros nbin) (zeros nrev) in
  (hist, fill rev (binold + 1) (Z.to_nat (nbin - binold)) offset_end).
Proof. reflexivity. Qed.

Lemma c_loop_const bn nbin k ss i binold oe hist rev :
  c_loop bn nbin (k :: ss) i binold oe hist rev =
  let offset := i + nbin + offset_init in
  let rev := zset rev offset k in
  if valid_bin nbin (bn k) then
    c_loop bn nbin ss (i + 1) (bn k) (offset + offset_end_step) (zset hist (bn k) (zget hist (bn k) + 1))
           (if binold <? bn k then fill rev (binold + 1) (Z.to_nat (bn k - binold)) offset else rev)
  else c_loop bn nbin ss (i + 1) binold oe hist rev.
Proof. reflexivity. Qed.

Lemma py_loop_const bn nbin k ss offset binold oe hist rev :
  py_loop bn nbin (k :: ss) offset binold oe hist rev =
  let rev := zset rev offset k in
  if valid_bin nbin (bn k) then
    py_loop bn nbin ss (offset + 1) (bn k) (offset + offset_end_step) (zset hist (bn k) (zget hist (bn k) + 1))
            (if bn k >? binold then fill rev (binold + 1) (Z.to_nat (bn k - binold)) offset else rev)
  else py_loop bn nbin ss (offset + 1) binold oe hist rev.
Proof. reflexivity. Qed.

Lemma resolve_const a k nbin :
  resolve a k nbin =
  match a with
  | ApiHistogram =>
      match (if hist_nbin_overrides then nbin else None) with
      | Some n => Some (ByNbin n)
      | None => match k with
                | KwVal v => Some (ByBinsize v)
                | KwOmit => Some (ByBinsize default_binsize)
                | KwNone => match nbin with Some n => Some (ByNbin n) | None => None end
                end
      end
  | ApiBinner =>
      match (if binner_binsize_first then match k with KwVal v => Some v | _ => None end else None) with
      | Some b => Some (ByBinsize b)
      | None => match nbin with
                | Some n => Some (ByNbin n)
                | None => match k with KwVal v => Some (ByBinsize v) | _ => None end
                end
      end
  end.
Proof. destruct a, k, nbin; reflexivity. Qed.

Lemma histogram_with_argsort eng x lo hi m : histogram_with eng (argsort x) x lo hi m = histogram eng x lo hi m.
Proof. reflexivity. Qed.

Definition binner_wf (b : binner) : Prop := b_sort b = None \/ b_sort b = Some (argsort (b_x b)).

Lemma dohist_spec eng a b lo hi k nb : binner_wf b ->
  let '(b', r) := dohist eng a b lo hi k nb in
  binner_wf b' /\ b_x b' = b_x b /\ b_sort b' = Some (argsort (b_x b))
  /\ r = histogram_api eng a (b_x b) lo hi k nb.
Proof.
  intros W. unfold dohist.
  assert (E : match b_sort b with Some s => s | None => argsort (b_x b) end = argsort (b_x b)).
  { destruct W as [W|W]; rewrite W; reflexivity. }
  rewrite E. cbn [b_x b_sort]. split; [right; reflexivity|]. split; [reflexivity|]. split; [reflexivity|].
  unfold histogram_api. destruct (resolve a k nb); reflexivity.
Qed.

Lemma run_binner_spec cs : forall b, binner_wf b ->
  run_binner b cs = map (fun c => histogram_api (c_eng c) ApiBinner (b_x b) (c_lo c) (c_hi c) (c_kw c) (c_nbin c)) cs.
Proof.
  induction cs as [|c t IH]; intros b W; cbn [run_binner map]; [reflexivity|].
  pose proof (dohist_spec (c_eng c) ApiBinner b (c_lo c) (c_hi c) (c_kw c) (c_nbin c) W) as S.
  destruct (dohist (c_eng c) ApiBinner b (c_lo c) (c_hi c) (c_kw c) (c_nbin c)) as [b' r].
  destruct S as (W' & Ex & _ & Er). rewrite Er, (IH b' W'), Ex. reflexivity.
Qed.

Lemma histogram_call_spec x c :
  histogram_call x c = histogram_api (c_eng c) ApiHistogram x (c_lo c) (c_hi c) (c_kw c) (c_nbin c).
Proof.
  unfold histogram_call.
  pose proof (dohist_spec (c_eng c) ApiHistogram (binner_new x) (c_lo c) (c_hi c) (c_kw c) (c_nbin c) (or_introl eq_refl)) as S.
  destruct (dohist (c_eng c) ApiHistogram (binner_new x) (c_lo c) (c_hi c) (c_kw c) (c_nbin c)) as [b' r].
  destruct S as (_ & _ & _ & Er). exact Er.
Qed.
