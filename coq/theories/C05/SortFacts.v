(* C05 — the model of the stable argsort returns the indices ordered by value with ties in
   original order, for data without NaN/infinities; consequences for first/last element. *)
From Coq Require Import Reals Lra Sorting.Permutation PrimFloat.
From EsVerif.Common Require Import Base.
From EsVerif.C05 Require Import Model Spec PassProofs Proofs FloatFacts.
Local Open Scope R_scope.


Definition bef (a b : Z * float) : Prop :=
  rv (snd a) < rv (snd b) \/ (rv (snd a) = rv (snd b) /\ (fst a < fst b)%Z).

Lemma before_v_bef a b : finite_f (snd a) = true -> finite_f (snd b) = true ->
  (before_v a b = true <-> bef a b).
Proof.
  intros Fa Fb. unfold before_v, bef. rewrite orb_true_iff, andb_true_iff.
  rewrite (ltb_R _ _ Fa Fb), (eqb_R _ _ Fa Fb), Z.ltb_lt. reflexivity.
Qed.

Lemma bef_le a b : bef a b -> rv (snd a) <= rv (snd b).
Proof. intros [H|[H _]]; lra. Qed.

Fixpoint ordv (l : list (Z * float)) : Prop :=
  match l with
  | [] => True
  | a :: t => (forall b, In b t -> bef a b) /\ ordv t
  end.

Lemma insert_ordv kv l :
  finite_f (snd kv) = true ->
  (forall j, In j l -> finite_f (snd j) = true /\ (fst j < fst kv)%Z) ->
  ordv l -> ordv (insert_kv kv l).
Proof.
  intros Fk. induction l as [|jw t IH]; intros Hl Ho; cbn [insert_kv].
  - cbn [ordv]. split; [intros b []|exact I].
  - destruct (Hl jw (or_introl eq_refl)) as [Fj Ij]. destruct Ho as [Hj Ht].
    destruct (PrimFloat.ltb (snd kv) (snd jw)) eqn:E.
    + apply (ltb_R _ _ Fk Fj) in E. cbn [ordv]. split; [|split; assumption].
      intros b [<-|Hb]; [left; exact E|]. left. specialize (Hj b Hb). apply bef_le in Hj. lra.
    + assert (N : ~ rv (snd kv) < rv (snd jw)).
      { intro H. apply (ltb_R _ _ Fk Fj) in H. congruence. }
      cbn [ordv]. split.
      * intros b Hb. apply (Permutation_in _ (insert_kv_perm kv t)) in Hb. destruct Hb as [<-|Hb]; [|auto].
        destruct (Rtotal_order (rv (snd jw)) (rv (snd kv))) as [H|[H|H]]; [left; exact H|right; auto|lra].
      * apply IH; [|exact Ht]. intros j Hjin. apply Hl. right. exact Hjin.
Qed.

Lemma fold_ordv l : forall start acc,
  (forall v, In v l -> finite_f v = true) ->
  (forall j, In j acc -> finite_f (snd j) = true /\ (fst j < start)%Z) ->
  ordv acc -> ordv (fold_left (fun acc kv => insert_kv kv acc) (enumerate start l) acc).
Proof.
  induction l as [|v t IH]; intros start acc Fl Ha Ho; cbn [enumerate fold_left]; [exact Ho|].
  apply IH.
  - intros w Hw. apply Fl. right. exact Hw.
  - intros j Hj. apply (Permutation_in _ (insert_kv_perm _ _)) in Hj. destruct Hj as [<-|Hj].
    + cbn [fst snd]. split; [apply Fl; left; reflexivity|lia].
    + destruct (Ha j Hj). split; [assumption|lia].
  - apply insert_ordv; [apply Fl; left; reflexivity| |exact Ho].
    intros j Hj. cbn [fst]. apply Ha. exact Hj.
Qed.

Lemma enumerate_In l : forall start kv, In kv (enumerate start l) ->
  (start <= fst kv < start + Z.of_nat (length l))%Z
  /\ snd kv = nth (Z.to_nat (fst kv - start)) l nan /\ In (snd kv) l.
Proof.
  induction l as [|v t IH]; intros start kv H; cbn [enumerate] in H; [destruct H|].
  destruct H as [<-|H].
  - cbn [fst snd length]. rewrite Z.sub_diag. cbn. split; [lia|]. auto.
  - destruct (IH _ _ H) as (R & E & I). cbn [length]. split; [lia|]. split; [|right; exact I].
    rewrite E. replace (Z.to_nat (fst kv - start)) with (S (Z.to_nat (fst kv - (start + 1)))) by lia.
    reflexivity.
Qed.

Lemma last_In {A} (a : A) l d : In (last (a :: l) d) (a :: l).
Proof.
  revert a; induction l as [|b t IH]; intro a; [left; reflexivity|].
  change (last (a :: b :: t) d) with (last (b :: t) d). right. apply IH.
Qed.

Section Data.
  Variable x : list float.
  Hypothesis x_fin : forallb finite_f x = true.

  Lemma x_fin_In v : In v x -> finite_f v = true.
  Proof. rewrite forallb_forall in x_fin. apply x_fin. Qed.

  Lemma fget_fin k : (0 <= k < Z.of_nat (length x))%Z -> finite_f (fget x k) = true.
  Proof. intros H. apply x_fin_In. unfold fget. apply nth_In. lia. Qed.

  Lemma argsort_in_range k : In k (argsort x) -> (0 <= k < Z.of_nat (length x))%Z.
  Proof. intros H. apply (Permutation_in _ (argsort_perm x)), in_zseq in H. exact H. Qed.

  Lemma ordv_ordered L :
    (forall kv, In kv L -> snd kv = fget x (fst kv) /\ finite_f (snd kv) = true) ->
    ordv L -> ordered x (map fst L).
  Proof.
    induction L as [|a t IH]; intros HL Ho; cbn [map ordered]; [exact I|].
    destruct Ho as [Ha Ht]. split.
    - intros b Hb. apply in_map_iff in Hb. destruct Hb as (kb & <- & Hkb).
      destruct (HL a (or_introl eq_refl)) as [Ea Fa]. destruct (HL kb (or_intror Hkb)) as [Eb Fb].
      unfold before. rewrite <- Ea, <- Eb. destruct a as [ai av], kb as [bi bv]. cbn [fst snd] in *.
      apply (before_v_bef (ai, av) (bi, bv) Fa Fb). apply (Ha _ Hkb).
    - apply IH; [|exact Ht]. intros kv Hkv. apply HL. right. exact Hkv.
  Qed.

  Theorem argsort_ordered : ordered x (argsort x).
  Proof.
    unfold argsort. apply ordv_ordered.
    - intros kv Hkv. unfold sort_kv in Hkv. apply (Permutation_in _ (fold_insert_perm _ _)) in Hkv.
      rewrite app_nil_r in Hkv. destruct (enumerate_In _ _ _ Hkv) as (R & E & I).
      split; [|apply x_fin_In; exact I]. rewrite E. unfold fget. rewrite Z.sub_0_r. reflexivity.
    - unfold sort_kv. apply fold_ordv; [exact x_fin_In|intros j []|exact I].
  Qed.

  Lemma before_le a b : (0 <= a < Z.of_nat (length x))%Z -> (0 <= b < Z.of_nat (length x))%Z ->
    before x a b = true -> rv (fget x a) <= rv (fget x b).
  Proof.
    intros Ra Rb H. unfold before in H.
    apply (before_v_bef (a, fget x a) (b, fget x b) (fget_fin _ Ra) (fget_fin _ Rb)) in H.
    apply bef_le in H. exact H.
  Qed.

  (* in an ordered list what stands earlier has the smaller or equal value *)
  Lemma ordered_app_le p q a b : (forall j, In j (p ++ q) -> (0 <= j < Z.of_nat (length x))%Z) ->
    ordered x (p ++ q) -> In a p -> In b q -> rv (fget x a) <= rv (fget x b).
  Proof.
    intros R Ho Ha Hb. induction p as [|c p IH]; [destruct Ha|]. destruct Ho as [Hc Ho]. destruct Ha as [<-|Ha].
    - apply before_le; [apply R; left; reflexivity|apply R, in_or_app; right; exact Hb|].
      apply Hc, in_or_app. right. exact Hb.
    - apply IH; [intros j Hj; apply R; right; exact Hj|exact Ho|exact Ha].
  Qed.

  Lemma ordered_first_min a t k : (forall j, In j (a :: t) -> (0 <= j < Z.of_nat (length x))%Z) ->
    ordered x (a :: t) -> In k (a :: t) -> PrimFloat.leb (fget x a) (fget x k) = true.
  Proof.
    intros R Ho Hk. assert (Fa := fget_fin _ (R a (or_introl eq_refl))). assert (Fk := fget_fin _ (R k Hk)).
    apply (leb_R _ _ Fa Fk). destruct Hk as [<-|Hk]; [lra|].
    apply (ordered_app_le [a] t a k R Ho); [left; reflexivity|exact Hk].
  Qed.

  Lemma ordered_last_max l : forall k, (forall j, In j l -> (0 <= j < Z.of_nat (length x))%Z) ->
    ordered x l -> In k l -> PrimFloat.leb (fget x k) (fget x (last l 0%Z)) = true.
  Proof.
    intros k R Ho Hk. assert (Hne : l <> []) by (intros ->; destruct Hk).
    destruct (exists_last Hne) as (p & z & ->). rewrite last_last.
    assert (Fk := fget_fin _ (R k Hk)).
    assert (Fz : finite_f (fget x z) = true) by (apply fget_fin, R, in_or_app; right; left; reflexivity).
    apply (leb_R _ _ Fk Fz). apply in_app_or in Hk as [Hk|[<-|[]]]; [|lra].
    apply (ordered_app_le p [z] k z R Ho Hk). left. reflexivity.
  Qed.

  Lemma before_asym a b : (0 <= a < Z.of_nat (length x))%Z -> (0 <= b < Z.of_nat (length x))%Z ->
    before x a b = true -> before x b a = true -> False.
  Proof.
    intros Ra Rb H1 H2. unfold before in *.
    apply (before_v_bef (a, fget x a) (b, fget x b) (fget_fin _ Ra) (fget_fin _ Rb)) in H1.
    apply (before_v_bef (b, fget x b) (a, fget x a) (fget_fin _ Rb) (fget_fin _ Ra)) in H2.
    unfold bef in *. cbn [fst snd] in *. destruct H1 as [H1|[H1 L1]], H2 as [H2|[H2 L2]]; try lra. lia.
  Qed.

  (* the stable order is unique: two orderings of the same indices that both put smaller values first
     and equal values in index order are the same list *)
  Theorem ordered_unique s1 : forall s2,
    (forall k, In k s1 -> (0 <= k < Z.of_nat (length x))%Z) ->
    Permutation s1 s2 -> ordered x s1 -> ordered x s2 -> s1 = s2.
  Proof.
    induction s1 as [|a t1 IH]; intros s2 R P O1 O2.
    - apply Permutation_nil in P. symmetry. exact P.
    - destruct s2 as [|b t2]; [apply Permutation_sym, Permutation_nil in P; discriminate|].
      assert (E : a = b).
      { destruct (Z.eq_dec a b) as [E|N]; [exact E|exfalso].
        assert (Ia : In a t2).
        { assert (I : In a (b :: t2)) by (apply (Permutation_in _ P); left; reflexivity).
          destruct I as [I|I]; [congruence|exact I]. }
        assert (Ib : In b t1).
        { assert (I : In b (a :: t1)) by (apply (Permutation_in _ (Permutation_sym P)); left; reflexivity).
          destruct I as [I|I]; [congruence|exact I]. }
        apply (before_asym a b); [apply R; left; reflexivity|apply R; right; exact Ib|apply O1; exact Ib|apply O2; exact Ia]. }
      subst b. f_equal. apply IH.
      + intros k Hk. apply R. right. exact Hk.
      + apply (Permutation_cons_inv P).
      + apply O1.
      + apply O2.
  Qed.
End Data.
