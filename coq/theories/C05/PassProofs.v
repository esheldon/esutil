(* C05 — the single pass (chist_pywrap.c / _dohist): the two transcriptions agree, counts are
   exact for any input, and for non-decreasing bin numbers the reverse indices partition the
   counted data.  Integers and lists only; closed under the global context. *)
From Coq Require Import Sorting.Sorted ZifyBool.
From EsVerif.Common Require Import Base.
From EsVerif.C05 Require Import Model Spec.
(* ZifyBool installs a post-hook that splits on every boolean in the context (2^n cases, and every
   boolean hypothesis ends up in the proof term); its linear encoding of the comparisons is all that
   the proofs below need.  The setting is global: it holds in every file loaded after this one. *)
Ltac Zify.zify_post_hook ::= idtac.

Lemma zset_length {A} (l : list A) i v : length (zset l i v) = length l.
Proof. unfold zset. destruct (i <? 0); [reflexivity|apply set_nth_length]. Qed.

Lemma zget_zset l i v j : 0 <= j ->
  zget (zset l i v) j = if (i =? j) && (j <? Z.of_nat (length l)) then v else zget l j.
Proof.
  intro Hj. unfold zget, zset. destruct (i <? 0) eqn:Ei.
  - destruct ((i =? j) && (j <? Z.of_nat (length l))) eqn:E; [lia|reflexivity].
  - destruct (i =? j) eqn:Eij; cbn [andb].
    + assert (i = j) by lia. subst i. destruct (j <? Z.of_nat (length l)) eqn:El.
      * apply nth_set_nth_eq. lia.
      * rewrite !nth_overflow; [reflexivity| lia | rewrite set_nth_length; lia].
    + apply nth_set_nth_neq. lia.
Qed.

Lemma zget_zset_same l i v : 0 <= i < Z.of_nat (length l) -> zget (zset l i v) i = v.
Proof. intro H. rewrite zget_zset by lia. destruct (_ && _) eqn:E; [reflexivity|lia]. Qed.

Lemma zget_zset_other l i v j : 0 <= j -> i <> j -> zget (zset l i v) j = zget l j.
Proof. intros Hj H. rewrite zget_zset by lia. destruct (_ && _) eqn:E; [lia|reflexivity]. Qed.

Lemma zsum_zset l i v : 0 <= i < Z.of_nat (length l) -> zsum (zset l i v) = zsum l - zget l i + v.
Proof.
  unfold zset, zget. intro H. destruct (i <? 0) eqn:Ei; [lia|].
  assert (Hn : (Z.to_nat i < length l)%nat) by lia. clear H Ei. revert Hn. generalize (Z.to_nat i) as n.
  unfold zsum. induction l as [|a t IH]; intros [|n] Hn; cbn [set_nth nth fold_right length] in *; try lia.
  rewrite IH by lia. lia.
Qed.

Lemma fill_length l from c v : length (fill l from c v) = length l.
Proof. revert l from; induction c as [|c IH]; intros l from; cbn [fill]; [reflexivity|]. rewrite IH. apply zset_length. Qed.

Lemma zget_fill_out l from c v j : 0 <= j -> j < from \/ from + Z.of_nat c <= j ->
  zget (fill l from c v) j = zget l j.
Proof.
  revert l from; induction c as [|c IH]; intros l from Hj H; cbn [fill]; [reflexivity|].
  rewrite IH by lia. apply zget_zset_other; lia.
Qed.

Lemma zget_fill_in l from c v j : 0 <= from <= j -> j < from + Z.of_nat c -> j < Z.of_nat (length l) ->
  zget (fill l from c v) j = v.
Proof.
  revert l from; induction c as [|c IH]; intros l from Hj Hc Hl; cbn [fill]; [lia|].
  destruct (Z.eq_dec from j) as [->|Hne].
  - rewrite zget_fill_out by lia. apply zget_zset_same; lia.
  - apply IH; rewrite ?zset_length; lia.
Qed.

(* both engines guard the fill with binold < b; with a count of b - binold the guard changes nothing *)
Lemma fill_guard l a b v :
  (if a <? b then fill l (a + 1) (Z.to_nat (b - a)) v else l) = fill l (a + 1) (Z.to_nat (b - a)) v.
Proof. destruct (a <? b) eqn:E; [reflexivity|]. replace (Z.to_nat (b - a)) with O by lia. reflexivity. Qed.

Lemma zeros_length n : length (zeros n) = Z.to_nat n.
Proof. apply repeat_length. Qed.

Lemma zget_zeros n j : zget (zeros n) j = 0.
Proof.
  unfold zget, zeros. generalize (Z.to_nat j) as m. generalize (Z.to_nat n) as k.
  induction k as [|k IH]; intros [|m]; simpl; auto.
Qed.

Lemma zsum_zeros n : zsum (zeros n) = 0.
Proof. unfold zeros. induction (Z.to_nat n) as [|k IH]; [reflexivity|exact IH]. Qed.

Lemma nth_skipn {A} a (l : list A) t d : nth t (skipn a l) d = nth (a + t) l d.
Proof.
  revert l; induction a as [|a IH]; intro l; [reflexivity|].
  destruct l as [|y l]; [destruct t; reflexivity|]. cbn [skipn Nat.add nth]. apply IH.
Qed.

Lemma skipn_skipn' {A} a b (l : list A) : skipn a (skipn b l) = skipn (b + a) l.
Proof.
  revert l; induction b as [|b IH]; intro l; [reflexivity|].
  destruct l as [|y l]; [destruct a; reflexivity|]. cbn [skipn Nat.add]. apply IH.
Qed.

Lemma filter_none {A} (f : A -> bool) l : (forall a, In a l -> f a = false) -> filter f l = [].
Proof.
  induction l as [|a t IH]; intro H; [reflexivity|]. cbn [filter].
  rewrite (H a) by (left; reflexivity). apply IH. intros b Hb. apply H. right; exact Hb.
Qed.

Lemma filter_all {A} (f : A -> bool) l : (forall a, In a l -> f a = true) -> filter f l = l.
Proof.
  induction l as [|a t IH]; intro H; [reflexivity|]. cbn [filter].
  rewrite (H a) by (left; reflexivity). f_equal. apply IH. intros b Hb. apply H. right; exact Hb.
Qed.

Lemma filter_length_le {A} (f : A -> bool) l : (length (filter f l) <= length l)%nat.
Proof. induction l as [|a t IH]; cbn [filter]; [lia|]. destruct (f a); cbn [length]; lia. Qed.

Lemma loops_equal bn nbin s i binold offset_end hist rev :
  py_loop bn nbin s (i + nbin + 1) binold offset_end hist rev = c_loop bn nbin s i binold offset_end hist rev.
Proof.
  revert i binold offset_end hist rev; induction s as [|k ss IH]; intros i binold oe hist rev; [reflexivity|].
  cbn [py_loop c_loop]. rewrite Z.gtb_ltb.
  replace (i + nbin + 1 + 1) with (i + 1 + nbin + 1) by lia.
  destruct (valid_bin nbin (bn k)); apply IH.
Qed.

Lemma engines_equal bn nbin s : chist bn nbin s = pyhist bn nbin s.
Proof.
  unfold chist, pyhist. rewrite <- (loops_equal bn nbin s 0). replace (0 + nbin + 1) with (nbin + 1) by lia.
  reflexivity.
Qed.

(* so a statement about whichever engine is switched on is a statement about chist *)
Lemma engine_pass eng bn nbin s :
  match eng with EngC => chist bn nbin s | EngPy => pyhist bn nbin s end = chist bn nbin s.
Proof. destruct eng; [reflexivity|symmetry; apply engines_equal]. Qed.

(* The counts do not depend on anything else the loop carries: they are those of the loop without
   reverse indices. *)
Lemma c_loop_hist bn nbin s : forall i b oe h r,
  snd (fst (c_loop bn nbin s i b oe h r)) = hist_loop bn nbin s h.
Proof.
  induction s as [|k ss IH]; intros i b oe h r; cbn [c_loop hist_loop]; [reflexivity|].
  destruct (valid_bin nbin (bn k)); apply IH.
Qed.

Lemma fst_chist bn nbin s : fst (chist bn nbin s) = hist_norev bn nbin s.
Proof.
  unfold hist_norev, chist.
  rewrite <- (c_loop_hist bn nbin s 0 (-1) (nbin + 1) (zeros nbin) (zeros (Z.of_nat (length s) + nbin + 1))).
  destruct (c_loop _ _ _ _ _ _ _ _) as [[[b oe] h] r]. reflexivity.
Qed.

Lemma hist_loop_spec bn nbin s : forall h, Z.of_nat (length h) = nbin ->
  Z.of_nat (length (hist_loop bn nbin s h)) = nbin
  /\ (forall j, 0 <= j < nbin -> zget (hist_loop bn nbin s h) j = zget h j + Z.of_nat (length (sel bn j s)))
  /\ zsum (hist_loop bn nbin s h) = zsum h + n_valid bn nbin s.
Proof.
  unfold n_valid, sel. induction s as [|k ss IH]; intros h HL; cbn [hist_loop filter].
  - cbn [length]. split; [exact HL|]. split; intros; lia.
  - destruct (valid_bin nbin (bn k)) eqn:V; unfold valid_bin in V.
    + destruct (IH (zset h (bn k) (zget h (bn k) + 1))) as (L & G & S); [rewrite zset_length; exact HL|].
      split; [exact L|]. split.
      * intros j Hj. rewrite (G j Hj). destruct (Z.eq_dec (bn k) j) as [<-|Hne].
        -- rewrite zget_zset_same, Z.eqb_refl by lia. cbn [length]. lia.
        -- rewrite zget_zset_other by lia. destruct (bn k =? j) eqn:E; [lia|reflexivity].
      * rewrite S, zsum_zset by lia. cbn [length]. lia.
    + destruct (IH h HL) as (L & G & S). split; [exact L|]. split; [|exact S].
      intros j Hj. rewrite (G j Hj). destruct (bn k =? j) eqn:E; [lia|reflexivity].
Qed.

Section Pass.
  Variable bn : Z -> Z.
  Variable nbin : Z.
  Hypothesis Hnbin : 0 <= nbin.

  Lemma chist_hist s : let '(hist, rev) := chist bn nbin s in
    Z.of_nat (length hist) = nbin
    /\ (forall j, 0 <= j < nbin -> zget hist j = Z.of_nat (length (sel bn j s)))
    /\ zsum hist = n_valid bn nbin s.
  Proof.
    pose proof (fst_chist bn nbin s) as E. destruct (chist bn nbin s) as [hist rev]. cbn [fst] in E. subst hist. unfold hist_norev.
    destruct (hist_loop_spec bn nbin s (zeros nbin)) as (L & G & S); [rewrite zeros_length; lia|].
    split; [exact L|]. split; [|rewrite zsum_zeros in S; exact S].
    intros j Hj. rewrite (G j Hj), zget_zeros. reflexivity.
  Qed.

  Definition cnt_lt (l : list Z) (j : Z) : Z := Z.of_nat (length (filter (fun k => bn k <? j) l)).

  Lemma cnt_lt_range l j : 0 <= cnt_lt l j <= Z.of_nat (length l).
  Proof. unfold cnt_lt. pose proof (filter_length_le (fun k => bn k <? j) l). lia. Qed.

  Lemma cnt_lt_succ l j : cnt_lt l (j + 1) = cnt_lt l j + Z.of_nat (length (sel bn j l)).
  Proof.
    unfold cnt_lt, sel. induction l as [|a t IH]; [reflexivity|]. cbn [filter].
    (* bn a < j + 1 iff bn a < j or bn a = j, and the last two exclude each other *)
    destruct (bn a <? j + 1) eqn:E1; destruct (bn a <? j) eqn:E2; destruct (bn a =? j) eqn:E3;
      cbn [length]; lia.
  Qed.

  Lemma cnt_lt_split p q j : (forall a, In a p -> bn a < j) -> (forall c, In c q -> j <= bn c) ->
    cnt_lt (p ++ q) j = Z.of_nat (length p).
  Proof.
    intros H1 H2. unfold cnt_lt. rewrite filter_app, filter_all, filter_none, app_nil_r; [reflexivity| |].
    - intros c Hc. specialize (H2 c Hc). lia.
    - intros a Ha. specialize (H1 a Ha). lia.
  Qed.

  (* a sorted list: the members with bin number i form the segment [cnt_lt i, cnt_lt i + |sel i|) *)
  Lemma sorted_segment l i : Sorted Z.le (map bn l) ->
    firstn (length (sel bn i l)) (skipn (Z.to_nat (cnt_lt l i)) l) = sel bn i l.
  Proof.
    intro HS. apply (Sorted_StronglySorted Z.le_trans) in HS. unfold cnt_lt, sel. rewrite Nat2Z.id.
    induction l as [|a t IH]; [reflexivity|].
    cbn [map] in HS. apply StronglySorted_inv in HS. destruct HS as [HS HF].
    rewrite Forall_forall in HF.
    assert (Hge : forall c, In c t -> bn a <= bn c) by (intros c Hc; apply HF, in_map, Hc).
    specialize (IH HS). cbn [filter]. destruct (bn a <? i) eqn:E1.
    - destruct (bn a =? i) eqn:E2; [lia|]. exact IH.
    - (* a is not below i, so nothing after it is *)
      rewrite (filter_none (fun k => bn k <? i) t) in * by (intros c Hc; specialize (Hge c Hc); lia).
      cbn [length skipn] in *. destruct (bn a =? i) eqn:E2.
      + cbn [length firstn]. f_equal. exact IH.
      + rewrite (filter_none (fun k => bn k =? i) t) by (intros c Hc; specialize (Hge c Hc); lia). reflexivity.
  Qed.

  Variable all : list Z.
  Hypothesis Hsorted : Sorted Z.le (map bn all).
  Let nrev := Z.of_nat (length all) + nbin + 1.

  Lemma sorted_split p k r : all = p ++ k :: r ->
    (forall a, In a p -> bn a <= bn k) /\ (forall c, In c r -> bn k <= bn c).
  Proof.
    intro E. pose proof (Sorted_StronglySorted Z.le_trans Hsorted) as HS. rewrite E in HS. clear E.
    induction p as [|y p IH]; cbn [app map] in HS; apply StronglySorted_inv in HS; destruct HS as [HS HF].
    - rewrite Forall_forall in HF. split; [intros a []|]. intros c Hc. apply HF, in_map, Hc.
    - destruct (IH HS) as [I1 I2]. split; [|exact I2]. intros a [<-|Ha]; [|apply I1; exact Ha].
      rewrite Forall_forall in HF. apply HF. rewrite map_app. apply in_or_app. right. left. reflexivity.
  Qed.

  (* After the prefix p of the sort index: the index section of rev holds p ... *)
  Definition stored (p rev : list Z) : Prop :=
    forall t, 0 <= t < Z.of_nat (length p) -> zget rev (t + nbin + 1) = zget all t.

  (* ... and the offsets written so far (those of the bins up to binold) have their final values:
     the datum that made the loop write offset j is the first with a bin number >= j.  binold is the
     largest bin number below nbin seen so far (data below bin 0 come first and change nothing). *)
  Record offsets_inv (p : list Z) (binold oe : Z) (rev : list Z) : Prop := {
    inv_len : Z.of_nat (length rev) = nrev;
    inv_bo : -1 <= binold < nbin;
    inv_le : forall a, In a p -> bn a < nbin -> bn a <= binold;
    inv_off : forall j, 0 <= j <= binold -> zget rev j = nbin + 1 + cnt_lt all j;
    inv_oe : (binold = -1 /\ oe = nbin + 1)
             \/ (0 <= binold /\ oe = nbin + 1 + cnt_lt p nbin /\ exists a, In a p /\ bn a = binold)
  }.

  Lemma stored_step p k r rev : all = p ++ k :: r -> Z.of_nat (length rev) = nrev -> stored p rev ->
    stored (p ++ [k]) (zset rev (Z.of_nat (length p) + nbin + 1) k).
  Proof.
    intros E HL HT t Ht. rewrite app_length in Ht. cbn [length] in Ht.
    assert (HN : Z.of_nat (length all) = Z.of_nat (length p) + 1 + Z.of_nat (length r)).
    { rewrite E, app_length. cbn [length]. lia. }
    destruct (Z.eq_dec t (Z.of_nat (length p))) as [->|Hne].
    - rewrite zget_zset_same by (unfold nrev in HL; lia).
      unfold zget. rewrite E, Nat2Z.id, nth_middle. reflexivity.
    - rewrite zget_zset_other by lia. apply HT. lia.
  Qed.

  (* the offsets are filled in below the index section *)
  Lemma stored_fill p rev from c v : from + Z.of_nat c <= nbin + 1 -> stored p rev -> stored p (fill rev from c v).
  Proof. intros Hc HT t Ht. rewrite zget_fill_out by lia. apply HT, Ht. Qed.

  Lemma inv_step p k r binold oe rev : all = p ++ k :: r -> offsets_inv p binold oe rev ->
    let offset := Z.of_nat (length p) + nbin + 1 in
    if valid_bin nbin (bn k)
    then offsets_inv (p ++ [k]) (bn k) (offset + 1) (fill (zset rev offset k) (binold + 1) (Z.to_nat (bn k - binold)) offset)
    else offsets_inv (p ++ [k]) binold oe (zset rev offset k).
  Proof.
    intros E [Ilen Ibo Ile Ioff Ioe] offset. destruct (sorted_split p k r E) as [Sp Sr].
    assert (Hoff1 : forall j, 0 <= j <= binold -> zget (zset rev offset k) j = nbin + 1 + cnt_lt all j).
    { intros j Hj. rewrite zget_zset_other by (unfold offset; lia). apply Ioff, Hj. }
    assert (In_snoc : forall a, In a (p ++ [k]) -> In a p \/ a = k).
    { intros a Ha. apply in_app_or in Ha. destruct Ha as [Ha|[Ha|[]]]; auto. }
    destruct (valid_bin nbin (bn k)) eqn:V; unfold valid_bin in V.
    - split.
      + rewrite fill_length, zset_length. exact Ilen.
      + lia.
      + intros a Ha _. destruct (In_snoc a Ha) as [Hp| ->]; [apply Sp, Hp|lia].
      + intros j Hj. destruct (Z.le_gt_cases j binold) as [Hjb|Hjb].
        * rewrite zget_fill_out by lia. apply Hoff1. lia.
        * (* a fresh offset: everything before position |p| has a bin number below j, nothing after has *)
          rewrite zget_fill_in by (rewrite ?zset_length; unfold nrev in Ilen; lia).
          rewrite E, cnt_lt_split; [unfold offset; lia| |].
          -- intros a Ha. specialize (Sp a Ha). specialize (Ile a Ha). lia.
          -- intros c [<-|Hc]; [lia|]. specialize (Sr c Hc). lia.
      + right. split; [lia|]. split; [|exists k; split; [apply in_or_app; right; left|]; reflexivity].
        rewrite <- (app_nil_r (p ++ [k])), cnt_lt_split; [rewrite app_length; cbn [length]; unfold offset; lia| |intros c []].
        intros a Ha. destruct (In_snoc a Ha) as [Hp| ->]; [specialize (Sp a Hp)|]; lia.
    - split; [rewrite zset_length; exact Ilen|exact Ibo| |exact Hoff1|].
      + intros a Ha Hn. destruct (In_snoc a Ha) as [Hp| ->]; [apply Ile; assumption|lia].
      + destruct Ioe as [I|(I1 & I2 & a & Ha & Ea)]; [left; exact I|right].
        split; [exact I1|]. split; [|exists a; split; [apply in_or_app; left; exact Ha|exact Ea]].
        (* a counted datum came before k, so k lies beyond the last bin *)
        specialize (Sp a Ha). rewrite I2. unfold cnt_lt. rewrite filter_app. cbn [filter].
        destruct (bn k <? nbin) eqn:Ek; [lia|]. rewrite app_nil_r. reflexivity.
  Qed.

  Lemma loop_inv s : forall p binold oe hist rev, all = p ++ s -> offsets_inv p binold oe rev -> stored p rev ->
    let '(binold', oe', _, rev') := c_loop bn nbin s (Z.of_nat (length p)) binold oe hist rev in
    offsets_inv all binold' oe' rev' /\ stored all rev'.
  Proof.
    induction s as [|k ss IH]; intros p binold oe hist rev E HI HT; cbn [c_loop].
    - rewrite app_nil_r in E. subst p. split; assumption.
    - pose proof (inv_step p k ss binold oe rev E HI) as HS. cbn zeta in HS. rewrite fill_guard.
      assert (E' : all = (p ++ [k]) ++ ss) by (rewrite <- app_assoc; exact E).
      replace (Z.of_nat (length p) + 1) with (Z.of_nat (length (p ++ [k]))) by (rewrite app_length; cbn [length]; lia).
      pose proof (inv_bo _ _ _ _ HI) as Hbo. pose proof (inv_len _ _ _ _ HI) as HL.
      destruct (valid_bin nbin (bn k)) eqn:V; unfold valid_bin in V; apply (IH _ _ _ _ _ E' HS).
      + apply stored_fill; [lia|]. exact (stored_step p k ss rev E HL HT).
      + exact (stored_step p k ss rev E HL HT).
  Qed.

  (* the reverse indices returned: the offsets count the data in the bins below, unless nothing at all
     is counted (then data below bin 0 do not shift them) *)
  Lemma chist_rev : let rev := snd (chist bn nbin all) in
    Z.of_nat (length rev) = nrev
    /\ stored all rev
    /\ ((forall a, In a all -> valid_bin nbin (bn a) = false) /\ (forall j, 0 <= j <= nbin -> zget rev j = nbin + 1)
        \/ forall j, 0 <= j <= nbin -> zget rev j = nbin + 1 + cnt_lt all j).
  Proof.
    unfold chist. fold nrev.
    assert (I0 : offsets_inv [] (-1) (nbin + 1) (zeros nrev)).
    { split; [rewrite zeros_length; unfold nrev; lia|lia|intros a []|lia|left; split; reflexivity]. }
    pose proof (loop_inv all [] (-1) (nbin + 1) (zeros nbin) (zeros nrev) eq_refl I0) as H.
    cbn [length] in H. change (Z.of_nat 0) with 0 in H.
    destruct (c_loop bn nbin all 0 (-1) (nbin + 1) (zeros nbin) (zeros nrev)) as [[[bo oe] hist] rev].
    destruct H as [[Ilen Ibo Ile Ioff Ioe] HT]; [intros t Ht; cbn [length] in Ht; lia|]. cbn [snd].
    split; [rewrite fill_length; exact Ilen|]. split.
    - apply stored_fill; [lia|exact HT].
    - assert (Hhigh : forall j, bo < j <= nbin -> zget (fill rev (bo + 1) (Z.to_nat (nbin - bo)) oe) j = oe).
      { intros j Hj. apply zget_fill_in; unfold nrev in Ilen; lia. }
      assert (Hlow : forall j, 0 <= j <= bo -> zget (fill rev (bo + 1) (Z.to_nat (nbin - bo)) oe) j = nbin + 1 + cnt_lt all j).
      { intros j Hj. rewrite zget_fill_out by lia. apply Ioff, Hj. }
      destruct Ioe as [[-> ->]|(I1 & -> & _)]; [left|right].
      + split; [|intros j Hj; apply Hhigh; lia].
        intros a Ha. specialize (Ile a Ha). unfold valid_bin. lia.
      + intros j Hj. destruct (Z.le_gt_cases j bo) as [Hjb|Hjb]; [apply Hlow; lia|]. rewrite Hhigh by lia.
        (* no datum has a bin number in [j, nbin) *)
        unfold cnt_lt. do 3 f_equal. apply filter_ext_in. intros a Ha. specialize (Ile a Ha). lia.
  Qed.

  Theorem chist_partition : let '(hist, rev) := chist bn nbin all in pass_partition bn nbin all hist rev.
  Proof.
    pose proof (chist_hist all) as HH. pose proof chist_rev as HR. cbn zeta in HR.
    destruct (chist bn nbin all) as [hist rev]. cbn [snd] in HR.
    destruct HH as (HL & HC & HS). destruct HR as (Hlen & HT & Hoff). unfold nrev in Hlen.
    assert (Htail : skipn (Z.to_nat (nbin + 1)) rev = all).
    { apply (nth_ext _ _ 0 0); [rewrite skipn_length; lia|]. intros t Ht. rewrite skipn_length in Ht.
      rewrite nth_skipn. specialize (HT (Z.of_nat t)). unfold zget in HT. rewrite Nat2Z.id in HT.
      rewrite <- HT by lia. f_equal. lia. }
    split; [exact HL|]. split; [exact Hlen|]. split; [|split; [exact HS|split; [exact Htail|]]].
    - intros i Hi. rewrite (HC i Hi). unfold slice.
      destruct Hoff as [[Hnone Hoff]|Hoff]; rewrite (Hoff i), (Hoff (i + 1)) by lia.
      + assert (Hs : sel bn i all = []).
        { apply filter_none. intros a Ha. specialize (Hnone a Ha). unfold valid_bin in Hnone. lia. }
        rewrite Hs, Z.sub_diag. cbn [Z.to_nat firstn length]. split; [lia|]. split; [lia|]. split; reflexivity.
      + pose proof (cnt_lt_range all i). pose proof (cnt_lt_range all (i + 1)) as Hle.
        rewrite cnt_lt_succ in Hle |- *.
        replace (Z.to_nat (nbin + 1 + (cnt_lt all i + Z.of_nat (length (sel bn i all))) - (nbin + 1 + cnt_lt all i)))
          with (length (sel bn i all)) by lia.
        replace (Z.to_nat (nbin + 1 + cnt_lt all i)) with (Z.to_nat (nbin + 1) + Z.to_nat (cnt_lt all i))%nat by lia.
        rewrite <- skipn_skipn', Htail, (sorted_segment all i Hsorted). split; [lia|]. split; [lia|]. split; reflexivity.
    - intro Hall. destruct Hoff as [[Hnone Hoff]|Hoff]; rewrite (Hoff nbin) by lia.
      + destruct all as [|a t]; [cbn [length] in Hlen; lia|].
        specialize (Hnone a (or_introl eq_refl)). specialize (Hall a (or_introl eq_refl)). congruence.
      + rewrite <- (app_nil_r all) at 1. rewrite cnt_lt_split; [lia| |intros c []].
        intros a Ha. specialize (Hall a Ha). unfold valid_bin in Hall. lia.
  Qed.
End Pass.
