(* C05 — the hypotheses `contracts` of C05_model_meets_spec are theorems for finite data, finite
   limits and a bin specification that is sane (params_ok) or has a zero bin size; with an infinite
   bin size the weaker `contracts_w` are; hence the property on the data themselves. *)
From Coq Require Import Reals Lra Sorting.Sorted PrimFloat.
From EsVerif.Common Require Import Base.
From EsVerif.C05 Require Import Model Spec PassProofs Proofs PassExt FloatFacts SortFacts.

Section Data.
  Variable x : list float.
  Hypothesis x_fin : forallb finite_f x = true.

  Let in_range (k : Z) : Prop := 0 <= k < Z.of_nat (length x).

  (* a limit that is not given is the first / last datum in sort order, which excludes nothing *)
  Lemma limits_facts lo hi dmin dmax w :
    finite_opt lo = true -> finite_opt hi = true ->
    limits x (argsort x) lo hi = Ok (dmin, dmax, w) ->
    finite_f dmin = true /\ finite_f dmax = true
    /\ w = filter (fun k => in_limits lo hi (fget x k)) (argsort x)
    /\ (forall k, In k w -> PrimFloat.leb dmin (fget x k) = true /\ PrimFloat.leb (fget x k) dmax = true).
  Proof.
    intros Flo Fhi L. destruct (limits_Ok _ _ _ _ _ _ _ L) as (Em & EM & Hne & Hw).
    assert (Ho := argsort_ordered x x_fin). assert (Rg := argsort_in_range x).
    destruct (argsort x) as [|k0 t]; [destruct Hw as [->|(_ & _ & ->)]; contradiction|].
    cbn [hd] in Em. set (s := k0 :: t) in *.
    assert (Lmin : forall k, In k s -> PrimFloat.leb (fget x k0) (fget x k) = true).
    { intros k Hk. apply (ordered_first_min x x_fin k0 t k Rg Ho Hk). }
    assert (Lmax : forall k, In k s -> PrimFloat.leb (fget x k) (fget x (last s 0)) = true).
    { intros k Hk. apply (ordered_last_max x x_fin s k Rg Ho Hk). }
    assert (Fm : finite_f dmin = true).
    { rewrite Em. destruct lo; [exact Flo|]. apply (fget_fin x x_fin), Rg. left. reflexivity. }
    assert (FM : finite_f dmax = true).
    { rewrite EM. destruct hi; [exact Fhi|]. apply (fget_fin x x_fin), Rg, last_In. }
    assert (Hin : forall k, In k s -> within dmin dmax (fget x k) = in_limits lo hi (fget x k)).
    { intros k Hk. unfold within, in_limits. rewrite Em, EM.
      destruct lo, hi; rewrite ?(Lmin k Hk), ?(Lmax k Hk); reflexivity. }
    assert (Ew : w = filter (fun k => within dmin dmax (fget x k)) s).
    { destruct Hw as [E|(-> & -> & ->)]; [exact E|]. symmetry. apply filter_all. intros k Hk. rewrite (Hin k Hk). reflexivity. }
    split; [exact Fm|]. split; [exact FM|]. split.
    - rewrite Ew. apply filter_ext_in, Hin.
    - intros k Hk. rewrite Ew in Hk. apply filter_In in Hk. destruct Hk as [_ Hk].
      apply andb_true_iff in Hk. exact Hk.
  Qed.

  Lemma wsort_facts lo hi w : w = filter (fun k => in_limits lo hi (fget x k)) (argsort x) ->
    (forall k, In k w -> in_range k) /\ ordered x w.
  Proof.
    intros ->. split.
    - intros k Hk. apply filter_In in Hk. apply (argsort_in_range x), Hk.
    - apply ordered_filter, (argsort_ordered x x_fin).
  Qed.

  (* what all theorems below start from: the outcome of an accepted finite input *)
  Lemma histogram_finite eng lo hi m o :
    finite_opt lo = true -> finite_opt hi = true -> histogram eng x lo hi m = Ok o ->
    exists dmin dmax w bs nb hist rev,
      o = mkOut (mkParams dmin dmax bs nb) (argsort x) w hist rev
      /\ limits x (argsort x) lo hi = Ok (dmin, dmax, w) /\ derive dmin dmax m = Ok (bs, nb) /\ 0 <= nb
      /\ finite_f dmin = true /\ finite_f dmax = true
      /\ w = filter (fun k => in_limits lo hi (fget x k)) (argsort x)
      /\ (forall k, In k w -> in_range k /\ PrimFloat.leb dmin (fget x k) = true /\ PrimFloat.leb (fget x k) dmax = true)
      /\ ordered x w.
  Proof.
    intros Flo Fhi H.
    destruct (histogram_Ok _ _ _ _ _ _ H) as (dmin & dmax & w & bs & nb & hist & rev & L & D & Hn & _ & ->).
    destruct (limits_facts lo hi dmin dmax w Flo Fhi L) as (Fm & FM & Ew & Bw).
    destruct (wsort_facts lo hi w Ew) as (Rw & Ow).
    exists dmin, dmax, w, bs, nb, hist, rev. repeat (split; [assumption || reflexivity|]).
    split; [|exact Ow]. intros k Hk. split; [apply Rw, Hk|apply Bw, Hk].
  Qed.

  (* a labelling that does not decrease with the value does not decrease along an ordered list *)
  Lemma sorted_by_value (f : Z -> Z) w : (forall k, In k w -> in_range k) -> ordered x w ->
    (forall a b, In a w -> In b w -> (rv (fget x a) <= rv (fget x b))%R -> f a <= f b) ->
    Sorted Z.le (map f w).
  Proof.
    intros R. induction w as [|a t IH]; intros Ho Hf; cbn [map]; constructor.
    - apply IH; [intros k Hk; apply R; right; exact Hk|apply Ho|]. intros c d Hc Hd. apply Hf; right; assumption.
    - destruct t as [|b t']; cbn [map]; constructor. apply Hf; [left; reflexivity|right; left; reflexivity|].
      apply (ordered_app_le x x_fin [a] (b :: t') a b R Ho); left; reflexivity.
  Qed.

  Theorem contracts_hold eng lo hi m o :
    finite_opt lo = true -> finite_opt hi = true ->
    histogram eng x lo hi m = Ok o -> params_ok (o_params o) = true ->
    contracts x lo hi o.
  Proof.
    intros Flo Fhi H POK.
    destruct (histogram_finite eng lo hi m o Flo Fhi H)
      as (dmin & dmax & w & bs & nb & hist & rev & -> & L & D & Hn & Fm & FM & Ew & Bw & Ow).
    unfold contracts. cbn [o_params o_sort o_wsort p_dmin p_bsize] in *.
    assert (Fw : forall k, In k w -> finite_f (fget x k) = true) by (intros k Hk; apply (fget_fin x x_fin), Bw, Hk).
    split; [apply (argsort_ordered x x_fin)|]. split; [exact Ew|]. split.
    - intros k Hk. destruct (Bw k Hk) as (_ & L1 & L2).
      exact (proj1 (binnum_floor dmin dmax bs nb Fm FM POK x k (Fw k Hk) L1 L2)).
    - apply (sorted_by_value _ w (fun k Hk => proj1 (Bw k Hk)) Ow). intros a b Ha Hb Hab.
      destruct (Bw a Ha) as (_ & La & _), (Bw b Hb) as (_ & _ & Lb).
      exact (binnum_monotone dmin dmax bs nb Fm FM POK x a b (Fw a Ha) (Fw b Hb) La Hab Lb).
  Qed.

  (* a zero bin size (constant data in nbin mode): nothing is counted, the contracts hold *)
  Theorem contracts_hold_zero eng lo hi m o :
    finite_opt lo = true -> finite_opt hi = true ->
    histogram eng x lo hi m = Ok o -> zero_f (p_bsize (o_params o)) = true ->
    contracts x lo hi o.
  Proof.
    intros Flo Fhi H ZB.
    destruct (histogram_finite eng lo hi m o Flo Fhi H)
      as (dmin & dmax & w & bs & nb & hist & rev & -> & L & D & Hn & Fm & FM & Ew & Bw & Ow).
    unfold contracts. cbn [o_params o_sort o_wsort p_dmin p_bsize] in *.
    split; [apply (argsort_ordered x x_fin)|]. split; [exact Ew|].
    assert (E : forall k, binnum x dmin bs k = int64_min /\ bin_index dmin bs (fget x k) = int64_min).
    { intros k. apply div_zero_int64_min, ZB. }
    split.
    - intros k _. destruct (E k) as [-> ->]. reflexivity.
    - apply (sorted_by_value _ w (fun k Hk => proj1 (Bw k Hk)) Ow). intros a b _ _ _. destruct (E a) as [-> _], (E b) as [-> _]. lia.
  Qed.

  (* an infinite bin size: data with a finite difference to min go to bin 0, the others are not counted *)
  Theorem contracts_w_hold_inf eng lo hi m o :
    finite_opt lo = true -> finite_opt hi = true ->
    histogram eng x lo hi m = Ok o -> posinf_f (p_bsize (o_params o)) = true ->
    contracts_w x lo hi o.
  Proof.
    intros Flo Fhi H PI.
    destruct (histogram_finite eng lo hi m o Flo Fhi H)
      as (dmin & dmax & w & bs & nb & hist & rev & -> & L & D & Hn & Fm & FM & Ew & Bw & Ow).
    unfold contracts_w. cbn [o_params o_sort o_wsort p_dmin p_bsize p_nbin] in *.
    split; [apply (argsort_ordered x x_fin)|]. split; [exact Ew|]. split.
    - intros k _. unfold binnum, bin_index.
      destruct (div_posinf (PrimFloat.sub (fget x k) dmin) bs PI) as [(_ & -> & ->)|(_ & -> & ->)]; reflexivity.
    - apply (sorted_by_value _ w (fun k Hk => proj1 (Bw k Hk)) Ow). intros a b Ha Hb Hab. unfold binnum.
      destruct (div_posinf (PrimFloat.sub (fget x b) dmin) bs PI) as [(Fb & -> & _)|(_ & -> & _)].
      + (* b has a finite difference to min: so has a *)
        assert (Fa : finite_f (fget x a) = true) by apply (fget_fin x x_fin), Bw, Ha.
        assert (Fbv : finite_f (fget x b) = true) by apply (fget_fin x x_fin), Bw, Hb.
        destruct (Bw a Ha) as (_ & La & _). apply (leb_R _ _ Fm Fa) in La.
        destruct (sub_facts dmin (fget x b) (fget x a) Fm Fbv Fa Fb (conj La Hab)) as (Fsa & _).
        destruct (div_posinf (PrimFloat.sub (fget x a) dmin) bs PI) as [(_ & -> & _)|(Na & _)]; [lia|congruence].
      + replace (up_bin nb int64_min) with nb by (unfold up_bin, valid_bin, int64_min; destruct (_ && _) eqn:V; lia).
        apply up_bin_range, Hn.
  Qed.

  (* binsize mode: whenever the model accepts a finite positive bin size, the bin specification is sane *)
  Theorem binsize_mode_params_ok eng lo hi b o :
    finite_opt lo = true -> finite_opt hi = true ->
    histogram eng x lo hi (ByBinsize b) = Ok o -> finite_f b = true -> PrimFloat.ltb 0 b = true ->
    params_ok (o_params o) = true.
  Proof.
    intros Flo Fhi H Fb Pb.
    destruct (histogram_finite eng lo hi _ o Flo Fhi H)
      as (dmin & dmax & w & bs & nb & hist & rev & -> & L & D & Hn & Fm & FM & Ew & Bw & Ow).
    cbn [derive] in D. injection D as <- <-. cbn [o_params].
    destruct (limits_Ok _ _ _ _ _ _ _ L) as (_ & _ & Hne & _).
    assert (Lmm : (rv dmin <= rv dmax)%R).
    { destruct w as [|k0 w']; [congruence|]. destruct (Bw k0 (or_introl eq_refl)) as (R0 & L1 & L2).
      assert (F0 : finite_f (fget x k0) = true) by apply (fget_fin x x_fin), R0.
      apply (leb_R _ _ Fm F0) in L1. apply (leb_R _ _ F0 FM) in L2. lra. }
    set (D := PrimFloat.sub dmax dmin) in *. set (q := PrimFloat.div D b) in *.
    assert (Fq : finite_f q = true).
    { destruct (finite_f q) eqn:E; [reflexivity|]. rewrite (trunc_nonfinite q E) in Hn. unfold int64_min in Hn. lia. }
    assert (FD : finite_f D = true).
    { destruct (finite_f D) eqn:E; [reflexivity|]. unfold q in Fq. rewrite (div_nonfinite D b E) in Fq. discriminate. }
    destruct (sub_facts dmin dmax dmax Fm FM FM FD (conj Lmm (Rle_refl _))) as (_ & _ & D0 & _).
    pose proof Pb as Pb'. apply (ltb_R _ _ finite_zero Fb) in Pb'. rewrite rv_zero in Pb'.
    destruct (div_facts D D b FD FD Fb (conj D0 (Rle_refl _)) Pb' Fq) as (_ & Q0 & _).
    assert (Q1 : (rv q < IZR two63Z)%R) by (apply rv_below_two63; [lia|exact Fq|exact Q0]).
    unfold params_ok. cbn [p_dmin p_dmax p_bsize]. fold D q. rewrite FD, Fb, Pb, Fq. cbn [andb].
    apply (ltb_R _ _ Fq finite_two63). rewrite rv_two63. exact Q1.
  Qed.

  (* the property on the data themselves, no monitored hypothesis left: every finite input whose bin
     specification is sane (params_ok), zero or +infinite *)
  Theorem holds_finite_total eng lo hi m o :
    finite_opt lo = true -> finite_opt hi = true ->
    histogram eng x lo hi m = Ok o -> spec_ok2 (o_params o) = true ->
    hist_ok x lo hi (p_dmin (o_params o)) (p_bsize (o_params o)) (p_nbin (o_params o)) (o_hist o) (o_rev o).
  Proof.
    intros Flo Fhi H SOK. unfold spec_ok2, spec_ok in SOK. rewrite !orb_true_iff in SOK.
    destruct SOK as [[POK|ZB]|PI].
    - apply (model_meets_spec eng x lo hi m o H), (contracts_hold eng lo hi m o Flo Fhi H POK).
    - apply (model_meets_spec eng x lo hi m o H), (contracts_hold_zero eng lo hi m o Flo Fhi H ZB).
    - apply (model_meets_spec_w eng x lo hi m o H), (contracts_w_hold_inf eng lo hi m o Flo Fhi H PI).
  Qed.
End Data.

Theorem api_holds_finite_total eng a x lo hi k nb o :
  forallb finite_f x = true -> finite_opt lo = true -> finite_opt hi = true ->
  histogram_api eng a x lo hi k nb = Ok o -> spec_ok2 (o_params o) = true ->
  hist_ok x lo hi (p_dmin (o_params o)) (p_bsize (o_params o)) (p_nbin (o_params o)) (o_hist o) (o_rev o).
Proof.
  intros Fx Flo Fhi H SOK. destruct (histogram_api_Ok _ _ _ _ _ _ _ _ H) as [m Hm].
  exact (holds_finite_total x Fx eng lo hi m o Flo Fhi Hm SOK).
Qed.
