(* C05 — the property theorems.  Most are a short step from the lemmas of the other files; C05_spec_exact
   and C05_rejections are proved here in full. *)
From Coq Require Import PrimFloat Sorting.Permutation Sorting.Sorted Reals Lra ZifyBool.
From EsVerif.Common Require Import Base.
From EsVerif.C05 Require Import Model Spec PassProofs Proofs PassExt FloatFacts SortFacts FloatProofs.

(* The compiled and the pure-python engine (two transcriptions) return identical arrays. *)
Theorem C05_engines_equal : forall x lo hi m, histogram EngC x lo hi m = histogram EngPy x lo hi m.
Proof. exact histogram_engines_equal. Qed.

Theorem C05_engines_equal_pass : forall bn nbin s, chist bn nbin s = pyhist bn nbin s.
Proof. exact engines_equal. Qed.

(* Counts are exact for ANY index list: hist[i] = number of data whose bin number is i; data
   whose bin number is not a valid bin are not counted anywhere. *)
Theorem C05_hist_counts : forall eng bn nbin s, 0 <= nbin ->
  let '(hist, rev) := match eng with EngC => chist bn nbin s | EngPy => pyhist bn nbin s end in
  Z.of_nat (length hist) = nbin
  /\ forall i, 0 <= i < nbin -> zget hist i = Z.of_nat (length (sel bn i s)).
Proof.
  intros eng bn nbin s Hn. rewrite engine_pass. pose proof (chist_hist bn nbin Hn s) as H.
  destruct (chist bn nbin s) as [hist rev]. destruct H as (L & G & _). split; assumption.
Qed.

(* For non-decreasing bin numbers the reverse indices partition the counted data: slice i is
   exactly the sub-list of the sort index with bin number i (same order), its length is hist[i],
   the offsets are ordered and inside rev, the counts sum to the number of counted data, the
   index section of rev is the sort index, and rev[nbin] = len(rev) when everything is counted. *)
Theorem C05_partition : forall eng bn nbin s, 0 <= nbin -> Sorted Z.le (map bn s) ->
  let '(hist, rev) := match eng with EngC => chist bn nbin s | EngPy => pyhist bn nbin s end in
  pass_partition bn nbin s hist rev.
Proof. exact pass_partition_both. Qed.

(* The property as stated, on the data: whenever the model accepts the input and the decidable
   contracts hold (monitored on every case), its arrays satisfy hist_ok. *)
Theorem C05_model_meets_spec : forall eng x lo hi m o,
  histogram eng x lo hi m = Ok o ->
  contracts x lo hi o ->
  hist_ok x lo hi (p_dmin (o_params o)) (p_bsize (o_params o)) (p_nbin (o_params o)) (o_hist o) (o_rev o).
Proof. exact model_meets_spec. Qed.

(* hist_ok spelled out for single data: inside the limits and with a valid bin index <=> listed,
   exactly once, in the slice of exactly that bin; hist[i] is the number of such data. *)
Theorem C05_spec_exact : forall x lo hi dmin bsize nbin hist rev,
  hist_ok x lo hi dmin bsize nbin hist rev ->
  forall i, 0 <= i < nbin ->
    NoDup (slice rev i)
    /\ (forall k, In k (slice rev i) <->
                  0 <= k < Z.of_nat (length x) /\ in_limits lo hi (fget x k) = true
                  /\ bin_index dmin bsize (fget x k) = i)
    /\ zget hist i = Z.of_nat (length (members x lo hi dmin bsize i)).
Proof.
  intros x lo hi dmin bsize nbin hist rev [_ [H _]] i Hi. destruct (H i Hi) as [_ [_ [HP [_ HL]]]].
  assert (ND : NoDup (members x lo hi dmin bsize i)) by (apply NoDup_filter, zseq_nodup).
  split; [eapply Permutation_NoDup; [apply Permutation_sym; exact HP|exact ND]|]. split.
  - intro k. split.
    + intro Hk. apply (Permutation_in _ HP) in Hk. unfold members in Hk. apply filter_In in Hk.
      destruct Hk as [Hk1 Hk2]. unfold indices in Hk1. apply in_zseq in Hk1. unfold in_bin in Hk2.
      apply andb_true_iff in Hk2. destruct Hk2 as [Hk2 Hk3]. split; [lia|]. split; [exact Hk2|lia].
    + intros [Hk1 [Hk2 Hk3]]. apply (Permutation_in _ (Permutation_sym HP)). unfold members.
      apply filter_In. split; [unfold indices; apply in_zseq; lia|]. unfold in_bin. rewrite Hk2. cbn [andb]. lia.
  - rewrite <- HL. rewrite (Permutation_length HP). reflexivity.
Qed.

(* Checker soundness: what the correspondence run evaluates on the implementation's arrays. *)
Theorem C05_checkers_sound :
  (forall x lo hi dmin bsize nbin hist rev,
     hist_check x lo hi dmin bsize nbin hist rev = true -> hist_ok x lo hi dmin bsize nbin hist rev)
  /\ (forall x lo hi o, contracts_b x lo hi o = true -> contracts x lo hi o).
Proof.
  split; [exact hist_check_sound|]. intros x lo hi o.
  exact (contracts_sound_with (binnum x (p_dmin (o_params o)) (p_bsize (o_params o))) x lo hi o).
Qed.

(* The defect repaired by fixes/C05: before the repair the pass closed the offsets with len(rev);
   on data [0,1,2,3,4], nbin=2 the uncounted maximum then sits in the slice of bin 1. *)
Theorem C05_unpatched_refuted :
  let x := [0; 1; 2; 3; 4]%float in
  let bn := binnum x 0%float 2%float in
  Sorted Z.le (map bn [0; 1; 2; 3; 4])
  /\ chist_unpatched bn 2 [0; 1; 2; 3; 4] = ([2; 2], [3; 5; 8; 0; 1; 2; 3; 4])
  /\ ~ hist_ok x None None 0%float 2%float 2 [2; 2] [3; 5; 8; 0; 1; 2; 3; 4]
  /\ ~ pass_partition bn 2 [0; 1; 2; 3; 4] [2; 2] [3; 5; 8; 0; 1; 2; 3; 4].
Proof.
  cbv zeta. split; [|split; [|split]].
  - apply nondecr_b_sound. vm_compute. reflexivity.
  - vm_compute. reflexivity.
  - intros [_ [H _]]. specialize (H 1 ltac:(lia)). destruct H as [_ [_ [_ [_ HL]]]]. vm_compute in HL. discriminate.
  - intros [_ [_ [H _]]]. specialize (H 1 ltac:(lia)). destruct H as [_ [_ [_ HL]]]. vm_compute in HL. discriminate.
Qed.

(* Non-vacuity: the same input on the repaired model; the hypotheses of C05_model_meets_spec
   hold and the checker accepts; an input with limits excluding data at both ends. *)
Example C05_nonvacuous :
  (exists o, histogram EngC [0; 1; 2; 3; 4]%float None None (ByNbin 2) = Ok o
             /\ o_hist o = [2; 2] /\ o_rev o = [3; 5; 7; 0; 1; 2; 3; 4]
             /\ contracts_b [0; 1; 2; 3; 4]%float None None o = true
             /\ hist_check [0; 1; 2; 3; 4]%float None None 0%float 2%float 2 (o_hist o) (o_rev o) = true)
  /\ (exists o, histogram EngPy [0.5; 0.25; 3; 1; 1; 2.5]%float (Some 0.5%float) (Some 2.75%float) (ByBinsize 0.5%float) = Ok o
             /\ o_hist o = [1; 2; 0; 0; 1] /\ o_rev o = [6; 7; 9; 9; 9; 10; 0; 3; 4; 5]
             /\ contracts_b [0.5; 0.25; 3; 1; 1; 2.5]%float (Some 0.5%float) (Some 2.75%float) o = true).
Proof.
  split; eexists; (split; [vm_compute; reflexivity|]); vm_compute; repeat split; reflexivity.
Qed.

(* Finite data: the hypotheses `contracts` are theorems (IEEE-754 facts through Flocq's link between
   primitive floats and its binary64 formalisation; these theorems depend on the standard library's
   FloatAxioms specifications of the primitive operations and on the axioms of the real numbers). *)

(* On data between the limits, sorted values have non-decreasing,
   non-negative bin numbers and truncation equals floor. *)
Theorem C05_binnum_monotone : forall dmin dmax bs nb x k1 k2,
  finite_f dmin = true -> finite_f dmax = true -> params_ok (mkParams dmin dmax bs nb) = true ->
  finite_f (fget x k1) = true -> finite_f (fget x k2) = true ->
  PrimFloat.leb dmin (fget x k1) = true -> PrimFloat.leb (fget x k1) (fget x k2) = true ->
  PrimFloat.leb (fget x k2) dmax = true ->
  binnum x dmin bs k1 <= binnum x dmin bs k2
  /\ 0 <= binnum x dmin bs k1
  /\ binnum x dmin bs k1 = bin_index dmin bs (fget x k1).
Proof.
  intros dmin dmax bs nb x k1 k2 Fm FM POK F1 F2 L1 L12 L2. apply (leb_R _ _ F1 F2) in L12. split.
  - apply (binnum_monotone dmin dmax bs nb Fm FM POK x k1 k2 F1 F2 L1 L12 L2).
  - assert (L1M : PrimFloat.leb (fget x k1) dmax = true).
    { apply (leb_R _ _ F1 FM). apply (leb_R _ _ F2 FM) in L2. lra. }
    destruct (binnum_floor dmin dmax bs nb Fm FM POK x k1 F1 L1 L1M). auto.
Qed.

(* the stable argsort of the model orders by value, ties in original order *)
Theorem C05_argsort_stable : forall x, forallb finite_f x = true ->
  ordered x (argsort x) /\ Permutation (argsort x) (zseq 0 (length x)).
Proof. intros x H. split; [apply (argsort_ordered x H)|apply argsort_perm]. Qed.

Theorem C05_contracts_hold : forall eng x lo hi m o,
  forallb finite_f x = true -> finite_opt lo = true -> finite_opt hi = true ->
  histogram eng x lo hi m = Ok o -> params_ok (o_params o) = true ->
  contracts x lo hi o.
Proof. intros eng x lo hi m o H. exact (contracts_hold x H eng lo hi m o). Qed.

(* The property as stated, on the data, for every finite input with a sane bin specification, through
   either public entry point and any combination of the binsize=/nbin= keywords; nothing monitored. *)
Theorem C05_holds_finite : forall eng a x lo hi k nb o,
  forallb finite_f x = true -> finite_opt lo = true -> finite_opt hi = true ->
  histogram_api eng a x lo hi k nb = Ok o -> params_ok (o_params o) = true ->
  hist_ok x lo hi (p_dmin (o_params o)) (p_bsize (o_params o)) (p_nbin (o_params o)) (o_hist o) (o_rev o).
Proof.
  intros eng a x lo hi k nb o Fx Flo Fhi H POK. apply (api_holds_finite_total eng a x lo hi k nb o Fx Flo Fhi H).
  unfold spec_ok2, spec_ok. rewrite POK. reflexivity.
Qed.

(* ... and also when the bin size is zero (nbin mode on constant data: nothing is counted):
   spec_ok = params_ok or binsize = 0.  Together: every finite input whose max - min does not overflow. *)
Theorem C05_holds_finite_all : forall eng a x lo hi k nb o,
  forallb finite_f x = true -> finite_opt lo = true -> finite_opt hi = true ->
  histogram_api eng a x lo hi k nb = Ok o -> spec_ok (o_params o) = true ->
  hist_ok x lo hi (p_dmin (o_params o)) (p_bsize (o_params o)) (p_nbin (o_params o)) (o_hist o) (o_rev o).
Proof.
  intros eng a x lo hi k nb o Fx Flo Fhi H SOK. apply (api_holds_finite_total eng a x lo hi k nb o Fx Flo Fhi H).
  unfold spec_ok2. rewrite SOK. reflexivity.
Qed.

(* rev=False: the loop without reverse indices returns the same counts (both engines) *)
Theorem C05_norev_counts : forall bn nbin s,
  hist_norev bn nbin s = fst (chist bn nbin s) /\ hist_norev bn nbin s = fst (pyhist bn nbin s).
Proof. intros bn nbin s. rewrite <- engines_equal, fst_chist. split; reflexivity. Qed.

Theorem C05_api_engines_equal : forall a x lo hi k nb,
  histogram_api EngC a x lo hi k nb = histogram_api EngPy a x lo hi k nb.
Proof.
  intros a x lo hi k nb. unfold histogram_api. destruct (resolve a k nb); [apply histogram_engines_equal|reflexivity].
Qed.

(* keyword handling: histogram() lets nbin override binsize (default 1.0); Binner.dohist looks at
   binsize first; neither given is an error after the limits were applied *)
Theorem C05_options : forall eng x lo hi,
  (forall k n, histogram_api eng ApiHistogram x lo hi k (Some n) = histogram eng x lo hi (ByNbin n))
  /\ histogram_api eng ApiHistogram x lo hi KwOmit None = histogram eng x lo hi (ByBinsize default_binsize)
  /\ (forall b nb, histogram_api eng ApiBinner x lo hi (KwVal b) nb = histogram eng x lo hi (ByBinsize b))
  /\ (forall n, histogram_api eng ApiBinner x lo hi KwOmit (Some n) = histogram eng x lo hi (ByNbin n))
  /\ (forall o, histogram_api eng ApiBinner x lo hi KwOmit None <> Ok o).
Proof.
  intros eng x lo hi. repeat split; try reflexivity.
  intros o. unfold histogram_api, resolve, kw_binsize. destruct (limits x (argsort x) lo hi); discriminate.
Qed.

(* the named constants (regenerated from the source on every run and compared by Exec.consts_agree)
   are the ones the model's functions use *)
Theorem C05_consts :
  (forall dmin dmax b, derive dmin dmax (ByBinsize b)
     = Ok (b, f2z_trunc (PrimFloat.div (PrimFloat.sub dmax dmin) b) + nbin_plus))
  /\ (forall xmin xmax v, within xmin xmax v
     = (if lo_inclusive then PrimFloat.leb xmin v else PrimFloat.ltb xmin v)
       && (if hi_inclusive then PrimFloat.leb v xmax else PrimFloat.ltb v xmax))
  /\ (forall bn nbin s, chist bn nbin s =
       let nrev := Z.of_nat (length s) + nbin + rev_extra in
       let '(binold, offset_end, hist, rev) :=
         c_loop bn nbin s 0 binold_init (nbin + offset_end_init) (zeros nbin) (zeros nrev) in
       (hist, fill rev (binold + 1) (Z.to_nat (nbin - binold)) offset_end))
  /\ (forall bn nbin s, pyhist bn nbin s =
       let nrev := Z.of_nat (length s) + nbin + rev_extra in
       let '(binold, offset_end, hist, rev) :=
         py_loop bn nbin s (nbin + offset_init) binold_init (nbin + offset_end_init) (zeros nbin) (zeros nrev) in
       (hist, fill rev (binold + 1) (Z.to_nat (nbin - binold)) offset_end))
  /\ (sort_stable = true).
Proof.
  split; [exact derive_binsize_const|]. split; [exact within_const|].
  split; [exact chist_const|]. split; [exact pyhist_const|reflexivity].
Qed.

(* Non-vacuity of C05_holds_finite: both example inputs are inside its domain. *)
Example C05_finite_nonvacuous :
  (exists o, histogram_api EngC ApiHistogram [0; 1; 2; 3; 4]%float None None KwOmit (Some 2) = Ok o
             /\ params_ok (o_params o) = true /\ o_hist o = [2; 2])
  /\ (exists o, histogram_api EngPy ApiBinner [0.5; 0.25; 3; 1; 1; 2.5]%float (Some 0.5%float) (Some 2.75%float)
                   (KwVal 0.5%float) (Some 7) = Ok o
             /\ params_ok (o_params o) = true /\ o_hist o = [1; 2; 0; 0; 1]).
Proof.
  split; eexists; (split; [vm_compute; reflexivity|]); vm_compute; repeat split; reflexivity.
Qed.

(* Non-vacuity of the zero-bin-size branch: constant data in nbin mode, nothing is counted. *)
Example C05_zero_binsize_nonvacuous :
  exists o, histogram_api EngC ApiHistogram [3; 3; 3]%float None None KwOmit (Some 2) = Ok o
            /\ params_ok (o_params o) = false /\ spec_ok (o_params o) = true
            /\ o_hist o = [0; 0] /\ o_rev o = [3; 3; 3; 0; 1; 2].
Proof. eexists. split; [vm_compute; reflexivity|]. vm_compute. repeat split; reflexivity. Qed.

(* The pass only looks at valid bin numbers: the partition theorem holds as soon as the bin numbers are
   non-decreasing after ANY re-labelling of the invalid ones (bn' agrees with bn on validity and on the
   valid values).  Strictly more general than C05_partition (take bn' = bn). *)
Theorem C05_partition_relabel : forall eng bn bn' nbin s, 0 <= nbin ->
  agree_valid nbin bn bn' s -> Sorted Z.le (map bn' s) ->
  let '(hist, rev) := match eng with EngC => chist bn nbin s | EngPy => pyhist bn nbin s end in
  pass_partition bn nbin s hist rev.
Proof. exact pass_partition_relabel. Qed.

(* C05_model_meets_spec with the other, still decidable contracts `contracts_w` (bin numbers non-decreasing once
   invalid ones count as "beyond the last bin"), and soundness of their boolean checker *)
Theorem C05_model_meets_spec_w : forall eng x lo hi m o,
  histogram eng x lo hi m = Ok o ->
  contracts_w x lo hi o ->
  hist_ok x lo hi (p_dmin (o_params o)) (p_bsize (o_params o)) (p_nbin (o_params o)) (o_hist o) (o_rev o).
Proof. exact model_meets_spec_w. Qed.

Theorem C05_contracts_w_sound : forall x lo hi o, contracts_w_b x lo hi o = true -> contracts_w x lo hi o.
Proof.
  intros x lo hi o.
  exact (contracts_sound_with (fun k => up_bin (p_nbin (o_params o)) (binnum x (p_dmin (o_params o)) (p_bsize (o_params o)) k))
           x lo hi o).
Qed.

(* numpy's argsort is not part of esutil; whatever it returns, if it is a stable sorting permutation
   (a permutation of 0..n-1, ordered by value, ties in index order) it IS the list the model computes:
   the theorems do not depend on the sorting algorithm. *)
Theorem C05_stable_argsort_unique : forall x s, forallb finite_f x = true ->
  Permutation s (zseq 0 (length x)) -> ordered x s -> s = argsort x.
Proof.
  intros x s H P O. apply (ordered_unique x H); [| |exact O|apply (argsort_ordered x H)].
  - intros k Hk. apply (Permutation_in _ P) in Hk. apply in_zseq in Hk. lia.
  - eapply Permutation_trans; [exact P|apply Permutation_sym, argsort_perm].
Qed.

(* History independence.  The Binner object is modelled with its state (float64 copy of the data, cached
   sort index); one dohist call maps a well-formed object to a well-formed object with the same data,
   and its result is histogram_api of the object's data and THIS call's arguments only; a sequence of
   calls on one object (any engines, any limits / binsize / nbin) returns what the calls return alone;
   histogram() builds a fresh object per call. *)
Theorem C05_history_independent :
  (forall eng a b lo hi k nb, binner_wf b ->
     let '(b', r) := dohist eng a b lo hi k nb in
     binner_wf b' /\ b_x b' = b_x b /\ b_sort b' = Some (argsort (b_x b))
     /\ r = histogram_api eng a (b_x b) lo hi k nb)
  /\ (forall cs b, binner_wf b ->
        run_binner b cs
        = map (fun c => histogram_api (c_eng c) ApiBinner (b_x b) (c_lo c) (c_hi c) (c_kw c) (c_nbin c)) cs)
  /\ (forall x c, histogram_call x c
                  = histogram_api (c_eng c) ApiHistogram x (c_lo c) (c_hi c) (c_kw c) (c_nbin c))
  /\ (forall x, binner_wf (binner_new x)).
Proof.
  split; [exact dohist_spec|]. split; [exact run_binner_spec|]. split; [exact histogram_call_spec|].
  intro x. left. reflexivity.
Qed.

(* The property on the data for every finite input whose bin specification is sane, zero or +infinite
   (spec_ok2): the infinite bin size arises from binsize=inf and, in nbin mode, when max - min
   overflows; then data with a finite difference to min fall into bin 0 and the others are not counted. *)
Theorem C05_holds_finite_total : forall eng a x lo hi k nb o,
  forallb finite_f x = true -> finite_opt lo = true -> finite_opt hi = true ->
  histogram_api eng a x lo hi k nb = Ok o -> spec_ok2 (o_params o) = true ->
  hist_ok x lo hi (p_dmin (o_params o)) (p_bsize (o_params o)) (p_nbin (o_params o)) (o_hist o) (o_rev o).
Proof. exact api_holds_finite_total. Qed.

(* Bin-size mode needs no side condition: finite data and limits, any bin size > 0 (finite or infinite);
   whenever the model returns arrays they satisfy the property (an overflow of max - min or a bin count
   beyond int64 makes the model, like the code, reject the input). *)
Theorem C05_holds_binsize_mode : forall eng x lo hi b o,
  forallb finite_f x = true -> finite_opt lo = true -> finite_opt hi = true ->
  PrimFloat.ltb 0 b = true ->
  histogram eng x lo hi (ByBinsize b) = Ok o ->
  hist_ok x lo hi (p_dmin (o_params o)) (p_bsize (o_params o)) (p_nbin (o_params o)) (o_hist o) (o_rev o).
Proof.
  intros eng x lo hi b o Fx Flo Fhi Pb H. apply (holds_finite_total x Fx eng lo hi _ o Flo Fhi H).
  unfold spec_ok2, spec_ok. destruct (pos_finite_or_inf b Pb) as [Fb|PI].
  - rewrite (binsize_mode_params_ok x Fx eng lo hi b o Flo Fhi H Fb Pb). reflexivity.
  - destruct (histogram_Ok _ _ _ _ _ _ H) as (dmin & dmax & w & bs & nb & hist & rev & _ & D & _ & _ & ->).
    injection D as <- _. cbn [o_params p_bsize]. rewrite PI. apply orb_true_r.
Qed.

(* Non-vacuity: (1) max - min overflows in nbin mode: binsize = +inf, bin numbers [0; 0; INT64_MIN], not
   non-decreasing, outside spec_ok, inside spec_ok2, the weak contracts hold, the strong ones do not;
   (2) an infinite bin size given by the caller; (3) three calls on one Binner object. *)
Example C05_deepening_nonvacuous :
  (exists o, histogram_api EngC ApiBinner [-0x1.ep1023; 0; 0x1.ep1023]%float None None KwOmit (Some 2) = Ok o
             /\ spec_ok (o_params o) = false /\ spec_ok2 (o_params o) = true
             /\ o_hist o = [2; 0] /\ o_rev o = [3; 5; 5; 0; 1; 2]
             /\ contracts_w_b [-0x1.ep1023; 0; 0x1.ep1023]%float None None o = true
             /\ contracts_b [-0x1.ep1023; 0; 0x1.ep1023]%float None None o = false)
  /\ (exists o, histogram EngPy [1; 5; 2]%float (Some 0%float) None (ByBinsize infinity) = Ok o
             /\ o_hist o = [3] /\ PrimFloat.ltb 0 infinity = true)
  /\ run_binner (binner_new [3; 1; 2]%float)
        [mkCall EngC None None KwOmit (Some 2); mkCall EngPy (Some 2%float) None (KwVal 1%float) None;
         mkCall EngC None None KwOmit (Some 2)]
     = [histogram_api EngC ApiBinner [3; 1; 2]%float None None KwOmit (Some 2);
        histogram_api EngPy ApiBinner [3; 1; 2]%float (Some 2%float) None (KwVal 1%float) None;
        histogram_api EngC ApiBinner [3; 1; 2]%float None None KwOmit (Some 2)].
Proof.
  split; [eexists; split; [vm_compute; reflexivity|vm_compute; repeat split; reflexivity]|].
  split; [eexists; split; [vm_compute; reflexivity|vm_compute; repeat split; reflexivity]|].
  exact (run_binner_spec _ (binner_new [3; 1; 2]%float) (or_introl eq_refl)).
Qed.

(* Error paths: exactly which inputs the model rejects and with which class (the correspondence run
   compares the class with the exception of the real code: IndexError, ValueError, ZeroDivisionError):
   empty data with a limit missing -> IndexError; an empty selection -> ValueError; a negative derived bin
   count (bin-size mode with a non-positive / NaN bin size or a quotient outside int64) -> ValueError from
   np.zeros; nbin = 0 -> ZeroDivisionError.  Nothing else is rejected. *)
Theorem C05_rejections : forall eng x lo hi m e, histogram eng x lo hi m = Err e ->
  (e = EIndex /\ x = [] /\ (lo = None \/ hi = None))
  \/ (e = EValue /\ (lo <> None \/ hi <> None)
      /\ exists xmin xmax, filter (fun k => within xmin xmax (fget x k)) (argsort x) = []
                           /\ xmin = match lo with Some v => v | None => fget x (hd 0 (argsort x)) end
                           /\ xmax = match hi with Some v => v | None => fget x (last (argsort x) 0) end)
  \/ (e = EValue /\ exists dmin dmax w b nb, limits x (argsort x) lo hi = Ok (dmin, dmax, w)
                                            /\ derive dmin dmax m = Ok (b, nb) /\ nb < 0)
  \/ (e = EOther /\ m = ByNbin 0 /\ exists r, limits x (argsort x) lo hi = Ok r).
Proof.
  intros eng x lo hi m e. unfold histogram. intros H.
  destruct (limits x (argsort x) lo hi) as [[[dmin dmax] w]|e'] eqn:L.
  - destruct (derive dmin dmax m) as [[b nb]|e''] eqn:D.
    + destruct (nb <? 0) eqn:N.
      * injection H as <-. right. right. left. split; [reflexivity|].
        exists dmin, dmax, w, b, nb. repeat split; auto. lia.
      * destruct (match eng with EngC => chist _ _ w | EngPy => pyhist _ _ w end). discriminate H.
    + injection H as <-. right. right. right. unfold derive in D. destruct m as [b|n]; [discriminate D|].
      destruct (n =? 0) eqn:Z0; [|discriminate D]. injection D as <-. apply Z.eqb_eq in Z0. subst n.
      split; [reflexivity|]. split; [reflexivity|]. eexists. reflexivity.
  - injection H as <-. destruct (limits_rejections x (argsort x) lo hi e' L) as [(E1 & E2 & E3)|(E1 & E2 & E3)].
    + left. split; [exact E1|]. split; [|exact E3].
      pose proof (argsort_perm x) as P. rewrite E2 in P. apply Permutation_nil in P.
      destruct x; [reflexivity|discriminate P].
    + right. left. auto.
Qed.

Example C05_rejections_nonvacuous :
  histogram EngC [] None None (ByNbin 2) = Err EIndex
  /\ histogram EngPy [1; 2; 3]%float (Some 10%float) (Some 20%float) (ByBinsize 1%float) = Err EValue
  /\ histogram EngC [1; 2; 3]%float None None (ByBinsize (-1)%float) = Err EValue
  /\ histogram EngC [1; 2; 3]%float None None (ByNbin 0) = Err EOther.
Proof. vm_compute. repeat split; reflexivity. Qed.
