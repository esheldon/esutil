(* C05 — facts about the binary64 operations used by the histogram code, obtained through Flocq's
   link between Coq's primitive floats and its IEEE-754 formalisation. *)
From Coq Require Import ZArith Reals Lia Lra List Bool.
From Coq Require Import PrimFloat FloatOps SpecFloat.
From Flocq Require Import Core.Core IEEE754.BinarySingleNaN.
Require Flocq.IEEE754.PrimFloat.
From EsVerif.Common Require Import Base.
From EsVerif.C05 Require Import Model Spec.
Module FP := Flocq.IEEE754.PrimFloat.
Local Existing Instance FP.Hprec.
Local Existing Instance FP.Hmax.
Local Open Scope R_scope.

Definition rv (f : PrimFloat.float) : R := B2R (FP.Prim2B f).
Notation rnd := (round radix2 (fexp prec emax) (round_mode mode_NE)).

Lemma finite_f_B f : finite_f f = is_finite (FP.Prim2B f).
Proof.
  unfold finite_f. rewrite <- FP.B2SF_Prim2B. now destruct (FP.Prim2B f).
Qed.

Lemma leb_R a b : finite_f a = true -> finite_f b = true ->
  (PrimFloat.leb a b = true <-> rv a <= rv b).
Proof.
  rewrite !finite_f_B. intros Fa Fb. rewrite FP.leb_equiv, (Bleb_correct _ _ _ _ Fa Fb).
  unfold rv. destruct (Rle_bool_spec (B2R (FP.Prim2B a)) (B2R (FP.Prim2B b))); split; intros; try easy; lra.
Qed.

Lemma ltb_R a b : finite_f a = true -> finite_f b = true ->
  (PrimFloat.ltb a b = true <-> rv a < rv b).
Proof.
  rewrite !finite_f_B. intros Fa Fb. rewrite FP.ltb_equiv, (Bltb_correct _ _ _ _ Fa Fb).
  unfold rv. destruct (Rlt_bool_spec (B2R (FP.Prim2B a)) (B2R (FP.Prim2B b))); split; intros; try easy; lra.
Qed.

Lemma eqb_R a b : finite_f a = true -> finite_f b = true ->
  (PrimFloat.eqb a b = true <-> rv a = rv b).
Proof.
  rewrite !finite_f_B. intros Fa Fb. rewrite FP.eqb_equiv, (Beqb_correct _ _ _ _ Fa Fb).
  unfold rv. destruct (Req_bool_spec (B2R (FP.Prim2B a)) (B2R (FP.Prim2B b))); split; intros; try easy.
Qed.

Lemma rnd_0 : rnd 0 = 0.
Proof. apply round_0. typeclasses eauto. Qed.

(* rounding is monotone and keeps 0: what lies between 0 and a quantity that does not overflow does not
   overflow either *)
Lemma rnd_below r1 r2 : 0 <= r1 <= r2 -> Rabs (rnd r2) < bpow radix2 emax ->
  0 <= rnd r1 <= rnd r2 /\ Rabs (rnd r1) < bpow radix2 emax.
Proof.
  intros [H0 H12] HD.
  assert (P0 : 0 <= rnd r1) by (rewrite <- rnd_0; apply round_le; try typeclasses eauto; exact H0).
  assert (P1 : rnd r1 <= rnd r2) by (apply round_le; try typeclasses eauto; exact H12).
  split; [split; assumption|]. rewrite Rabs_pos_eq by exact P0.
  eapply Rle_lt_trans; [exact P1|]. eapply Rle_lt_trans; [apply Rle_abs|exact HD].
Qed.

(* subtraction of the lower limit: exact rounding, monotone, no overflow below a finite one *)
Lemma sub_facts dmin dmax v :
  finite_f dmin = true -> finite_f dmax = true -> finite_f v = true ->
  finite_f (PrimFloat.sub dmax dmin) = true ->
  rv dmin <= rv v <= rv dmax ->
  finite_f (PrimFloat.sub v dmin) = true
  /\ rv (PrimFloat.sub v dmin) = rnd (rv v - rv dmin)
  /\ 0 <= rv (PrimFloat.sub v dmin) <= rv (PrimFloat.sub dmax dmin).
Proof.
  rewrite !finite_f_B. unfold rv. rewrite !FP.sub_equiv. intros Fm FM Fv FD [Hlo Hhi].
  generalize (Bminus_correct prec emax _ _ mode_NE _ _ FM Fm).
  destruct (Rlt_bool_spec (Rabs (rnd (B2R (FP.Prim2B dmax) - B2R (FP.Prim2B dmin)))) (bpow radix2 emax)) as [HD|HD].
  2:{ intros [E _]. rewrite <- is_finite_SF_B2SF, E in FD. discriminate. }
  intros [ED _].
  destruct (rnd_below (B2R (FP.Prim2B v) - B2R (FP.Prim2B dmin)) (B2R (FP.Prim2B dmax) - B2R (FP.Prim2B dmin))
              ltac:(lra) HD) as [Hb HV].
  generalize (Bminus_correct prec emax _ _ mode_NE _ _ Fv Fm). rewrite (Rlt_bool_true _ _ HV).
  intros [E [F _]]. rewrite E, ED. auto.
Qed.

(* division by a positive finite bin size *)
Lemma div_facts a1 a2 bs :
  finite_f a1 = true -> finite_f a2 = true -> finite_f bs = true ->
  0 <= rv a1 <= rv a2 -> 0 < rv bs ->
  finite_f (PrimFloat.div a2 bs) = true ->
  finite_f (PrimFloat.div a1 bs) = true
  /\ 0 <= rv (PrimFloat.div a1 bs) <= rv (PrimFloat.div a2 bs).
Proof.
  rewrite !finite_f_B. unfold rv. rewrite !FP.div_equiv. intros F1 F2 Fb [H0 H12] Hb FQ.
  assert (Nz : B2R (FP.Prim2B bs) <> 0) by lra.
  generalize (Bdiv_correct prec emax _ _ mode_NE (FP.Prim2B a2) _ Nz).
  destruct (Rlt_bool_spec (Rabs (rnd (B2R (FP.Prim2B a2) / B2R (FP.Prim2B bs)))) (bpow radix2 emax)) as [HD|HD].
  2:{ intros E. rewrite <- is_finite_SF_B2SF, E in FQ. discriminate. }
  intros [E2 _].
  assert (Hi : 0 < / B2R (FP.Prim2B bs)) by (apply Rinv_0_lt_compat; exact Hb).
  assert (Hq : 0 <= B2R (FP.Prim2B a1) / B2R (FP.Prim2B bs) <= B2R (FP.Prim2B a2) / B2R (FP.Prim2B bs)).
  { unfold Rdiv. split; [apply Rmult_le_pos|apply Rmult_le_compat_r]; lra. }
  destruct (rnd_below _ _ Hq HD) as [Hr HV].
  generalize (Bdiv_correct prec emax _ _ mode_NE (FP.Prim2B a1) _ Nz). rewrite (Rlt_bool_true _ _ HV).
  intros [E1 [F _]]. rewrite E1, E2, F. auto.
Qed.

Definition two63Z : Z := 9223372036854775808%Z.

Lemma rv_two63 : rv two63 = IZR two63Z.
Proof.
  unfold rv, FP.Prim2B. rewrite B2R_SF2B.
  replace (Prim2SF two63) with (S754_finite false 4503599627370496 11) by (vm_compute; reflexivity).
  unfold SF2R, F2R, cond_Zopp, Fnum, Fexp, two63Z. simpl bpow.
  rewrite <- mult_IZR. f_equal.
Qed.

Lemma finite_two63 : finite_f two63 = true.
Proof. vm_compute. reflexivity. Qed.

Lemma mag_floor (m : positive) (e : Z) :
  (if (0 <=? e)%Z then Z.pos m * 2 ^ e else Z.pos m / 2 ^ (- e))%Z
  = Zfloor (F2R (Float radix2 (Z.pos m) e)).
Proof.
  unfold F2R, Fnum, Fexp. destruct (0 <=? e)%Z eqn:He.
  - apply Z.leb_le in He. rewrite <- (IZR_Zpower radix2 e He), <- mult_IZR, Zfloor_IZR. reflexivity.
  - apply Z.leb_gt in He. replace e with (- (- e))%Z at 2 by lia. rewrite bpow_opp.
    rewrite <- (IZR_Zpower radix2 (- e)) by lia.
    change (IZR (Z.pos m) * / IZR (radix2 ^ (- e))) with (IZR (Z.pos m) / IZR (radix2 ^ (- e))).
    rewrite Zfloor_div. reflexivity.
    change (radix_val radix2) with 2%Z. apply Z.pow_nonzero; lia.
Qed.

(* on a finite non-negative quotient both conversions are the floor, clamped to int64 *)
Lemma trunc_floor_clamp q : finite_f q = true -> 0 <= rv q ->
  f2z_trunc q = clamp64 (Zfloor (rv q)) /\ f2z_floor q = clamp64 (Zfloor (rv q)).
Proof.
  rewrite finite_f_B. unfold rv, f2z_trunc, f2z_floor. rewrite <- FP.B2SF_Prim2B.
  destruct (FP.Prim2B q) as [s|s| |s m e B]; cbn [B2SF B2R is_finite]; try discriminate; intros _ H0.
  - rewrite Zfloor_IZR. split; reflexivity.
  - destruct s.
    + exfalso. apply (Rlt_not_le _ _ (F2R_lt_0 radix2 (Float radix2 (cond_Zopp true (Z.pos m)) e) eq_refl)). exact H0.
    + cbn [cond_Zopp] in *. rewrite mag_floor. split; reflexivity.
Qed.

Lemma trunc_floor_R q :
  finite_f q = true -> 0 <= rv q < IZR two63Z ->
  f2z_trunc q = Zfloor (rv q) /\ f2z_floor q = Zfloor (rv q).
Proof.
  intros F [H0 H1]. destruct (trunc_floor_clamp q F H0) as [-> ->].
  assert (Hr : (0 <= Zfloor (rv q) < two63Z)%Z).
  { split; [apply Zfloor_lub; exact H0|]. apply lt_IZR. eapply Rle_lt_trans; [apply Zfloor_lb|exact H1]. }
  unfold clamp64. replace (_ && _) with true; [split; reflexivity|].
  symmetry. apply andb_true_iff. unfold int64_min, int64_max, two63Z in *. split; apply Z.leb_le; lia.
Qed.

Local Notation quot dmin bs v := (PrimFloat.div (PrimFloat.sub v dmin) bs) (only parsing).

Lemma params_ok_spec p : params_ok p = true ->
  finite_f (PrimFloat.sub (p_dmax p) (p_dmin p)) = true /\ finite_f (p_bsize p) = true
  /\ PrimFloat.ltb 0 (p_bsize p) = true
  /\ finite_f (quot (p_dmin p) (p_bsize p) (p_dmax p)) = true
  /\ PrimFloat.ltb (quot (p_dmin p) (p_bsize p) (p_dmax p)) two63 = true.
Proof.
  unfold params_ok. intros H. repeat (apply andb_true_iff in H as [H ?]). auto.
Qed.

Lemma Prim2B_zero : FP.Prim2B 0%float = B754_zero false.
Proof. change 0%float with PrimFloat.zero. rewrite FP.zero_equiv. apply FP.Prim2B_B2Prim. Qed.

Lemma rv_zero : rv 0%float = 0.
Proof. unfold rv. rewrite Prim2B_zero. reflexivity. Qed.
Lemma finite_zero : finite_f 0%float = true.
Proof. vm_compute. reflexivity. Qed.

Section Quot.
  Variables dmin dmax bs : PrimFloat.float.
  Variable nb : Z.
  Hypothesis Fmin : finite_f dmin = true.
  Hypothesis Fmax : finite_f dmax = true.
  Hypothesis POK : params_ok (mkParams dmin dmax bs nb) = true.

  Lemma quot_mono v1 v2 :
    finite_f v1 = true -> finite_f v2 = true ->
    PrimFloat.leb dmin v1 = true -> rv v1 <= rv v2 -> PrimFloat.leb v2 dmax = true ->
    finite_f (quot dmin bs v1) = true /\ finite_f (quot dmin bs v2) = true
    /\ 0 <= rv (quot dmin bs v1) <= rv (quot dmin bs v2)
    /\ rv (quot dmin bs v2) < IZR two63Z.
  Proof.
    intros F1 F2 L1 L12 L2.
    destruct (params_ok_spec _ POK) as (FD & Fb & Pb & FQ & LQ). cbn [p_dmin p_dmax p_bsize] in *.
    apply (leb_R _ _ Fmin F1) in L1. apply (leb_R _ _ F2 Fmax) in L2.
    apply (ltb_R _ _ finite_zero Fb) in Pb. rewrite rv_zero in Pb.
    apply (ltb_R _ _ FQ finite_two63) in LQ. rewrite rv_two63 in LQ.
    destruct (sub_facts dmin dmax v1 Fmin Fmax F1 FD) as (S1 & E1 & B1); [lra|].
    destruct (sub_facts dmin dmax v2 Fmin Fmax F2 FD) as (S2 & E2 & B2); [lra|].
    assert (S12 : rv (PrimFloat.sub v1 dmin) <= rv (PrimFloat.sub v2 dmin)).
    { rewrite E1, E2. apply round_le; try typeclasses eauto. lra. }
    destruct (div_facts (PrimFloat.sub v2 dmin) (PrimFloat.sub dmax dmin) bs S2 FD Fb) as (Q2 & R2); [lra|lra|exact FQ|].
    destruct (div_facts (PrimFloat.sub v1 dmin) (PrimFloat.sub v2 dmin) bs S1 S2 Fb) as (Q1 & R1); [lra|lra|exact Q2|].
    repeat split; auto; try lra.
  Qed.

  Lemma binnum_floor x k :
    finite_f (fget x k) = true ->
    PrimFloat.leb dmin (fget x k) = true -> PrimFloat.leb (fget x k) dmax = true ->
    binnum x dmin bs k = bin_index dmin bs (fget x k) /\ (0 <= binnum x dmin bs k)%Z.
  Proof.
    intros F L1 L2.
    destruct (quot_mono (fget x k) (fget x k) F F L1 (Rle_refl _) L2) as (Q & _ & R0 & R1).
    destruct (trunc_floor_R _ Q) as [T Fl]; [lra|].
    unfold binnum, bin_index. rewrite T, Fl. split; [reflexivity|].
    apply Zfloor_lub. lra.
  Qed.

  (* non-decreasing bin numbers follow from sortedness *)
  Lemma binnum_monotone x k1 k2 :
    finite_f (fget x k1) = true -> finite_f (fget x k2) = true ->
    PrimFloat.leb dmin (fget x k1) = true -> rv (fget x k1) <= rv (fget x k2) ->
    PrimFloat.leb (fget x k2) dmax = true ->
    (binnum x dmin bs k1 <= binnum x dmin bs k2)%Z.
  Proof.
    intros F1 F2 L1 L12 L2.
    destruct (quot_mono _ _ F1 F2 L1 L12 L2) as (Q1 & Q2 & R0 & R1).
    destruct (trunc_floor_R _ Q1) as [T1 _]; [lra|].
    destruct (trunc_floor_R _ Q2) as [T2 _]; [lra|].
    unfold binnum. rewrite T1, T2.
    apply Zfloor_le. lra.
  Qed.
End Quot.

(* nbin mode on constant data: binsize = (max - min) / nbin = +0; every quotient is NaN or
   infinite, the conversion gives INT64_MIN: no datum has a valid bin index. *)
Lemma div_zero_int64_min f bs : zero_f bs = true ->
  f2z_trunc (PrimFloat.div f bs) = int64_min /\ f2z_floor (PrimFloat.div f bs) = int64_min.
Proof.
  unfold zero_f, f2z_trunc, f2z_floor. rewrite <- !FP.B2SF_Prim2B, FP.div_equiv.
  destruct (FP.Prim2B bs) as [sb|sb| |sb mb eb Bb]; cbn [B2SF]; try discriminate. intros _.
  destruct (FP.Prim2B f) as [s|s| |s m e B]; cbn; auto.
Qed.

(* binsize = +inf (given, or (max - min) / nbin when max - min overflows): a finite difference gives the
   quotient 0, an overflowed difference gives inf/inf = NaN, i.e. INT64_MIN *)
Lemma div_posinf f bs : posinf_f bs = true ->
  (finite_f f = true /\ f2z_trunc (PrimFloat.div f bs) = 0%Z /\ f2z_floor (PrimFloat.div f bs) = 0%Z)
  \/ (finite_f f = false /\ f2z_trunc (PrimFloat.div f bs) = int64_min /\ f2z_floor (PrimFloat.div f bs) = int64_min).
Proof.
  unfold posinf_f, finite_f, f2z_trunc, f2z_floor. rewrite <- !FP.B2SF_Prim2B, FP.div_equiv.
  destruct (FP.Prim2B bs) as [sb|sb| |sb mb eb Bb]; cbn [B2SF]; try discriminate.
  destruct sb; [discriminate|]. intros _.
  destruct (FP.Prim2B f) as [s|s| |s m e B]; cbn; auto.
Qed.

(* Ok in binsize mode: the bin count trunc(q) + 1 is not negative, so q is finite and below 2^63 *)
Lemma rv_below_two63 q : (0 <= f2z_trunc q + 1)%Z -> finite_f q = true -> 0 <= rv q -> rv q < IZR two63Z.
Proof.
  intros H F H0. rewrite (proj1 (trunc_floor_clamp q F H0)) in H. unfold clamp64 in H.
  destruct ((int64_min <=? Zfloor (rv q)) && (Zfloor (rv q) <=? int64_max))%Z eqn:A; [|unfold int64_min in H; lia].
  apply andb_true_iff in A. destruct A as [_ A]. apply Z.leb_le in A.
  apply Rlt_le_trans with (IZR (Zfloor (rv q)) + 1); [apply Zfloor_ub|].
  rewrite <- plus_IZR. apply IZR_le. unfold int64_max, two63Z in *. lia.
Qed.

Lemma div_nonfinite f b : finite_f f = false -> finite_f (PrimFloat.div f b) = false.
Proof.
  rewrite !finite_f_B, FP.div_equiv.
  destruct (FP.Prim2B f) as [s|s| |s m e B]; cbn [is_finite]; try discriminate; intros _;
    destruct (FP.Prim2B b) as [sb|sb| |sb mb eb Bb]; reflexivity.
Qed.

Lemma trunc_nonfinite q : finite_f q = false -> f2z_trunc q = int64_min.
Proof. unfold finite_f, f2z_trunc. destruct (Prim2SF q); try discriminate; reflexivity. Qed.

Lemma pos_finite_or_inf b : PrimFloat.ltb 0 b = true -> finite_f b = true \/ posinf_f b = true.
Proof.
  rewrite FP.ltb_equiv, Prim2B_zero, finite_f_B. unfold posinf_f. rewrite <- FP.B2SF_Prim2B.
  destruct (FP.Prim2B b) as [sb|sb| |sb mb eb Bb]; cbn; auto; try discriminate.
  destruct sb; cbn; auto; discriminate.
Qed.
