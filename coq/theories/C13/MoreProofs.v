(* C13 — proofs about the further parts of the model: the argument validation and the N-d arrays of
   MoreModel.v; the stateful loop of LoopModel.v, which equals Model.count_all on the covers and bin
   numbers that belong to each point's OWN scale. *)
From EsVerif.Common Require Import Base.
From EsVerif.C13 Require Import Model MoreModel LoopModel.
Open Scope Z_scope.

(* ---- rejections: exactly which calls raise ValueError *)
Theorem lookup_rejects n_ra n_dec :
  (lookup_validate n_ra n_dec = Err EValue <-> n_ra <> n_dec)
  /\ (lookup_validate n_ra n_dec = Ok tt <-> n_ra = n_dec).
Proof.
  unfold lookup_validate. destruct (Nat.eqb_spec n_ra n_dec) as [E|N].
  - split; split.
    + discriminate.
    + intro H. contradiction.
    + intros _. exact E.
    + reflexivity.
  - split; split.
    + intros _. exact N.
    + reflexivity.
    + discriminate.
    + intro H. contradiction.
Qed.

(* a chain of tests that each raise the same error fails iff one of the tests fires *)
Lemma err_or {A} (b : bool) (r : result A) e (P Q : Prop) :
  (b = true <-> P) -> (r = Err e <-> Q) -> ((if b then Err e else r) = Err e <-> P \/ Q).
Proof. intros <- <-. destruct b; [tauto|]. split; [tauto | intros [H|H]; [discriminate | exact H]]. Qed.

Lemma neqb_true (a b : nat) : negb (a =? b)%nat = true <-> a <> b.
Proof. rewrite negb_true_iff. apply Nat.eqb_neq. Qed.

(* the four tests of HTM.bincount, each with the condition under which it fires *)
Lemma second_list_test (typo : bool) (a b : nat) :
  negb (a =? (if typo then a else b))%nat = true <-> typo = false /\ a <> b.
Proof.
  rewrite neqb_true. destruct typo; [|tauto].
  (* the spelling that compares ra2.size with itself: the test never fires *)
  split.
  - intro H. contradiction H. reflexivity.
  - intros [H _]. discriminate H.
Qed.

Lemma scale_test (s : option nat) (n : nat) :
  match s with Some k => negb (k =? 1)%nat && negb (k =? n)%nat | None => false end = true
  <-> exists k, s = Some k /\ k <> 1%nat /\ k <> n.
Proof.
  destruct s as [k|].
  - rewrite andb_true_iff, !neqb_true. split; [intro H; exists k; split; [reflexivity | exact H]|].
    intros [k' [E H]]. injection E as <-. exact H.
  - split; [discriminate | intros [k [E _]]; discriminate].
Qed.

Lemma ids_test (h : option nat) (a b : nat) :
  match h with
  | Some k => if negb (k =? a)%nat then Err EValue else Ok tt
  | None => lookup_validate a b
  end = Err EValue
  <-> (exists k, h = Some k /\ k <> a) \/ (h = None /\ a <> b).
Proof.
  destruct h as [k|].
  - split.
    + intro H. left. exists k. split; [reflexivity|]. apply neqb_true.
      destruct (negb (k =? a)%nat); [reflexivity | discriminate H].
    + intros [[k' [E H]]|[E _]]; [|discriminate]. injection E as <-. apply neqb_true in H. rewrite H. reflexivity.
  - rewrite (proj1 (lookup_rejects a b)). split; [intro H; right; split; [reflexivity | exact H]|].
    intros [[k [E _]]|[_ H]]; [discriminate | exact H].
Qed.

Theorem bincount_rejects typo z :
  bincount_validate typo z = Err EValue <->
    (n_ra1 z <> n_dec1 z
     \/ (typo = false /\ n_ra2 z <> n_dec2 z)
     \/ (exists k, n_scale z = Some k /\ k <> 1 /\ k <> n_ra1 z)
     \/ (exists k, n_htmid2 z = Some k /\ k <> n_ra2 z)
     \/ (n_htmid2 z = None /\ n_ra2 z <> n_dec2 z))%nat.
Proof.
  unfold bincount_validate. rewrite <- or_assoc.
  apply err_or; [|apply err_or; [apply scale_test | apply ids_test]].
  rewrite orb_true_iff, neqb_true, second_list_test. reflexivity.
Qed.

(* Model.bincount_py carries one of the tests itself, the htmid2 size, and agrees with the validation on it *)
Theorem bincount_py_rejects_ids n2 ids_of_lookup hist_rev a nbin binof covers ids :
  a_htmid2 a = Some ids -> length ids <> n2 ->
  bincount_py n2 ids_of_lookup hist_rev a nbin binof covers = Err EValue.
Proof.
  intros Ha Hl. unfold bincount_py. rewrite Ha. destruct (Nat.eqb_spec (length ids) n2); [contradiction|reflexivity].
Qed.

(* ---- N-d arrays *)
Lemma nth_concat_rect {A} (d : A) (ncols : nat) : forall (rows : list (list A)) i j,
  (forall r, In r rows -> length r = ncols) -> (i < length rows)%nat -> (j < ncols)%nat ->
  nth (i * ncols + j) (concat rows) d = nth j (nth i rows []) d.
Proof.
  induction rows as [|r rows IH]; intros i j Hr Hi Hj; [cbn in Hi; lia|].
  cbn [concat]. assert (Hlr : length r = ncols) by (apply Hr; left; reflexivity).
  destruct i as [|i].
  - cbn [nth Nat.mul Nat.add]. rewrite app_nth1 by lia. reflexivity.
  - cbn [nth]. rewrite app_nth2 by (rewrite Hlr; lia).
    replace (S i * ncols + j - length r)%nat with (i * ncols + j)%nat by (rewrite Hlr; lia).
    apply IH; [intros r' Hin; apply Hr; right; exact Hin | cbn in Hi; lia | exact Hj].
Qed.

Lemma concat_rect_length {A} (ncols : nat) (rows : list (list A)) :
  (forall r, In r rows -> length r = ncols) -> length (concat rows) = (length rows * ncols)%nat.
Proof.
  induction rows as [|r rows IH]; intro Hr; [reflexivity|]. cbn [concat length Nat.mul].
  rewrite app_length, (Hr r (or_introl eq_refl)), (IH (fun r' H => Hr r' (or_intror H))). reflexivity.
Qed.

Theorem lookup_id_2d_spec {P} (root : P -> Z) choose depth (rows : list (list P)) ncols (dP : P) :
  (forall r, In r rows -> length r = ncols) ->
  exists l, lookup_id_2d root choose depth rows = Ok l
    /\ length l = (length rows * ncols)%nat
    /\ forall i j, (i < length rows)%nat -> (j < ncols)%nat ->
         nth (i * ncols + j) l 0 = lookup P root choose depth (nth j (nth i rows []) dP).
Proof.
  intro Hr. unfold lookup_id_2d, lookup_id, ravel_c. rewrite Nat.eqb_refl. eexists. split; [reflexivity|]. split.
  - rewrite map_length. apply concat_rect_length, Hr.
  - intros i j Hi Hj. rewrite (nth_indep _ 0 (lookup P root choose depth dP)).
    + rewrite map_nth. f_equal. apply nth_concat_rect; assumption.
    + rewrite map_length, (concat_rect_length ncols rows Hr).
      apply Nat.lt_le_trans with (S i * ncols)%nat; [cbn [Nat.mul]; lia | apply Nat.mul_le_mono_r; lia].
Qed.

(* ---- the loop of cbincount with its mutable (scale, logscale) state *)
Section CapLoopProofs.
  Variables S L D P : Type.
  Variable one : S.
  Variable zeroL : L.
  Variable log10S : S -> L.
  Variable cap : bool -> S -> D.
  Variable cover : P -> D -> list Z.
  Variable binof_s : bool -> S -> L -> P -> Z -> option Z.
  Variable dS : S.
  Variable scales : option (list S).
  Variable pt : Z -> P.
  Variable nbin : Z.
  Variable rev : Z -> Z.
  Variables minid maxid : Z.

  Notation state_of := (state_of S L one zeroL log10S dS scales).
  Notation cover_of := (cover_of S L D P one zeroL log10S cap cover dS scales pt).
  Notation binof_of := (binof_of S L P one zeroL log10S binof_s dS scales pt).
  Notation loop := (loop S L D P log10S cap cover binof_s dS scales pt nbin rev minid maxid).
  Notation st0 := (st0 S L one zeroL log10S dS scales).
  Notation nscale := (nscale S scales).

  (* the only thing the loop remembers from earlier iterations is irrelevant or constant *)
  Lemma loop_spec_gen : forall n i st counts,
    (1 <? nscale = false -> st = st0) ->
    loop n i st counts
    = count_all nbin rev minid maxid binof_of i (map cover_of (zseq i n)) counts.
  Proof.
    induction n as [|n IH]; intros i st counts Hst; [reflexivity|].
    cbn [LoopModel.loop zseq map count_all]. unfold iter.
    assert (E : (if 1 <? nscale then (scale_at S dS scales i, log10S (scale_at S dS scales i)) else st) = state_of i).
    { unfold LoopModel.state_of. destruct (1 <? nscale) eqn:Em; [reflexivity|]. apply Hst. reflexivity. }
    rewrite E. rewrite IH.
    - reflexivity.
    - intro Em. unfold LoopModel.state_of. rewrite Em. reflexivity.
  Qed.
End CapLoopProofs.
