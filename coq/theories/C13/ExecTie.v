(* C13 — what the verdict terms of a bincount case establish: [rev_tie] (the real reverse-index
   array is C05's verified single pass on the array's own sort index) gives the layout
   Spec.rev_ok_on for every triangle (rev_tie_sound, through C05Tie.rev_ok_on_from_C05), and
   Exec.bc_ok gives the brute-force counts of Spec.v within the ambiguous pairs (bc_ok_sound). *)
From Coq Require Import QArith ZifyBool Sorting.Permutation Sorting.Sorted.
From EsVerif.Common Require Import Base.
From EsVerif.C05 Require Model Spec.
From EsVerif.C13 Require Import Model Spec Proofs CountProofs Exec C05Tie.
Open Scope Z_scope.

Fixpoint nondecr_b (l : list Z) : bool :=
  match l with
  | [] => true
  | a :: t => match t with [] => true | b :: _ => a <=? b end && nondecr_b t
  end.

Lemma nondecr_b_sound l : nondecr_b l = true -> Sorted Z.le l.
Proof.
  induction l as [|a t IH]; intro H; [constructor|]. cbn [nondecr_b] in H.
  apply andb_prop in H. destruct H as [H1 H2]. constructor; [apply IH; exact H2|].
  destruct t as [|b u]; constructor. lia.
Qed.

(* [runs] = the real array, run-length encoded as in Exec.v *)
Definition real_rev (runs : list (Z * Z)) (len : nat) : list Z := map (rle_get runs) (zseq 0 len).

Definition rev_tie (ids2 : list Z) (minid maxid : Z) (runs : list (Z * Z)) : bool :=
  let nb := nbin minid maxid in
  let n2 := length ids2 in
  let len := (Z.to_nat (nb + 1) + n2)%nat in
  let s := map (rle_get runs) (zseq (nb + 1) n2) in            (* the sort index stored in the real array *)
  (minid <=? maxid)
  && perm_b s (zseq 0 n2)
  && nondecr_b (map (bn ids2 minid) s)
  && zlist_eqb (c05_rev C05.Model.EngC ids2 minid maxid s) (real_rev runs len).

Theorem rev_tie_sound ids2 minid maxid runs : rev_tie ids2 minid maxid runs = true ->
  forall leaves,
    rev_ok_on (zget (real_rev runs (Z.to_nat (nbin minid maxid + 1) + length ids2))) minid maxid ids2 leaves.
Proof.
  intros H leaves. unfold rev_tie in H.
  rewrite !andb_true_iff in H. destruct H as [[[H1 H2] H3] H4].
  apply zlist_eqb_spec in H4. rewrite <- H4.
  apply rev_ok_on_from_C05; [apply perm_b_sound; exact H2 | apply nondecr_b_sound; exact H3 | lia].
Qed.

(* a failed tie makes the verdict "model <> implementation" *)
Definition with_tie (v : Z) (tie : bool) : Z := if tie then v else if Z.even v then v + 1 else v.

(* Base.verdict keeps "model <> implementation" in the lowest bit *)
Lemma with_tie_spec v : with_tie v true = v /\ Z.odd (with_tie v false) = true.
Proof.
  split; [reflexivity|]. unfold with_tie. destruct (Z.even v) eqn:E.
  - rewrite Z.add_1_r, Z.odd_succ. exact E.
  - rewrite <- Z.negb_even, E. reflexivity.
Qed.

(* ---- the verdict of a bincount case *)
Lemma between_spec (f g : Z -> Z) : forall n s o,
  between (map f (zseq s n)) (map g (zseq s n)) o = true ->
  length o = n /\ forall i, (i < n)%nat ->
    f (s + Z.of_nat i) <= nth i o 0 <= f (s + Z.of_nat i) + g (s + Z.of_nat i).
Proof.
  induction n as [|n IH]; intros s o H.
  - destruct o; [|discriminate]. split; [reflexivity|]. intros i Hi. inversion Hi.
  - cbn [zseq map between] in H. destruct o as [|x o]; [discriminate|].
    rewrite !andb_true_iff in H. destruct H as [[H1 H2] H3].
    apply IH in H3. destruct H3 as [Hl Hk]. split; [cbn [length]; rewrite Hl; reflexivity|].
    intros [|i] Hi; cbn [nth].
    + rewrite Z.add_0_r. lia.
    + replace (s + Z.of_nat (S i)) with (s + 1 + Z.of_nat i) by lia. apply Hk. lia.
Qed.

Lemma forallb_eqb_all (o : list Z) : forall rest, forallb (zlist_eqb o) rest = true -> forall r, In r rest -> r = o.
Proof.
  induction rest as [|a rest IH]; intros H r Hin; [destruct Hin|].
  cbn [forallb] in H. apply andb_prop in H. destruct H as [Ha Hr]. destruct Hin as [<-|Hin].
  - apply zlist_eqb_spec in Ha. symmetry. exact Ha.
  - apply IH; assumption.
Qed.

(* strict verdict: for every bin, (number of ALL pairs whose bin is determined to be k) <= count <=
   that number + (number of ALL pairs within 1e-9 relative of an edge of bin k); every call with
   precomputed ids / reverse indices / window returned the same counts; and the hypotheses of
   C13_bincount (H_cover, reverse-index layout, window) hold on this case *)
Theorem bc_ok_sound nbin minid maxid runs ids2 covers pairs o rest :
  0 <= nbin ->
  bc_ok false nbin minid maxid runs ids2 covers pairs [] (o :: rest) = true ->
  let binof := binof_def false nbin pairs [] in
  length o = Z.to_nat nbin
  /\ (forall k, 0 <= k < nbin ->
        brute binof (length ids2) k 0 (length covers) <= zget o k
        <= brute binof (length ids2) k 0 (length covers)
           + amb_count (all_ranges false nbin ids2 covers pairs []) k)
  /\ (forall r, In r rest -> r = o)
  /\ covers_ok nbin (revf runs) minid maxid ids2 binof 0 covers
  /\ (forall i2, In i2 (zseq 0 (length ids2)) -> in_window minid maxid (zget ids2 i2) = true).
Proof.
  intros Hn H binof. unfold bc_ok, monitors in H.
  rewrite !andb_true_iff in H. destruct H as [[Hb Hr] [Hw Hc]].
  unfold brute_lo, brute_amb, bins in Hb. apply between_spec in Hb. destruct Hb as [Hl Hk].
  split; [exact Hl|]. split.
  - intros k Hk0. specialize (Hk (Z.to_nat k) ltac:(lia)). rewrite Z2Nat.id in Hk by lia.
    unfold n1, n2 in Hk. exact Hk.
  - split; [apply forallb_eqb_all; exact Hr|]. split.
    + apply covers_check_sound. exact Hc.
    + apply window_check_sound. exact Hw.
Qed.
