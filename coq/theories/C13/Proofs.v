(* C13 — proofs about the id descent, and what the boolean checkers/monitors decide. *)
From Coq Require Import QArith Qround Sorting.Permutation ZifyBool.
From EsVerif.Common Require Import Base.
From EsVerif.C13 Require Import Model Spec.

(* ---- ids: a child id is 4 * parent + digit *)
Lemma child_div4 id c : 0 <= c < 4 -> (4 * id + c) / 4 = id.
Proof. intro H. symmetry. apply Z.div_unique with c; lia. Qed.

Lemma child_mod4 id c : 0 <= c < 4 -> (4 * id + c) mod 4 = c.
Proof. intro H. symmetry. apply Z.mod_unique with id; lia. Qed.

Lemma child_in_range d id c : 0 <= d -> id_in_range d id -> 0 <= c < 4 -> id_in_range (d + 1) (4 * id + c).
Proof. unfold id_in_range. intros Hd H Hc. rewrite Z.pow_add_r by lia. change (4 ^ 1) with 4. lia. Qed.

Lemma root_in_range r : 8 <= r < 16 -> id_in_range 0 r.
Proof. unfold id_in_range. change (4 ^ 0) with 1. lia. Qed.

(* ---- lookup *)
Section LookupProofs.
  Variable P : Type.
  Variable root : P -> Z.
  Variable choose : Z -> P -> option Z.

  (* the hypotheses on the (unmodelled) floating-point choice *)
  Definition root_ok : Prop := forall p, 8 <= root p < 16.
  Definition digits_ok : Prop := forall id p c, choose id p = Some c -> 0 <= c < 4.
  Definition never_stuck : Prop := forall id p, choose id p <> None.

  Lemma descend_S_end n : forall id p,
    descend P choose (S n) id p = step P choose (descend P choose n id p) p.
  Proof.
    induction n as [|n IH]; intros id p; [reflexivity|].
    change (descend P choose (S (S n)) id p) with (descend P choose (S n) (step P choose id p) p).
    rewrite IH. reflexivity.
  Qed.

  Lemma descend_add a : forall b id p,
    descend P choose (a + b) id p = descend P choose b (descend P choose a id p) p.
  Proof. induction a as [|a IH]; intros b id p; [reflexivity|]. simpl. apply IH. Qed.

  (* The facts below need the hypotheses only at the position looked up, and "not stuck" only at
     the ids the descent visits: the concrete choice function of FloatModel.v satisfies them at
     some positions and up to some level only. *)
  Lemma step_child id p : (forall c, choose id p = Some c -> 0 <= c < 4) -> choose id p <> None ->
    exists c, 0 <= c < 4 /\ step P choose id p = 4 * id + c.
  Proof.
    intros Hd Hs. unfold step. destruct (choose id p) as [c|]; [|contradiction].
    exists c. split; [apply Hd|]; reflexivity.
  Qed.

  Lemma descend_in_range p : (forall id c, choose id p = Some c -> 0 <= c < 4) ->
    forall n id d, 0 <= d -> id_in_range d id ->
    (forall l id', d <= l < d + Z.of_nat n -> id_in_range l id' -> choose id' p <> None) ->
    id_in_range (d + Z.of_nat n) (descend P choose n id p).
  Proof.
    intros Hd. induction n as [|n IH]; intros id d Hd0 Hr Hs.
    - simpl. rewrite Z.add_0_r. exact Hr.
    - cbn [descend]. replace (d + Z.of_nat (S n)) with ((d + 1) + Z.of_nat n) by lia.
      destruct (step_child id p (Hd id) (Hs d id ltac:(lia) Hr)) as [c [Hc ->]].
      apply IH; [lia | apply child_in_range; assumption|].
      intros l id' Hl. apply Hs. lia.
  Qed.

  Lemma lookup_parent d p :
    (forall c, choose (lookup P root choose d p) p = Some c -> 0 <= c < 4) ->
    choose (lookup P root choose d p) p <> None ->
    lookup P root choose (S d) p / 4 = lookup P root choose d p.
  Proof.
    intros Hd Hs. unfold lookup in *. rewrite descend_S_end.
    destruct (step_child _ p Hd Hs) as [c [Hc ->]]. apply child_div4, Hc.
  Qed.

  Theorem id_range : root_ok -> digits_ok -> never_stuck -> forall d p,
    8 * 4 ^ Z.of_nat d <= lookup P root choose d p < 16 * 4 ^ Z.of_nat d.
  Proof.
    intros Hr Hd Hs d p.
    apply (descend_in_range p (fun id => Hd id p) d (root p) 0 (Z.le_refl 0)).
    - apply root_in_range, Hr.
    - intros l id' _ _. apply Hs.
  Qed.

  Theorem hierarchy : digits_ok -> never_stuck -> forall d p,
    lookup P root choose (S d) p / 4 = lookup P root choose d p.
  Proof. intros Hd Hs d p. apply lookup_parent; [exact (Hd _ p) | apply Hs]. Qed.

  (* the range test on the implementation's ids is a complete monitor of [never_stuck]: a level
     at which no child accepted the point leaves an id that is too small *)
  Lemma stuck_forever n : forall id p, choose id p = None -> descend P choose n id p = id.
  Proof.
    induction n as [|n IH]; intros id p E; [reflexivity|].
    cbn [descend]. unfold step. rewrite E. apply IH. exact E.
  Qed.

  Lemma descend_upper n p : (forall id c, choose id p = Some c -> 0 <= c < 4) -> forall id d,
    0 <= d -> id < 16 * 4 ^ d -> descend P choose n id p < 16 * 4 ^ (d + Z.of_nat n).
  Proof.
    intros Hd. induction n as [|n IH]; intros id d Hd0 Hr.
    - simpl. rewrite Z.add_0_r. exact Hr.
    - cbn [descend]. replace (d + Z.of_nat (S n)) with ((d + 1) + Z.of_nat n) by lia.
      apply IH; [lia|]. unfold step. rewrite Z.pow_add_r by lia. change (4 ^ 1) with 4.
      assert (0 < 4 ^ d) by (apply Z.pow_pos_nonneg; lia).
      destruct (choose id p) as [c|] eqn:E; [apply Hd in E; lia | lia].
  Qed.

  Theorem range_monitor_complete : root_ok -> digits_ok -> forall d p,
    8 * 4 ^ Z.of_nat d <= lookup P root choose d p ->
    forall k, (k < d)%nat -> choose (lookup P root choose k p) p <> None.
  Proof.
    intros Hr Hd d p Hlow k Hk E. unfold lookup in *.
    replace d with (k + (d - k))%nat in Hlow at 2 by lia.
    rewrite descend_add, (stuck_forever _ _ _ E) in Hlow.
    (* stuck at level k: the id stays below 16 * 4^k <= 4 * 4^d *)
    pose proof (descend_upper k p (fun id => Hd id p) (root p) 0 (Z.le_refl 0) (proj2 (root_in_range _ (Hr p)))) as Hu.
    assert (Hp : 4 * 4 ^ Z.of_nat k <= 4 ^ Z.of_nat d)
      by (rewrite <- Z.pow_succ_r by lia; apply Z.pow_le_mono_r; lia).
    pose proof (Z.pow_nonneg 4 (Z.of_nat d) ltac:(lia)) as H0.
    rewrite Z.add_0_l in Hu. clear - Hlow Hu Hp H0. lia.
  Qed.
End LookupProofs.

(* ---- checkers *)
Lemma in_zseq : forall n s x, In x (zseq s n) <-> s <= x < s + Z.of_nat n.
Proof.
  induction n as [|n IH]; intros s x; simpl; [lia|].
  rewrite IH. lia.
Qed.

Lemma id_in_range_b_iff d id : id_in_range_b d id = true <-> id_in_range d id.
Proof. unfold id_in_range_b, id_in_range. lia. Qed.

Lemma ids_check_iff : forall ids d, ids_check d ids = true <-> ids_ok d ids.
Proof.
  induction ids as [|x t IH]; intro d; cbn [ids_check ids_ok]; [tauto|].
  rewrite !andb_true_iff, IH, id_in_range_b_iff. destruct t; [tauto|]. rewrite Z.eqb_eq. tauto.
Qed.

Lemma memb_In x l : memb x l = true <-> In x l.
Proof.
  unfold memb. rewrite existsb_exists. split.
  - intros [y [Hy E]]. apply Z.eqb_eq in E. subst. exact Hy.
  - intro H. exists x. split; [exact H | apply Z.eqb_refl].
Qed.

Lemma covers_samples_iff incl ss : covers_samples_b incl ss = true <-> covers_samples incl ss.
Proof.
  unfold covers_samples_b, covers_samples. rewrite forallb_forall. split.
  - intros H id Hin. apply memb_In. exact (H _ Hin).
  - intros H [id sd] Hin. destruct sd; try reflexivity. apply memb_In, H, Hin.
Qed.

Lemma full_only_inside_iff full ss : full_only_inside_b full ss = true <-> full_only_inside full ss.
Proof.
  unfold full_only_inside_b, full_only_inside. rewrite forallb_forall. split.
  - intros H id Hin Hf. specialize (H _ Hin). apply memb_In in Hf. cbn in H. rewrite Hf in H. discriminate.
  - intros H [id sd] Hin. destruct sd; try reflexivity. cbn.
    destruct (memb id full) eqn:M; [|reflexivity]. exfalso. apply memb_In in M. exact (H id Hin M).
Qed.

Lemma strictly_incr_lb : forall l x, strictly_incr_b (x :: l) = true -> forall y, In y l -> x < y.
Proof.
  induction l as [|a t IH]; intros x H y Hy; [destruct Hy|].
  cbn [strictly_incr_b] in H. apply andb_true_iff in H as [H1 H2].
  destruct Hy as [->|Hy]; [lia|]. specialize (IH a H2 y Hy). lia.
Qed.

Lemma strictly_incr_NoDup : forall l, strictly_incr_b l = true -> NoDup l.
Proof.
  induction l as [|x t IH]; intro H; [constructor|].
  constructor.
  - intro Hin. pose proof (strictly_incr_lb t x H x Hin). lia.
  - apply IH. cbn [strictly_incr_b] in H. apply andb_true_iff in H as [_ H]. exact H.
Qed.

Lemma nodup_b_sound l : nodup_b l = true -> NoDup l.
Proof.
  unfold nodup_b. intro H. apply strictly_incr_NoDup in H.
  eapply Permutation_NoDup; [apply Permutation_sym, ZSort.Permuted_sort | exact H].
Qed.

Lemma perm_b_sound l1 l2 : perm_b l1 l2 = true -> Permutation l1 l2.
Proof.
  unfold perm_b. intro H. apply zlist_eqb_spec in H.
  eapply Permutation_trans; [apply ZSort.Permuted_sort|]. rewrite H.
  apply Permutation_sym, ZSort.Permuted_sort.
Qed.

Lemma rev_check_sound rev minid maxid ids2 leaves :
  rev_check rev minid maxid ids2 leaves = true -> rev_ok_on rev minid maxid ids2 leaves.
Proof.
  unfold rev_check, rev_ok_on. rewrite forallb_forall. intros H leaf Hin Hw.
  specialize (H _ Hin). rewrite Hw in H. apply perm_b_sound. exact H.
Qed.

Lemma cover_check_sound nbin ids2 binof cover :
  cover_check nbin ids2 binof cover = true -> cover_ok nbin ids2 binof cover.
Proof.
  unfold cover_check, cover_ok. intro H. apply andb_true_iff in H as [H1 H2].
  split; [apply nodup_b_sound; exact H1|].
  rewrite forallb_forall in H2. intros i2 Hin Hc. specialize (H2 _ Hin).
  rewrite Hc in H2. apply memb_In. exact H2.
Qed.

Lemma covers_check_sound nbin rev minid maxid ids2 binof : forall covers i1,
  covers_check nbin rev minid maxid ids2 binof i1 covers = true ->
  covers_ok nbin rev minid maxid ids2 binof i1 covers.
Proof.
  induction covers as [|c rest IH]; intros i1 H; simpl in *; [exact I|].
  apply andb_true_iff in H as [H H3]. apply andb_true_iff in H as [H1 H2].
  split; [apply cover_check_sound; exact H1|].
  split; [apply rev_check_sound; exact H2 | apply IH; exact H3].
Qed.

Lemma window_check_sound minid maxid ids2 :
  window_check minid maxid ids2 = true ->
  forall i2, In i2 (zseq 0 (length ids2)) -> in_window minid maxid (zget ids2 i2) = true.
Proof.
  unfold window_check. rewrite forallb_forall. intros H i2 Hin. apply H.
  apply in_zseq in Hin. unfold zget. apply nth_In. lia.
Qed.

(* ---- the bin number: C cast versus floor, on exact rationals *)
Theorem radbin_spec (q : Q) (k : Z) : radbin q = k <-> (inject_Z k <= q /\ q < inject_Z (k + 1))%Q.
Proof.
  unfold radbin. split.
  - intros <-. split; [apply Qfloor_le|]. apply Qlt_floor.
  - intros [H1 H2]. apply Z.le_antisymm.
    + assert (H : Qfloor q < k + 1).
      { apply Z.lt_nge. intro Hc. rewrite Zle_Qle in Hc.
        pose proof (Qfloor_le q). apply (Qlt_irrefl q).
        eapply Qlt_le_trans; [exact H2|]. eapply Qle_trans; [exact Hc | exact H]. }
      lia.
    + rewrite <- (Qfloor_Z k). apply Qfloor_resp_le. exact H1.
Qed.

(* the defect that was repaired: a quotient in (-1, 0) — a separation just below rmin — gets
   number 0 from the cast and -1 from floor *)
Theorem cast_counts_below_rmin (q : Q) : (inject_Z (-1) < q)%Q -> (q < 0)%Q ->
  radbin_cast q = 0 /\ radbin q = -1.
Proof.
  intros H1 H2. split.
  - unfold radbin_cast. destruct q as [n d]. unfold Qlt in *. cbn [Qnum Qden inject_Z] in *.
    apply Z.quot_small_iff; lia.
  - apply radbin_spec. split; [apply Qlt_le_weak; exact H1 | exact H2].
Qed.
