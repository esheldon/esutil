(* C13 — the traversal of the reverse indices visits every member of the listed triangles once;
   the counts of cbincount are the brute-force counts. *)
From Coq Require Import Sorting.Permutation ZifyBool.
From EsVerif.Common Require Import Base.
From EsVerif.C13 Require Import Model Spec Proofs.

Lemma filter_false {A} (l : list A) : filter (fun _ => false) l = [].
Proof. induction l; simpl; auto. Qed.

Lemma filter_or_disjoint {A} (p q : A -> bool) : forall l,
  (forall x, In x l -> p x = true -> q x = true -> False) ->
  Permutation (filter (fun x => p x || q x) l) (filter p l ++ filter q l).
Proof.
  induction l as [|a t IH]; intro H; simpl; [constructor|].
  assert (IH' := IH (fun x Hx => H x (or_intror Hx))).
  destruct (p a) eqn:Ep; destruct (q a) eqn:Eq; simpl.
  - exfalso. apply (H a); auto. left; reflexivity.
  - constructor. exact IH'.
  - eapply Permutation_trans; [constructor; exact IH'|]. apply Permutation_middle.
  - exact IH'.
Qed.

(* a filter that lets through whatever [p] lets through can be dropped in front of [p] *)
Lemma filter_filter_implied {A} (p q : A -> bool) : forall l,
  (forall x, In x l -> p x = true -> q x = true) -> filter p (filter q l) = filter p l.
Proof.
  induction l as [|x t IH]; intro H; [reflexivity|]. cbn [filter].
  assert (IH' := IH (fun y Hy => H y (or_intror Hy))).
  destruct (q x) eqn:Eq; cbn [filter]; rewrite IH'; [reflexivity|].
  destruct (p x) eqn:Ep; [|reflexivity]. rewrite (H x (or_introl eq_refl) Ep) in Eq. discriminate.
Qed.

Lemma Permutation_filter {A} (p : A -> bool) (l m : list A) :
  Permutation l m -> Permutation (filter p l) (filter p m).
Proof.
  induction 1 as [|a l m _ IH|a b l|l m n _ IH1 _ IH2]; cbn [filter].
  - constructor.
  - destruct (p a); [constructor|]; exact IH.
  - destruct (p a), (p b); try apply Permutation_refl. apply perm_swap.
  - eapply Permutation_trans; eassumption.
Qed.

Lemma zseq_NoDup : forall n s, NoDup (zseq s n).
Proof.
  induction n as [|n IH]; intro s; simpl; constructor; [|apply IH].
  rewrite in_zseq. lia.
Qed.

(* ---- traversal *)
Section TraversalProofs.
  Variable rev : Z -> Z.
  Variables minid maxid : Z.
  Variable ids2 : list Z.
  Let all2 := zseq 0 (length ids2).

  (* which points of the second list the traversal is supposed to reach *)
  Definition reached (cover : list Z) (i2 : Z) : bool :=
    in_window minid maxid (zget ids2 i2) && memb (zget ids2 i2) cover.

  (* a leaf outside the window is skipped, and no point of the second list is expected there *)
  Lemma reached_cons a cover i2 :
    reached (a :: cover) i2
    = (if in_window minid maxid a then zget ids2 i2 =? a else false) || reached cover i2.
  Proof.
    unfold reached, memb. cbn [existsb]. destruct (zget ids2 i2 =? a) eqn:E.
    - apply Z.eqb_eq in E. rewrite E. destruct (in_window minid maxid a); reflexivity.
    - destruct (in_window minid maxid a); reflexivity.
  Qed.

  Lemma reached_iff cover i2 :
    reached cover i2 = true <-> In (zget ids2 i2) cover /\ minid <= zget ids2 i2 <= maxid.
  Proof. unfold reached, in_window. rewrite !andb_true_iff, memb_In, !Z.leb_le. tauto. Qed.

  Theorem rev_traversal : forall cover,
    NoDup cover -> rev_ok_on rev minid maxid ids2 cover ->
    Permutation (candidates rev minid maxid cover) (filter (reached cover) all2).
  Proof.
    induction cover as [|a cover IH]; intros Hnd Hrev.
    - rewrite (filter_ext (reached []) (fun _ => false)) by (intro; apply andb_false_r).
      rewrite filter_false. constructor.
    - inversion Hnd as [|? ? Hnotin Hnd']; subst.
      assert (IH' := IH Hnd' (fun leaf Hin => Hrev leaf (or_intror Hin))).
      rewrite (filter_ext _ _ (reached_cons a cover)).
      cbn [candidates flat_map]. unfold members at 1. fold (in_window minid maxid a).
      destruct (in_window minid maxid a) eqn:Ew; [|exact IH'].
      (* the leaf is in the window: its slice is the set of points with that id, and no point
         reached through the rest of the cover has that id because the cover lists it once (Hnotin) *)
      eapply Permutation_trans; [apply Permutation_app; [exact (Hrev a (or_introl eq_refl) Ew) | exact IH']|].
      apply Permutation_sym, filter_or_disjoint.
      intros i2 _ Ha Hr. apply Z.eqb_eq in Ha. apply reached_iff in Hr. rewrite Ha in Hr. exact (Hnotin (proj1 Hr)).
  Qed.

  Theorem rev_traversal_visits_each_member_once : forall cover,
    NoDup cover -> rev_ok_on rev minid maxid ids2 cover ->
    NoDup (candidates rev minid maxid cover)
    /\ forall i2, In i2 (candidates rev minid maxid cover) <->
                  (0 <= i2 < Z.of_nat (length ids2)
                   /\ In (zget ids2 i2) cover /\ minid <= zget ids2 i2 <= maxid).
  Proof.
    intros cover Hnd Hrev. pose proof (rev_traversal cover Hnd Hrev) as HP. split.
    - eapply Permutation_NoDup; [apply Permutation_sym; exact HP|].
      apply NoDup_filter. apply zseq_NoDup.
    - intro i2. split.
      + intro Hin. apply (Permutation_in _ HP), filter_In in Hin. destruct Hin as [Hs Hr].
        apply in_zseq in Hs. apply reached_iff in Hr. split; [lia | exact Hr].
      + intros [Hs Hr]. apply (Permutation_in _ (Permutation_sym HP)), filter_In.
        split; [apply in_zseq; lia | apply reached_iff, Hr].
  Qed.
End TraversalProofs.

(* ---- counting *)
Lemma zget_zset_eq (c : list Z) k v : 0 <= k < Z.of_nat (length c) -> zget (zset c k v) k = v.
Proof.
  intro H. unfold zget, zset. destruct (k <? 0) eqn:E; [lia|].
  apply nth_set_nth_eq. lia.
Qed.

Lemma zget_zset_neq (c : list Z) k j v : 0 <= j -> j <> k -> zget (zset c k v) j = zget c j.
Proof.
  intros Hj Hne. unfold zget, zset. destruct (k <? 0) eqn:E; [reflexivity|].
  apply nth_set_nth_neq. lia.
Qed.

Lemma zset_length (c : list Z) k v : length (zset c k v) = length c.
Proof. unfold zset. destruct (k <? 0); [reflexivity | apply set_nth_length]. Qed.

Lemma bump_length nbin c ob : length (bump nbin c ob) = length c.
Proof.
  unfold bump. destruct ob as [k|]; [|reflexivity].
  destruct ((0 <=? k) && (k <? nbin)); [apply zset_length | reflexivity].
Qed.

Lemma bump_get nbin c ob k :
  0 <= k < Z.of_nat (length c) -> k < nbin ->
  zget (bump nbin c ob) k = zget c k + (if is_bin ob k then 1 else 0).
Proof.
  intros Hk Hn. unfold bump, is_bin. destruct ob as [j|]; [|lia].
  destruct ((0 <=? j) && (j <? nbin)) eqn:Ej.
  - destruct (j =? k) eqn:E.
    + apply Z.eqb_eq in E. subst j. apply zget_zset_eq. lia.
    + rewrite zget_zset_neq by lia. lia.
  - destruct (j =? k) eqn:E; lia.
Qed.

Lemma count_point_length nbin f : forall cands c, length (count_point nbin f cands c) = length c.
Proof.
  unfold count_point. induction cands as [|x t IH]; intro c; simpl; [reflexivity|].
  rewrite IH. apply bump_length.
Qed.

Lemma count_point_get nbin f k : forall cands c,
  Z.of_nat (length c) = nbin -> 0 <= k < nbin ->
  zget (count_point nbin f cands c) k = zget c k + count_in f k cands.
Proof.
  unfold count_point, count_in.
  induction cands as [|x t IH]; intros c Hl Hk; simpl; [lia|].
  rewrite IH by (rewrite ?bump_length; assumption). rewrite bump_get by lia.
  destruct (is_bin (f x) k); simpl length; lia.
Qed.

Lemma count_in_perm f k l1 l2 : Permutation l1 l2 -> count_in f k l1 = count_in f k l2.
Proof. intro HP. unfold count_in. f_equal. apply Permutation_length, Permutation_filter, HP. Qed.

Lemma is_bin_counted nbin ob k : 0 <= k < nbin -> is_bin ob k = true -> counted nbin ob = true.
Proof. unfold is_bin, counted. destruct ob as [j|]; [|discriminate]. lia. Qed.

Section CountProofs.
  Variable nbin : Z.
  Variable rev : Z -> Z.
  Variables minid maxid : Z.
  Variable ids2 : list Z.
  Variable binof : Z -> Z -> option Z.
  Hypothesis Hwin : forall i2, In i2 (zseq 0 (length ids2)) -> in_window minid maxid (zget ids2 i2) = true.

  (* one point of the first list: under H_cover the visited candidates give the same count as
     all points of the second list *)
  Lemma count_point_brute i1 cover k c :
    cover_ok nbin ids2 (binof i1) cover -> rev_ok_on rev minid maxid ids2 cover ->
    Z.of_nat (length c) = nbin -> 0 <= k < nbin ->
    zget (count_point nbin (binof i1) (candidates rev minid maxid cover) c) k
    = zget c k + count_in (binof i1) k (zseq 0 (length ids2)).
  Proof.
    intros [Hnd Hcov] Hrev Hl Hk. rewrite (count_point_get nbin (binof i1) k _ c Hl Hk). f_equal.
    rewrite (count_in_perm _ _ _ _ (rev_traversal rev minid maxid ids2 cover Hnd Hrev)).
    (* filtering the reached points first does not lose any pair that lands in bin k *)
    unfold count_in. rewrite filter_filter_implied; [reflexivity|].
    intros x Hx Hb. unfold reached. rewrite (Hwin x Hx). apply memb_In, Hcov; [exact Hx|].
    exact (is_bin_counted nbin _ k Hk Hb).
  Qed.

  Lemma count_all_brute : forall covers i1 c k,
    covers_ok nbin rev minid maxid ids2 binof i1 covers ->
    Z.of_nat (length c) = nbin -> 0 <= k < nbin ->
    zget (count_all nbin rev minid maxid binof i1 covers c) k
    = zget c k + brute binof (length ids2) k i1 (length covers).
  Proof.
    induction covers as [|cover rest IH]; intros i1 c k Hok Hl Hk; simpl; [lia|].
    destruct Hok as [Hc [Hr Hrest]].
    rewrite IH; try assumption.
    - rewrite count_point_brute by assumption. lia.
    - rewrite count_point_length. exact Hl.
  Qed.

  Theorem cbincount_brute covers k :
    0 <= nbin ->
    covers_ok nbin rev minid maxid ids2 binof 0 covers ->
    0 <= k < nbin ->
    zget (cbincount nbin rev minid maxid binof covers) k = brute binof (length ids2) k 0 (length covers).
  Proof.
    intros Hn Hok Hk. unfold cbincount.
    rewrite count_all_brute; try assumption.
    - unfold zget. rewrite nth_repeat. lia.
    - rewrite repeat_length. lia.
  Qed.

  Lemma count_all_length : forall covers i1 c,
    length (count_all nbin rev minid maxid binof i1 covers c) = length c.
  Proof.
    induction covers as [|cover rest IH]; intros i1 c; simpl; [reflexivity|].
    rewrite IH. apply count_point_length.
  Qed.

  Theorem cbincount_length covers : length (cbincount nbin rev minid maxid binof covers) = Z.to_nat nbin.
  Proof. unfold cbincount. rewrite count_all_length. apply repeat_length. Qed.
End CountProofs.
