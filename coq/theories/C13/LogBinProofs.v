(* C13 — the arithmetic of ModelR.v over the reals.  Log bins: with floor a separation is counted in
   bin k iff it lies between the edges of bin k; the C cast differs from floor exactly on negative
   non-integers.  Search cap: its margin only ever ENLARGES the cap, i.e. its cosine is not larger than
   the cosine of the search angle itself (so every triangle that meets the cap of radius maxangle meets
   the searched cap as well). *)
From Coq Require Import Reals ZArith Bool Lra Lia.
From Flocq Require Import Raux.
From EsVerif.C13 Require Import ModelR.
Open Scope R_scope.

Lemma ln10_pos : 0 < ln 10.
Proof. rewrite <- ln_1. apply ln_increasing; lra. Qed.

Lemma pow10_pos x : 0 < pow10 x.
Proof. apply exp_pos. Qed.

Lemma pow10_log10 x : 0 < x -> pow10 (log10 x) = x.
Proof.
  intro H. unfold pow10, log10. pose proof ln10_pos.
  replace (ln x / ln 10 * ln 10) with (ln x) by (field; lra). apply exp_ln. exact H.
Qed.

Lemma log10_pow10 x : log10 (pow10 x) = x.
Proof. unfold pow10, log10. rewrite ln_exp. pose proof ln10_pos. field. lra. Qed.

Lemma pow10_lt x y : x < y -> pow10 x < pow10 y.
Proof.
  intro H. unfold pow10. apply exp_increasing. pose proof ln10_pos.
  apply Rmult_lt_compat_r; assumption.
Qed.

Lemma pow10_le x y : x <= y -> pow10 x <= pow10 y.
Proof. intros [H| ->]; [left; apply pow10_lt; exact H | right; reflexivity]. Qed.

Lemma log10_lt x y : 0 < x -> x < y -> log10 x < log10 y.
Proof.
  intros Hx H. unfold log10. pose proof ln10_pos.
  apply Rmult_lt_compat_r; [apply Rinv_0_lt_compat; assumption | apply ln_increasing; assumption].
Qed.

Lemma log10_le x y : 0 < x -> x <= y -> log10 x <= log10 y.
Proof. intros Hx [H| ->]; [left; apply log10_lt; assumption | right; reflexivity]. Qed.

Lemma log10_mult x y : 0 < x -> 0 < y -> log10 (x * y) = log10 x + log10 y.
Proof. intros Hx Hy. unfold log10. rewrite ln_mult by assumption. pose proof ln10_pos. field. lra. Qed.

Lemma log10_1 : log10 1 = 0.
Proof. unfold log10. rewrite ln_1. pose proof ln10_pos. field. lra. Qed.

(* x <= log10 r <-> pow10 x <= r, and the strict version *)
Lemma le_log10_iff x r : 0 < r -> (x <= log10 r <-> pow10 x <= r).
Proof.
  intro Hr. split; intro H.
  - rewrite <- (pow10_log10 r Hr). apply pow10_le. exact H.
  - rewrite <- (log10_pow10 x). apply log10_le; [apply pow10_pos | exact H].
Qed.

Lemma log10_lt_iff x r : 0 < r -> (log10 r < x <-> r < pow10 x).
Proof.
  intro Hr. split; intro H.
  - rewrite <- (pow10_log10 r Hr). apply pow10_lt. exact H.
  - rewrite <- (log10_pow10 x). apply log10_lt; assumption.
Qed.

Lemma Zfloor_iff x k : Zfloor x = k <-> IZR k <= x < IZR k + 1.
Proof.
  split.
  - intros <-. split; [apply Zfloor_lb | apply Zfloor_ub].
  - intro H. apply Zfloor_imp. rewrite plus_IZR. exact H.
Qed.

(* the repaired defect: quotients in (-1,0), i.e. separations in (rmin*10^-binsize, rmin), were
   given bin number 0 *)
Theorem trunc_below_rmin x : -1 < x < 0 -> Ztrunc x = 0%Z /\ Zfloor x = (-1)%Z.
Proof.
  intro H. split.
  - rewrite Ztrunc_ceil by lra. apply Zceil_imp. simpl. lra.
  - apply Zfloor_imp. simpl. lra.
Qed.

Section LogBin.
  Variables rmin rmax : R.
  Variable nbin : Z.
  Variable s : option R.
  Hypothesis Hrmin : 0 < rmin.
  Hypothesis Hrmax : rmin < rmax.
  Hypothesis Hnbin : (0 < nbin)%Z.
  Hypothesis Hs : 0 < scale_of s.

  Let D := log_binsize rmin rmax nbin.

  Lemma binsize_pos : 0 < D.
  Proof.
    unfold D, log_binsize. apply Rdiv_lt_0_compat; [|apply IZR_lt; exact Hnbin].
    pose proof (log10_lt rmin rmax Hrmin Hrmax). lra.
  Qed.

  Lemma logscale_eq : logscale_of s = log10 (scale_of s).
  Proof. destruct s; simpl; [reflexivity | symmetry; apply log10_1]. Qed.

  Lemma edge_nbin : edge rmin rmax nbin nbin = rmax.
  Proof.
    unfold edge, log_binsize.
    replace (log10 rmin + (log10 rmax - log10 rmin) / IZR nbin * IZR nbin) with (log10 rmax).
    - apply pow10_log10. lra.
    - field. apply not_0_IZR. lia.
  Qed.

  Lemma edge_mono j k : (j <= k)%Z -> edge rmin rmax nbin j <= edge rmin rmax nbin k.
  Proof.
    intro H. unfold edge. apply pow10_le. fold D. pose proof binsize_pos.
    apply IZR_le in H. nra.
  Qed.

  Lemma edge_0 : edge rmin rmax nbin 0 = rmin.
  Proof. unfold edge. rewrite Rmult_0_r, Rplus_0_r. apply pow10_log10. exact Hrmin. Qed.

  (* the quotient is the position of the scaled separation on the logarithmic scale whose unit is
     the bin size; both results below compare positions after multiplying by the (positive) unit *)
  Lemma quotient_eq dis : 0 < dis ->
    log10 (scale_of s * dis) = log10 rmin + D * quotient rmin rmax nbin s dis.
  Proof.
    intro Hd. unfold quotient. fold D. pose proof binsize_pos.
    rewrite logscale_eq, <- log10_mult by assumption. field. lra.
  Qed.

  Lemma D_le x y : x <= y <-> D * x <= D * y.
  Proof.
    pose proof binsize_pos. split; intro H0; [apply Rmult_le_compat_l; lra | apply (Rmult_le_reg_l D); assumption].
  Qed.

  Lemma D_lt x y : x < y <-> D * x < D * y.
  Proof.
    pose proof binsize_pos. split; intro H0; [apply Rmult_lt_compat_l | apply (Rmult_lt_reg_l D)]; assumption.
  Qed.

  (* floor of the quotient is k iff the scaled separation lies between the edges of bin k *)
  Lemma floor_quotient dis k : 0 < dis ->
    (Zfloor (quotient rmin rmax nbin s dis) = k
     <-> edge rmin rmax nbin k <= scale_of s * dis < edge rmin rmax nbin (k + 1)).
  Proof.
    intro Hd. rewrite Zfloor_iff. unfold edge. fold D.
    assert (Hr : 0 < scale_of s * dis) by (apply Rmult_lt_0_compat; assumption).
    rewrite <- (le_log10_iff _ _ Hr), <- (log10_lt_iff _ _ Hr), (quotient_eq dis Hd), plus_IZR.
    rewrite (D_le (IZR k)), (D_lt _ (IZR k + 1)). split; intros [H1 H2]; split; lra.
  Qed.

  (* the test dis <= maxangle lets through every separation up to rmax *)
  Lemma within_cap dis : scale_of s * dis <= rmax -> dis <= maxangle rmax s.
  Proof.
    intro H. unfold maxangle. apply Rmult_le_reg_l with (scale_of s); [exact Hs|].
    replace (scale_of s * (rmax / scale_of s)) with rmax by (field; lra). exact H.
  Qed.

  Lemma in_range_true k : (0 <= k < nbin)%Z -> ((0 <=? k) && (k <? nbin))%Z = true.
  Proof. intro H. apply andb_true_iff. split; [apply Z.leb_le | apply Z.ltb_lt]; lia. Qed.

  (* C13, log-bin arithmetic: with the repaired index function a pair of separation [dis] (in the
     unit the code uses: degrees without scale, radians with) is given bin number k by the loop
     body iff 0 <= k < nbin and lower_edge(k) <= scale*dis < lower_edge(k+1) *)
  Theorem logbin dis k : 0 < dis ->
    (binof_R Zfloor rmin rmax nbin s dis = Some k
     <-> (0 <= k < nbin)%Z /\ edge rmin rmax nbin k <= scale_of s * dis < edge rmin rmax nbin (k + 1)).
  Proof.
    intro Hd. unfold binof_R. split.
    - destruct (Rle_dec dis (maxangle rmax s)) as [Hw|Hw]; [|discriminate].
      cbv zeta. destruct ((0 <=? _)%Z && (_ <? nbin)%Z) eqn:Eb; [|discriminate].
      intro E. injection E as E. split; [rewrite <- E; lia|].
      apply floor_quotient; assumption.
    - intros [Hk Hb]. destruct (Rle_dec dis (maxangle rmax s)) as [Hw|Hw].
      + cbv zeta. apply floor_quotient in Hb; [|exact Hd]. rewrite Hb, (in_range_true k Hk). reflexivity.
      + exfalso. apply Hw, within_cap.
        assert (Hm : edge rmin rmax nbin (k + 1) <= edge rmin rmax nbin nbin) by (apply edge_mono; lia).
        rewrite edge_nbin in Hm. lra.
  Qed.

  (* the unrepaired code: every separation in (edge(-1), rmin) was counted in bin 0 *)
  Theorem cast_refuted dis : 0 < dis ->
    edge rmin rmax nbin (-1) < scale_of s * dis < rmin ->
    binof_R Ztrunc rmin rmax nbin s dis = Some 0%Z /\ binof_R Zfloor rmin rmax nbin s dis = None.
  Proof.
    intros Hd [H1 H2].
    assert (Hr : 0 < scale_of s * dis) by (apply Rmult_lt_0_compat; assumption).
    assert (Hq : -1 < quotient rmin rmax nbin s dis < 0).
    { unfold edge in H1. fold D in H1.
      apply (log10_lt _ _ (pow10_pos _)) in H1. rewrite log10_pow10 in H1.
      pose proof (log10_lt _ _ Hr H2) as H3. rewrite (quotient_eq dis Hd) in H1, H3.
      split; apply D_lt; lra. }
    destruct (trunc_below_rmin _ Hq) as [Et Ef]. unfold binof_R.
    destruct (Rle_dec dis (maxangle rmax s)) as [_|Hn]; [|exfalso; apply Hn, within_cap; lra].
    cbv zeta. rewrite Et, Ef, (in_range_true 0) by lia. split; reflexivity.
  Qed.
End LogBin.

(* ---- the search cap *)
Lemma D2R_pos : 0 < D2R.
Proof. unfold D2R. apply Rdiv_lt_0_compat; [apply PI_RGT_0|lra]. Qed.

Theorem search_cap_contains_cap (pad : R) (degrees : bool) (maxangle : R) :
  0 <= pad ->
  let a := if degrees then maxangle * D2R else maxangle in       (* the search angle in radians *)
  0 <= a <= PI ->
  search_cos pad degrees maxangle <= cos a.
Proof.
  intros Hp a Ha. unfold search_cos. fold a.
  assert (Hs : a <= a + pad * D2R).
  { pose proof D2R_pos. assert (0 <= pad * D2R) by (apply Rmult_le_pos; lra). lra. }
  destruct (Rlt_dec PI (a + pad * D2R)) as [H|H].
  - rewrite cos_PI. pose proof (COS_bound a). lra.
  - apply cos_decr_1; lra.
Qed.
