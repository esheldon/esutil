(* C13 — the reverse-index layout that cbincount needs (Spec.rev_ok_on) DERIVED from the verified
   single pass of esutil.stat.histogram (property C05; import only: C05.Model.chist / pyhist,
   C05.Spec.pass_partition, C05.Proofs.pass_partition_both, which is C05_partition).

   htm.py:722  hist2, htmrev2 = stat.histogram(htmid2 - minid, rev=True)   (binsize 1, min = 0):
   the bin number of point k is the integer  ids2[k] - minid  (the data are integers below 2^53 and
   the bin size is 1.0, so the float quotient of C05's binnum is that integer: this identification is
   the one modelled step here), the index list handed to the pass is the stable argsort of the ids,
   i.e. SOME permutation of 0..n2-1 along which the ids are non-decreasing, and
   nbin = int((max - min)/1.0) + 1 = maxid - minid + 1. *)
From Coq Require Import ZifyBool Sorting.Permutation Sorting.Sorted.
From EsVerif.Common Require Import Base.
From EsVerif.C05 Require Model Spec Proofs.
From EsVerif.C13 Require Import Model Spec CountProofs.
Open Scope Z_scope.

Lemma firstn_skipn_S {A} (d : A) : forall k (l : list A) n, (k < length l)%nat ->
  firstn (S n) (skipn k l) = nth k l d :: firstn n (skipn (S k) l).
Proof.
  induction k as [|k IH]; intros l n Hk; destruct l as [|a l]; try (cbn in Hk; lia).
  - reflexivity.
  - cbn [skipn nth]. apply IH. cbn in Hk. lia.
Qed.

(* python slice rev[lo:lo+n] inside the array = element-wise reads *)
Lemma map_zget_zseq (l : list Z) : forall n lo, 0 <= lo -> lo + Z.of_nat n <= Z.of_nat (length l) ->
  map (zget l) (zseq lo n) = firstn n (skipn (Z.to_nat lo) l).
Proof.
  induction n as [|n IH]; intros lo Hlo Hlen; [reflexivity|].
  cbn [zseq map]. rewrite (IH (lo + 1)) by lia.
  replace (Z.to_nat (lo + 1)) with (S (Z.to_nat lo)) by lia.
  rewrite (firstn_skipn_S 0) by lia. reflexivity.
Qed.

Lemma slice_compat (revl : list Z) i lo :
  0 <= lo -> lo <= zget revl i <= zget revl (i + 1) -> zget revl (i + 1) <= Z.of_nat (length revl) ->
  slice (zget revl) i = C05.Spec.slice revl i.
Proof.
  intros H0 H1 H2. unfold slice, C05.Spec.slice. apply map_zget_zseq; lia.
Qed.

Section Tie.
  Variable eng : C05.Model.engine.
  Variable ids2 : list Z.
  Variables minid maxid : Z.
  Variable s : list Z.                         (* the sort index handed to the pass *)

  Definition bn (k : Z) : Z := zget ids2 k - minid.
  Definition nbin : Z := maxid - minid + 1.
  Definition c05_rev : list Z :=
    snd (match eng with C05.Model.EngC => C05.Model.chist bn nbin s | C05.Model.EngPy => C05.Model.pyhist bn nbin s end).

  Hypothesis Hperm : Permutation s (zseq 0 (length ids2)).
  Hypothesis Hsorted : Sorted Z.le (map bn s).
  Hypothesis Hwin : minid <= maxid.

  (* one triangle of the window: its slice of C05's array lists the points with that id *)
  Lemma slice_from_C05 leaf : in_window minid maxid leaf = true ->
    Permutation (slice (zget c05_rev) (leaf - minid))
                (filter (fun i2 => zget ids2 i2 =? leaf) (zseq 0 (length ids2))).
  Proof.
    intro Hw. unfold in_window in Hw.
    pose proof (C05.Proofs.pass_partition_both eng bn nbin s ltac:(unfold nbin; lia) Hsorted) as HP.
    unfold c05_rev.
    destruct (match eng with C05.Model.EngC => C05.Model.chist bn nbin s | C05.Model.EngPy => C05.Model.pyhist bn nbin s end)
      as [hist revl] eqn:E.
    cbn [snd]. destruct HP as [_ [_ [Hbins _]]].
    destruct (Hbins (leaf - minid) ltac:(unfold nbin; clear - Hw; lia)) as [Ho1 [Ho2 [Hsl _]]].
    rewrite (slice_compat revl _ (nbin + 1) ltac:(unfold nbin; clear - Hwin; lia) Ho1 Ho2), Hsl.
    unfold C05.Spec.sel.
    eapply Permutation_trans; [apply Permutation_filter; exact Hperm|].
    erewrite filter_ext; [apply Permutation_refl|]. intro k. unfold bn. cbv beta. clear. lia.
  Qed.

  Theorem rev_ok_on_from_C05 : forall leaves, rev_ok_on (zget c05_rev) minid maxid ids2 leaves.
  Proof. intros leaves leaf _. apply slice_from_C05. Qed.
End Tie.

(* ---- C13_bincount for the internally computed reverse indices: only H_cover is left as hypothesis *)
Fixpoint covers_H (nbinR : Z) (ids2 : list Z) (binof : Z -> Z -> option Z) (i1 : Z) (covers : list (list Z)) : Prop :=
  match covers with
  | [] => True
  | c :: rest => cover_ok nbinR ids2 (binof i1) c /\ covers_H nbinR ids2 binof (i1 + 1) rest
  end.

Lemma covers_ok_intro nbinR rev minid maxid ids2 binof :
  (forall leaves, rev_ok_on rev minid maxid ids2 leaves) ->
  forall covers i1, covers_H nbinR ids2 binof i1 covers -> covers_ok nbinR rev minid maxid ids2 binof i1 covers.
Proof.
  intros Hrev. induction covers as [|c rest IH]; intros i1 H; [exact I|].
  cbn [covers_H covers_ok] in *. destruct H as [H1 H2]. split; [exact H1|]. split; [apply Hrev|apply IH; exact H2].
Qed.
