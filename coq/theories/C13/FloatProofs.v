(* C13 — proofs about the concrete (PrimFloat) choice function of FloatModel.v: it is an instance of
   the abstract descent of Model.v for which digits_ok holds by construction, so that the id range
   and the hierarchy hold under the ONLY hypothesis that some root / child triangle accepts the
   position (which the range test monitors, C13_range_monitor_complete). *)
From Coq Require Import ZifyBool PrimFloat.
From EsVerif.Common Require Import Base.
From EsVerif.C13 Require Import Model Spec Proofs FloatModel.
Open Scope Z_scope.

(* ---- two choice functions that agree on the ids of the levels visited give the same descent *)
Lemma descend_ext {P} (c1 c2 : Z -> P -> option Z) (p : P) :
  (forall id c, c1 id p = Some c -> 0 <= c < 4) -> (forall id, c1 id p <> None) ->
  forall n id l, 0 <= l -> id_in_range l id ->
    (forall id' l', l <= l' < l + Z.of_nat n -> id_in_range l' id' -> c1 id' p = c2 id' p) ->
    descend P c1 n id p = descend P c2 n id p.
Proof.
  intros Hd Hs. induction n as [|n IH]; intros id l Hl Hin Hag; [reflexivity|].
  cbn [descend].
  replace (step P c2 id p) with (step P c1 id p)
    by (unfold step; rewrite (Hag id l) by (assumption || lia); reflexivity).
  destruct (step_child P c1 id p (Hd id) (Hs id)) as [c [Hc ->]].
  apply (IH _ (l + 1)); [lia | apply child_in_range; assumption|].
  intros id' l' Hl'. apply Hag. lia.
Qed.

(* ---- the level of an id *)
Lemma level_of_id_in_level l id : 0 <= l -> id_in_range l id -> level_of_id id = l.
Proof.
  intros Hl [Hlo Hhi]. unfold level_of_id.
  assert (E : 4 ^ l = 2 ^ (2 * l)) by (rewrite Z.pow_mul_r by lia; reflexivity).
  assert (Hlog : Z.log2 id = 2 * l + 3).
  { apply Z.log2_unique; [lia|]. replace (Z.succ (2 * l + 3)) with (2 * l + 4) by lia.
    rewrite !Z.pow_add_r by lia. rewrite <- E.
    change (2 ^ 3) with 8. change (2 ^ 4) with 16. lia. }
  rewrite Hlog. replace (2 * l + 3 - 3) with (l * 2) by lia. apply Z.div_mul. lia.
Qed.

(* ---- digits_ok by construction *)
(* the child returned is the first of 0, 1, 2, 3 whose three tests pass *)
Lemma first_of_four (test : Z -> bool) c :
  (if test 0 then Some 0 else if test 1 then Some 1 else if test 2 then Some 2 else if test 3 then Some 3 else None)
  = Some c -> 0 <= c < 4 /\ test c = true.
Proof.
  destruct (test 0) eqn:E0; [intro H; injection H as <-; split; [now split | exact E0]|].
  destruct (test 1) eqn:E1; [intro H; injection H as <-; split; [now split | exact E1]|].
  destruct (test 2) eqn:E2; [intro H; injection H as <-; split; [now split | exact E2]|].
  destruct (test 3) eqn:E3; [intro H; injection H as <-; split; [now split | exact E3] | discriminate].
Qed.

Lemma first_inside_spec eps t v c : first_inside eps t v = Some c ->
  0 <= c < 4 /\ (let '(a, b, d) := child_tri t c in inside eps v a b d) = true.
Proof. exact (first_of_four (fun c => let '(a, b, d) := child_tri t c in inside eps v a b d) c). Qed.

Lemma first_inside_digit eps t v c : first_inside eps t v = Some c -> 0 <= c < 4.
Proof. intro H. apply (first_inside_spec eps t v c H). Qed.

Lemma chooseF_digits eps build : digits_ok vec (chooseF eps build).
Proof.
  intros id v c. unfold chooseF. destruct (first_inside eps (tri_of_id id) v) as [c'|] eqn:E.
  - intro H. injection H as <-. exact (first_inside_digit _ _ _ _ E).
  - destruct (level_of_id id <? build); intro H; inversion H; lia.
Qed.

(* the stored levels never get stuck (SpatialIndex.cpp:513-519 falls through to child 3) *)
Lemma chooseF_stored eps build id v : level_of_id id < build -> chooseF eps build id v <> None.
Proof.
  intro H. unfold chooseF. destruct (first_inside eps (tri_of_id id) v); [discriminate|].
  destruct (Z.ltb_spec (level_of_id id) build); [discriminate | lia].
Qed.

(* the root loop returns 0 or one of 8..15 *)
Lemma roots_ids e : In e roots -> 8 <= fst e < 16.
Proof.
  intro H. pose proof (proj1 (forallb_forall (fun e : Z * tri => (8 <=? fst e) && (fst e <? 16)) roots) eq_refl e H).
  lia.
Qed.

Lemma rootF_cases eps v : rootF eps v = 0 \/ 8 <= rootF eps v < 16.
Proof.
  unfold rootF. destruct (find _ roots) as [e|] eqn:E; [right | left; reflexivity].
  apply roots_ids. exact (proj1 (find_some _ _ E)).
Qed.

(* a level below the depth is a stored level iff all levels are stored (save = 0) or it lies below
   saveDepth, whatever the depth *)
Lemma stored_level save d l : l < d -> (l <? buildlevel save d) = (save =? 0) || (l <? save).
Proof.
  intro H. unfold buildlevel. destruct (save =? 0) eqn:E1; [cbn [orb]; lia|].
  destruct (d <? save) eqn:E2; cbn [orb]; lia.
Qed.

Section Concrete.
  Variable eps : float.
  Variable save : Z.
  Variable v : vec.

  (* "some root triangle and, at every dynamic level, some child accepts the position" *)
  Definition accepted (depth : nat) : Prop :=
    8 <= rootF eps v < 16 /\ forall id, chooseF eps (buildlevel save (Z.of_nat depth)) id v <> None.

  (* a root triangle is found and the descent is not stuck at the ids of the levels it visits *)
  Lemma lookupF_in_range depth : 8 <= rootF eps v < 16 ->
    (forall l id, 0 <= l < Z.of_nat depth -> id_in_range l id ->
       chooseF eps (buildlevel save (Z.of_nat depth)) id v <> None) ->
    8 * 4 ^ Z.of_nat depth <= lookupF eps save depth v < 16 * 4 ^ Z.of_nat depth.
  Proof.
    intros Hr Hs.
    apply (descend_in_range vec _ v (fun id => chooseF_digits eps _ id v) depth _ 0 (Z.le_refl 0)).
    - apply root_in_range, Hr.
    - intros l id' Hl. apply Hs. lia.
  Qed.

  Theorem concrete_id_range depth : accepted depth ->
    8 * 4 ^ Z.of_nat depth <= lookupF eps save depth v < 16 * 4 ^ Z.of_nat depth.
  Proof. intros [Hr Hs]. apply lookupF_in_range; [exact Hr|]. intros l id _ _. apply Hs. Qed.

  (* when every level of the descent is a stored level (depth <= saveDepth, i.e. HTM(0), HTM(1),
     HTM(2)), finding a root triangle is all that is needed *)
  Theorem stored_depth_range depth : 8 <= rootF eps v < 16 -> (save = 0 \/ Z.of_nat depth <= save) ->
    8 * 4 ^ Z.of_nat depth <= lookupF eps save depth v < 16 * 4 ^ Z.of_nat depth.
  Proof.
    intros Hr Hd. apply lookupF_in_range; [exact Hr|]. intros l id Hl Hin.
    apply chooseF_stored. rewrite (level_of_id_in_level l id) by (assumption || lia).
    apply Z.ltb_lt. rewrite stored_level by lia. lia.
  Qed.

  (* the id at depth d+1 is a child of the id at depth d, although the two calls keep different
     numbers of stored levels when d < saveDepth *)
  Theorem concrete_hierarchy d : accepted (S d) ->
    lookupF eps save (S d) v / 4 = lookupF eps save d v.
  Proof.
    intros [Hr Hs]. unfold lookupF.
    set (b2 := buildlevel save (Z.of_nat (S d))) in *.
    set (b1 := buildlevel save (Z.of_nat d)).
    transitivity (lookup vec (rootF eps) (chooseF eps b2) d v).
    - apply lookup_parent; [exact (chooseF_digits eps b2 _ v) | apply Hs].
    - unfold lookup. apply (descend_ext _ _ v) with (l := 0).
      + intros id c. apply chooseF_digits.
      + exact Hs.
      + lia.
      + apply root_in_range, Hr.
      + intros id' l' Hl' Hin. unfold chooseF.
        rewrite (level_of_id_in_level l' id') by (assumption || lia).
        unfold b1, b2. rewrite !stored_level by lia. reflexivity.
  Qed.
End Concrete.

(* ------------------------------------------------------------------------------------------ *)
(* the single-pass evaluation used by the case files (the triangle is carried along, as in the  *)
(* C++) equals the instance of Model.lookup                                                     *)
(* ------------------------------------------------------------------------------------------ *)
Lemma digits_from_acc n : forall id acc, digits_from n id acc = digits_from n id [] ++ acc.
Proof.
  induction n as [|n IH]; intros id acc; [reflexivity|].
  cbn [digits_from]. rewrite (IH (id / 4) (id mod 4 :: acc)), (IH (id / 4) [id mod 4]).
  rewrite <- app_assoc. reflexivity.
Qed.

Lemma tri_of_id_child l id c : 0 <= l -> id_in_range l id -> 0 <= c < 4 ->
  tri_of_id (4 * id + c) = child_tri (tri_of_id id) c.
Proof.
  intros Hl Hin Hc. unfold tri_of_id.
  rewrite (level_of_id_in_level (l + 1) (4 * id + c)) by (try apply child_in_range; assumption || lia).
  rewrite (level_of_id_in_level l id) by assumption.
  replace (Z.to_nat (l + 1)) with (S (Z.to_nat l)) by lia.
  cbn [digits_from]. rewrite digits_from_acc, child_div4, child_mod4 by assumption.
  rewrite fold_left_app. cbn [fold_left]. f_equal. f_equal. f_equal.
  rewrite !Z2Nat.id by lia. replace (Z.of_nat (S (Z.to_nat l))) with (1 + l) by lia.
  rewrite Z.pow_add_r by lia. change (4 ^ 1) with 4.
  assert (0 < 4 ^ l) by (apply Z.pow_pos_nonneg; lia).
  rewrite <- Z.div_div, child_div4 by lia. reflexivity.
Qed.

Lemma descendF_descend eps build v : forall n lev l id,
  0 <= l -> id_in_range l id -> (l = lev \/ build <= l <= lev) ->
  descendF eps build n lev id (tri_of_id id) v = descend vec (chooseF eps build) n id v.
Proof.
  induction n as [|n IH]; intros lev l id Hl Hin Hlev; [reflexivity|].
  cbn [descendF descend]. unfold step, chooseF. rewrite (level_of_id_in_level l id) by assumption.
  destruct (first_inside eps (tri_of_id id) v) as [c|] eqn:E.
  - pose proof (first_inside_digit _ _ _ _ E) as Hc.
    rewrite <- (tri_of_id_child l id c) by assumption.
    apply (IH (lev + 1) (l + 1)); [lia | apply child_in_range; assumption | lia].
  - assert (Eb : (lev <? build) = (l <? build)) by lia. rewrite Eb.
    destruct (l <? build) eqn:Eq.
    + rewrite <- (tri_of_id_child l id 3) by (try assumption; lia).
      apply (IH (lev + 1) (l + 1)); [lia | apply child_in_range; try assumption; lia | lia].
    + apply (IH (lev + 1) l); [lia | assumption | lia].
Qed.

Lemma tri_of_id_root r : 8 <= r < 16 -> tri_of_id r = tri_of_root r.
Proof.
  intro H. unfold tri_of_id. rewrite (level_of_id_in_level 0 r) by (try apply root_in_range; assumption || lia).
  cbn [Z.to_nat digits_from fold_left]. change (4 ^ Z.of_nat 0) with 1. rewrite Z.div_1_r. reflexivity.
Qed.

Lemma descendF_from_root eps build v n r : 8 <= r < 16 ->
  descendF eps build n 0 r (tri_of_root r) v = descend vec (chooseF eps build) n r v.
Proof.
  intro Hr. rewrite <- (tri_of_id_root _ Hr).
  apply (descendF_descend eps _ v n 0 0); [lia | apply root_in_range, Hr | left; reflexivity].
Qed.
