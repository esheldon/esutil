(* C13 — the property theorems.  The longer proofs live in the *Proofs.v / *Tie.v files. *)
From Coq Require Import Reals Lra QArith Qround Qreals Sorting.Permutation PrimFloat.
From Flocq Require Import Raux.
From EsVerif.Common Require Import Base.
From EsVerif.C13 Require Import Model Spec Proofs CountProofs ModelR LogBinProofs FloatModel FloatProofs Exec C05Tie ExecTie
  LoopModel RootProofs MoreModel MoreProofs.
From EsVerif.C05 Require Spec.
From EsVerif.C05 Require Model.

(* ---- ids.  [root] and [choose] are the unmodelled floating-point choices of the JHU code; the
   hypotheses (a root triangle is found, a child number is 0..3, some child always accepts the
   position) are monitored on every sampled position by the range test, which is complete for
   them (C13_range_monitor_complete). *)
Theorem C13_id_range : forall (P : Type) (root : P -> Z) (choose : Z -> P -> option Z),
  root_ok P root -> digits_ok P choose -> never_stuck P choose ->
  forall d p, (8 * 4 ^ Z.of_nat d <= lookup P root choose d p < 16 * 4 ^ Z.of_nat d)%Z.
Proof. exact id_range. Qed.

Theorem C13_hierarchy : forall (P : Type) (root : P -> Z) (choose : Z -> P -> option Z),
  digits_ok P choose -> never_stuck P choose ->
  forall d p, (lookup P root choose (S d) p / 4 = lookup P root choose d p)%Z.
Proof. exact hierarchy. Qed.

Theorem C13_range_monitor_complete : forall (P : Type) (root : P -> Z) (choose : Z -> P -> option Z),
  root_ok P root -> digits_ok P choose ->
  forall d p, (8 * 4 ^ Z.of_nat d <= lookup P root choose d p)%Z ->
  forall k, (k < d)%nat -> choose (lookup P root choose k p) p <> None.
Proof. exact range_monitor_complete. Qed.

Theorem C13_scalar_equals_array : forall (P : Type) (root : P -> Z) choose depth (ps : list P) i d,
  (i < length ps)%nat ->
  exists l1 l2, lookup_id root choose depth (length ps) (length ps) ps = Ok l1
             /\ lookup_id root choose depth 1 1 [nth i ps d] = Ok l2
             /\ l2 = [nth i l1 0%Z].
Proof.
  (* both calls go through atleast_1d and the same loop *)
  intros P root choose depth ps i d Hi. unfold lookup_id. rewrite !Nat.eqb_refl. eexists; eexists.
  split; [reflexivity|]. split; [reflexivity|]. simpl.
  rewrite (nth_indep _ 0%Z (lookup P root choose depth d)) by (rewrite map_length; exact Hi).
  rewrite map_nth. reflexivity.
Qed.

(* ---- the concrete root / child choice of SpatialIndex::idByPoint, bit-exact (FloatModel.v): the
   abstract theorems above instantiated.  digits_ok holds by construction, the stored levels never get
   stuck, so the only hypothesis left is [accepted]: a root triangle accepts the position and, at the
   dynamic levels, some child does (monitored: C13_range_monitor_complete). *)
Theorem C13_concrete_digits_ok : forall eps build, digits_ok vec (chooseF eps build).
Proof. exact chooseF_digits. Qed.

Theorem C13_concrete_stored_levels_never_stuck : forall eps build id v,
  (level_of_id id < build)%Z -> chooseF eps build id v <> None.
Proof. exact chooseF_stored. Qed.

Theorem C13_concrete_id_range : forall eps save v depth, accepted eps save v depth ->
  (8 * 4 ^ Z.of_nat depth <= lookupF eps save depth v < 16 * 4 ^ Z.of_nat depth)%Z.
Proof. exact concrete_id_range. Qed.

(* HTM(d+1) and HTM(d) keep different numbers of stored levels when d < saveDepth; the ids are
   nevertheless parent and child *)
Theorem C13_concrete_hierarchy : forall eps save v d, accepted eps save v (S d) ->
  (lookupF eps save (S d) v / 4 = lookupF eps save d v)%Z.
Proof. exact concrete_hierarchy. Qed.

(* the single-pass evaluation used by the generated case files (it carries the triangle along, as the
   C++ does) is the instance of Model.lookup the theorems above are about *)
Theorem C13_concrete_fast_evaluation : forall eps save depth v, (8 <= rootF eps v < 16)%Z ->
  lookupF_fast eps save depth v = lookupF eps save depth v.
Proof.
  intros eps save depth v Hr. unfold lookupF_fast, lookupF, lookup. apply descendF_from_root, Hr.
Qed.

(* non-vacuity on numbers of the real implementation: (ra, dec) = (10, 20); x, y, z as updateXYZ
   computes them; the ids are those esutil returns at depths 0..4 *)
Example C13_concrete_nonvacuous :
  let eps := 0x1.203af9ee75616p-50%float in
  let v := mkvec 0x1.d9d033a6cb461p-1%float 0x1.4e2f2c0fa463bp-3%float 0x1.5e3a8748a0bf5p-2%float in
  rootF eps v = 15%Z
  /\ map (fun d => lookupF eps 2 d v) [0; 1; 2; 3; 4]%nat = [15; 62; 251; 1005; 4023]%Z
  /\ map (fun d => lookupF_fast eps 2 d v) [0; 1; 2; 3; 4]%nat = [15; 62; 251; 1005; 4023]%Z.
Proof. vm_compute. repeat split; reflexivity. Qed.

(* ---- intersect: the non-inclusive answer is the leading part of the inclusive one *)
Theorem C13_intersect_full_in_inclusive : forall flist plist x,
  In x (intersect_out false flist plist) -> In x (intersect_out true flist plist).
Proof. intros f p x H. simpl in *. apply in_or_app. left. exact H. Qed.

(* what the verdict of an intersect case means (Exec.intersect_ok, evaluated on the lists the real
   intersect returned and on sampled positions; code 1 = inside the circle, 2 = outside):
   strict: the triangle of EVERY inside sample is listed and no outside sample lies in a triangle
   reported as fully inside;  relaxed (used only to recognise the known finding
   C13.kf_cos_resolution): the same for every sample that is resolved against the circle *)
Theorem C13_intersect_checker_strict : forall incl full (ss : list rawsample),
  intersect_ok false incl full ss = true ->
  (forall id dcos, In (id, 1%Z, dcos) ss -> In id incl)
  /\ (forall id dcos, In (id, 2%Z, dcos) ss -> ~ In id full).
Proof.
  intros incl full ss H. unfold intersect_ok in H. apply andb_prop in H. destruct H as [H1 H2].
  apply covers_samples_iff in H1. apply full_only_inside_iff in H2. split.
  - intros id dcos Hin. apply H1. apply (in_map (side_of false)) in Hin. exact Hin.
  - intros id dcos Hin. apply H2. apply (in_map (side_of false)) in Hin. exact Hin.
Qed.

Theorem C13_intersect_outside_known : forall incl full (ss : list rawsample),
  intersect_ok true incl full ss = true ->
  (forall id dcos, In (id, 1%Z, dcos) ss -> kf_cos_resolution dcos = false -> In id incl)
  /\ (forall id dcos, In (id, 2%Z, dcos) ss -> kf_cos_resolution dcos = false -> ~ In id full).
Proof.
  intros incl full ss H. unfold intersect_ok in H. apply andb_prop in H. destruct H as [H1 H2].
  apply covers_samples_iff in H1. apply full_only_inside_iff in H2. split.
  - intros id dcos Hin Hk. apply H1. apply (in_map (side_of true)) in Hin.
    unfold side_of in Hin at 1. rewrite Hk in Hin. exact Hin.
  - intros id dcos Hin Hk. apply H2. apply (in_map (side_of true)) in Hin.
    unfold side_of in Hin at 1. rewrite Hk in Hin. exact Hin.
Qed.

(* ---- bincount, discrete part *)
Theorem C13_rev_traversal_visits_each_member_once : forall rev minid maxid ids2 cover,
  NoDup cover -> rev_ok_on rev minid maxid ids2 cover ->
  NoDup (candidates rev minid maxid cover)
  /\ forall i2, In i2 (candidates rev minid maxid cover) <->
                ((0 <= i2 < Z.of_nat (length ids2))%Z
                 /\ In (zget ids2 i2) cover /\ (minid <= zget ids2 i2 <= maxid)%Z).
Proof. exact rev_traversal_visits_each_member_once. Qed.

(* H_cover (listed triangles distinct, every pair that lands in a bin has its triangle listed),
   reverse indices with the histogram layout on the listed triangles, all ids of the second list
   inside the window  ==>  the counts are the brute-force counts over ALL pairs. *)
Theorem C13_bincount : forall nbin rev minid maxid ids2 binof covers k,
  (0 <= nbin)%Z ->
  (forall i2, In i2 (zseq 0 (length ids2)) -> in_window minid maxid (zget ids2 i2) = true) ->
  covers_ok nbin rev minid maxid ids2 binof 0 covers ->
  (0 <= k < nbin)%Z ->
  zget (cbincount nbin rev minid maxid binof covers) k = brute binof (length ids2) k 0 (length covers)
  /\ length (cbincount nbin rev minid maxid binof covers) = Z.to_nat nbin.
Proof.
  intros nbin rev minid maxid ids2 binof covers k Hn Hw Hok Hk. split.
  - apply cbincount_brute; assumption.
  - apply cbincount_length.
Qed.

(* precomputed ids / reverse indices / window: (1) handing the wrapper what it would compute itself
   changes nothing; (2) ANY reverse-index array with the right layout gives the same counts *)
Theorem C13_precomputed_equals_internal : forall ids hist_rev nbin binof covers,
  let internal := bincount_py (length ids) ids hist_rev
        {| a_htmid2 := None; a_htmrev2 := None; a_minid := None; a_maxid := None |} nbin binof covers in
  let rev := hist_rev (map (fun x => x - zmin ids)%Z ids) in
  bincount_py (length ids) ids hist_rev
     {| a_htmid2 := Some ids; a_htmrev2 := Some rev; a_minid := Some (zmin ids); a_maxid := Some (zmax ids) |}
     nbin binof covers = internal
  /\ bincount_py (length ids) ids hist_rev
     {| a_htmid2 := Some ids; a_htmrev2 := None; a_minid := None; a_maxid := None |} nbin binof covers = internal
  /\ bincount_py (length ids) ids hist_rev
     {| a_htmid2 := Some ids; a_htmrev2 := Some rev; a_minid := None; a_maxid := None |} nbin binof covers = internal
  /\ bincount_py (length ids) ids hist_rev
     {| a_htmid2 := None; a_htmrev2 := Some rev; a_minid := None; a_maxid := None |} nbin binof covers = internal.
Proof.
  intros ids hist_rev nbin binof covers. unfold bincount_py. cbn [a_htmid2 a_htmrev2 a_minid a_maxid].
  rewrite Nat.eqb_refl. repeat split; reflexivity.
Qed.

Theorem C13_any_reverse_index_layout : forall nbin rev rev' minid maxid ids2 binof covers k,
  (0 <= nbin)%Z ->
  (forall i2, In i2 (zseq 0 (length ids2)) -> in_window minid maxid (zget ids2 i2) = true) ->
  covers_ok nbin rev minid maxid ids2 binof 0 covers ->
  covers_ok nbin rev' minid maxid ids2 binof 0 covers ->
  (0 <= k < nbin)%Z ->
  zget (cbincount nbin rev minid maxid binof covers) k = zget (cbincount nbin rev' minid maxid binof covers) k.
Proof.
  intros nbin rev rev' minid maxid ids2 binof covers k Hn Hw H1 H2 Hk.
  rewrite (cbincount_brute nbin rev minid maxid ids2 binof Hw covers k Hn H1 Hk).
  symmetry. exact (cbincount_brute nbin rev' minid maxid ids2 binof Hw covers k Hn H2 Hk).
Qed.

(* ---- the reverse-index layout DERIVED from the verified single pass of stat.histogram (property C05,
   import only): for ANY sort index s (a permutation of 0..n2-1 along which the ids are non-decreasing;
   numpy's stable argsort is one) the array C05's chist / pyhist builds for the bin numbers
   ids2[k] - minid and nbin = maxid - minid + 1 has the layout cbincount needs, for every triangle *)
Theorem C13_rev_layout_from_C05 : forall eng ids2 minid maxid s leaves,
  Permutation s (zseq 0 (length ids2)) ->
  Sorted.Sorted Z.le (map (bn ids2 minid) s) ->
  (minid <= maxid)%Z ->
  rev_ok_on (zget (c05_rev eng ids2 minid maxid s)) minid maxid ids2 leaves.
Proof. intros eng ids2 minid maxid s leaves Hp Hs Hw. apply rev_ok_on_from_C05; assumption. Qed.

(* ... so that, with the internally computed reverse indices, H_cover alone gives the brute-force counts *)
Theorem C13_bincount_with_C05_rev : forall eng nbin ids2 minid maxid s binof covers k,
  (0 <= nbin)%Z ->
  Permutation s (zseq 0 (length ids2)) -> Sorted.Sorted Z.le (map (bn ids2 minid) s) -> (minid <= maxid)%Z ->
  (forall i2, In i2 (zseq 0 (length ids2)) -> in_window minid maxid (zget ids2 i2) = true) ->
  covers_H nbin ids2 binof 0 covers ->
  (0 <= k < nbin)%Z ->
  zget (cbincount nbin (zget (c05_rev eng ids2 minid maxid s)) minid maxid binof covers) k
  = brute binof (length ids2) k 0 (length covers).
Proof.
  intros eng nbin ids2 minid maxid s binof covers k Hn Hp Hs Hw Hwin HH Hk.
  apply (cbincount_brute nbin _ minid maxid ids2); try assumption.
  apply covers_ok_intro; [|exact HH]. intro leaves. apply rev_ok_on_from_C05; assumption.
Qed.

(* the per-case tie (ExecTie.rev_tie, evaluated on the REAL array returned by stat.histogram): the real array
   equals C05's pass on its own sort index, which is a sorting permutation  ==>  the layout holds *)
Theorem C13_rev_tie_sound : forall ids2 minid maxid runs, rev_tie ids2 minid maxid runs = true ->
  forall leaves,
    rev_ok_on (zget (real_rev runs (Z.to_nat (C05Tie.nbin minid maxid + 1) + length ids2))) minid maxid ids2 leaves.
Proof. exact rev_tie_sound. Qed.

(* what the verdict of a bincount case means (Exec.bc_ok, evaluated on the counts the real bincount
   returned, [o] from the plain call and [rest] from the calls with precomputed ids / reverse indices /
   window, and on the brute-force classification of ALL pairs by the independent oracle):
   per bin, #pairs determined to be in bin k <= count <= that + #pairs within 1e-9 relative of an edge
   of bin k; all calls agree; the hypotheses of C13_bincount hold on the case *)
Theorem C13_bincount_checker : forall nbin minid maxid runs ids2 covers pairs o rest,
  (0 <= nbin)%Z ->
  bc_ok false nbin minid maxid runs ids2 covers pairs [] (o :: rest) = true ->
  let binof := binof_def false nbin pairs [] in
  length o = Z.to_nat nbin
  /\ (forall k, (0 <= k < nbin)%Z ->
        (brute binof (length ids2) k 0 (length covers) <= zget o k
         <= brute binof (length ids2) k 0 (length covers)
            + amb_count (all_ranges false nbin ids2 covers pairs []) k)%Z)
  /\ (forall r, In r rest -> r = o)
  /\ covers_ok nbin (revf runs) minid maxid ids2 binof 0 covers
  /\ (forall i2, In i2 (zseq 0 (length ids2)) -> in_window minid maxid (zget ids2 i2) = true).
Proof. exact bc_ok_sound. Qed.

(* ---- bincount, log-bin arithmetic *)
(* on the exact rationals of the discrete model: floor gives k iff k <= q < k+1; the C cast agrees
   with floor exactly when q is not a negative non-integer *)
Theorem C13_radbin_spec : forall (q : Q) (k : Z),
  radbin q = k <-> (inject_Z k <= q /\ q < inject_Z (k + 1))%Q.
Proof. exact radbin_spec. Qed.

Theorem C13_cast_vs_floor : forall q : Q,
  radbin_cast q = radbin q <-> (0 <= Qnum q \/ (Qnum q) mod (Zpos (Qden q)) = 0)%Z.
Proof.
  intro q. unfold radbin_cast, radbin, Qfloor. destruct q as [n d]. cbn [Qnum Qden].
  pose proof (Pos2Z.is_pos d) as Hd. split.
  - intro H. destruct (Z_lt_le_dec n 0) as [Hn|Hn]; [right | left; exact Hn].
    pose proof (Z.quot_rem' n (Zpos d)) as Hq.
    pose proof (Z.rem_bound_pos_neg n (Zpos d) Hd (Z.lt_le_incl _ _ Hn)) as Hr.
    pose proof (Z.div_mod n (Zpos d)) as Hm.
    pose proof (Z.mod_pos_bound n (Zpos d) Hd) as Hb. rewrite H in Hq.
    (* same quotient, so the two remainders (one <= 0, the other >= 0) coincide *)
    set (r := Z.rem n (Zpos d)) in *. set (m := n mod Zpos d) in *. set (q := n / Zpos d) in *.
    clearbody r m q. clear - Hq Hr Hm Hb. lia.
  - intros [Hn|Hm]; [apply Z.quot_div_nonneg; lia|].
    apply Z.quot_div_exact; [lia|]. apply Z.mod_divide; [lia | exact Hm].
Qed.

(* over the reals, with the formula chain of the C code (ModelR.v): a pair is given bin number k
   iff 0 <= k < nbin and edge(k) <= scale*separation < edge(k+1), the edges being those of
   htm.log_bins; the test dis <= maxangle is implied *)
Theorem C13_logbin : forall rmin rmax nbin s dis k,
  (0 < rmin)%R -> (rmin < rmax)%R -> (0 < nbin)%Z -> (0 < scale_of s)%R -> (0 < dis)%R ->
  (binof_R Zfloor rmin rmax nbin s dis = Some k
   <-> (0 <= k < nbin)%Z /\ (edge rmin rmax nbin k <= scale_of s * dis < edge rmin rmax nbin (k + 1))%R).
Proof. intros. apply logbin; assumption. Qed.

Theorem C13_edges : forall rmin rmax nbin,
  (0 < rmin)%R -> (rmin < rmax)%R -> (0 < nbin)%Z ->
  edge rmin rmax nbin 0 = rmin /\ edge rmin rmax nbin nbin = rmax.
Proof. intros. split; [apply edge_0 | apply edge_nbin]; assumption. Qed.

Theorem C13_trunc_vs_floor : forall x : R, Ztrunc x = Zfloor x <-> ((0 <= x)%R \/ IZR (Zfloor x) = x).
Proof.
  intro x. split.
  - intro H. destruct (Rle_dec 0 x) as [Hx|Hx]; [left; exact Hx | right].
    destruct (Req_dec (IZR (Zfloor x)) x) as [E|E]; [exact E|].
    rewrite Ztrunc_ceil in H by lra. rewrite (Zceil_floor_neq x E) in H. lia.
  - intros [Hx|E]; [apply Ztrunc_floor; exact Hx|].
    rewrite <- E. rewrite Ztrunc_IZR, Zfloor_IZR. reflexivity.
Qed.

(* the defect repaired by fixes/C13/0001: with the C cast every separation in (edge(-1), rmin) was
   counted in bin 0; with floor it is not counted *)
Theorem C13_bincount_cast_refuted : forall rmin rmax nbin s dis,
  (0 < rmin)%R -> (rmin < rmax)%R -> (0 < nbin)%Z -> (0 < scale_of s)%R -> (0 < dis)%R ->
  (edge rmin rmax nbin (-1) < scale_of s * dis < rmin)%R ->
  binof_R Ztrunc rmin rmax nbin s dis = Some 0%Z /\ binof_R Zfloor rmin rmax nbin s dis = None.
Proof. intros. apply cast_refuted; assumption. Qed.

Theorem C13_floor_real_rational : forall q : Q, Zfloor (Q2R q) = radbin q.
Proof.
  intros [n d]. unfold Q2R, radbin, Qfloor. cbn [Qnum Qden].
  change (IZR n * / IZR (Zpos d))%R with (IZR n / IZR (Zpos d))%R.
  apply Zfloor_div. discriminate.
Qed.

(* ---- the checkers and monitors evaluated on the implementation's outputs are sound *)
Theorem C13_checkers_sound :
  (forall ids d, ids_check d ids = true -> ids_ok d ids)
  /\ (forall incl ss, covers_samples_b incl ss = true -> covers_samples incl ss)
  /\ (forall full ss, full_only_inside_b full ss = true -> full_only_inside full ss)
  /\ (forall nbin rev minid maxid ids2 binof covers i1,
        covers_check nbin rev minid maxid ids2 binof i1 covers = true ->
        covers_ok nbin rev minid maxid ids2 binof i1 covers)
  /\ (forall minid maxid ids2, window_check minid maxid ids2 = true ->
        forall i2, In i2 (zseq 0 (length ids2)) -> in_window minid maxid (zget ids2 i2) = true).
Proof.
  split; [intros ids d; apply ids_check_iff|]. split; [intros incl ss; apply covers_samples_iff|].
  split; [intros full ss; apply full_only_inside_iff|].
  split; [intros; apply covers_check_sound; assumption | exact window_check_sound].
Qed.

(* ---- non-vacuity *)
(* a choice function meeting the hypotheses, with ids that move *)
Example C13_lookup_nonvacuous :
  let root := fun _ : unit => 13%Z in
  let choose := fun (id : Z) (_ : unit) => Some ((id + 3) mod 4)%Z in
  root_ok unit root /\ digits_ok unit choose /\ never_stuck unit choose
  /\ map (fun d => lookup unit root choose d tt) [0; 1; 2; 3]%nat = [13; 52; 211; 846]%Z.
Proof.
  cbv zeta. split; [intro p; lia|]. split.
  - intros id p c H. injection H as <-. apply Z.mod_pos_bound. lia.
  - split; [intros id p H; discriminate | reflexivity].
Qed.

(* a reverse-index array in the histogram layout (ids 5,7,5 -> bins 0,2,0), two points with covers
   that satisfy H_cover, and counts that are not zero *)
Example C13_bincount_nonvacuous :
  let revl := [4; 6; 6; 7; 0; 2; 1]%Z in
  let rev := fun i => zget revl i in
  let ids2 := [5; 7; 5]%Z in
  let covers := [[5; 7]; [7; 6]]%Z in
  let binof := fun i1 i2 : Z => nth (Z.to_nat i2) (nth (Z.to_nat i1) [[Some 0; Some 1; Some 0]; [None; Some 1; Some 5]] [])%Z None in
  covers_ok 2 rev 5 7 ids2 binof 0 covers
  /\ cbincount 2 rev 5 7 binof covers = [2; 2]%Z
  /\ map (fun k => brute binof 3 k 0 2) [0; 1]%Z = [2; 2]%Z.
Proof.
  cbv zeta. split; [apply covers_check_sound; vm_compute; reflexivity|].
  split; vm_compute; reflexivity.
Qed.

(* the log-bin hypotheses are satisfiable and the repaired defect is real: quotient -1/2 *)
Example C13_cast_nonvacuous : radbin_cast (-1 # 2) = 0%Z /\ radbin (-1 # 2) = (-1)%Z /\ radbin (3 # 2) = 1%Z.
Proof. vm_compute. repeat split; reflexivity. Qed.

(* ---- the root loop of idByPoint accepts EVERY finite position (any finite gEpsilon >= 0), which is the first half
   of [accepted].  [eps_ok] / [finite_vb] are computable (evaluated in every lookup_id case). *)
Theorem C13_concrete_root_total : forall eps v, eps_ok eps = true -> finite_vb v = true ->
  (8 <= rootF eps v < 16)%Z.
Proof.
  intros eps v He Hv. destruct (eps_ok_spec _ He) as [Fe He0].
  exact (rootF_total eps v Fe He0 (finite_vb_spec v Hv)).
Qed.

Theorem C13_concrete_accepted_from_dynamic : forall eps save v depth, eps_ok eps = true -> finite_vb v = true ->
  (forall id, chooseF eps (buildlevel save (Z.of_nat depth)) id v <> None) -> accepted eps save v depth.
Proof. intros eps save v depth He Hv Hs. split; [apply C13_concrete_root_total; assumption | exact Hs]. Qed.

(* HTM(0), HTM(1), HTM(2) (every level is a stored level): ids in range for every finite position, no hypothesis left *)
Theorem C13_stored_depths_unconditional : forall eps save v depth, eps_ok eps = true -> finite_vb v = true ->
  (save = 0 \/ Z.of_nat depth <= save)%Z ->
  (8 * 4 ^ Z.of_nat depth <= lookupF eps save depth v < 16 * 4 ^ Z.of_nat depth)%Z.
Proof.
  intros eps save v depth He Hv Hd. apply stored_depth_range; [|exact Hd].
  apply C13_concrete_root_total; assumption.
Qed.

Example C13_root_total_nonvacuous :
  eps_ok 0x1.203af9ee75616p-50%float = true
  /\ finite_vb (mkvec 0x1.d9d033a6cb461p-1%float 0x1.4e2f2c0fa463bp-3%float 0x1.5e3a8748a0bf5p-2%float) = true
  /\ finite_vb (mkvec (-0)%float 1%float (-0)%float) = true.
Proof. vm_compute. repeat split; reflexivity. Qed.

(* ---- the loop of cbincount with its mutable (scale, logscale) state: the cap searched for point i and the bin numbers of
   its pairs are those of the scale of point i (per-point array), of the one scale (size-1 array) or of scale 1 (None) *)
Theorem C13_cap_loop : forall (S L D P : Type) (one : S) (zeroL : L) (log10S : S -> L) (cap : bool -> S -> D)
    (cover : P -> D -> list Z) (binof_s : bool -> S -> L -> P -> Z -> option Z) (dS : S)
    (scales : option (list S)) (pt : Z -> P) nbin rev minid maxid n1,
  cbincount_loop S L D P one zeroL log10S cap cover binof_s dS scales pt nbin rev minid maxid n1
  = cbincount nbin rev minid maxid (binof_of S L P one zeroL log10S binof_s dS scales pt)
              (map (cover_of S L D P one zeroL log10S cap cover dS scales pt) (zseq 0 n1)).
Proof. intros. unfold cbincount_loop, cbincount. apply loop_spec_gen. intros _. reflexivity. Qed.

Theorem C13_cap_loop_state : forall (S L : Type) (one : S) (zeroL : L) (log10S : S -> L) (dS : S) (scales : option (list S)) i,
  (scales = None -> state_of S L one zeroL log10S dS scales i = (one, zeroL))
  /\ (forall s, scales = Some [s] -> state_of S L one zeroL log10S dS scales i = (s, log10S s))
  /\ (forall l, scales = Some l -> (1 < length l)%nat ->
        state_of S L one zeroL log10S dS scales i = (nth (Z.to_nat i) l dS, log10S (nth (Z.to_nat i) l dS))).
Proof.
  intros S L one zeroL log10S dS scales i. unfold state_of, st0, nscale, scale_at. split; [|split].
  - intros ->. reflexivity.
  - intros s ->. reflexivity.
  - intros l -> Hl. destruct (1 <? Z.of_nat (length l))%Z eqn:E; [reflexivity|lia].
Qed.

(* a stale scale is visible: with per-point scales [2; 3] (toy types: S = L = D = Z, cap = the scale itself) the loop
   searches cap 2 for point 0 and cap 3 for point 1 *)
Example C13_cap_loop_nonvacuous :
  let scales := Some [2; 3]%Z in
  map (cover_of Z Z Z Z 1 0 (fun s => s) (fun _ s => s) (fun p d => [p; d]) 0 scales (fun i => 10 + i)) [0; 1]%Z
  = [[10; 2]; [11; 3]]%Z
  /\ cbincount_loop Z Z Z Z 1 0 (fun s => s) (fun _ s => s) (fun p d => [5]) (fun _ s _ _ i2 => Some (s - 2 + i2 - i2)) 0 scales
       (fun i => 10 + i) 2 (fun i => zget [1; 2; 0]%Z i) 5 5 2 = [1; 1]%Z.
Proof. vm_compute. split; reflexivity. Qed.

(* ---- which calls are rejected, with which error class *)
Theorem C13_lookup_rejections : forall n_ra n_dec,
  (lookup_validate n_ra n_dec = Err EValue <-> n_ra <> n_dec) /\ (lookup_validate n_ra n_dec = Ok tt <-> n_ra = n_dec).
Proof. exact lookup_rejects. Qed.

Theorem C13_lookup_id_rejects_iff : forall (P : Type) (root : P -> Z) choose depth n_ra n_dec ps,
  (exists l, lookup_id root choose depth n_ra n_dec ps = Ok l) <-> lookup_validate n_ra n_dec = Ok tt.
Proof.
  intros P root choose depth n_ra n_dec ps. unfold lookup_id, lookup_validate.
  destruct (Nat.eqb n_ra n_dec); split; intro H; try reflexivity; try discriminate.
  - eexists. reflexivity.
  - destruct H as [l H]. discriminate.
Qed.

Theorem C13_bincount_rejections : forall typo z,
  bincount_validate typo z = Err EValue <->
    (n_ra1 z <> n_dec1 z
     \/ (typo = false /\ n_ra2 z <> n_dec2 z)
     \/ (exists k, n_scale z = Some k /\ k <> 1 /\ k <> n_ra1 z)
     \/ (exists k, n_htmid2 z = Some k /\ k <> n_ra2 z)
     \/ (n_htmid2 z = None /\ n_ra2 z <> n_dec2 z))%nat.
Proof. exact bincount_rejects. Qed.

(* finding (not a violation of C13: invalid input): the as-found spelling `ra2.size != ra2.size` does not reject a second
   list whose ra and dec differ in length when precomputed ids are supplied; without them the internal lookup_id does.
   (The correspondence run on the real code confirms the rejection without precomputed ids.) *)
Theorem C13_ra2_dec2_mismatch_not_rejected : forall n1 n2 n2', (n2 <> n2')%nat ->
  bincount_validate true {| n_ra1 := n1; n_dec1 := n1; n_ra2 := n2; n_dec2 := n2'; n_scale := None; n_htmid2 := Some n2 |} = Ok tt
  /\ bincount_validate true {| n_ra1 := n1; n_dec1 := n1; n_ra2 := n2; n_dec2 := n2'; n_scale := None; n_htmid2 := None |} = Err EValue
  /\ bincount_validate false {| n_ra1 := n1; n_dec1 := n1; n_ra2 := n2; n_dec2 := n2'; n_scale := None; n_htmid2 := Some n2 |} = Err EValue.
Proof.
  intros n1 n2 n2' H. unfold bincount_validate, lookup_validate. cbn [n_ra1 n_dec1 n_ra2 n_dec2 n_scale n_htmid2].
  rewrite !Nat.eqb_refl. cbn [negb orb]. destruct (Nat.eqb_spec n2 n2'); [contradiction|]. repeat split; reflexivity.
Qed.

(* ---- N-d coordinate arrays (fixes/C13/0003: `.ravel()`, C order): element (i, j) of the ids is the id of position (i, j) *)
Theorem C13_lookup_id_2d : forall (P : Type) (root : P -> Z) choose depth (rows : list (list P)) ncols (dP : P),
  (forall r, In r rows -> length r = ncols) ->
  exists l, lookup_id_2d root choose depth rows = Ok l
    /\ length l = (length rows * ncols)%nat
    /\ forall i j, (i < length rows)%nat -> (j < ncols)%nat ->
         nth (i * ncols + j) l 0%Z = lookup P root choose depth (nth j (nth i rows []) dP).
Proof. intros P. exact (@lookup_id_2d_spec P). Qed.

(* memory order of a Fortran-ordered array (what ravel(order='K') would give) is a different flattening *)
Example C13_ravel_order_matters :
  ravel_c [[1; 2]; [3; 4]]%Z = [1; 2; 3; 4]%Z /\ ravel_f 2 [[1; 2]; [3; 4]]%Z = [1; 3; 2; 4]%Z.
Proof. split; reflexivity. Qed.

(* ---- history: an HTM object is its depth; no call changes it, so the answers of any sequence of calls are the answers
   of the same calls made alone *)
Theorem C13_history_independent : forall (P C : Type) (root : P -> Z) (choose : nat -> Z -> P -> option Z)
    (cover : nat -> C -> list Z * list Z) cs o,
  run P C root choose cover o cs = (o, map (answer_of P C root choose cover o) cs).
Proof.
  intros P C root choose cover. induction cs as [|c cs IH]; intro o; [reflexivity|].
  cbn [run map]. unfold step. rewrite IH. reflexivity.
Qed.

(* ---- the checkers of ids and of circle coverage are decision procedures (C13_checkers_sound is one direction) *)
Theorem C13_checkers_decide :
  (forall ids d, ids_check d ids = true <-> ids_ok d ids)
  /\ (forall incl ss, covers_samples_b incl ss = true <-> covers_samples incl ss)
  /\ (forall full ss, full_only_inside_b full ss = true <-> full_only_inside full ss).
Proof. split; [exact ids_check_iff|]. split; [exact covers_samples_iff | exact full_only_inside_iff]. Qed.

(* ---- the identification used by C13_rev_layout_from_C05 is a theorem about C05's float model: for shifted ids below 2^53,
   given to stat.histogram as float64 with min = 0.0 and bin size 1.0, C05.Model.binnum IS the integer difference *)
Theorem C13_bin_number_of_integer_ids : forall (ids2 : list Z) (minid : Z) (x : list PrimFloat.float) (k : Z),
  (0 <= zget ids2 k - minid < 2 ^ 53)%Z ->
  C05.Model.fget x k = C05.Model.float_of_Z (zget ids2 k - minid) ->
  C05.Model.binnum x 0%float 1%float k = bn ids2 minid k.
Proof. intros ids2 minid x k H Hx. apply binnum_of_integer_data; assumption. Qed.

Example C13_bin_number_nonvacuous :
  let ids2 := [8796093022208; 8796093022215; 8796093022208]%Z in
  let x := map (fun i => C05.Model.float_of_Z (i - 8796093022208)) ids2 in
  map (C05.Model.binnum x 0%float 1%float) [0; 1; 2]%Z = [0; 7; 0]%Z /\ map (bn ids2 8796093022208) [0; 1; 2]%Z = [0; 7; 0]%Z.
Proof. vm_compute. split; reflexivity. Qed.

(* ---- the search cap of cbincount (ModelR.search_cos; the C expression is translated and proved equal to it on every run): its
   margin only enlarges the cap -- the cosine handed to SpatialDomain is at most the cosine of the search angle itself *)
Theorem C13_search_cap_contains_cap : forall (pad : R) (degrees : bool) (maxangle : R),
  (0 <= pad)%R ->
  let a := (if degrees then maxangle * D2R else maxangle)%R in
  (0 <= a <= PI)%R ->
  (search_cos pad degrees maxangle <= cos a)%R.
Proof. exact search_cap_contains_cap. Qed.

Theorem C13_search_cos_no_margin : forall (degrees : bool) (maxangle : R),
  let a := (if degrees then maxangle * D2R else maxangle)%R in
  (a <= PI)%R -> search_cos 0 degrees maxangle = cos a.
Proof.
  intros degrees maxangle a Ha. unfold search_cos. fold a.
  destruct (Rlt_dec PI (a + 0 * D2R)) as [H|H]; [exfalso; lra|]. f_equal. lra.
Qed.

(* the hypotheses are satisfiable: the margin of the source (1e-4 degree) and a search angle of one degree *)
Example C13_search_cap_nonvacuous : (0 <= 1 / 10000)%R /\ (0 <= 1 * D2R <= PI)%R.
Proof. pose proof PI_RGT_0. unfold D2R. lra. Qed.
