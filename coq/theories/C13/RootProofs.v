(* C13 — two facts about the PrimFloat models that need Flocq's link between primitive floats and
   IEEE-754 (as C05/FloatFacts.v does; its rv / finite_f / ltb_R are imported); in both every
   floating-point operation involved turns out to be exact.
   1. The root loop of SpatialIndex::idByPoint (FloatModel.rootF) finds a root triangle for EVERY
      position whose unit vector has finite components (any gEpsilon >= 0): half of the hypothesis
      [accepted] of the concrete id theorems becomes a theorem.
   2. The bin number that esutil.stat.histogram computes for integer data with min = 0 and bin size
      1.0 is the integer itself: C05.Model.binnum on the float images of the shifted ids
      (htmid2 - minid, all below 2^53) returns the integer difference that C05Tie.bn takes as the bin
      number (import only: C05.Model, C05.Spec, C05.FloatFacts). *)
From Coq Require Import Reals Lra.
From Coq Require Import PrimFloat FloatOps SpecFloat Uint63.
From Flocq Require Import Core.Core IEEE754.BinarySingleNaN.
Require Flocq.IEEE754.PrimFloat.
From EsVerif.Common Require Import Base.
From EsVerif.C05 Require Import Model Spec FloatFacts.
From EsVerif.C13 Require Import FloatModel FloatProofs.
Module FP := Flocq.IEEE754.PrimFloat.
Local Existing Instance FP.Hprec.
Local Existing Instance FP.Hmax.
Local Open Scope R_scope.

Notation rnd := (round radix2 (fexp prec emax) (round_mode mode_NE)).

Lemma rv_opp f : rv (PrimFloat.opp f) = - rv f.
Proof. unfold rv. rewrite FP.opp_equiv. apply B2R_Bopp. Qed.
Lemma finite_opp f : finite_f (PrimFloat.opp f) = finite_f f.
Proof. rewrite !finite_f_B, FP.opp_equiv. apply is_finite_Bopp. Qed.

(* an operation whose exact result is the value of some float is exact and finite *)
Lemma mul_exact a b z : finite_f a = true -> finite_f b = true -> rv a * rv b = rv z ->
  finite_f (PrimFloat.mul a b) = true /\ rv (PrimFloat.mul a b) = rv z.
Proof.
  rewrite !finite_f_B. unfold rv. rewrite FP.mul_equiv. intros Fa Fb E.
  generalize (Bmult_correct prec emax _ _ mode_NE (FP.Prim2B a) (FP.Prim2B b)).
  rewrite E, round_generic by (try typeclasses eauto; apply generic_format_B2R).
  rewrite Rlt_bool_true by apply abs_B2R_lt_emax.
  intros [H1 [H2 _]]. rewrite H2, Fa, Fb. split; [reflexivity|exact H1].
Qed.

Lemma add_exact a b z : finite_f a = true -> finite_f b = true -> rv a + rv b = rv z ->
  finite_f (PrimFloat.add a b) = true /\ rv (PrimFloat.add a b) = rv z.
Proof.
  rewrite !finite_f_B. unfold rv. rewrite FP.add_equiv. intros Fa Fb E.
  generalize (Bplus_correct prec emax _ _ mode_NE (FP.Prim2B a) (FP.Prim2B b) Fa Fb).
  rewrite E, round_generic by (try typeclasses eauto; apply generic_format_B2R).
  rewrite Rlt_bool_true by apply abs_B2R_lt_emax.
  intros [H1 [H2 _]]. split; [exact H2|exact H1].
Qed.

Lemma sub_exact a b z : finite_f a = true -> finite_f b = true -> rv a - rv b = rv z ->
  finite_f (PrimFloat.sub a b) = true /\ rv (PrimFloat.sub a b) = rv z.
Proof.
  rewrite !finite_f_B. unfold rv. rewrite FP.sub_equiv. intros Fa Fb E.
  generalize (Bminus_correct prec emax _ _ mode_NE (FP.Prim2B a) (FP.Prim2B b) Fa Fb).
  rewrite E, round_generic by (try typeclasses eauto; apply generic_format_B2R).
  rewrite Rlt_bool_true by apply abs_B2R_lt_emax.
  intros [H1 [H2 _]]. split; [exact H2|exact H1].
Qed.

Lemma div_exact a b z : finite_f a = true -> rv b <> 0 -> rv a / rv b = rv z ->
  finite_f (PrimFloat.div a b) = true /\ rv (PrimFloat.div a b) = rv z.
Proof.
  rewrite !finite_f_B. unfold rv. rewrite FP.div_equiv. intros Fa Nz E.
  generalize (Bdiv_correct prec emax _ _ mode_NE (FP.Prim2B a) (FP.Prim2B b) Nz).
  rewrite E, round_generic by (try typeclasses eauto; apply generic_format_B2R).
  rewrite Rlt_bool_true by apply abs_B2R_lt_emax.
  intros [H1 [H2 _]]. rewrite H2. split; [exact Fa|exact H1].
Qed.

(* ---- the root loop.  Every edge normal of a root triangle is, up to the sign of its zeros, plus or
   minus a coordinate axis, so its dot product with a finite vector is computed exactly and each
   inside test only looks at the sign of one component. *)

(* a float that is 0 (of either sign), 1 or -1, read off its representation *)
Definition unit_of (f : PrimFloat.float) : option Z :=
  match Prim2SF f with
  | S754_zero _ => Some 0%Z
  | S754_finite s m e =>
      if ((Z.pos m =? 2 ^ 52) && (e =? -52))%Z then Some (if s then -1 else 1)%Z else None
  | _ => None
  end.

Lemma unit_of_spec f c : unit_of f = Some c ->
  finite_f f = true /\ rv f = IZR c /\ (c = 0 \/ c = 1 \/ c = -1)%Z.
Proof.
  unfold unit_of. rewrite finite_f_B. unfold rv, FP.Prim2B. rewrite B2R_SF2B, is_finite_SF2B.
  destruct (Prim2SF f) as [s|s| |s m e]; try discriminate.
  - intro H. injection H as <-. repeat split. left. reflexivity.
  - destruct ((Z.pos m =? 2 ^ 52) && (e =? -52))%Z eqn:E; [|discriminate].
    apply andb_prop in E. destruct E as [Em Ee]. apply Z.eqb_eq in Em, Ee. injection Em as ->. subst e.
    intro H. injection H as <-. split; [reflexivity|].
    destruct s; (split; [unfold SF2R, F2R, cond_Zopp, Fnum, Fexp; simpl bpow; simpl IZR; lra | auto]).
Qed.

Lemma rv_1 : rv 1%float = 1.
Proof. exact (proj1 (proj2 (unit_of_spec 1%float 1%Z eq_refl))). Qed.

Lemma mul_unit a b c : unit_of a = Some c -> finite_f b = true ->
  finite_f (PrimFloat.mul a b) = true /\ rv (PrimFloat.mul a b) = IZR c * rv b.
Proof.
  intros U Fb. destruct (unit_of_spec a c U) as [Fa [Ea [-> | [-> | ->]]]].
  - destruct (mul_exact a b 0%float Fa Fb) as [F E]; [rewrite Ea, rv_zero; ring|]. split; [exact F|]. rewrite E, rv_zero. ring.
  - destruct (mul_exact a b b Fa Fb) as [F E]; [rewrite Ea; ring|]. split; [exact F|]. rewrite E. ring.
  - destruct (mul_exact a b (PrimFloat.opp b) Fa Fb) as [F E]; [rewrite Ea, rv_opp; ring|]. split; [exact F|]. rewrite E, rv_opp. ring.
Qed.

Lemma add_zero a b : finite_f a = true -> finite_f b = true -> (rv a = 0 \/ rv b = 0) ->
  finite_f (PrimFloat.add a b) = true /\ rv (PrimFloat.add a b) = rv a + rv b.
Proof.
  intros Fa Fb [H|H].
  - destruct (add_exact a b b Fa Fb) as [F E]; [rewrite H; ring|]. split; [exact F|]. rewrite E, H. ring.
  - destruct (add_exact a b a Fa Fb) as [F E]; [rewrite H; ring|]. split; [exact F|]. rewrite E, H. ring.
Qed.

Definition finite_v (v : vec) : Prop := finite_f (vx v) = true /\ finite_f (vy v) = true /\ finite_f (vz v) = true.

(* the components (0, 1 or -1, at least two of them 0) of an axis normal *)
Definition axis_of (n : vec) : option (Z * Z * Z) :=
  match unit_of (vx n), unit_of (vy n), unit_of (vz n) with
  | Some cx, Some cy, Some cz =>
      if ((cx =? 0) && (cy =? 0) || (cx =? 0) && (cz =? 0) || (cy =? 0) && (cz =? 0))%Z then Some (cx, cy, cz) else None
  | _, _, _ => None
  end.

Definition along (c : Z * Z * Z) (v : vec) : R :=
  let '(cx, cy, cz) := c in IZR cx * rv (vx v) + IZR cy * rv (vy v) + IZR cz * rv (vz v).

Lemma dot_axis n v c : axis_of n = Some c -> finite_v v ->
  finite_f (dot n v) = true /\ rv (dot n v) = along c v.
Proof.
  unfold axis_of, dot, along.
  destruct (unit_of (vx n)) as [cx|] eqn:Ux; [|discriminate].
  destruct (unit_of (vy n)) as [cy|] eqn:Uy; [|discriminate].
  destruct (unit_of (vz n)) as [cz|] eqn:Uz; [|discriminate].
  destruct (_ || _) eqn:H0; [|discriminate]. intro H. injection H as <-. intros [Fx [Fy Fz]].
  destruct (mul_unit _ _ _ Ux Fx) as [F1 E1], (mul_unit _ _ _ Uy Fy) as [F2 E2], (mul_unit _ _ _ Uz Fz) as [F3 E3].
  assert (H1 : ((cx = 0 /\ cy = 0) \/ (cx = 0 /\ cz = 0) \/ (cy = 0 /\ cz = 0))%Z) by (clear - H0; lia).
  destruct (add_zero _ _ F1 F2) as [F12 E12].
  { rewrite E1, E2. destruct H1 as [[-> _]|[[-> _]|[-> _]]]; [left | left | right]; ring. }
  destruct (add_zero _ _ F12 F3) as [F E].
  { rewrite E12, E1, E2, E3. destruct H1 as [[-> ->]|[[_ ->]|[_ ->]]]; [left | right | right]; ring. }
  split; [exact F|]. rewrite E, E12, E1, E2, E3. reflexivity.
Qed.

Section RootLoop.
  Variable eps : PrimFloat.float.
  Variable v : vec.
  Hypothesis Fe : finite_f eps = true.
  Hypothesis He : 0 <= rv eps.
  Hypothesis Fv : finite_v v.

  (* one test of the root loop passes when the exact dot product is non-negative *)
  Lemma edge_test a b c : axis_of (cross a b) = Some c -> 0 <= along c v -> edge_ok eps a b v = true.
  Proof.
    intros Hc Hpos. destruct (dot_axis _ v c Hc Fv) as [F E]. unfold edge_ok.
    destruct (PrimFloat.ltb (dot (cross a b) v) (PrimFloat.opp eps)) eqn:L; [|reflexivity].
    apply ltb_R in L; [|exact F|rewrite finite_opp; exact Fe]. rewrite rv_opp, E in L. lra.
  Qed.

  Lemma root_accepts i r a b d c1 c2 c3 : nth_error roots i = Some (r, (a, b, d)) ->
    axis_of (cross a b) = Some c1 -> axis_of (cross b d) = Some c2 -> axis_of (cross d a) = Some c3 ->
    0 <= along c1 v -> 0 <= along c2 v -> 0 <= along c3 v ->
    (8 <= rootF eps v < 16)%Z.
  Proof.
    intros Hi A1 A2 A3 P1 P2 P3. apply nth_error_In in Hi. unfold rootF.
    destruct (find _ roots) as [e|] eqn:E.
    - apply roots_ids. exact (proj1 (find_some _ _ E)).
    - exfalso. pose proof (find_none _ _ E _ Hi) as H. cbn [snd] in H. unfold inside in H.
      rewrite (edge_test _ _ _ A1 P1), (edge_test _ _ _ A2 P2), (edge_test _ _ _ A3 P3) in H. discriminate.
  Qed.

  (* [octant i]: root triangle number i accepts v; its three axes are found by evaluation, the signs of
     the components of v are in the context *)
  Ltac octant i :=
    eapply (root_accepts i);
    [reflexivity | vm_compute; reflexivity | vm_compute; reflexivity | vm_compute; reflexivity | | |];
    cbn [along]; lra.

  Theorem rootF_total : (8 <= rootF eps v < 16)%Z.
  Proof.
    destruct (Rle_lt_dec 0 (rv (vx v))) as [Hx|Hx], (Rle_lt_dec 0 (rv (vy v))) as [Hy|Hy],
             (Rle_lt_dec 0 (rv (vz v))) as [Hz|Hz].
    - octant 7%nat.
    - octant 0%nat.
    - octant 4%nat.
    - octant 3%nat.
    - octant 6%nat.
    - octant 1%nat.
    - octant 5%nat.
    - octant 2%nat.
  Qed.
End RootLoop.

(* ---- computable forms of the hypotheses (what the case files can evaluate) *)
Definition eps_ok (eps : PrimFloat.float) : bool := finite_f eps && negb (PrimFloat.ltb eps 0).
Definition finite_vb (v : vec) : bool := finite_f (vx v) && finite_f (vy v) && finite_f (vz v).

Lemma eps_ok_spec eps : eps_ok eps = true -> finite_f eps = true /\ (0 <= rv eps)%R.
Proof.
  unfold eps_ok. intro H. apply andb_prop in H. destruct H as [F N]. split; [exact F|].
  destruct (Rle_lt_dec 0 (rv eps)) as [H|H]; [exact H|]. exfalso.
  assert (L : PrimFloat.ltb eps 0 = true) by (apply ltb_R; [exact F|apply finite_zero|rewrite rv_zero; exact H]).
  rewrite L in N. discriminate.
Qed.

Lemma finite_vb_spec v : finite_vb v = true -> finite_v v.
Proof.
  unfold finite_vb, finite_v. intro H. apply andb_prop in H. destruct H as [H H3]. apply andb_prop in H. destruct H as [H1 H2]. auto.
Qed.

(* ---- integer data in stat.histogram *)
Lemma F2R_int z : F2R (Float radix2 z 0) = IZR z.
Proof. apply Rmult_1_r. Qed.

(* integers below 2^53 are floats *)
Lemma generic_IZR z : (Z.abs z < 2 ^ 53)%Z -> generic_format radix2 (fexp prec emax) (IZR z).
Proof.
  intro Hz. apply (generic_format_FLT radix2 (3 - emax - prec) prec).
  exists (Float radix2 z 0); [symmetry; apply F2R_int | exact Hz | discriminate].
Qed.

Lemma float_of_Z_exact z : (0 <= z < 2 ^ 53)%Z ->
  finite_f (float_of_Z z) = true /\ rv (float_of_Z z) = IZR z.
Proof.
  intros [Hz0 Hz]. assert (Ha : (Z.abs z < 2 ^ 53)%Z) by (rewrite Z.abs_eq; assumption).
  rewrite finite_f_B. unfold rv, float_of_Z. rewrite FP.of_int63_equiv.
  assert (Ez : Uint63.to_Z (Uint63.of_Z z) = z).
  { rewrite Uint63.of_Z_spec. apply Z.mod_small. split; [exact Hz0|].
    apply Z.lt_trans with (2 ^ 53)%Z; [exact Hz | reflexivity]. }
  rewrite Ez.
  generalize (binary_normalize_correct prec emax FP.Hprec FP.Hmax mode_NE z 0 false). cbv zeta.
  rewrite F2R_int, round_generic by (try typeclasses eauto; apply generic_IZR, Ha).
  rewrite Rlt_bool_true.
  - intros [H1 [H2 _]]. split; [exact H2|exact H1].
  - apply Rlt_trans with (bpow radix2 53); [|apply bpow_lt; reflexivity].
    rewrite <- abs_IZR. change (bpow radix2 53) with (IZR (2 ^ 53)). apply IZR_lt, Ha.
Qed.

(* htm.py: stat.histogram(htmid2 - minid, rev=True): data = the shifted ids as float64, min = 0.0 (the smallest shifted id),
   binsize = 1.0 *)
Theorem binnum_of_integer_data (x : list PrimFloat.float) (k z : Z) :
  (0 <= z < 2 ^ 53)%Z -> fget x k = float_of_Z z ->
  binnum x 0%float 1%float k = z.
Proof.
  intros Hz Hx. unfold binnum. rewrite Hx.
  destruct (float_of_Z_exact z Hz) as [Ff Ef].
  destruct (sub_exact (float_of_Z z) 0%float (float_of_Z z) Ff finite_zero) as [Fs Es]; [rewrite rv_zero; apply Rminus_0_r|].
  destruct (div_exact (PrimFloat.sub (float_of_Z z) 0) 1%float (float_of_Z z) Fs) as [Fd Ed];
    [rewrite rv_1; exact R1_neq_R0 | rewrite Es, rv_1; unfold Rdiv; rewrite Rinv_1; apply Rmult_1_r|].
  destruct (trunc_floor_R _ Fd) as [Ht _].
  - rewrite Ed, Ef. split; [apply (IZR_le 0), Hz|]. apply IZR_lt.
    apply Z.lt_trans with (2 ^ 53)%Z; [apply Hz | reflexivity].
  - rewrite Ht, Ed, Ef. apply Zfloor_IZR.
Qed.
