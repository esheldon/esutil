(* C07 — every outcome of copy_fields (which calls are refused, with which error class, and what
   an accepted call stores), for arrays whose common fields have the same type; further error
   paths of add_fields, reorder_fields and split_fields. *)
From EsVerif.Common Require Import Base Bytes.
From Coq.Strings Require String.
From EsVerif.C07 Require Import Model Spec Proofs.

Definition no_common (a1 a2 : sarray) : Prop := forall f, In f (fields a1) -> ~ In (fname f) (names a2).
Definition some_common (a1 a2 : sarray) : Prop := exists f, In f (fields a1) /\ In (fname f) (names a2).
Definition some_common_b (a1 a2 : sarray) : bool := existsb (fun f => memb (fname f) (names a2)) (fields a1).

Lemma some_common_dec a1 a2 : some_common_b a1 a2 = true <-> some_common a1 a2.
Proof.
  unfold some_common_b, some_common. rewrite existsb_exists. split; intros [f [H1 H2]]; exists f; (split; [assumption|]).
  - now apply memb_In. - now apply memb_In.
Qed.

Lemma no_common_iff a1 a2 : no_common a1 a2 <-> ~ some_common a1 a2.
Proof.
  unfold no_common, some_common. split.
  - intros H [f [Hf Hi]]. exact (H f Hf Hi).
  - intros H f Hf Hi. apply H. eauto.
Qed.

(* copy_fields in closed form: refused when the sizes differ, or when there is a common field and
   the shapes do not broadcast; otherwise every common field is overwritten *)
Lemma copy_fields_char a1 a2 :
  NoDup (names a1) -> compat a1 a2 ->
  copy_fields a1 a2
  = if (nelem a1 =? nelem a2) && (negb (some_common_b a1 a2) || assign_ok (shape a1) (shape a2))
    then Ok (mkA (shape a2) (copy_expected a1 a2)) else Err EValue.
Proof.
  intros Hn Hc. unfold copy_fields. destruct (nelem a1 =? nelem a2); [|reflexivity].
  apply copy_loop_outcome; [exact Hn|now apply compat_descr].
Qed.

(* ... in particular the accepted call *)
Lemma copy_model a1 a2 :
  NoDup (names a1) -> compat a1 a2 -> nelem a1 = nelem a2 -> assign_ok (shape a1) (shape a2) = true ->
  copy_fields a1 a2 = Ok (mkA (shape a2) (copy_expected a1 a2)).
Proof. intros Hn Hc He Hs. now rewrite (copy_fields_char a1 a2 Hn Hc), He, Z.eqb_refl, Hs, orb_true_r. Qed.

(* ------------------------------------------------------- further error paths and input forms *)

(* add_fields: a repeated name inside the added descriptor (np.dtype refuses it) and a list of
   defaults of the wrong length are ValueError; the length check comes AFTER the new array has
   been built, so it presupposes an otherwise acceptable request *)
Lemma add_rejects_dup_descr a add dv : ~ NoDup (map dname add) -> add_fields a add dv = Err EValue.
Proof.
  intro H. apply nodup_b_false in H. unfold add_fields. rewrite H. reflexivity.
Qed.

Lemma add_rejects_defaults_length a add dv :
  NoDup (names a) -> NoDup (map dname add) -> ~ add_rejects a add ->
  length (given_vals dv) <> length add -> add_fields a add (Some dv) = Err EValue.
Proof.
  intros Hn Ha Hr Hl. unfold add_fields. rewrite (proj2 (nodup_b_NoDup _) Ha). cbn [negb].
  fold (add_rejects_b a add). rewrite (proj2 (dec_false _ _ (add_rejects_dec a add)) Hr).
  pose proof (add_zero a add Hn Ha Hr) as Z.
  destruct (np_zeros (shape a) (descr a ++ add)) as [z|e]; cbn [bind] in *; [|discriminate].
  rewrite Z. cbn [bind]. rewrite given_vals_unwrap.
  apply Nat.eqb_neq in Hl. rewrite Hl. reflexivity.
Qed.

(* reorder_fields with a REPEATED name that exists (outside the statement, which speaks of
   orderings): the descr gets the field twice and np.zeros refuses it — ValueError *)
Lemma reorder_rejects_repeated a ks strict :
  ~ NoDup (filter (fun n => memb n (names a)) (given ks)) -> reorder_fields a ks strict = Err EValue.
Proof.
  intro H. unfold reorder_fields. rewrite given_wrap, reorder_named_char.
  destruct (strict && negb (forallb (has_descr (descr a)) (given ks))); [reflexivity|]. cbn [bind].
  unfold np_zeros. destruct (nodup_b _) eqn:D; [|reflexivity]. exfalso.
  apply nodup_b_NoDup in D. rewrite map_app in D. apply NoDup_app_iff in D as [D _].
  now rewrite flat_pickd, names_fields, flat_pick_names in D.
Qed.

Lemma split_plain_spec v x : split_plain v None = Ok [v] /\ split_plain v (Some x) = Err EValue.
Proof. split; reflexivity. Qed.
