(* C07 — the boolean checkers of all nine operations, which the correspondence run evaluates,
   decide their Props (sound and complete); on the way split_fields and compare_arrays are put in
   closed form; the scope deciders consulted by Exec.v are sound. *)
From EsVerif.Common Require Import Base Bytes.
From Coq.Strings Require String.
From EsVerif.C07 Require Import Model Spec Proofs.

(* --------------------------------- the five operations that return a new array *)
(* extract_spec, remove_spec, reorder_spec, add_spec and combine_spec are one statement: a request
   in [rej] gives an error, any other gives Ok r with shape [s] and fields [fs]; and their checkers
   are one checker.  [op_spec] and [op_check] unfold to each of them. *)
Definition op_spec (rej : Prop) (s : list Z) (fs : list field) (out : result sarray) : Prop :=
  (rej /\ exists e, out = Err e) \/ (~ rej /\ exists r, out = Ok r /\ shape r = s /\ fields r = fs).
Definition op_check (rb : bool) (s : list Z) (fs : list field) (out : result sarray) : bool :=
  if rb then negb (is_ok out)
  else match out with Ok r => sarray_eqb r (mkA s fs) | Err _ => false end.

Lemma op_check_iff rb rej s fs out :
  (rb = true <-> rej) -> (op_check rb s fs out = true <-> op_spec rej s fs out).
Proof.
  intro D. unfold op_check, op_spec. destruct rb.
  - assert (R : rej) by now apply D. split.
    + intro H. left. split; [exact R|]. destruct out; [discriminate|eauto].
    + intros [[_ [e ->]]|[N _]]; [reflexivity|contradiction].
  - assert (N : ~ rej) by (intro R; apply D in R; discriminate). split.
    + intro H. right. split; [exact N|]. destruct out as [r|e]; [|discriminate].
      apply sarray_eqb_eq in H. subst r. eexists. repeat split.
    + intros [[R _]|[_ [r [-> [Hs Hf]]]]]; [contradiction|]. apply sarray_eqb_eq. now apply eq_mkA.
Qed.

(* what the closed forms of Proofs.v (extract_char, ..., combine_char) say in terms of the specs *)
Lemma op_closed rb rej s fs :
  (rb = true <-> rej) -> op_spec rej s fs (if rb then Err EValue else Ok (mkA s fs)).
Proof.
  intro D. apply (op_check_iff rb _ _ _ _ D). unfold op_check. destruct rb; [reflexivity|].
  now apply sarray_eqb_eq.
Qed.

(* ... and about the error class of a refusal *)
Lemma closed_error {A} (rb : bool) (x : A) e : (if rb then Err EValue else Ok x) = Err e -> e = EValue.
Proof. destruct rb; congruence. Qed.

Lemma extract_check_iff a ks strict out : extract_check a ks strict out = true <-> extract_spec a ks strict out.
Proof. exact (op_check_iff _ _ _ _ _ (extract_rejects_dec a ks strict)). Qed.
Lemma remove_check_iff a ks out : remove_check a ks out = true <-> remove_spec a ks out.
Proof. exact (op_check_iff _ _ _ _ _ (remove_rejects_dec a ks)). Qed.
Lemma reorder_check_iff a ks strict out : reorder_check a ks strict out = true <-> reorder_spec a ks strict out.
Proof. exact (op_check_iff _ _ _ _ _ (reorder_rejects_dec a ks strict)). Qed.
Lemma add_check_iff a add dv out : add_check a add dv out = true <-> add_spec a add dv out.
Proof. exact (op_check_iff _ _ _ _ _ (add_rejects_dec a add)). Qed.
Lemma combine_check_iff arrs out : combine_check arrs out = true <-> combine_spec arrs out.
Proof. exact (op_check_iff _ _ _ _ _ (combine_rejects_dec arrs)). Qed.

(* ------------------------------------------- copy_fields, copy_fields_by_name *)
Lemma copy_check_sound a1 a2 out :
  copy_check a1 a2 out = true -> exists r, out = Ok r /\ copy_ok a1 a2 r.
Proof.
  unfold copy_check. destruct out as [r|e]; [|discriminate]. intro H. apply sarray_eqb_eq in H. subst r.
  eexists. split; [reflexivity|]. now apply copy_expected_ok.
Qed.

Lemma copy_check_complete a1 a2 out :
  NoDup (names a2) -> (exists r, out = Ok r /\ copy_ok a1 a2 r) -> copy_check a1 a2 out = true.
Proof. intros Hn [r [-> H]]. apply sarray_eqb_eq. now apply copy_ok_unique. Qed.

Lemma cfbn_check_sound a ns vs out :
  NoDup ns -> length ns = length vs ->
  cfbn_check a ns vs out = true -> exists r, out = Ok r /\ cfbn_ok a ns vs r.
Proof.
  intros Hk Hl. unfold cfbn_check. destruct out as [r|e]; [|discriminate]. intro H.
  apply sarray_eqb_eq in H. subst r. eexists. split; [reflexivity|]. now apply cfbn_expected_ok.
Qed.

Lemma cfbn_check_complete a ns vs out :
  NoDup (names a) -> length ns = length vs ->
  (exists r, out = Ok r /\ cfbn_ok a ns vs r) -> cfbn_check a ns vs out = true.
Proof. intros Hn Hl [r [-> H]]. apply sarray_eqb_eq. now apply cfbn_ok_unique. Qed.

(* ------------------------------------------------------------------ split *)
Lemma pick_found a n f : find_field n (fields a) = Some f -> pick a n = [f].
Proof. intro E. unfold pick. now rewrite E. Qed.
Lemma pick_missing a n : find_field n (fields a) = None -> pick a n = [].
Proof. intro E. unfold pick. now rewrite E. Qed.

Lemma split_loop_char a fl :
  split_loop a fl
  = if forallb (fun n => memb n (names a)) fl
    then Ok (map (view_of a) (flat_map (pick a) fl)) else Err EValue.
Proof.
  induction fl as [|n t IH]; simpl; [reflexivity|]. rewrite memb_names.
  destruct (find_field n (fields a)) as [f|] eqn:E; [|reflexivity].
  rewrite IH, (pick_found _ _ _ E). simpl.
  destruct (forallb (fun n0 => memb n0 (names a)) t); reflexivity.
Qed.

Lemma split_rejects_dec a fl : split_rejects_b a fl = true <-> split_rejects a fl.
Proof. unfold split_rejects_b, split_rejects. now rewrite negb_true_iff, forallb_memb_false. Qed.

Lemma split_views_ok a fl :
  split_rejects_b a fl = false -> split_ok a fl (map (view_of a) (flat_map (pick a) fl)).
Proof.
  unfold split_rejects_b, split_ok. rewrite negb_false_iff, forallb_memb.
  induction fl as [|n t IH]; simpl; intro H; [constructor|].
  destruct (find_field_In_names _ _ (H n (or_introl eq_refl))) as [f Ef].
  rewrite (pick_found _ _ _ Ef). simpl. constructor.
  - exists f. destruct (find_field_Some _ _ _ Ef). auto.
  - apply IH. intros m Hm. apply H. now right.
Qed.

(* with distinct field names the views are determined by the requested names *)
Lemma split_ok_unique a fl vs :
  NoDup (names a) -> split_ok a fl vs -> vs = map (view_of a) (flat_map (pick a) fl).
Proof.
  intros Hn H. unfold split_ok in H. induction H as [|n v t tv [f [Hi [Hf ->]]] _ IH]; [reflexivity|].
  cbn [flat_map]. rewrite map_app, <- IH.
  rewrite <- Hf, (pick_found a (fname f) f (find_field_NoDup _ _ Hn Hi)). reflexivity.
Qed.

Lemma split_closed_spec a fl :
  split_spec a fl
    (if split_rejects_b a fl then Err EValue
     else Ok (map (view_of a) (flat_map (pick a) fl), fl)).
Proof.
  destruct (split_rejects_b a fl) eqn:R.
  - left. split; [now apply split_rejects_dec|eauto].
  - right. split; [now apply (dec_false _ _ (split_rejects_dec a fl))|].
    eexists. split; [reflexivity|now apply split_views_ok].
Qed.

Lemma split_check_sound a fl out : split_check a fl out = true -> split_spec a fl out.
Proof.
  pose proof (split_closed_spec a fl) as C. unfold split_check.
  destruct (split_rejects_b a fl); intro H.
  - destruct C as [[R _]|[_ [vs [[=] _]]]]. left. split; [exact R|]. destruct out; [discriminate|eauto].
  - destruct out as [[vs nm]|e]; [|discriminate]. apply andb_true_iff in H as [H1 H2].
    apply slist_eqb_eq in H1. apply (list_eqb_spec fview_eqb fview_eqb_eq) in H2. now subst.
Qed.

Lemma split_check_complete a fl out :
  NoDup (names a) -> split_spec a fl out -> split_check a fl out = true.
Proof.
  intro Hn. unfold split_check. intros [[R [e ->]]|[R [vs [-> Hok]]]].
  - apply split_rejects_dec in R. rewrite R. reflexivity.
  - apply (dec_false _ _ (split_rejects_dec a fl)) in R. rewrite R.
    rewrite (split_ok_unique a fl vs Hn Hok). apply andb_true_iff. split.
    + now apply slist_eqb_eq.
    + now apply (list_eqb_spec fview_eqb fview_eqb_eq).
Qed.

Definition requested (a : sarray) (flds : option names_arg) : list string :=
  match flds with None => names a | Some x => given x end.

Lemma split_char a flds :
  split_fields a flds
  = if split_rejects_b a (requested a flds) then Err EValue
    else Ok (map (view_of a) (flat_map (pick a) (requested a flds)), requested a flds).
Proof.
  unfold split_fields, split_rejects_b.
  assert (E : split_names a flds = requested a flds).
  { destruct flds as [x|]; simpl; [apply given_wrap|reflexivity]. }
  rewrite E, split_loop_char.
  destruct (forallb (fun n => memb n (names a)) (requested a flds)); reflexivity.
Qed.

(* --------------------------------------------------------- compare_arrays *)
Lemma fval_ne_eq x y : fval_ne x y = false <-> fval_eq x y.
Proof.
  destruct x as [|x], y as [|y]; simpl; try (split; [discriminate|tauto]).
  now rewrite negb_false_iff, Z.eqb_eq.
Qed.
Lemma value_ne_eq x y : value_ne x y = false <-> value_eq x y.
Proof.
  destruct x, y; simpl; try (split; [discriminate|tauto]).
  - now rewrite negb_false_iff, Z.eqb_eq.
  - apply fval_ne_eq.
  - now rewrite orb_false_iff, !fval_ne_eq.
  - now rewrite negb_false_iff, zlist_eqb_spec.
Qed.
(* value_eqb is the negation of value_ne, so all_eq is the negation of any_ne *)
Lemma value_eqb_ne x y : value_eqb x y = negb (value_ne x y).
Proof.
  assert (F : forall u v, fval_eqb u v = negb (fval_ne u v)).
  { intros [|u] [|v]; simpl; try reflexivity. now rewrite negb_involutive. }
  destruct x, y; simpl; try reflexivity; rewrite ?negb_involutive, ?F, ?negb_orb; reflexivity.
Qed.
Lemma all_eq_any_ne l1 l2 : all_eq l1 l2 = negb (any_ne l1 l2).
Proof.
  revert l2. induction l1 as [|x t IH]; intros [|y t2]; simpl; try reflexivity.
  now rewrite value_eqb_ne, IH, negb_orb.
Qed.
Lemma any_ne_Forall2 l1 l2 : any_ne l1 l2 = false <-> Forall2 value_eq l1 l2.
Proof.
  revert l2. induction l1 as [|x t IH]; intros [|y t2]; simpl.
  - split; [constructor|reflexivity].
  - split; [discriminate|intro H; inversion H].
  - split; [discriminate|intro H; inversion H].
  - rewrite orb_false_iff, value_ne_eq, IH. split.
    + intros [H1 H2]. now constructor.
    + intro H. inversion H; auto.
Qed.

(* what compare_true asks of one field of a1, as a Prop and as the boolean compare_true_b evaluates *)
Definition field_ok (a1 a2 : sarray) (f1 : field) : Prop :=
  forall f2, find_field (fname f1) (fields a2) = Some f2 ->
    shape a1 ++ dsub (fdesc f1) = shape a2 ++ dsub (fdesc f2)
    /\ Forall2 value_eq (field_values f1) (field_values f2).
Definition field_b (a1 a2 : sarray) (f1 : field) : bool :=
  match find_field (fname f1) (fields a2) with
  | None => true
  | Some f2 => zlist_eqb (shape a1 ++ dsub (fdesc f1)) (shape a2 ++ dsub (fdesc f2))
               && all_eq (field_values f1) (field_values f2)
  end.

Lemma field_b_ok a1 a2 f1 : field_b a1 a2 f1 = true <-> field_ok a1 a2 f1.
Proof.
  unfold field_b, field_ok. destruct (find_field (fname f1) (fields a2)) as [f2|].
  - rewrite andb_true_iff, zlist_eqb_spec, all_eq_any_ne, negb_true_iff, any_ne_Forall2. split.
    + intros H f2' [= <-]. exact H.
    + intro H. now apply H.
  - split; [discriminate|reflexivity].
Qed.

Lemma fields_match_iff a1 a2 :
  NoDup (names a1) -> (fields_match a1 a2 <-> forall f, In f (fields a1) -> field_ok a1 a2 f).
Proof.
  intro Hn. unfold fields_match, field_ok. split.
  - intros H f Hf f2 E2. apply (H (fname f) f f2); [now apply find_field_NoDup|assumption].
  - intros H n f1 f2 E1 E2. destruct (find_field_Some _ _ _ E1) as [Hi <-]. now apply H.
Qed.

Lemma compare_true_dec a1 a2 im :
  NoDup (names a1) -> (compare_true_b a1 a2 im = true <-> compare_true a1 a2 im).
Proof.
  intro Hn. unfold compare_true, same_names. rewrite (fields_match_iff a1 a2 Hn).
  change (compare_true_b a1 a2 im)
    with (forallb (field_b a1 a2) (fields a1)
          && (im || (forallb (fun n => memb n (names a2)) (names a1)
                     && forallb (fun n => memb n (names a1)) (names a2)))).
  rewrite andb_true_iff, orb_true_iff, andb_true_iff, forallb_forall, !forallb_memb.
  split; intros [H1 H2]; (split; [intros f Hf; apply field_b_ok; now apply H1|]).
  - intros -> n. destruct H2 as [H2|[H2 H3]]; [discriminate|]. split; auto.
  - destruct im; [now left|right]. split; intro n; now apply H2.
Qed.

(* the value of an item does not depend on the byte order it is stored in *)
Lemma decode_byte_order k n item :
  (k = KInt \/ k = KUInt \/ k = KFloat) ->
  decode (mkT LE k n) (rev item) = decode (mkT BE k n) item.
Proof.
  intros [H|[H|H]]; subst k; unfold decode; simpl; now rewrite rev_involutive.
Qed.

(* compare_arrays computes that boolean, provided the common fields are comparable *)
Lemma zlist_eqb_sym l1 l2 : zlist_eqb l1 l2 = zlist_eqb l2 l1.
Proof.
  destruct (zlist_eqb l2 l1) eqn:E.
  - apply zlist_eqb_spec. symmetry. now apply zlist_eqb_spec.
  - apply (dec_false _ _ (zlist_eqb_spec l1 l2)). intro H. apply (dec_false _ _ (zlist_eqb_spec l2 l1)) in E. auto.
Qed.

Lemma compare_field_b a1 a2 f1 :
  (forall f2, find_field (fname f1) (fields a2) = Some f2 ->
     shape a1 ++ dsub (fdesc f1) = shape a2 ++ dsub (fdesc f2) ->
     cmp_ok (dtype (fdesc f1)) (dtype (fdesc f2)) = true) ->
  compare_field a1 a2 f1 = Ok (if field_b a1 a2 f1 then 0 else 1).
Proof.
  intro Hc. unfold compare_field, field_b.
  destruct (find_field (fname f1) (fields a2)) as [f2|] eqn:E; [|reflexivity].
  rewrite (zlist_eqb_sym (shape a2 ++ dsub (fdesc f2))).
  destruct (zlist_eqb (shape a1 ++ dsub (fdesc f1)) (shape a2 ++ dsub (fdesc f2))) eqn:S; [|reflexivity].
  apply zlist_eqb_spec in S. simpl. rewrite (Hc f2 eq_refl S), all_eq_any_ne. simpl.
  now destruct (any_ne (field_values f1) (field_values f2)).
Qed.

Lemma compare_loop_b a1 a2 fs :
  (forall f, In f fs -> compare_field a1 a2 f = Ok (if field_b a1 a2 f then 0 else 1)) ->
  exists n, compare_loop a1 a2 fs = Ok n /\ 0 <= n /\ (n =? 0) = forallb (field_b a1 a2) fs.
Proof.
  induction fs as [|f t IH]; intro Hc; [exists 0; auto with zarith|].
  destruct IH as [r [Er [Hr Br]]]; [intros g Hg; apply Hc; now right|].
  simpl. rewrite (Hc f (or_introl eq_refl)), Er. simpl. eexists. split; [reflexivity|].
  rewrite <- Br. destruct (field_b a1 a2 f); cbn [andb].
  - rewrite Z.add_0_l. split; [lia|reflexivity].
  - split; [lia|]. apply Z.eqb_neq. lia.
Qed.

Lemma count_missing_b l1 l2 :
  0 <= count_missing l1 l2 /\ (count_missing l1 l2 =? 0) = forallb (fun n => memb n l2) l1.
Proof.
  unfold count_missing. split; [apply len_nonneg|].
  induction l1 as [|x t IH]; [reflexivity|]. simpl. now destruct (memb x l2).
Qed.

Lemma compare_arrays_char a1 a2 im :
  NoDup (names a1) -> comparable a1 a2 -> compare_arrays a1 a2 im = Ok (compare_true_b a1 a2 im).
Proof.
  intros Hn Hc. unfold compare_arrays.
  destruct (compare_loop_b a1 a2 (fields a1)) as [nf [En [Hnf Bn]]].
  { intros f Hf. apply compare_field_b. intros f2 E2. apply (Hc (fname f)); [now apply find_field_NoDup|exact E2]. }
  rewrite En. simpl. f_equal.
  change (compare_true_b a1 a2 im)
    with (forallb (field_b a1 a2) (fields a1)
          && (im || (forallb (fun n => memb n (names a2)) (names a1)
                     && forallb (fun n => memb n (names a1)) (names a2)))).
  destruct (count_missing_b (names a1) (names a2)) as [P1 Q1].
  destruct (count_missing_b (names a2) (names a1)) as [P2 Q2].
  rewrite <- Bn, <- Q1, <- Q2. destruct im; [now rewrite andb_true_r|]. simpl.
  destruct (Z.eqb_spec nf 0), (Z.eqb_spec (count_missing (names a1) (names a2)) 0),
           (Z.eqb_spec (count_missing (names a2) (names a1)) 0); simpl;
    (apply Z.eqb_eq; lia) || (apply Z.eqb_neq; lia).
Qed.

Lemma compare_model a1 a2 im :
  NoDup (names a1) -> comparable a1 a2 ->
  exists b, compare_arrays a1 a2 im = Ok b /\ (b = true <-> compare_true a1 a2 im).
Proof.
  intros Hn Hc. exists (compare_true_b a1 a2 im).
  split; [now apply compare_arrays_char|now apply compare_true_dec].
Qed.

Lemma compare_complete a1 a2 im :
  NoDup (names a1) -> comparable a1 a2 ->
  compare_true a1 a2 im -> compare_arrays a1 a2 im = Ok true.
Proof.
  intros Hn Hc H. destruct (compare_model a1 a2 im Hn Hc) as [b [E I]].
  apply I in H. now subst b.
Qed.

(* what "values equal" means for the kinds whose items are not floats: the decoded items are
   identical (integers, booleans, NUL-stripped strings) *)
Lemma value_eq_nonfloat x y :
  value_eq x y -> match x with VInt _ | VStr _ => x = y | _ => True end.
Proof. destruct x, y; simpl; intro H; try exact I; try contradiction; now subst. Qed.

Lemma compare_check_iff a1 a2 im out :
  NoDup (names a1) ->
  (compare_check a1 a2 im out = true <-> exists b, out = Ok b /\ (b = true <-> compare_true a1 a2 im)).
Proof.
  intro Hn. unfold compare_check. pose proof (compare_true_dec a1 a2 im Hn) as D.
  destruct out as [b|e]; [|split; [discriminate|intros [b [[=] _]]]].
  split.
  - intro H. apply Bool.eqb_prop in H. exists b. split; [reflexivity|]. now rewrite H.
  - intros [b' [[= <-] [H1 H2]]]. rewrite <- D in H1, H2.
    destruct b, (compare_true_b a1 a2 im); try reflexivity;
      [discriminate (H1 eq_refl)|discriminate (H2 eq_refl)].
Qed.

(* -------------------------------------------- scope deciders used by Exec *)
Lemma comparable_sound a1 a2 : comparable_b a1 a2 = true -> comparable a1 a2.
Proof.
  unfold comparable_b, comparable. rewrite forallb_forall. intros H n f1 f2 E1 E2 S.
  destruct (find_field_Some _ _ _ E1) as [Hi En]. specialize (H f1 Hi). rewrite En, E2 in H.
  apply orb_true_iff in H as [H|H]; [|assumption].
  apply negb_true_iff in H. apply zlist_eqb_spec in S. congruence.
Qed.

Lemma compat_sound a1 a2 : compat_b a1 a2 = true -> compat a1 a2.
Proof.
  unfold compat_b, compat. rewrite forallb_forall. intros H f g Hf Hg E.
  specialize (H f Hf). rewrite forallb_forall in H. specialize (H g Hg).
  apply orb_true_iff in H as [H|H]; [|assumption].
  apply negb_true_iff, String.eqb_neq in H. contradiction.
Qed.

Lemma dval_ok_sound n d v : dval_ok_b n d v = true -> dval_ok n d v.
Proof.
  destruct v as [item|cell|cells]; simpl; intro H; try now apply Z.eqb_eq.
  apply andb_true_iff in H as [H1 H2]. split; [now apply Z.eqb_eq|].
  apply (forallb_Forall _ _ _ (fun c => proj1 (Z.eqb_eq _ _)) H2).
Qed.

Lemma defaults_ok_sound n add dv : defaults_ok_b n add dv = true -> defaults_ok n add dv.
Proof.
  destruct dv as [vs|]; simpl; [|auto]. intro H. apply andb_true_iff in H as [H1 H2].
  split; [now apply Nat.eqb_eq|]. apply (forallb_Forall _ _ _ (fun p => dval_ok_sound n (fst p) (snd p)) H2).
Qed.

Lemma cfbn_scope_sound a ns vs : cfbn_scope_b a ns vs = true -> cfbn_scope a ns vs.
Proof.
  unfold cfbn_scope_b, cfbn_scope. rewrite !andb_true_iff. intros [[[H1 H2] H3] H4].
  apply nodup_b_NoDup in H1, H2. apply Nat.eqb_eq in H3.
  split; [assumption|]. split; [assumption|]. split; [assumption|].
  intros n v g Hi Hg. rewrite forallb_forall in H4.
  destruct (find_field_Some _ _ _ Hg) as [Hgi Hgn]. specialize (H4 g Hgi). rewrite Hgn in H4.
  rewrite (assoc_In n v) in H4; [now apply dval_ok_sound| |assumption]. now rewrite map_fst_combine.
Qed.

Lemma wf_sound a : wf_b a = true -> wf a.
Proof.
  unfold wf_b, wf. rewrite !andb_true_iff. intros [[[H1 H2] H3] H4].
  split; [|split; [|split]].
  - apply (forallb_Forall _ _ _ (fun x => proj1 (Z.leb_le 0 x)) H1).
  - now apply nodup_b_NoDup.
  - destruct (fields a); [discriminate|congruence].
  - revert H4. apply forallb_Forall. intros f H5.
    unfold wf_field_b in H5. apply andb_true_iff in H5 as [H5 H6]. split; [now apply Z.eqb_eq|].
    apply (forallb_Forall _ _ _ (fun c => proj1 (Z.eqb_eq _ _)) H6).
Qed.
