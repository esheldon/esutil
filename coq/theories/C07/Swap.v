(* C07 — copy_fields between fields of the same name whose element types differ ONLY in byte
   order ('<f8' into '>f8'): numpy converts item by item, i.e. reverses the bytes of every item
   (of each half of a complex item, of each code point of a unicode item).  Model.copy_fields
   leaves this path out (Err EOther); copy_fields_sw extends it by it, conservatively. *)
From EsVerif.Common Require Import Base Bytes.
From Coq.Strings Require Import Byte.
From Coq.Strings Require String.
From EsVerif.C07 Require Import Model Spec Proofs CmpProofs.

(* same kind, width and sub-array shape; orders '<' and '>' in some order *)
Definition swap_type (d1 d2 : dentry) : bool :=
  kind_eqb (fkind (dtype d1)) (fkind (dtype d2)) && (fnum (dtype d1) =? fnum (dtype d2))
  && zlist_eqb (dsub d1) (dsub d2)
  && match ford (dtype d1), ford (dtype d2) with LE, BE | BE, LE => true | _, _ => false end.
Definition swap_unit (t : ftype) : Z :=
  match fkind t with KComplex => fnum t / 2 | KUnicode => 4 | _ => fnum t end.
Definition swap_cell (t : ftype) (cell : list byte) : list byte :=
  concat (map (@rev byte) (chunks (swap_unit t) cell)).

(* what field g of the destination receives from field f of the source *)
Definition conv_data (f g : field) : list (list byte) :=
  if same_type (fdesc f) (fdesc g) then fdata f else map (swap_cell (dtype (fdesc f))) (fdata f).

Definition assign_field_sw (a2 : sarray) (src_shape : list Z) (f : field) : result sarray :=
  match find_field (fname f) (fields a2) with
  | None => Err EValue
  | Some g =>
    if same_type (fdesc f) (fdesc g) || swap_type (fdesc f) (fdesc g)
    then if assign_ok src_shape (shape a2)
         then Ok (mkA (shape a2) (put_field (fname f) (conv_data f g) (fields a2)))
         else Err EValue
    else Err EOther                   (* any other pair of types: numpy casts, not modelled *)
  end.
Fixpoint copy_loop_sw (src_shape : list Z) (fs1 : list field) (a2 : sarray) : result sarray :=
  match fs1 with
  | [] => Ok a2
  | f :: t =>
    if memb (fname f) (names a2)
    then do a2' <- assign_field_sw a2 src_shape f; copy_loop_sw src_shape t a2'
    else copy_loop_sw src_shape t a2
  end.
Definition copy_fields_sw (a1 a2 : sarray) : result sarray :=
  if nelem a1 =? nelem a2 then copy_loop_sw (shape a1) (fields a1) a2 else Err EValue.

(* scope: common fields have the same type up to byte order *)
Definition compat_sw (a1 a2 : sarray) : Prop :=
  forall f g, In f (fields a1) -> In g (fields a2) -> fname f = fname g ->
    same_type (fdesc f) (fdesc g) || swap_type (fdesc f) (fdesc g) = true.
Definition compat_sw_b (a1 a2 : sarray) : bool :=
  forallb (fun f => forallb (fun g => negb (String.eqb (fname f) (fname g))
                                      || same_type (fdesc f) (fdesc g) || swap_type (fdesc f) (fdesc g)) (fields a2)) (fields a1).

Definition upd_sw (fs1 : list field) (g : field) : field :=
  match find_field (fname g) fs1 with Some f => set_data g (conv_data f g) | None => g end.
Definition copy_expected_sw (a1 a2 : sarray) : list field := map (upd_sw (fields a1)) (fields a2).

(* ------------------------------------------------------------------ lemmas *)
(* 1. conservative: on the old scope the extension IS Model.copy_fields *)
Lemma copy_loop_sw_eq s : forall fs1 a2,
  (forall f d, In f fs1 -> In d (descr a2) -> fname f = dname d -> same_type (fdesc f) d = true) ->
  copy_loop_sw s fs1 a2 = copy_loop s fs1 a2.
Proof.
  induction fs1 as [|f t IH]; intros a2 Hc; [reflexivity|]. cbn [copy_loop_sw copy_loop].
  destruct (memb (fname f) (names a2)) eqn:M.
  - apply memb_In in M. destruct (find_field_In_names _ _ M) as [g Hg].
    destruct (find_field_Some _ _ _ Hg) as [Hgi Hgn].
    assert (ST : same_type (fdesc f) (fdesc g) = true).
    { apply Hc; [now left|unfold descr; now apply in_map|symmetry; exact Hgn]. }
    unfold assign_field_sw, assign_field, conv_data. rewrite Hg, ST. cbn [orb negb].
    destruct (assign_ok s (shape a2)); [|reflexivity]. cbn [bind]. apply IH.
    intros f' d Hf' Hd En. apply Hc; [now right| |assumption].
    unfold descr in *. cbn [fields] in Hd. now rewrite put_field_descr in Hd.
  - apply IH. intros f' d Hf' Hd En. apply Hc; [now right|assumption|assumption].
Qed.

(* 2. the accepted call on the wider scope *)
Lemma conv_data_desc f g g' : fdesc g = fdesc g' -> conv_data f g = conv_data f g'.
Proof. unfold conv_data. now intros ->. Qed.

Lemma upd_sw_desc_only t g g' : fname g = fname g' -> fdesc g = fdesc g' -> fdata g = fdata g' -> upd_sw t g = upd_sw t g'.
Proof. intros. destruct g, g'. cbn in *. now subst. Qed.

(* what a field of descr d receives from f: conv_data seen from the destination's descr *)
Definition conv_to (f : field) (d : dentry) : list (list byte) :=
  if same_type (fdesc f) d then fdata f else map (swap_cell (dtype (fdesc f))) (fdata f).

(* copy_loop_sw is the loop of Proofs.v at assign_field_sw, and upd_sw its update function *)
Lemma copy_loop_sw_by : copy_loop_sw = copy_loop_by assign_field_sw.
Proof. reflexivity. Qed.
Lemma upd_sw_by : upd_sw = upd_by conv_to.
Proof. reflexivity. Qed.

(* what a field receives depends on its own type, so the destination's names must be distinct *)
Lemma copy_loop_sw_char : forall s fs1 a2,
  NoDup (map fname fs1) -> NoDup (names a2) ->
  (forall f g, In f fs1 -> In g (fields a2) -> fname f = fname g ->
     same_type (fdesc f) (fdesc g) || swap_type (fdesc f) (fdesc g) = true) ->
  assign_ok s (shape a2) = true ->
  copy_loop_sw s fs1 a2 = Ok (mkA (shape a2) (map (upd_sw fs1) (fields a2))).
Proof.
  intros s fs1 a2 Hnd Hn2 Hc Hs. rewrite copy_loop_sw_by, upd_sw_by.
  rewrite (copy_loop_by_outcome (fun d1 d2 => same_type d1 d2 || swap_type d1 d2) conv_to);
    [now rewrite Hs, orb_true_r| |exact Hnd| |].
  - intros a s' f g Hg Ht. unfold assign_field_sw. now rewrite Hg, Ht.
  - intros f d Hf Hd E. apply in_map_iff in Hd as [g [<- Hg]]. now apply Hc.
  - intros f d d' Hf Hd Hd' E. apply in_map_iff in Hd as [g [<- Hg]]. apply in_map_iff in Hd' as [g' [<- Hg']].
    now rewrite (field_unique _ g g' Hn2 Hg Hg' E).
Qed.

Lemma copy_sw_model a1 a2 :
  NoDup (names a1) -> NoDup (names a2) -> compat_sw a1 a2 -> nelem a1 = nelem a2 ->
  assign_ok (shape a1) (shape a2) = true ->
  copy_fields_sw a1 a2 = Ok (mkA (shape a2) (copy_expected_sw a1 a2)).
Proof.
  intros H1 H2 Hc He Hs. unfold copy_fields_sw. rewrite He, Z.eqb_refl.
  now apply copy_loop_sw_char.
Qed.

(* 3. what the destination holds afterwards (frame + content), in the style of copy_ok *)
Definition copy_ok_sw (a1 a2 r : sarray) : Prop :=
  shape r = shape a2 /\ descr r = descr a2
  /\ (forall n f1 g, find_field n (fields a1) = Some f1 -> find_field n (fields a2) = Some g ->
        find_field n (fields r) = Some (mkF (fdesc g) (conv_data f1 g)))
  /\ (forall n, ~ In n (names a1) -> find_field n (fields r) = find_field n (fields a2)).
Definition copy_check_sw (a1 a2 : sarray) (out : result sarray) : bool :=
  match out with
  | Ok r => sarray_eqb r (mkA (shape a2) (copy_expected_sw a1 a2))
  | Err _ => false
  end.

(* copy_ok_sw is Proofs.copy_ok_by at conv_to *)
Lemma copy_expected_sw_ok a1 a2 r :
  shape r = shape a2 -> fields r = copy_expected_sw a1 a2 -> copy_ok_sw a1 a2 r.
Proof. exact (copy_ok_by_expected conv_to a1 a2 r). Qed.

Lemma copy_ok_sw_unique a1 a2 r :
  NoDup (names a2) -> copy_ok_sw a1 a2 r -> r = mkA (shape a2) (copy_expected_sw a1 a2).
Proof. exact (copy_ok_by_unique conv_to a1 a2 r). Qed.

Lemma copy_check_sw_sound a1 a2 out :
  copy_check_sw a1 a2 out = true -> exists r, out = Ok r /\ copy_ok_sw a1 a2 r.
Proof.
  unfold copy_check_sw. destruct out as [r|e]; [|discriminate]. intro H. apply sarray_eqb_eq in H. subst r.
  eexists. split; [reflexivity|]. now apply copy_expected_sw_ok.
Qed.

Lemma compat_sw_sound a1 a2 : compat_sw_b a1 a2 = true -> compat_sw a1 a2.
Proof.
  unfold compat_sw_b, compat_sw. rewrite forallb_forall. intros H f g Hf Hg E.
  specialize (H f Hf). rewrite forallb_forall in H. specialize (H g Hg).
  rewrite E, String.eqb_refl in H. cbn [negb orb] in H. exact H.
Qed.

(* 4. the conversion preserves every VALUE (integers and floats; NaNs stay NaN, -0.0 stays 0.0):
   the decoded items of what the destination receives are those of the source field *)
Lemma chunks_f_whole fuel k : forall (l : list byte) m,
  length l = (k * m)%nat -> Forall (fun c => length c = k) (chunks_f fuel k l).
Proof.
  induction fuel as [|f IH]; intros l m Hl; [constructor|]. cbn [chunks_f].
  destruct l as [|b t] eqn:El; [constructor|]. rewrite <- El in *.
  destruct m as [|m]; [rewrite Nat.mul_0_r, El in Hl; discriminate|]. rewrite Nat.mul_succ_r in Hl.
  constructor; [rewrite firstn_length; lia|]. apply (IH _ m). rewrite skipn_length. lia.
Qed.

Lemma chunks_f_concat : forall (l : list (list byte)) fuel k,
  (0 < k)%nat -> Forall (fun c => length c = k) l -> (length l <= fuel)%nat ->
  chunks_f fuel k (concat l) = l.
Proof.
  induction l as [|c t IH]; intros fuel k Hk Hf Hl.
  - destruct fuel; reflexivity.
  - inversion Hf as [|x y Hc Ht]; subst. destruct fuel as [|f]; [cbn in Hl; lia|]. cbn [concat chunks_f].
    destruct (c ++ concat t) as [|b r] eqn:E.
    { destruct c; [cbn in Hk; lia|discriminate]. }
    rewrite <- E. rewrite firstn_app, Nat.sub_diag, firstn_all, firstn_O, app_nil_r.
    rewrite skipn_app, Nat.sub_diag, skipn_all, skipn_O. cbn [app].
    f_equal. apply IH; [assumption|assumption|cbn in Hl; lia].
Qed.

Lemma chunks_count (l : list (list byte)) k :
  (0 < k)%nat -> Forall (fun c => length c = k) l -> (length l <= length (concat l))%nat.
Proof. intros Hk F. induction F as [|c t Hc Ft IH]; [cbn; lia|]. cbn [length concat]. rewrite app_length. lia. Qed.

Definition whole_items (k : Z) (cell : list byte) : Prop := exists m, length cell = (Z.to_nat k * m)%nat.

Lemma chunks_swapped k cell :
  0 < k -> whole_items k cell ->
  chunks k (concat (map (@rev byte) (chunks k cell))) = map (@rev byte) (chunks k cell).
Proof.
  intros Hk [m Hm]. unfold chunks at 1.
  assert (K : (0 < Z.to_nat k)%nat) by lia.
  assert (F : Forall (fun c => length c = Z.to_nat k) (map (@rev byte) (chunks k cell))).
  { apply Forall_forall. intros c Hc. apply in_map_iff in Hc as [c0 [<- Hc0]]. rewrite rev_length.
    pose proof (chunks_f_whole (length cell) _ cell m Hm) as W. rewrite Forall_forall in W. now apply W. }
  apply chunks_f_concat; [exact K|exact F|now apply (chunks_count _ _ K)].
Qed.

Lemma decode_swap t1 t2 item :
  kind_eqb (fkind t1) (fkind t2) = true -> fnum t1 = fnum t2 ->
  (fkind t1 = KInt \/ fkind t1 = KUInt \/ fkind t1 = KFloat) ->
  match ford t1, ford t2 with LE, BE | BE, LE => true | _, _ => false end = true ->
  decode t2 (rev item) = decode t1 item.
Proof.
  destruct t1 as [o1 k1 n1], t2 as [o2 k2 n2]. cbn [fkind fnum ford]. intros Hk Hn Hs Ho.
  apply kind_eqb_eq in Hk. subst k2 n2.
  destruct o1, o2; try discriminate.
  - (* LE -> BE *) rewrite <- (decode_byte_order k1 n1 (rev item) Hs). now rewrite rev_involutive.
  - (* BE -> LE *) apply decode_byte_order. exact Hs.
Qed.

Lemma conv_values f g :
  same_type (fdesc f) (fdesc g) || swap_type (fdesc f) (fdesc g) = true ->
  (fkind (dtype (fdesc f)) = KInt \/ fkind (dtype (fdesc f)) = KUInt \/ fkind (dtype (fdesc f)) = KFloat) ->
  0 < fnum (dtype (fdesc f)) ->
  Forall (whole_items (fnum (dtype (fdesc f)))) (fdata f) ->
  field_values (mkF (fdesc g) (conv_data f g)) = field_values f.
Proof.
  intros Hc Hk Hn Hw. unfold conv_data. destruct (same_type (fdesc f) (fdesc g)) eqn:ST.
  - unfold same_type in ST. apply andb_true_iff in ST as [T _]. apply ftype_eqb_eq in T.
    unfold field_values. cbn [fdesc fdata]. now rewrite <- T.
  - cbn [orb] in Hc. unfold swap_type in Hc. rewrite !andb_true_iff in Hc. destruct Hc as [[[K N] _] O].
    apply Z.eqb_eq in N.
    set (t1 := dtype (fdesc f)) in *. set (t2 := dtype (fdesc g)) in *.
    assert (I1 : itemsize t1 = fnum t1) by (unfold itemsize; destruct Hk as [H|[H|H]]; now rewrite H).
    assert (K2 : fkind t2 = fkind t1) by (symmetry; now apply kind_eqb_eq).
    assert (I2 : itemsize t2 = fnum t1) by (unfold itemsize; rewrite K2, <- N; destruct Hk as [H|[H|H]]; now rewrite H).
    assert (U : swap_unit t1 = fnum t1) by (unfold swap_unit; destruct Hk as [H|[H|H]]; now rewrite H).
    unfold field_values. cbn [fdesc fdata]. fold t1 t2. rewrite I1, I2.
    induction Hw as [|cell rest Hcell Hrest IH]; [reflexivity|]. cbn [map flat_map]. rewrite IH. f_equal.
    unfold swap_cell. rewrite U, (chunks_swapped _ _ Hn Hcell), map_map.
    apply map_ext. intro item. now apply decode_swap.
Qed.
