(* C07 — compare_arrays with its verbose=True reporting (numpy_util.py:1009-1106 including every
   stdout.write): the report as a list of events, the verdict next to it.  Definitions first. *)
From EsVerif.Common Require Import Base Bytes.
From Coq.Strings Require String.
From EsVerif.C07 Require Import Model.

Inductive event :=
| ENames                        (* "    Matching names........" *)
| EOnly1 (n : string)           (* "\n        Field '%s' found only in array1" *)
| EOnly2 (n : string)           (* "\n        Field '%s' found only in array2" *)
| ENamesOK                      (* "OK" (no name differs) *)
| ENoNameCheck                  (* "    Not checking that all fields names match\n" *)
| EField (n : string)           (* "    testing field: '%s'\n" "        shape..........." *)
| EShapeDiff                    (* "shapes differ\n" *)
| EShapeOK                      (* "OK\n" "        elements........" *)
| EElemDiff (k : Z) (n : string)   (* "\n        %s elements in field '%s' differ\n" *)
| EElemOK                       (* "OK\n" *)
| EPassed                       (* "All tests passed\n" *)
| EDiffs (k : Z).               (* "%d differences found\n" *)

(* w.size: the number of differing items (a length mismatch, impossible for equal shapes of
   well-formed arrays, counts once — as in any_ne) *)
Fixpoint count_ne (l1 l2 : list value) : Z :=
  match l1, l2 with
  | [], [] => 0
  | x :: t1, y :: t2 => (if value_ne x y then 1 else 0) + count_ne t1 t2
  | _, _ => 1
  end.

Definition compare_field_v (a1 a2 : sarray) (f1 : field) : result (Z * list event) :=
  match find_field (fname f1) (fields a2) with
  | None => Ok (0, [])
  | Some f2 =>
    if negb (zlist_eqb (shape a2 ++ dsub (fdesc f2)) (shape a1 ++ dsub (fdesc f1)))
    then Ok (1, [EField (fname f1); EShapeDiff])
    else if negb (cmp_ok (dtype (fdesc f1)) (dtype (fdesc f2))) then Err EOther
    else let k := count_ne (field_values f1) (field_values f2) in
         if k >? 0 then Ok (1, [EField (fname f1); EShapeOK; EElemDiff k (fname f1)])
         else Ok (0, [EField (fname f1); EShapeOK; EElemOK])
  end.
Fixpoint compare_loop_v (a1 a2 : sarray) (fs : list field) : result (Z * list event) :=
  match fs with
  | [] => Ok (0, [])
  | f :: t => do x <- compare_field_v a1 a2 f; do r <- compare_loop_v a1 a2 t;
              Ok (fst x + fst r, snd x ++ snd r)
  end.

Definition only_in (l1 l2 : list string) : list string := filter (fun n => negb (memb n l2)) l1.

Definition compare_arrays_v (a1 a2 : sarray) (verbose ignore_missing : bool) : result (bool * list event) :=
  let o1 := only_in (names a1) (names a2) in
  let o2 := only_in (names a2) (names a1) in
  let nf0 := if ignore_missing then 0 else len o1 + len o2 in
  let log0 := if ignore_missing then [ENoNameCheck]
              else [ENames] ++ map EOnly1 o1 ++ map EOnly2 o2 ++ (if nf0 =? 0 then [ENamesOK] else []) in
  do r <- compare_loop_v a1 a2 (fields a1);
  let tot := nf0 + fst r in
  Ok (tot =? 0, if verbose then log0 ++ snd r ++ [if tot =? 0 then EPassed else EDiffs tot] else []).

(* the number of differences a report announces line by line *)
Definition is_diff (e : event) : bool :=
  match e with EOnly1 _ | EOnly2 _ | EShapeDiff | EElemDiff _ _ => true | _ => false end.
Definition diffs_reported (l : list event) : Z := len (filter is_diff l).

Definition event_eqb (a b : event) : bool :=
  match a, b with
  | ENames, ENames | ENamesOK, ENamesOK | ENoNameCheck, ENoNameCheck | EShapeDiff, EShapeDiff
  | EShapeOK, EShapeOK | EElemOK, EElemOK | EPassed, EPassed => true
  | EOnly1 n, EOnly1 m | EOnly2 n, EOnly2 m | EField n, EField m => String.eqb n m
  | EElemDiff k n, EElemDiff j m => (k =? j) && String.eqb n m
  | EDiffs k, EDiffs j => k =? j
  | _, _ => false
  end.
Definition vout_eqb (x y : bool * list event) : bool :=
  Bool.eqb (fst x) (fst y) && list_eqb event_eqb (snd x) (snd y).

(* ------------------------------------------------------------------ lemmas *)
Lemma count_ne_nonneg l1 : forall l2, 0 <= count_ne l1 l2.
Proof. induction l1 as [|x t IH]; intros [|y t2]; cbn [count_ne]; try lia. specialize (IH t2). destruct (value_ne x y); lia. Qed.

Lemma any_ne_count l1 : forall l2, any_ne l1 l2 = (count_ne l1 l2 >? 0).
Proof.
  induction l1 as [|x t IH]; intros [|y t2]; cbn [any_ne count_ne]; try reflexivity.
  rewrite IH. pose proof (count_ne_nonneg t t2). destruct (value_ne x y); [|reflexivity].
  symmetry. apply Z.gtb_lt. lia.
Qed.

Lemma compare_field_v_fst a1 a2 f :
  compare_field a1 a2 f = match compare_field_v a1 a2 f with Ok x => Ok (fst x) | Err e => Err e end.
Proof.
  unfold compare_field, compare_field_v. destruct (find_field (fname f) (fields a2)) as [f2|]; [|reflexivity].
  destruct (negb (zlist_eqb _ _)); [reflexivity|].
  destruct (negb (cmp_ok _ _)); [reflexivity|].
  rewrite any_ne_count. destruct (count_ne _ _ >? 0); reflexivity.
Qed.

Lemma compare_loop_v_fst a1 a2 fs :
  compare_loop a1 a2 fs = match compare_loop_v a1 a2 fs with Ok x => Ok (fst x) | Err e => Err e end.
Proof.
  induction fs as [|f t IH]; [reflexivity|]. cbn [compare_loop compare_loop_v].
  rewrite compare_field_v_fst, IH.
  destruct (compare_field_v a1 a2 f) as [x|e]; [|reflexivity]. cbn [bind].
  destruct (compare_loop_v a1 a2 t) as [r|e]; reflexivity.
Qed.

Lemma compare_v_silent a1 a2 im x : compare_arrays_v a1 a2 false im = Ok x -> snd x = [].
Proof.
  unfold compare_arrays_v. destruct (compare_loop_v a1 a2 (fields a1)); cbn [bind]; [|discriminate].
  intro H. injection H as <-. reflexivity.
Qed.

Lemma diffs_app l1 l2 : diffs_reported (l1 ++ l2) = diffs_reported l1 + diffs_reported l2.
Proof. unfold diffs_reported, len. rewrite filter_app, app_length. lia. Qed.

Lemma field_v_count a1 a2 f x : compare_field_v a1 a2 f = Ok x -> diffs_reported (snd x) = fst x.
Proof.
  unfold compare_field_v. destruct (find_field (fname f) (fields a2)); [|intro H; injection H as <-; reflexivity].
  destruct (negb (zlist_eqb _ _)); [intro H; injection H as <-; reflexivity|].
  destruct (negb (cmp_ok _ _)); [discriminate|].
  destruct (count_ne _ _ >? 0); intro H; injection H as <-; reflexivity.
Qed.

Lemma loop_v_count a1 a2 : forall fs x, compare_loop_v a1 a2 fs = Ok x -> diffs_reported (snd x) = fst x.
Proof.
  induction fs as [|f t IH]; intros x H; [injection H as <-; reflexivity|]. cbn [compare_loop_v] in H.
  destruct (compare_field_v a1 a2 f) as [y|] eqn:E; [|discriminate]. cbn [bind] in H.
  destruct (compare_loop_v a1 a2 t) as [r|] eqn:E2; [|discriminate]. cbn [bind] in H. injection H as <-.
  cbn [fst snd]. rewrite diffs_app, (field_v_count _ _ _ _ E), (IH r eq_refl). reflexivity.
Qed.

Lemma diffs_map_diff {A} (c : A -> event) l :
  (forall x, is_diff (c x) = true) -> diffs_reported (map c l) = len l.
Proof.
  intro H. unfold diffs_reported, len. f_equal.
  induction l as [|x t IH]; [reflexivity|]. cbn [map filter]. rewrite H. cbn [length]. now rewrite IH.
Qed.

(* a verbose report is consistent with the verdict: it ends in "All tests passed" exactly when
   the answer is True, otherwise in "<k> differences found" where k is the number of difference
   lines printed before it *)
Lemma compare_v_report a1 a2 im b log :
  compare_arrays_v a1 a2 true im = Ok (b, log) ->
  exists body, (b = true /\ log = body ++ [EPassed] /\ diffs_reported body = 0)
            \/ (b = false /\ exists k, log = body ++ [EDiffs k] /\ k = diffs_reported body /\ 0 < k).
Proof.
  unfold compare_arrays_v. destruct (compare_loop_v a1 a2 (fields a1)) as [r|] eqn:E; [|discriminate].
  cbn [bind]. intro H. injection H as Hb Hl.
  pose proof (loop_v_count _ _ _ _ E) as C.
  set (o1 := only_in (names a1) (names a2)) in *. set (o2 := only_in (names a2) (names a1)) in *.
  set (nf0 := if im then 0 else len o1 + len o2) in *.
  set (log0 := if im then [ENoNameCheck] else [ENames] ++ map EOnly1 o1 ++ map EOnly2 o2 ++ (if nf0 =? 0 then [ENamesOK] else [])) in *.
  assert (D0 : diffs_reported log0 = nf0).
  { unfold log0, nf0. destruct im; [reflexivity|].
    rewrite !diffs_app, !diffs_map_diff by reflexivity.
    destruct (len o1 + len o2 =? 0); cbn; lia. }
  exists (log0 ++ snd r). rewrite app_assoc in Hl.
  assert (Db : diffs_reported (log0 ++ snd r) = nf0 + fst r) by (rewrite diffs_app, D0, C; reflexivity).
  assert (N0 : 0 <= nf0) by (unfold nf0, len; destruct im; lia).
  assert (N1 : 0 <= fst r) by (rewrite <- C; apply Nat2Z.is_nonneg).
  destruct (Z.eqb_spec (nf0 + fst r) 0) as [T|T].
  - left. subst b. repeat split; [now symmetry|lia].
  - right. subst b. split; [reflexivity|]. exists (nf0 + fst r). repeat split; [now symmetry|now symmetry|lia].
Qed.
