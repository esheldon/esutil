(* C07 — the property theorems.

   Reading guide.  A [field] is (descr entry, column bytes): two equal fields have the same
   name, element type, byte order, sub-array shape and identical bytes in every element.
   Each *_spec is a total case split: the request is one the statement says must be rejected
   and the result is an error, or it is not and the result is Ok r with shape r = shape a and
   fields r = the documented field list (see Spec.v).  [given x] is the list of names the
   caller supplied as a str, list, tuple or ndarray.  Models describe the code after the three
   fix: commits of fixes/C07 (combine_fields shape; remove_fields / copy_fields_by_name
   accepting tuple and array names). *)
From EsVerif.Common Require Import Base Bytes.
From Coq.Strings Require Import Byte.
From Coq.Strings Require String.
From EsVerif.C07 Require Import Model Spec Proofs CmpProofs Extra Skel Gen Tie State Total Verbose Swap Py GenCode TieCode.

(* extract_fields: original order filtered by the given names; Err on a missing name in strict
   mode or when no field would be kept *)
Theorem C07_extract : forall a keep strict,
  NoDup (names a) -> extract_spec a (given keep) strict (extract_fields a keep strict).
Proof. intros a keep strict Hn. rewrite extract_char by assumption. apply op_closed, extract_rejects_dec. Qed.

(* remove_fields: original order minus the given names; Err when no field would be left *)
Theorem C07_remove : forall a rm,
  NoDup (names a) -> remove_spec a (given rm) (remove_fields a rm).
Proof. intros a rm Hn. rewrite remove_char by assumption. apply op_closed, remove_rejects_dec. Qed.

(* reorder_fields: the named fields first in the order given, then the others in original order;
   Err on a missing name in strict mode *)
Theorem C07_reorder : forall a ks strict,
  NoDup (names a) -> NoDup (given ks) -> reorder_spec a (given ks) strict (reorder_fields a ks strict).
Proof. intros a ks strict Hn Hk. rewrite reorder_char by assumption. apply op_closed, reorder_rejects_dec. Qed.

Theorem C07_reorder_name_order : forall a ks,
  map fname (reorder_fields_spec a ks)
  = filter (fun n => memb n (names a)) ks ++ filter (fun n => negb (memb n ks)) (names a).
Proof. exact reorder_names. Qed.

(* add_fields: old fields unchanged, new fields appended in the order of the added descriptor,
   zero-filled or set to the supplied defaults; Err when a new name already exists *)
Theorem C07_add : forall a add defaults,
  NoDup (names a) -> NoDup (map dname add) ->
  defaults_ok (nelem a) add (option_map given_vals defaults) ->
  add_spec a add (option_map given_vals defaults) (add_fields a add defaults).
Proof. intros a add defaults Hn Ha Hd. rewrite add_char by assumption. apply op_closed, add_rejects_dec. Qed.

(* combine_fields: concatenated field lists, shape of the inputs (any number of dimensions);
   Err on an empty list, arrays of different length or a shared name *)
Theorem C07_combine : forall arrs, combine_scope arrs -> combine_spec arrs (combine_fields arrs).
Proof. intros arrs H. rewrite combine_char by assumption. apply op_closed, combine_rejects_dec. Qed.

(* the model's rejections are ValueError *)
Theorem C07_rejections_are_ValueError :
  (forall a keep strict e, NoDup (names a) -> extract_fields a keep strict = Err e -> e = EValue)
  /\ (forall a rm e, NoDup (names a) -> remove_fields a rm = Err e -> e = EValue)
  /\ (forall a ks strict e, NoDup (names a) -> NoDup (given ks) -> reorder_fields a ks strict = Err e -> e = EValue)
  /\ (forall a add defaults e, NoDup (names a) -> NoDup (map dname add) ->
        defaults_ok (nelem a) add (option_map given_vals defaults) -> add_fields a add defaults = Err e -> e = EValue)
  /\ (forall arrs e, combine_scope arrs -> combine_fields arrs = Err e -> e = EValue).
Proof.
  repeat split.
  - intros a keep strict e Hn. rewrite extract_char by assumption. apply closed_error.
  - intros a rm e Hn. rewrite remove_char by assumption. apply closed_error.
  - intros a ks strict e Hn Hk. rewrite reorder_char by assumption. apply closed_error.
  - intros a add defaults e Hn Ha Hd. rewrite add_char by assumption. apply closed_error.
  - intros arrs e Hs. rewrite combine_char by assumption. apply closed_error.
Qed.

(* every retained field IS a field of the input: same type, sub-array shape, byte order, bytes *)
Theorem C07_retained_fields_identical :
  (forall a ks r, extract_ok a ks r -> shape r = shape a /\ forall f, In f (fields r) -> In f (fields a))
  /\ (forall a ks r, remove_ok a ks r -> shape r = shape a /\ forall f, In f (fields r) -> In f (fields a))
  /\ (forall a ks r, reorder_ok a ks r -> shape r = shape a
        /\ (forall f, In f (fields r) -> In f (fields a))
        /\ (NoDup (names a) -> forall f, In f (fields a) -> In f (fields r)))
  /\ (forall a add dv r, add_ok a add dv r -> shape r = shape a
        /\ (forall f, In f (fields a) -> In f (fields r))
        /\ map fdesc (fields r) = descr a ++ map fdesc (new_fields (nelem a) add dv))
  /\ (forall arrs r, combine_ok arrs r ->
        forall a f, In a arrs -> In f (fields a) -> In f (fields r)).
Proof.
  split; [|split; [|split; [|split]]].
  - intros a ks r [Hs Hf]. split; [exact Hs|]. intros f Hi. rewrite Hf in Hi. now apply filter_In in Hi.
  - intros a ks r [Hs Hf]. split; [exact Hs|]. intros f Hi. rewrite Hf in Hi. now apply filter_In in Hi.
  - intros a ks r [Hs Hf]. rewrite Hf. split; [exact Hs|].
    split; [intro f; apply reorder_spec_sub|intros Hn f; now apply reorder_spec_all].
  - intros a add dv r [Hs Hf]. rewrite Hf. split; [exact Hs|].
    split; [intros f Hi; apply in_or_app; now left|apply map_app].
  - intros arrs r [Hs Hf] a f Ha Hi. rewrite Hf. apply in_concat. exists (fields a).
    split; [now apply in_map|assumption].
Qed.

(* copy_fields(a1, a2) for arrays of the same shape whose common fields have the same type:
   a2 keeps shape and dtype, common fields receive a1's bytes, the others are untouched *)
Theorem C07_copy_fields : forall a1 a2,
  NoDup (names a1) -> compat a1 a2 -> shape a1 = shape a2 ->
  exists r, copy_fields a1 a2 = Ok r /\ copy_ok a1 a2 r.
Proof.
  intros a1 a2 Hn Hc Hs. exists (mkA (shape a2) (copy_expected a1 a2)). split; [|now apply copy_expected_ok].
  apply copy_model; [assumption|assumption|unfold nelem; now rewrite Hs|rewrite Hs; apply assign_ok_refl].
Qed.

(* ... and more generally whenever numpy's assignment broadcasting accepts the two shapes *)
Theorem C07_copy_fields_broadcast : forall a1 a2,
  NoDup (names a1) -> compat a1 a2 -> nelem a1 = nelem a2 -> assign_ok (shape a1) (shape a2) = true ->
  exists r, copy_fields a1 a2 = Ok r /\ copy_ok a1 a2 r.
Proof. intros a1 a2 Hn Hc He Hs. eexists. split; [now apply copy_model|now apply copy_expected_ok]. Qed.

Theorem C07_copy_fields_rejects : forall a1 a2, nelem a1 <> nelem a2 -> copy_fields a1 a2 = Err EValue.
Proof. exact copy_rejects. Qed.

(* copy_fields_by_name: each named field that exists holds its value, every other is untouched;
   lengths of names and values must agree *)
Theorem C07_copy_fields_by_name : forall a nms vals,
  cfbn_scope a (given nms) (given_vals vals) ->
  exists r, copy_fields_by_name a nms vals = Ok r /\ cfbn_ok a (given nms) (given_vals vals) r.
Proof.
  intros a nms vals H. eexists. split; [now apply cfbn_model|].
  destruct H as [_ [Hk [Hl _]]]. now apply cfbn_expected_ok.
Qed.

Theorem C07_copy_fields_by_name_rejects : forall a nms vals,
  length (given nms) <> length (given_vals vals) -> copy_fields_by_name a nms vals = Err EValue.
Proof. exact cfbn_rejects. Qed.

(* split_fields: one view per requested name, in the order requested (all fields in dtype
   order when none is given), each with the field's type, shape ++ subshape and bytes;
   Err on a missing name *)
Theorem C07_split : forall a flds, split_spec a (requested a flds) (split_fields a flds).
Proof. intros a flds. rewrite split_char. apply split_closed_spec. Qed.

Theorem C07_split_views_equal : forall a fl vs,
  split_ok a fl vs ->
  forall i n v, nth_error fl i = Some n -> nth_error vs i = Some v ->
    exists f, In f (fields a) /\ fname f = n /\ vtype v = dtype (fdesc f)
              /\ vshape v = shape a ++ dsub (fdesc f) /\ vdata v = fdata f.
Proof.
  unfold split_ok. intros a fl vs H. induction H as [|n0 v0 t1 t2 H0 Ht IH]; intros i n v Hn Hv.
  - destruct i; discriminate.
  - destruct i as [|i]; simpl in Hn, Hv.
    + injection Hn as <-. injection Hv as <-. destruct H0 as [f [Hf [En ->]]]. exists f. simpl. auto.
    + eapply IH; eassumption.
Qed.

(* compare_arrays answers True exactly when every common field has the same shape and
   element-wise equal values (value_eq on the decoded items, Spec.v) and, with
   ignore_missing=False, the name sets coincide *)
Theorem C07_compare_arrays : forall a1 a2 ignore_missing,
  NoDup (names a1) -> comparable a1 a2 ->
  exists b, compare_arrays a1 a2 ignore_missing = Ok b /\ (b = true <-> compare_true a1 a2 ignore_missing).
Proof. exact compare_model. Qed.

Theorem C07_compare_arrays_sound : forall a1 a2 ignore_missing,
  NoDup (names a1) -> comparable a1 a2 ->
  compare_arrays a1 a2 ignore_missing = Ok true -> compare_true a1 a2 ignore_missing.
Proof.
  intros a1 a2 im Hn Hc H. destruct (compare_model a1 a2 im Hn Hc) as [b [E I]].
  rewrite H in E. injection E as <-. now apply I.
Qed.

(* an integer or float item decodes to the same value under either byte order *)
Theorem C07_value_independent_of_byte_order : forall k n item,
  (k = KInt \/ k = KUInt \/ k = KFloat) ->
  decode (mkT LE k n) (rev item) = decode (mkT BE k n) item.
Proof. exact decode_byte_order. Qed.

(* Checker soundness: what the correspondence run evaluates on the implementation's outputs,
   and the deciders of the scopes in which it is consulted. *)
Theorem C07_checkers_sound :
  (forall a ks strict out, extract_check a ks strict out = true -> extract_spec a ks strict out)
  /\ (forall a ks out, remove_check a ks out = true -> remove_spec a ks out)
  /\ (forall a ks strict out, reorder_check a ks strict out = true -> reorder_spec a ks strict out)
  /\ (forall a add dv out, add_check a add dv out = true -> add_spec a add dv out)
  /\ (forall arrs out, combine_check arrs out = true -> combine_spec arrs out)
  /\ (forall a1 a2 out, copy_check a1 a2 out = true -> exists r, out = Ok r /\ copy_ok a1 a2 r)
  /\ (forall a ns vs out, cfbn_scope_b a ns vs = true -> cfbn_check a ns vs out = true ->
        exists r, out = Ok r /\ cfbn_ok a ns vs r)
  /\ (forall a fl out, split_check a fl out = true -> split_spec a fl out)
  /\ (forall a1 a2 im out, NoDup (names a1) -> compare_check a1 a2 im out = true ->
        exists b, out = Ok b /\ (b = true <-> compare_true a1 a2 im)).
Proof.
  split; [intros; now apply extract_check_iff|]. split; [intros; now apply remove_check_iff|].
  split; [intros; now apply reorder_check_iff|]. split; [intros; now apply add_check_iff|].
  split; [intros; now apply combine_check_iff|]. split; [exact copy_check_sound|].
  split.
  { intros a ns vs out Hs. destruct (cfbn_scope_sound _ _ _ Hs) as [_ [Hk [Hl _]]]. now apply cfbn_check_sound. }
  split; [exact split_check_sound|]. intros a1 a2 im out Hn. now apply compare_check_iff.
Qed.

Theorem C07_scope_deciders_sound :
  (forall a, wf_b a = true -> wf a)
  /\ (forall arrs, combine_scope_b arrs = true -> combine_scope arrs)
  /\ (forall a1 a2, compat_b a1 a2 = true -> compat a1 a2)
  /\ (forall n add dv, defaults_ok_b n add dv = true -> defaults_ok n add dv)
  /\ (forall a ns vs, cfbn_scope_b a ns vs = true -> cfbn_scope a ns vs)
  /\ (forall a1 a2, comparable_b a1 a2 = true -> comparable a1 a2).
Proof.
  exact (conj wf_sound (conj combine_scope_sound (conj compat_sound (conj defaults_ok_sound (conj cfbn_scope_sound comparable_sound))))).
Qed.

(* the operations compose: a result of extract/remove/reorder is again a well-formed structured
   array (shape kept, distinct names, at least one field, every column of the right extent) *)
Theorem C07_results_well_formed :
  (forall a keep strict r, wf a -> extract_fields a keep strict = Ok r -> wf r)
  /\ (forall a rm r, wf a -> remove_fields a rm = Ok r -> wf r)
  /\ (forall a ks strict r, wf a -> NoDup (given ks) -> reorder_fields a ks strict = Ok r -> wf r).
Proof. exact (conj extract_wf (conj remove_wf reorder_wf)). Qed.

(* The checkers DECIDE the property: completeness, the converse of C07_checkers_sound.  A case is
   reported as a failing input exactly when the statement is violated on it. *)
Theorem C07_checkers_complete :
  (forall a ks strict out, extract_spec a ks strict out -> extract_check a ks strict out = true)
  /\ (forall a ks out, remove_spec a ks out -> remove_check a ks out = true)
  /\ (forall a ks strict out, reorder_spec a ks strict out -> reorder_check a ks strict out = true)
  /\ (forall a add dv out, add_spec a add dv out -> add_check a add dv out = true)
  /\ (forall arrs out, combine_spec arrs out -> combine_check arrs out = true)
  /\ (forall a1 a2 out, NoDup (names a2) -> (exists r, out = Ok r /\ copy_ok a1 a2 r) -> copy_check a1 a2 out = true)
  /\ (forall a ns vs out, NoDup (names a) -> length ns = length vs ->
        (exists r, out = Ok r /\ cfbn_ok a ns vs r) -> cfbn_check a ns vs out = true)
  /\ (forall a fl out, NoDup (names a) -> split_spec a fl out -> split_check a fl out = true)
  /\ (forall a1 a2 im out, NoDup (names a1) ->
        (exists b, out = Ok b /\ (b = true <-> compare_true a1 a2 im)) -> compare_check a1 a2 im out = true).
Proof.
  split; [intros; now apply extract_check_iff|]. split; [intros; now apply remove_check_iff|].
  split; [intros; now apply reorder_check_iff|]. split; [intros; now apply add_check_iff|].
  split; [intros; now apply combine_check_iff|]. split; [exact copy_check_complete|].
  split; [exact cfbn_check_complete|]. split; [exact split_check_complete|].
  intros a1 a2 im out Hn. now apply compare_check_iff.
Qed.

(* copy_ok / cfbn_ok determine the result: the frame-style specification has exactly one model *)
Theorem C07_inplace_results_unique :
  (forall a1 a2 r, NoDup (names a2) -> copy_ok a1 a2 r -> r = mkA (shape a2) (copy_expected a1 a2))
  /\ (forall a ns vs r, NoDup (names a) -> length ns = length vs -> cfbn_ok a ns vs r ->
        r = mkA (shape a) (cfbn_expected a ns vs)).
Proof. exact (conj copy_ok_unique cfbn_ok_unique). Qed.

(* FRAME.  The nine functions as calls on a store of array objects: a call writes at most its one
   documented output object (arr2 of copy_fields, arr of copy_fields_by_name); every other object
   — every input of the seven value-returning functions, arr1 of copy_fields — is unchanged, and
   no object appears or disappears. *)
Theorem C07_store_frame : forall s o,
  length (fst (step s o)) = length s
  /\ (forall j, written o <> Some j -> nth_error (fst (step s o)) j = nth_error s j)
  /\ (written o = None -> fst (step s o) = s).
Proof. intros s o. destruct (step_frame s o) as [H1 H2]. split; [exact H1|]. split; [exact H2|apply step_pure]. Qed.

(* what copy_fields stores into arr2 (shape and dtype kept, common fields = arr1's bytes, the other
   fields untouched), and that a refused call leaves arr2 as it was *)
Theorem C07_store_copy_frame : forall s i1 i2 a1 a2,
  nth_error s i1 = Some a1 -> nth_error s i2 = Some a2 -> NoDup (names a1) -> compat a1 a2 ->
  (nelem a1 = nelem a2 /\ assign_ok (shape a1) (shape a2) = true ->
     exists r, step s (OCopy i1 i2) = (set_nth s i2 r, Ok RNone) /\ copy_ok a1 a2 r
               /\ nth_error (fst (step s (OCopy i1 i2))) i2 = Some r)
  /\ (nelem a1 <> nelem a2 -> step s (OCopy i1 i2) = (s, Err EValue)).
Proof.
  intros s i1 i2 a1 a2 E1 E2 Hn Hc. split.
  - intros [He Hs]. cbn [step]. unfold get. rewrite E1, E2. cbn [bind].
    rewrite (copy_model a1 a2 Hn Hc He Hs). eexists. split; [reflexivity|]. split.
    + now apply copy_expected_ok.
    + cbn [fst]. now rewrite nth_error_set_nth_same, E2.
  - intro Hne. cbn [step]. unfold get. rewrite E1, E2. cbn [bind]. now rewrite (copy_rejects a1 a2 Hne).
Qed.

(* NO HISTORY.  The answer of a call and the new content of the object it writes depend only on
   the present contents of the call's own argument objects ... *)
Theorem C07_no_history : forall s t o,
  (forall i, In i (args o) -> nth_error s i = nth_error t i) ->
  snd (step s o) = snd (step t o)
  /\ forall j, written o = Some j -> nth_error (fst (step s o)) j = nth_error (fst (step t o)) j.
Proof. exact step_local. Qed.

(* ... so any number of earlier value-returning calls leaves the answer of a call what it is alone *)
Theorem C07_history_irrelevant : forall s pre o,
  Forall (fun p => written p = None) pre ->
  nth (length pre) (run s (pre ++ [o])) (Err EOther) = snd (step s o).
Proof.
  intros s pre o H. rewrite run_app, (final_pure s pre H), app_nth2; rewrite run_length; [|apply Nat.le_refl].
  rewrite Nat.sub_diag. cbn [run]. now destruct (step s o).
Qed.

(* copy_fields: the complete outcome table and the error class of every refusal *)
Theorem C07_copy_fields_outcome : forall a1 a2,
  NoDup (names a1) -> compat a1 a2 ->
  (nelem a1 <> nelem a2 -> copy_fields a1 a2 = Err EValue)
  /\ (nelem a1 = nelem a2 -> no_common a1 a2 -> copy_fields a1 a2 = Ok a2)
  /\ (nelem a1 = nelem a2 -> some_common a1 a2 -> assign_ok (shape a1) (shape a2) = false ->
        copy_fields a1 a2 = Err EValue)
  /\ (nelem a1 = nelem a2 -> assign_ok (shape a1) (shape a2) = true ->
        copy_fields a1 a2 = Ok (mkA (shape a2) (copy_expected a1 a2))).
Proof.
  intros a1 a2 Hn Hc. rewrite (copy_fields_char a1 a2 Hn Hc). split; [|split; [|split]].
  - intro He. apply Z.eqb_neq in He. now rewrite He.
  - intros He Hd. pose proof Hd as S. apply no_common_iff, (dec_false _ _ (some_common_dec a1 a2)) in S.
    rewrite He, Z.eqb_refl, S. simpl. rewrite copy_expected_upd, map_id_in, sarray_eta; [reflexivity|].
    intros g Hg. apply upd_outside. intro Hi. apply in_map_iff in Hi as [f [E Hf]].
    apply (Hd f Hf). rewrite E. now apply in_map.
  - intros He Hs Ha. apply some_common_dec in Hs. now rewrite He, Z.eqb_refl, Hs, Ha.
  - intros He Ha. now rewrite He, Z.eqb_refl, Ha, orb_true_r.
Qed.

Theorem C07_copy_fields_error_class : forall a1 a2 e,
  NoDup (names a1) -> compat a1 a2 -> copy_fields a1 a2 = Err e -> e = EValue.
Proof. intros a1 a2 e Hn Hc. rewrite (copy_fields_char a1 a2 Hn Hc). destruct (_ && _); congruence. Qed.

(* further error paths and input forms: a repeated name in the added descriptor, defaults of
   the wrong length (checked after the array is built),
   reorder_fields with a repeated existing name (np.zeros refuses the descr), split_fields on a
   field-less array *)
Theorem C07_more_rejections :
  (forall a add dv, ~ NoDup (map dname add) -> add_fields a add dv = Err EValue)
  /\ (forall a add dv, NoDup (names a) -> NoDup (map dname add) -> ~ add_rejects a add ->
        length (given_vals dv) <> length add -> add_fields a add (Some dv) = Err EValue)
  /\ (forall a ks strict, ~ NoDup (filter (fun n => memb n (names a)) (given ks)) ->
        reorder_fields a ks strict = Err EValue)
  /\ (forall v x, split_plain v None = Ok [v] /\ split_plain v (Some x) = Err EValue).
Proof.
  exact (conj add_rejects_dup_descr (conj add_rejects_defaults_length (conj reorder_rejects_repeated split_plain_spec))).
Qed.

(* a TUPLE of defaults / values is not a list: the code wraps it as ONE value, so for two or more
   new fields (names) the call is refused with ValueError: any non-list object is a VSingle *)
Theorem C07_tuple_values_rejected :
  (forall a add v, NoDup (names a) -> NoDup (map dname add) -> ~ add_rejects a add -> length add <> 1%nat ->
     add_fields a add (Some (VSingle v)) = Err EValue)
  /\ (forall a nms v, length (given nms) <> 1%nat -> copy_fields_by_name a nms (VSingle v) = Err EValue).
Proof.
  split.
  - intros a add v Hn Ha Hr Hl. apply add_rejects_defaults_length; try assumption. cbn. congruence.
  - intros a nms v Hl. apply cfbn_rejects. cbn. exact Hl.
Qed.

(* copy_fields between same-named fields that differ ONLY in byte order (numpy converts item by
   item): Model.copy_fields answers Err EOther there.  copy_fields_sw extends it conservatively;
   the destination keeps shape and dtype, receives the converted data, other fields untouched;
   and the conversion preserves every decoded VALUE of integer and float fields. *)
Theorem C07_copy_swapped_conservative : forall a1 a2,
  compat a1 a2 -> copy_fields_sw a1 a2 = copy_fields a1 a2.
Proof.
  intros a1 a2 Hc. unfold copy_fields_sw, copy_fields. destruct (nelem a1 =? nelem a2); [|reflexivity].
  apply copy_loop_sw_eq. now apply compat_descr.
Qed.

Theorem C07_copy_swapped : forall a1 a2,
  NoDup (names a1) -> NoDup (names a2) -> compat_sw a1 a2 -> nelem a1 = nelem a2 ->
  assign_ok (shape a1) (shape a2) = true ->
  exists r, copy_fields_sw a1 a2 = Ok r /\ copy_ok_sw a1 a2 r.
Proof. intros a1 a2 H1 H2 Hc He Hs. eexists. split; [now apply copy_sw_model|now apply copy_expected_sw_ok]. Qed.

Theorem C07_copy_swapped_values : forall f g,
  same_type (fdesc f) (fdesc g) || swap_type (fdesc f) (fdesc g) = true ->
  (fkind (dtype (fdesc f)) = KInt \/ fkind (dtype (fdesc f)) = KUInt \/ fkind (dtype (fdesc f)) = KFloat) ->
  0 < fnum (dtype (fdesc f)) ->
  Forall (whole_items (fnum (dtype (fdesc f)))) (fdata f) ->
  field_values (mkF (fdesc g) (conv_data f g)) = field_values f.
Proof. exact conv_values. Qed.

Theorem C07_copy_swapped_checker_sound :
  (forall a1 a2 out, copy_check_sw a1 a2 out = true -> exists r, out = Ok r /\ copy_ok_sw a1 a2 r)
  /\ (forall a1 a2, compat_sw_b a1 a2 = true -> compat_sw a1 a2).
Proof. exact (conj copy_check_sw_sound compat_sw_sound). Qed.

(* ... and complete: with C07_copy_swapped_checker_sound the checker of the converting copy decides copy_ok_sw *)
Theorem C07_copy_swapped_checker_complete : forall a1 a2 out,
  NoDup (names a2) -> (exists r, out = Ok r /\ copy_ok_sw a1 a2 r) -> copy_check_sw a1 a2 out = true.
Proof. intros a1 a2 out Hn [r [-> H]]. apply sarray_eqb_eq. now apply copy_ok_sw_unique. Qed.

(* compare_arrays with verbose=True modelled including every stdout.write (the report as a list
   of events): the verdict does not depend on verbose and is Model.compare_arrays; verbose=False
   writes nothing; a report ends in "All tests passed" exactly when the answer is True, else in
   "<k> differences found" with k = the number of difference lines printed before it (k > 0) *)
Theorem C07_compare_verbose_verdict : forall a1 a2 verbose im,
  match compare_arrays_v a1 a2 verbose im with Ok x => Ok (fst x) | Err e => Err e end = compare_arrays a1 a2 im.
Proof.
  intros a1 a2 verbose im. unfold compare_arrays_v, compare_arrays, count_missing, only_in.
  rewrite compare_loop_v_fst. destruct (compare_loop_v a1 a2 (fields a1)) as [r|e]; reflexivity.
Qed.

Theorem C07_compare_verbose_report : forall a1 a2 im,
  (forall x, compare_arrays_v a1 a2 false im = Ok x -> snd x = [])
  /\ (forall b log, compare_arrays_v a1 a2 true im = Ok (b, log) ->
        exists body, (b = true /\ log = body ++ [EPassed] /\ diffs_reported body = 0)
                  \/ (b = false /\ exists k, log = body ++ [EDiffs k] /\ k = diffs_reported body /\ 0 < k)).
Proof. intros a1 a2 im. split; [apply compare_v_silent|apply compare_v_report]. Qed.

(* Tie to the source.  Gen.v is regenerated on every run from esutil/numpy_util.py of the tree
   under check (harness/props/c07_translate.py, fail-closed): the class tuples of the isinstance
   dispatches, the operator of every guard, `in`/`not in` of the filter loops, the allocator and
   the attribute that dimensions the output, keyword defaults, exception classes.  The functions
   of Model.v, about which everything above is proved, ARE the skeletons of Skel.v at the
   regenerated values. *)
Theorem C07_source_parameters :
  (forall a k s, extract_fields_g extract_forms extract_keep_if_in extract_empty_guard extract_dims a k s
                 = extract_fields a k s)
  /\ (forall a k, remove_fields_g remove_forms remove_keep_if_in remove_empty_guard remove_dims a k
                  = remove_fields a k)
  /\ (forall a k s, reorder_fields_g reorder_forms reorder_dims a k s = reorder_fields a k s)
  /\ (forall a add dv, add_fields_g add_defaults_forms add_defaults_guard add_dims a add dv = add_fields a add dv)
  /\ (forall arrs, combine_fields_g combine_none_guard combine_one_guard combine_size_guard combine_dims arrs
                   = combine_fields arrs)
  /\ (forall a1 a2, copy_fields_g copy_size_guard a1 a2 = copy_fields a1 a2)
  /\ (forall a n v, copy_fields_by_name_g cfbn_names_forms cfbn_vals_forms cfbn_len_guard a n v
                    = copy_fields_by_name a n v)
  /\ (forall a flds, split_names_g split_forms a flds = Some (split_names a flds)).
Proof. exact source_parameters. Qed.

(* Statement-level tie.  GenCode.v is the statement-by-statement translation of the CURRENT source
   of copy_fields, copy_fields_by_name, extract_fields, remove_fields and combine_fields (python ast -> Gallina over
   the combinators of Py.v, regenerated on every run, fail-closed): the functions of Model.v about
   which everything above is proved ARE these translations. *)
Theorem C07_code_is_model :
  (forall a1 a2, NoDup (names a1) -> gen_copy_fields a1 a2 = copy_fields a1 a2)
  /\ (forall a nms vals, gen_copy_fields_by_name a nms vals = copy_fields_by_name a nms vals)
  /\ (forall a k s, NoDup (names a) -> gen_extract_fields a k s = extract_fields a k s)
  /\ (forall a k, NoDup (names a) -> gen_remove_fields a k = remove_fields a k)
  /\ (forall arrs, (forall a, In a arrs -> NoDup (names a)) -> gen_combine_fields arrs = combine_fields arrs).
Proof. exact (conj tie_code_copy (conj tie_code_cfbn (conj tie_code_extract (conj tie_code_remove tie_code_combine)))). Qed.

(* every output array is created by np.zeros (new fields start zero-filled) with the input's shape *)
Theorem C07_source_allocation :
  (extract_alloc, remove_alloc, add_alloc, reorder_alloc, combine_alloc) = (AZeros, AZeros, AZeros, AZeros, AZeros)
  /\ (extract_dims, remove_dims, add_dims, reorder_dims, combine_dims) = (UseShape, UseShape, UseShape, UseShape, UseShape).
Proof. exact tie_allocation. Qed.

Import String.StringSyntax.
Local Open Scope string_scope.

Theorem C07_source_defaults_and_raises :
  (extract_strict_default = true /\ reorder_strict_default = true /\ compare_ignore_missing_default = true
   /\ split_getnames_default = false)
  /\ Forall (fun c => c = "ValueError")
            (raises_combine_fields ++ raises_copy_fields ++ raises_extract_fields ++ raises_remove_fields
             ++ raises_add_fields ++ raises_reorder_fields ++ raises_copy_fields_by_name ++ raises_split_fields
             ++ raises_compare_arrays)%list.
Proof. exact (conj tie_defaults tie_raises). Qed.

(* The as-found combine_fields (output dimensioned by .size: the skeleton at UseSize) does NOT
   satisfy the statement: refuted by a 2-d witness (raises) and a 0-d witness (shape (1,)).  This
   is the defect repaired by fixes/C07/0001; C07_combine above is about the repaired code. *)
Theorem C07_asfound_combine_refuted :
  (combine_scope [w2d "a"; w2d "b"]
   /\ ~ combine_spec [w2d "a"; w2d "b"] (combine_fields_g CEq CEq CNe UseSize [w2d "a"; w2d "b"]))
  /\ (combine_scope [w0d "a"; w0d "b"]
      /\ ~ combine_spec [w0d "a"; w0d "b"] (combine_fields_g CEq CEq CNe UseSize [w0d "a"; w0d "b"])).
Proof. exact asfound_combine_refuted. Qed.

(* Non-vacuity: a 2-d array with a float, a big-endian sub-array and a bytes field meets the
   hypotheses, and the operations compute the documented results on it. *)
Definition ex_a : sarray :=
  mkA [2; 1]
      [mkF (mkD "x" (mkT LE KFloat 8) []) [unhex "000000000000f03f"; unhex "0000000000000040"];
       mkF (mkD "v" (mkT BE KInt 4) [2]) [unhex "0000000100000002"; unhex "0000000300000004"];
       mkF (mkD "s" (mkT NA KBytes 3) []) [unhex "610000"; unhex "626300"]].
Definition ex_b : sarray :=
  mkA [2; 1] [mkF (mkD "k" (mkT BE KInt 2) []) [unhex "0007"; unhex "0008"]].

Example C07_nonvacuous :
  wf ex_a /\ NoDup (names ex_a) /\ combine_scope [ex_a; ex_b]
  /\ ~ extract_rejects ex_a ["s"; "x"] true
  /\ option_map names (match extract_fields ex_a (NTuple ["s"; "x"]) true with Ok r => Some r | Err _ => None end)
     = Some ["x"; "s"]
  /\ option_map names (match remove_fields ex_a (NArray ["v"]) with Ok r => Some r | Err _ => None end)
     = Some ["x"; "s"]
  /\ option_map names (match reorder_fields ex_a (NList ["s"; "x"]) true with Ok r => Some r | Err _ => None end)
     = Some ["s"; "x"; "v"]
  /\ extract_fields ex_a (NScalar "zz") true = Err EValue
  /\ remove_fields ex_a (NList ["s"; "v"; "x"]) = Err EValue
  /\ add_fields ex_a [mkD "x" (mkT LE KInt 2) []] None = Err EValue
  /\ option_map (fun r => (shape r, names r))
       (match combine_fields [ex_a; ex_b] with Ok r => Some r | Err _ => None end)
     = Some ([2; 1], ["x"; "v"; "s"; "k"])
  /\ combine_fields [ex_a; mkA [3] [mkF (mkD "k" (mkT BE KInt 2) []) [unhex "0007"; unhex "0008"; unhex "0009"]]]
     = Err EValue
  /\ combine_fields [ex_a; ex_a] = Err EValue
  /\ compare_arrays ex_a ex_a false = Ok true
  /\ (exists r, add_fields ex_a [mkD "n" (mkT BE KInt 2) [2]] (Some (VSingle (DScalar (unhex "0102")))) = Ok r
               /\ map fdata (skipn 3 (fields r)) = [[unhex "01020102"; unhex "01020102"]]).
Proof.
  split; [apply wf_sound; vm_compute; reflexivity|].
  split; [apply nodup_b_NoDup; vm_compute; reflexivity|].
  split; [apply combine_scope_sound; vm_compute; reflexivity|].
  split.
  { apply (dec_false _ _ (extract_rejects_dec ex_a ["s"; "x"] true)). vm_compute. reflexivity. }
  repeat split; try (vm_compute; reflexivity).
  eexists. split; vm_compute; reflexivity.
Qed.

(* Non-vacuity of the theorems about stores: a session on a store of three objects *)
Definition ex_c : sarray :=
  mkA [2; 1] [mkF (mkD "s" (mkT NA KBytes 3) []) [unhex "000000"; unhex "000000"];
              mkF (mkD "w" (mkT LE KInt 2) []) [unhex "0100"; unhex "0200"];
              mkF (mkD "x" (mkT LE KFloat 8) []) [unhex "0000000000000000"; unhex "0000000000000000"]].

Example C07_deepening_nonvacuous :
  (* a session: extract from object 0, copy object 0 into object 2, compare them *)
  (exists r, run [ex_a; ex_b; ex_c] [OExtract 0 (NScalar "v") true; OCopy 0 2; OCompare 0 2 true; OCompare 0 2 false]
             = [Ok (RNew r); Ok RNone; Ok (RBool true); Ok (RBool false)])
  /\ nth_error (final [ex_a; ex_b; ex_c] [OCopy 0 2]) 0 = Some ex_a
  /\ option_map (fun a => map fdata (fields a)) (nth_error (final [ex_a; ex_b; ex_c] [OCopy 0 2]) 2)
     = Some [[unhex "610000"; unhex "626300"]; [unhex "0100"; unhex "0200"];
             [unhex "000000000000f03f"; unhex "0000000000000040"]]
  /\ NoDup (names ex_a) /\ compat ex_a ex_c /\ some_common ex_a ex_c /\ no_common ex_a ex_b
  /\ copy_fields ex_a ex_b = Ok ex_b
  /\ copy_check ex_a ex_c (copy_fields ex_a ex_c) = true
  /\ compare_arrays_v ex_a ex_c true false
     = Ok (false, [ENames; EOnly1 "v"; EOnly2 "w"; EField "x"; EShapeOK; EElemDiff 2 "x";
                   EField "s"; EShapeOK; EElemDiff 2 "s"; EDiffs 4])
  /\ compare_arrays_v ex_a ex_a true true
     = Ok (true, [ENoNameCheck; EField "x"; EShapeOK; EElemOK; EField "v"; EShapeOK; EElemOK;
                  EField "s"; EShapeOK; EElemOK; EPassed]).
Proof.
  split; [eexists; vm_compute; reflexivity|].
  split; [vm_compute; reflexivity|]. split; [vm_compute; reflexivity|].
  split; [apply nodup_b_NoDup; vm_compute; reflexivity|].
  split; [apply compat_sound; vm_compute; reflexivity|].
  split; [apply some_common_dec; vm_compute; reflexivity|].
  split.
  { intros f Hf Hin. assert (X : some_common_b ex_a ex_b = true) by (apply some_common_dec; exists f; auto).
    vm_compute in X. discriminate. }
  repeat split; vm_compute; reflexivity.
Qed.

Example C07_more_rejections_nonvacuous :
  ~ NoDup (filter (fun n => memb n (names ex_a)) (given (NTuple ["x"; "zz"; "x"])))
  /\ reorder_fields ex_a (NTuple ["x"; "zz"; "x"]) false = Err EValue
  /\ ~ add_rejects ex_a [mkD "n" (mkT BE KInt 2) []; mkD "m" (mkT LE KInt 2) []]
  /\ add_fields ex_a [mkD "n" (mkT BE KInt 2) []; mkD "m" (mkT LE KInt 2) []]
        (Some (VList [DScalar (unhex "0102")])) = Err EValue
  /\ add_fields ex_a [mkD "n" (mkT BE KInt 2) []; mkD "n" (mkT LE KInt 4) []] None = Err EValue.
Proof.
  split; [apply nodup_b_false; vm_compute; reflexivity|].
  split; [vm_compute; reflexivity|].
  split; [apply (dec_false _ _ (add_rejects_dec _ _)); vm_compute; reflexivity|].
  split; vm_compute; reflexivity.
Qed.

(* '<i2' copied into '>i2', '>i4' sub-array into '<i4': converted bytes, equal values *)
Definition ex_le : sarray :=
  mkA [2] [mkF (mkD "k" (mkT LE KInt 2) []) [unhex "0700"; unhex "f8ff"];
           mkF (mkD "v" (mkT BE KInt 4) [2]) [unhex "0000000100000002"; unhex "fffffffd00000004"]].
Definition ex_be : sarray :=
  mkA [2] [mkF (mkD "v" (mkT LE KInt 4) [2]) [unhex "0000000000000000"; unhex "0000000000000000"];
           mkF (mkD "k" (mkT BE KInt 2) []) [unhex "0000"; unhex "0000"]].

Example C07_copy_swapped_nonvacuous :
  NoDup (names ex_le) /\ NoDup (names ex_be) /\ compat_sw ex_le ex_be /\ ~ compat ex_le ex_be
  /\ copy_fields ex_le ex_be = Err EOther
  /\ option_map (fun r => map fdata (fields r)) (match copy_fields_sw ex_le ex_be with Ok r => Some r | Err _ => None end)
     = Some [[unhex "0100000002000000"; unhex "fdffffff04000000"]; [unhex "0007"; unhex "fff8"]]
  /\ (forall f, In f (fields ex_le) -> Forall (whole_items (fnum (dtype (fdesc f)))) (fdata f))
  /\ field_values (mkF (mkD "k" (mkT BE KInt 2) []) [unhex "0007"; unhex "fff8"]) = [VInt 7; VInt (-8)].
Proof.
  split; [apply nodup_b_NoDup; vm_compute; reflexivity|].
  split; [apply nodup_b_NoDup; vm_compute; reflexivity|].
  split; [apply compat_sw_sound; vm_compute; reflexivity|].
  split.
  { intro H. assert (X : same_type (mkD "k" (mkT LE KInt 2) []) (mkD "k" (mkT BE KInt 2) []) = true).
    { apply (H (mkF (mkD "k" (mkT LE KInt 2) []) [unhex "0700"; unhex "f8ff"])
               (mkF (mkD "k" (mkT BE KInt 2) []) [unhex "0000"; unhex "0000"])); [now left|right; now left|reflexivity]. }
    vm_compute in X. discriminate. }
  split; [vm_compute; reflexivity|]. split; [vm_compute; reflexivity|].
  split.
  { intros f [<-|[<-|[]]]; cbn [fdata fdesc dtype fnum]; repeat constructor.
    - exists 1%nat. reflexivity. - exists 1%nat. reflexivity.
    - exists 2%nat. reflexivity. - exists 2%nat. reflexivity. }
  vm_compute. reflexivity.
Qed.

(* the translated code computes on concrete arrays (and agrees with the model there) *)
Example C07_code_is_model_nonvacuous :
  (forall a, In a [ex_a; ex_b] -> NoDup (names a))
  /\ option_map names (match gen_combine_fields [ex_a; ex_b] with Ok r => Some r | Err _ => None end)
     = Some ["x"; "v"; "s"; "k"]
  /\ option_map names (match gen_extract_fields ex_a (NTuple ["s"; "x"]) true with Ok r => Some r | Err _ => None end)
     = Some ["x"; "s"]
  /\ gen_remove_fields ex_a (NList ["s"; "v"; "x"]) = Err EValue
  /\ gen_copy_fields ex_a ex_c = copy_fields ex_a ex_c.
Proof.
  split.
  { intros a [<-|[<-|[]]]; apply nodup_b_NoDup; vm_compute; reflexivity. }
  repeat split; vm_compute; reflexivity.
Qed.
