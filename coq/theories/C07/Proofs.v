(* C07 — the model of each operation computes the documented field list (closed forms).
   First the facts everything else uses: lists, the boolean equalities, name membership and field
   lookup; then one section per operation.  The operations that build a new array all go through
   [rebuild] (np.zeros followed by copy_fields); the in-place ones (copy_fields,
   copy_fields_by_name) map a descr-preserving function over the destination's fields, and
   [fields_eq_map] says that their frame-style specifications have that map as only model. *)
From EsVerif.Common Require Import Base Bytes.
From Coq.Strings Require String.
From EsVerif.C07 Require Import Model Spec.

(* ------------------------------------------------------------ list helpers *)
Lemma dec_false (b : bool) (P : Prop) : (b = true <-> P) -> (b = false <-> ~ P).
Proof. intro H. rewrite <- H. destruct b; split; congruence. Qed.

Lemma forallb_false_exists {A} (p : A -> bool) l :
  forallb p l = false -> exists x, In x l /\ p x = false.
Proof.
  induction l as [|x t IH]; simpl; intro H; [discriminate|].
  destruct (p x) eqn:E.
  - destruct (IH H) as [y [Hy Py]]. exists y; auto.
  - exists x; auto.
Qed.

Lemma forallb_ext {A} (p q : A -> bool) l : (forall x, p x = q x) -> forallb p l = forallb q l.
Proof. intro H. induction l as [|x t IH]; simpl; [reflexivity|]. now rewrite H, IH. Qed.

Lemma map_id_in {A} (h : A -> A) l : (forall x, In x l -> h x = x) -> map h l = l.
Proof. intro H. rewrite <- (map_id l) at 2. now apply map_ext_in. Qed.

Lemma filter_map_comm {A B} (g : A -> B) (p : B -> bool) l :
  filter p (map g l) = map g (filter (fun x => p (g x)) l).
Proof. induction l as [|x t IH]; simpl; [reflexivity|]. destruct (p (g x)); simpl; congruence. Qed.

Lemma forallb_negb_filter {A} (p : A -> bool) l :
  forallb (fun x => negb (p x)) l = match filter p l with [] => true | _ => false end.
Proof. induction l as [|x t IH]; simpl; [reflexivity|]. now destruct (p x). Qed.

Lemma NoDup_app_iff {A} (l1 l2 : list A) :
  NoDup (l1 ++ l2) <-> NoDup l1 /\ NoDup l2 /\ (forall x, In x l1 -> ~ In x l2).
Proof.
  induction l1 as [|x t IH]; simpl.
  - split; [intro H; repeat split; [constructor|assumption|tauto]|tauto].
  - rewrite !NoDup_cons_iff, IH, in_app_iff. split.
    + intros [Hx (H1 & H2 & H3)]. repeat split; try tauto.
      intros z [<-|Hz]; [tauto|now apply H3].
    + intros ([Hx H1] & H2 & H3). repeat split; auto.
      intros [Hi|Hi]; [auto|exact (H3 x (or_introl eq_refl) Hi)].
Qed.

Lemma NoDup_map_filter {A B} (g : A -> B) (p : A -> bool) l :
  NoDup (map g l) -> NoDup (map g (filter p l)).
Proof.
  induction l as [|x t IH]; simpl; intro H; [constructor|].
  apply NoDup_cons_iff in H as [Hn Hd]. destruct (p x); simpl; [|auto].
  constructor; [|auto]. intro Hi. apply Hn. apply in_map_iff in Hi as [z [Ez Hz]].
  apply filter_In in Hz as [Hz _]. apply in_map_iff. exists z; auto.
Qed.

Lemma map_fst_combine {A B} (l1 : list A) (l2 : list B) :
  length l1 = length l2 -> map fst (combine l1 l2) = l1.
Proof.
  revert l2; induction l1 as [|x t IH]; intros [|y t2]; simpl; intro H; try reflexivity; try discriminate.
  f_equal. apply IH. congruence.
Qed.

Lemma combine_map_l {A B C} (g : A -> C) (l1 : list A) (l2 : list B) :
  combine (map g l1) l2 = map (fun p => (g (fst p), snd p)) (combine l1 l2).
Proof. revert l2; induction l1 as [|x t IH]; intros [|y t2]; simpl; try reflexivity. f_equal. apply IH. Qed.

Lemma len_nonneg {A} (l : list A) : 0 <= len l.
Proof. unfold len. lia. Qed.

Lemma forallb_Forall {A} (p : A -> bool) (P : A -> Prop) l :
  (forall x, p x = true -> P x) -> forallb p l = true -> Forall P l.
Proof. intros H F. rewrite forallb_forall in F. apply Forall_forall. auto. Qed.

(* ------------------------------------------------------- boolean equalities *)
Lemma order_eqb_eq a b : order_eqb a b = true <-> a = b.
Proof. destruct a, b; simpl; split; intro H; try reflexivity; discriminate. Qed.
Lemma kind_eqb_eq a b : kind_eqb a b = true <-> a = b.
Proof. destruct a, b; simpl; split; intro H; try reflexivity; discriminate. Qed.
Lemma ftype_eqb_eq a b : ftype_eqb a b = true <-> a = b.
Proof.
  destruct a as [o k n], b as [o' k' n']. unfold ftype_eqb; simpl.
  rewrite !andb_true_iff, order_eqb_eq, kind_eqb_eq, Z.eqb_eq. split.
  - intros [[-> ->] ->]. reflexivity.
  - intros [= -> -> ->]. auto.
Qed.
Lemma dentry_eqb_eq a b : dentry_eqb a b = true <-> a = b.
Proof.
  destruct a as [n t s], b as [n' t' s']. unfold dentry_eqb; simpl.
  rewrite !andb_true_iff, String.eqb_eq, ftype_eqb_eq, zlist_eqb_spec. split.
  - intros [[-> ->] ->]. reflexivity.
  - intros [= -> -> ->]. auto.
Qed.
Lemma data_eqb_eq a b : data_eqb a b = true <-> a = b.
Proof. apply list_eqb_spec. intros; apply bytes_eqb_eq. Qed.
Lemma field_eqb_eq a b : field_eqb a b = true <-> a = b.
Proof.
  destruct a as [d x], b as [d' x']. unfold field_eqb; simpl.
  rewrite andb_true_iff, dentry_eqb_eq, data_eqb_eq. split.
  - intros [-> ->]. reflexivity.
  - intros [= -> ->]. auto.
Qed.
Lemma sarray_eqb_eq a b : sarray_eqb a b = true <-> a = b.
Proof.
  destruct a as [s f], b as [s' f']. unfold sarray_eqb; simpl.
  rewrite andb_true_iff, zlist_eqb_spec, (list_eqb_spec field_eqb field_eqb_eq). split.
  - intros [-> ->]. reflexivity.
  - intros [= -> ->]. auto.
Qed.
Lemma fview_eqb_eq a b : fview_eqb a b = true <-> a = b.
Proof.
  destruct a as [t s x], b as [t' s' x']. unfold fview_eqb; simpl.
  rewrite !andb_true_iff, ftype_eqb_eq, zlist_eqb_spec, data_eqb_eq. split.
  - intros [[-> ->] ->]. reflexivity.
  - intros [= -> -> ->]. auto.
Qed.
Lemma slist_eqb_eq a b : slist_eqb a b = true <-> a = b.
Proof. apply list_eqb_spec. intros; apply String.eqb_eq. Qed.

Lemma same_type_refl d : same_type d d = true.
Proof.
  unfold same_type. apply andb_true_iff. split; [apply ftype_eqb_eq|apply zlist_eqb_spec]; reflexivity.
Qed.

(* --------------------------------------------------------- name membership *)
Lemma memb_In n l : memb n l = true <-> In n l.
Proof.
  induction l as [|x t IH]; simpl; [split; [discriminate|tauto]|].
  rewrite orb_true_iff, IH, String.eqb_eq. split; intros [H|H]; auto.
Qed.
Lemma memb_false n l : memb n l = false <-> ~ In n l.
Proof. exact (dec_false _ _ (memb_In n l)). Qed.
Lemma memb_ext n l1 l2 : (In n l1 <-> In n l2) -> memb n l1 = memb n l2.
Proof.
  intro H. destruct (memb n l2) eqn:E.
  - apply memb_In, H, memb_In, E.
  - apply memb_false. rewrite H. now apply memb_false.
Qed.
Lemma nodup_b_NoDup l : nodup_b l = true <-> NoDup l.
Proof.
  induction l as [|x t IH]; simpl; [split; [constructor|reflexivity]|].
  now rewrite andb_true_iff, negb_true_iff, memb_false, IH, NoDup_cons_iff.
Qed.
Lemma nodup_b_false l : nodup_b l = false <-> ~ NoDup l.
Proof. exact (dec_false _ _ (nodup_b_NoDup l)). Qed.

Lemma forallb_memb ks l : forallb (fun n => memb n l) ks = true <-> (forall n, In n ks -> In n l).
Proof. rewrite forallb_forall. split; intros H n Hn; apply memb_In; auto. Qed.
Lemma forallb_memb_false ks l :
  forallb (fun n => memb n l) ks = false <-> exists n, In n ks /\ ~ In n l.
Proof.
  split.
  - intro H. apply forallb_false_exists in H as [n [Hn Pn]]. exists n. split; [assumption|now apply memb_false].
  - intros [n [Hn Pn]]. apply (dec_false _ _ (forallb_memb ks l)). auto.
Qed.

(* names / descr bookkeeping *)
Lemma names_descr a : map dname (descr a) = names a.
Proof. unfold descr, names. rewrite map_map. reflexivity. Qed.
Lemma names_fields fs : map dname (map fdesc fs) = map fname fs.
Proof. rewrite map_map. reflexivity. Qed.
Lemma sarray_eta a : mkA (shape a) (fields a) = a.
Proof. destruct a; reflexivity. Qed.
Lemma field_eta f : mkF (fdesc f) (fdata f) = f.
Proof. destruct f; reflexivity. Qed.
Lemma eq_mkA r s fs : shape r = s -> fields r = fs -> r = mkA s fs.
Proof. intros <- <-. symmetry. apply sarray_eta. Qed.
Lemma given_wrap x : seq_or_wrap x = given x.
Proof. destruct x; reflexivity. Qed.
Lemma given_vals_unwrap x : unwrap_vals x = given_vals x.
Proof. destruct x; reflexivity. Qed.

(* ------------------------------------------------------------ field lookup *)
Lemma find_field_Some n fs f : find_field n fs = Some f -> In f fs /\ fname f = n.
Proof.
  induction fs as [|g t IH]; simpl; [discriminate|].
  destruct (String.eqb_spec (fname g) n) as [E|E]; intro H.
  - injection H as <-. auto.
  - destruct (IH H); auto.
Qed.
Lemma find_field_None n fs : find_field n fs = None <-> ~ In n (map fname fs).
Proof.
  induction fs as [|g t IH]; simpl; [tauto|].
  destruct (String.eqb_spec (fname g) n) as [E|E]; [split; [discriminate|tauto]|].
  rewrite IH. tauto.
Qed.
Lemma find_field_In_names n fs : In n (map fname fs) -> exists f, find_field n fs = Some f.
Proof.
  intro H. destruct (find_field n fs) eqn:E; [eauto|]. apply find_field_None in E. contradiction.
Qed.
Lemma find_field_names n fs f : find_field n fs = Some f -> In n (map fname fs).
Proof. intro H. destruct (find_field_Some _ _ _ H) as [Hi <-]. now apply in_map. Qed.
Lemma find_field_NoDup fs f : NoDup (map fname fs) -> In f fs -> find_field (fname f) fs = Some f.
Proof.
  induction fs as [|g t IH]; simpl; intros Hn Hi; [contradiction|].
  apply NoDup_cons_iff in Hn as [Hx Hd].
  destruct Hi as [->|Hi]; [now rewrite String.eqb_refl|].
  destruct (String.eqb_spec (fname g) (fname f)) as [E|E]; [|auto].
  exfalso. apply Hx. rewrite E. now apply in_map.
Qed.
Lemma field_unique fs f g : NoDup (map fname fs) -> In f fs -> In g fs -> fname f = fname g -> f = g.
Proof.
  intros Hn Hf Hg E. pose proof (find_field_NoDup fs f Hn Hf) as H1.
  pose proof (find_field_NoDup fs g Hn Hg) as H2. rewrite E in H1. congruence.
Qed.
Lemma find_field_map h n fs :
  (forall g, fdesc (h g) = fdesc g) -> find_field n (map h fs) = option_map h (find_field n fs).
Proof.
  intro H. induction fs as [|g t IH]; simpl; [reflexivity|]. unfold fname. rewrite H.
  destruct (String.eqb (dname (fdesc g)) n); [reflexivity|exact IH].
Qed.
Lemma find_field_app n l1 l2 :
  find_field n (l1 ++ l2) = match find_field n l1 with Some f => Some f | None => find_field n l2 end.
Proof. induction l1 as [|g t IH]; simpl; [reflexivity|]. destruct (String.eqb (fname g) n); auto. Qed.

Lemma memb_names a n :
  memb n (names a) = match find_field n (fields a) with Some _ => true | None => false end.
Proof.
  unfold names. induction (fields a) as [|g t IH]; simpl; [reflexivity|]. rewrite String.eqb_sym.
  destruct (String.eqb (fname g) n); [reflexivity|exact IH].
Qed.

Lemma find_descr_fields n fs : find_descr n (map fdesc fs) = option_map fdesc (find_field n fs).
Proof.
  induction fs as [|g t IH]; simpl; [reflexivity|]. unfold fname.
  destruct (String.eqb (dname (fdesc g)) n); [reflexivity|exact IH].
Qed.
(* field lists with the same descr find fields of the same descr *)
Lemma find_field_descr n l1 l2 :
  map fdesc l1 = map fdesc l2 -> option_map fdesc (find_field n l1) = option_map fdesc (find_field n l2).
Proof. intro H. now rewrite <- !find_descr_fields, H. Qed.

Lemma pick_In a n f : In f (pick a n) -> In f (fields a) /\ fname f = n.
Proof.
  unfold pick. destruct (find_field n (fields a)) eqn:E; simpl; [|contradiction].
  intros [<-|[]]. now apply find_field_Some.
Qed.

Lemma put_field_descr n data fs : map fdesc (put_field n data fs) = map fdesc fs.
Proof.
  unfold put_field. rewrite map_map. apply map_ext. intro g.
  destruct (String.eqb (fname g) n); reflexivity.
Qed.
Lemma put_field_names n data fs : map fname (put_field n data fs) = map fname fs.
Proof. now rewrite <- !names_fields, put_field_descr. Qed.

(* A list [l] with the descr of [fs] in which every field found under a name of [fs] carries the
   data of [h] of that field is [map h fs]. *)
Lemma fields_eq_map (h : field -> field) : forall fs l,
  (forall g, fdesc (h g) = fdesc g) -> NoDup (map fname fs) -> map fdesc l = map fdesc fs ->
  (forall n g f, find_field n fs = Some g -> find_field n l = Some f -> fdata f = fdata (h g)) ->
  l = map h fs.
Proof.
  intros fs l Hh. revert l. induction fs as [|g t IH]; intros [|x l] Hn Hd Hf; try discriminate; [reflexivity|].
  injection Hd as Hx Hd. apply NoDup_cons_iff in Hn as [Hg Hn].
  assert (Nx : fname x = fname g) by (unfold fname; now rewrite Hx).
  simpl. f_equal.
  - rewrite <- (field_eta x), <- (field_eta (h g)), Hh, Hx. f_equal.
    apply (Hf (fname g)); simpl; [now rewrite String.eqb_refl|now rewrite Nx, String.eqb_refl].
  - apply IH; [assumption|assumption|]. intros n g' f Eg Ef.
    assert (Ne : String.eqb (fname g) n = false).
    { apply String.eqb_neq. intro E. apply Hg. rewrite E. now apply find_field_names in Eg. }
    apply (Hf n); simpl; [now rewrite Ne|now rewrite Nx, Ne].
Qed.

(* --------------------------------------------------- assignment broadcasting *)
Lemma assign_ok_refl s : assign_ok s s = true.
Proof.
  unfold assign_ok. rewrite Nat.sub_diag.
  assert (E : strip_ones 0 s = s) by (destruct s; reflexivity). rewrite E, Nat.leb_refl. simpl.
  induction (rev s) as [|x t IH]; simpl; [reflexivity|]. now rewrite Z.eqb_refl.
Qed.

(* ------------------------------------------------------------- copy_fields *)
(* The loop of copy_fields, for any rule of which pairs of types an assignment accepts and of
   what the destination field receives: Model.copy_loop is the loop at assign_field
   ([copy_loop_by_copy] below), its byte-order converting extension the loop at assign_field_sw
   ([Swap.copy_loop_sw_by]).  One induction gives every outcome of the loop. *)
Section CopyLoop.
  Variable accept : dentry -> dentry -> bool.
  Variable D : field -> dentry -> list (list Byte.byte).   (* the data a field of descr d receives from f *)
  Variable assign : sarray -> list Z -> field -> result sarray.
  Hypothesis assign_found : forall a2 s f g,
    find_field (fname f) (fields a2) = Some g -> accept (fdesc f) (fdesc g) = true ->
    assign a2 s f = if assign_ok s (shape a2)
                    then Ok (mkA (shape a2) (put_field (fname f) (D f (fdesc g)) (fields a2)))
                    else Err EValue.

  Definition copy_loop_by : list Z -> list field -> sarray -> result sarray :=
    fix loop src_shape fs1 a2 :=
      match fs1 with
      | [] => Ok a2
      | f :: t =>
        if memb (fname f) (names a2)
        then do a2' <- assign a2 src_shape f; loop src_shape t a2'
        else loop src_shape t a2
      end.

  (* what the loop leaves in field g of the destination *)
  Definition upd_by (fs1 : list field) (g : field) : field :=
    match find_field (fname g) fs1 with Some f => set_data g (D f (fdesc g)) | None => g end.

  Lemma upd_by_desc fs1 g : fdesc (upd_by fs1 g) = fdesc g.
  Proof. unfold upd_by. destruct (find_field (fname g) fs1); reflexivity. Qed.

  Lemma upd_by_outside fs g : ~ In (fname g) (map fname fs) -> upd_by fs g = g.
  Proof. intro H. unfold upd_by. apply find_field_None in H. now rewrite H. Qed.

  (* the frame-style reading of "r is a2 with upd_by mapped over its fields": shape and dtype
     kept, a common field holds what D gives it, every other field untouched *)
  Definition copy_ok_by (a1 a2 r : sarray) : Prop :=
    shape r = shape a2 /\ descr r = descr a2
    /\ (forall n f1 g, find_field n (fields a1) = Some f1 -> find_field n (fields a2) = Some g ->
          find_field n (fields r) = Some (mkF (fdesc g) (D f1 (fdesc g))))
    /\ (forall n, ~ In n (names a1) -> find_field n (fields r) = find_field n (fields a2)).

  Lemma copy_ok_by_expected a1 a2 r :
    shape r = shape a2 -> fields r = map (upd_by (fields a1)) (fields a2) -> copy_ok_by a1 a2 r.
  Proof.
    intros Hsh Hf. unfold copy_ok_by, descr. rewrite Hf. split; [exact Hsh|]. split; [|split].
    - rewrite map_map. apply map_ext, upd_by_desc.
    - intros n f1 g E1 E2. rewrite (find_field_map _ _ _ (upd_by_desc _)), E2. cbn [option_map].
      destruct (find_field_Some _ _ _ E2) as [_ Hgn]. unfold upd_by. rewrite Hgn, E1. reflexivity.
    - intros n Hnot. rewrite (find_field_map _ _ _ (upd_by_desc _)).
      destruct (find_field n (fields a2)) as [g|] eqn:E2; [|reflexivity]. cbn [option_map].
      rewrite upd_by_outside; [reflexivity|]. destruct (find_field_Some _ _ _ E2) as [_ ->]. exact Hnot.
  Qed.

  (* ... which has no other model when the destination's names are distinct *)
  Lemma copy_ok_by_unique a1 a2 r :
    NoDup (names a2) -> copy_ok_by a1 a2 r -> r = mkA (shape a2) (map (upd_by (fields a1)) (fields a2)).
  Proof.
    intros Hn (Hs & Hd & Hc & Hu). apply eq_mkA; [exact Hs|].
    apply fields_eq_map; [apply upd_by_desc|exact Hn|exact Hd|]. intros n g f Eg Ef.
    destruct (find_field_Some _ _ _ Eg) as [_ Hgn]. unfold upd_by. rewrite Hgn.
    destruct (find_field n (fields a1)) as [f1|] eqn:E1.
    - rewrite (Hc n f1 g E1 Eg) in Ef. now injection Ef as <-.
    - apply find_field_None in E1. rewrite (Hu n E1) in Ef. congruence.
  Qed.

  (* The types are compared with the descr of the destination, which no assignment changes, so
     the hypotheses survive the loop as they stand.  The shapes are the same for every field: a
     refused assignment is refused at the first common field. *)
  Lemma copy_loop_by_outcome : forall s fs1 a2,
    NoDup (map fname fs1) ->
    (forall f d, In f fs1 -> In d (descr a2) -> fname f = dname d -> accept (fdesc f) d = true) ->
    (forall f d d', In f fs1 -> In d (descr a2) -> In d' (descr a2) -> dname d = dname d' -> D f d = D f d') ->
    copy_loop_by s fs1 a2
    = if negb (existsb (fun f => memb (fname f) (names a2)) fs1) || assign_ok s (shape a2)
      then Ok (mkA (shape a2) (map (upd_by fs1) (fields a2))) else Err EValue.
  Proof.
    intros s fs1. induction fs1 as [|f t IH]; intros a2 Hnd Hc HD.
    - simpl. rewrite map_id_in, sarray_eta; reflexivity.
    - apply NoDup_cons_iff in Hnd as [Hx Hd]. simpl.
      assert (Hd' : forall data, descr (mkA (shape a2) (put_field (fname f) data (fields a2))) = descr a2).
      { intro data. apply put_field_descr. }
      destruct (memb (fname f) (names a2)) eqn:M; simpl.
      + apply memb_In in M. destruct (find_field_In_names _ _ M) as [g Hg].
        destruct (find_field_Some _ _ _ Hg) as [Hgi Hgn].
        rewrite (assign_found a2 s f g Hg) by (apply Hc; [now left|now apply in_map|now symmetry]).
        destruct (assign_ok s (shape a2)) eqn:Hs; [|reflexivity]. simpl.
        rewrite IH; simpl; [|assumption|rewrite Hd'; intros f' d Hf'; apply Hc; now right
                           |rewrite Hd'; intros f' d d' Hf'; apply HD; now right].
        rewrite Hs, orb_true_r. f_equal. f_equal. unfold put_field. rewrite map_map.
        apply map_ext_in. intros g0 Hg0. unfold upd_by at 2. simpl. rewrite (String.eqb_sym (fname f)).
        destruct (String.eqb_spec (fname g0) (fname f)) as [E|E]; [|reflexivity].
        rewrite upd_by_outside by (change (~ In (fname g0) (map fname t)); now rewrite E).
        unfold set_data. f_equal. apply HD; [now left|now apply in_map|now apply in_map|].
        change (fname g = fname g0). congruence.
      + apply memb_false in M.
        rewrite IH; [|assumption|intros f' d Hf'; apply Hc; now right|intros f' d d' Hf'; apply HD; now right].
        destruct (negb _ || _); [|reflexivity]. f_equal. f_equal. apply map_ext_in. intros g0 Hg0.
        unfold upd_by. simpl. destruct (String.eqb_spec (fname f) (fname g0)) as [E|E]; [|reflexivity].
        exfalso. apply M. rewrite E. now apply in_map.
  Qed.
End CopyLoop.

(* what copy_fields leaves in field g of the destination *)
Definition upd (fs1 : list field) (g : field) : field :=
  match find_field (fname g) fs1 with Some f => set_data g (fdata f) | None => g end.

(* Model.copy_loop is the loop at assign_field, and upd its update function *)
Lemma copy_loop_by_copy : copy_loop = copy_loop_by assign_field.
Proof. reflexivity. Qed.
Lemma upd_by_upd : upd = upd_by (fun f _ => fdata f).
Proof. reflexivity. Qed.

Lemma copy_expected_upd a1 a2 : copy_expected a1 a2 = map (upd (fields a1)) (fields a2).
Proof. reflexivity. Qed.

Lemma upd_outside fs g : ~ In (fname g) (map fname fs) -> upd fs g = g.
Proof. rewrite upd_by_upd. apply upd_by_outside. Qed.

Lemma copy_loop_outcome s fs1 a2 :
  NoDup (map fname fs1) ->
  (forall f d, In f fs1 -> In d (descr a2) -> fname f = dname d -> same_type (fdesc f) d = true) ->
  copy_loop s fs1 a2
  = if negb (existsb (fun f => memb (fname f) (names a2)) fs1) || assign_ok s (shape a2)
    then Ok (mkA (shape a2) (map (upd fs1) (fields a2))) else Err EValue.
Proof.
  intros Hn Hc. rewrite copy_loop_by_copy, upd_by_upd.
  apply (copy_loop_by_outcome same_type); auto.
  intros a s' f g Hg Ht. unfold assign_field. now rewrite Hg, Ht.
Qed.

Lemma copy_loop_char s fs1 a2 :
  NoDup (map fname fs1) ->
  (forall f d, In f fs1 -> In d (descr a2) -> fname f = dname d -> same_type (fdesc f) d = true) ->
  assign_ok s (shape a2) = true ->
  copy_loop s fs1 a2 = Ok (mkA (shape a2) (map (upd fs1) (fields a2))).
Proof. intros Hn Hc Hs. now rewrite copy_loop_outcome, Hs, orb_true_r. Qed.

Lemma compat_descr a1 a2 : compat a1 a2 ->
  forall f d, In f (fields a1) -> In d (descr a2) -> fname f = dname d -> same_type (fdesc f) d = true.
Proof.
  intros H f d Hf Hd E. unfold descr in Hd. apply in_map_iff in Hd as [g [<- Hg]]. now apply H.
Qed.

Lemma copy_rejects a1 a2 : nelem a1 <> nelem a2 -> copy_fields a1 a2 = Err EValue.
Proof. intro H. unfold copy_fields. apply Z.eqb_neq in H. now rewrite H. Qed.

(* copy_ok is that reading for copy_fields: with the descr kept, "some field with a1's data" is the
   field of a2 with a1's data *)
Lemma copy_ok_by_copy a1 a2 r : copy_ok a1 a2 r <-> copy_ok_by (fun f _ => fdata f) a1 a2 r.
Proof.
  unfold copy_ok, copy_ok_by.
  split; intros (Hs & Hd & Hc & Hu); (split; [exact Hs|split; [exact Hd|split; [|exact Hu]]]).
  - intros n f1 g E1 E2. destruct (Hc n f1 E1 (find_field_names _ _ _ E2)) as [f [Ef Ed]]. rewrite Ef.
    pose proof (find_field_descr n _ _ Hd) as X. rewrite Ef, E2 in X. injection X as X.
    now rewrite <- (field_eta f), X, Ed.
  - intros n f1 E1 Hin. destruct (find_field_In_names _ _ Hin) as [g Eg]. rewrite (Hc n f1 g E1 Eg).
    eexists. split; reflexivity.
Qed.

Lemma copy_expected_ok a1 a2 r :
  shape r = shape a2 -> fields r = copy_expected a1 a2 -> copy_ok a1 a2 r.
Proof. intros Hs Hf. apply copy_ok_by_copy. now apply copy_ok_by_expected. Qed.

Lemma copy_ok_unique a1 a2 r :
  NoDup (names a2) -> copy_ok a1 a2 r -> r = mkA (shape a2) (copy_expected a1 a2).
Proof. intros Hn H. apply copy_ok_by_copy in H. exact (copy_ok_by_unique _ a1 a2 r Hn H). Qed.

(* ---------------------------------------- np.zeros + copy_fields = rebuild *)
Definition lookup (fs : list field) (n : Z) (d : dentry) : field :=
  match find_field (dname d) fs with Some f => mkF d (fdata f) | None => zero_field n d end.

Lemma lookup_self fs n f : NoDup (map fname fs) -> In f fs -> lookup fs n (fdesc f) = f.
Proof.
  intros Hn Hi. unfold lookup. change (dname (fdesc f)) with (fname f).
  rewrite (find_field_NoDup _ _ Hn Hi). apply field_eta.
Qed.

Lemma lookup_absent fs n d : ~ In (dname d) (map fname fs) -> lookup fs n d = zero_field n d.
Proof. intro H. unfold lookup. apply find_field_None in H. now rewrite H. Qed.

Lemma descr_unique a d f :
  NoDup (names a) -> In d (descr a) -> In f (fields a) -> fname f = dname d -> fdesc f = d.
Proof.
  intros Hn Hd Hf E. unfold descr in Hd. apply in_map_iff in Hd as [g [<- Hg]].
  f_equal. exact (field_unique _ _ _ Hn Hf Hg E).
Qed.

Lemma rebuild a ds :
  NoDup (names a) -> NoDup (map dname ds) ->
  (forall d, In d ds -> In (dname d) (names a) -> In d (descr a)) ->
  (do z <- np_zeros (shape a) ds; copy_fields a z)
  = Ok (mkA (shape a) (map (lookup (fields a) (nelem a)) ds)).
Proof.
  intros Hn Hds Hsub. unfold np_zeros. apply nodup_b_NoDup in Hds. rewrite Hds. simpl.
  unfold copy_fields. simpl. unfold nelem at 1 2. simpl. rewrite Z.eqb_refl.
  rewrite copy_loop_char; simpl.
  - f_equal. f_equal. rewrite map_map. apply map_ext. intro d. unfold upd, lookup. simpl.
    unfold fname at 1. simpl. destruct (find_field (dname d) (fields a)); reflexivity.
  - exact Hn.
  - intros f d Hf Hd E. unfold descr in Hd. simpl in Hd. rewrite map_map in Hd. simpl in Hd.
    rewrite map_id in Hd.
    assert (Hin : In d (descr a)).
    { apply Hsub; [assumption|]. rewrite <- E. unfold names. now apply in_map. }
    rewrite (descr_unique a d f Hn Hin Hf E). apply same_type_refl.
  - apply assign_ok_refl.
Qed.

Lemma sel_fields a n (p : dentry -> bool) :
  NoDup (names a) ->
  map (lookup (fields a) n) (filter p (descr a)) = filter (fun f => p (fdesc f)) (fields a).
Proof.
  intro Hn. unfold descr. rewrite filter_map_comm, map_map.
  apply map_id_in. intros f Hf. apply filter_In in Hf as [Hf _]. now apply lookup_self.
Qed.

(* extract_fields and remove_fields: filter the descr, refuse an empty selection, rebuild *)
Lemma select_char a (p : dentry -> bool) :
  NoDup (names a) ->
  match filter p (descr a) with
  | [] => Err EValue
  | _ => do z <- np_zeros (shape a) (filter p (descr a)); copy_fields a z
  end
  = if forallb (fun f => negb (p (fdesc f))) (fields a) then Err EValue
    else Ok (mkA (shape a) (filter (fun f => p (fdesc f)) (fields a))).
Proof.
  intro Hn.
  assert (E : forallb (fun f => negb (p (fdesc f))) (fields a)
              = match filter p (descr a) with [] => true | _ => false end).
  { unfold descr. rewrite filter_map_comm, forallb_negb_filter. now destruct (filter _ (fields a)). }
  rewrite E. destruct (filter p (descr a)) as [|d0 ds] eqn:F; [reflexivity|]. rewrite <- F, rebuild.
  - now rewrite sel_fields.
  - exact Hn.
  - rewrite <- names_descr in Hn. now apply NoDup_map_filter.
  - intros d Hd _. now apply filter_In in Hd as [Hd _].
Qed.

(* ---------------------------------------------------------------- extract *)
Lemma extract_char a keep strict :
  NoDup (names a) ->
  extract_fields a keep strict
  = if extract_rejects_b a (given keep) strict then Err EValue
    else Ok (mkA (shape a) (filter (fun f => memb (fname f) (given keep)) (fields a))).
Proof.
  intro Hn. unfold extract_fields, extract_rejects_b. rewrite given_wrap.
  destruct (strict && negb (forallb (fun n => memb n (names a)) (given keep))); [reflexivity|].
  exact (select_char a (fun d => memb (dname d) (given keep)) Hn).
Qed.

Lemma extract_rejects_dec a ks strict : extract_rejects_b a ks strict = true <-> extract_rejects a ks strict.
Proof.
  unfold extract_rejects_b, extract_rejects. rewrite orb_true_iff, andb_true_iff, negb_true_iff.
  rewrite forallb_memb_false, forallb_forall.
  split; (intros [H|H]; [now left|right]); intros f Hf; specialize (H f Hf).
  - now apply memb_false, negb_true_iff.
  - now apply negb_true_iff, memb_false.
Qed.

(* ----------------------------------------------------------------- remove *)
Lemma remove_char a rm :
  NoDup (names a) ->
  remove_fields a rm
  = if remove_rejects_b a (given rm) then Err EValue
    else Ok (mkA (shape a) (filter (fun f => negb (memb (fname f) (given rm))) (fields a))).
Proof.
  intro Hn. unfold remove_fields, remove_rejects_b. rewrite given_wrap.
  rewrite (forallb_ext _ (fun f => negb (negb (memb (fname f) (given rm))))).
  - exact (select_char a (fun d => negb (memb (dname d) (given rm))) Hn).
  - intro f. now rewrite negb_involutive.
Qed.

Lemma remove_rejects_dec a ks : remove_rejects_b a ks = true <-> remove_rejects a ks.
Proof.
  unfold remove_rejects_b, remove_rejects. rewrite forallb_forall.
  split; intros H f Hf; apply memb_In; auto.
Qed.

(* ---------------------------------------------------------------- reorder *)
Definition pickd (ds : list dentry) (n : string) : list dentry :=
  match find_descr n ds with Some d => [d] | None => [] end.
Definition has_descr (ds : list dentry) (n : string) : bool :=
  match find_descr n ds with Some _ => true | None => false end.

Lemma reorder_named_char ds ks strict :
  reorder_named ds ks strict
  = if strict && negb (forallb (has_descr ds) ks) then Err EValue else Ok (flat_map (pickd ds) ks).
Proof.
  induction ks as [|n t IH]; simpl; [now rewrite andb_false_r|].
  unfold has_descr at 1, pickd at 1. destruct (find_descr n ds) as [d|] eqn:E.
  - rewrite IH. simpl. destruct (strict && negb (forallb (has_descr ds) t)); reflexivity.
  - destruct strict; simpl; [reflexivity|]. rewrite IH. reflexivity.
Qed.

(* the descr entries found under a name are those of the fields found under it *)
Lemma pickd_pick a n : pickd (descr a) n = map fdesc (pick a n).
Proof.
  unfold pickd, pick, descr. rewrite find_descr_fields.
  destruct (find_field n (fields a)); reflexivity.
Qed.

Lemma has_descr_memb a n : has_descr (descr a) n = memb n (names a).
Proof.
  unfold has_descr, descr. rewrite find_descr_fields, memb_names.
  now destruct (find_field n (fields a)).
Qed.

Lemma pick_names a n : map fname (pick a n) = if memb n (names a) then [n] else [].
Proof.
  unfold pick. rewrite memb_names. destruct (find_field n (fields a)) as [f|] eqn:E; [|reflexivity].
  now destruct (find_field_Some _ _ _ E) as [_ <-].
Qed.

Lemma flat_pick_names a ks :
  map fname (flat_map (pick a) ks) = filter (fun n => memb n (names a)) ks.
Proof.
  induction ks as [|n t IH]; simpl; [reflexivity|]. rewrite map_app, IH, pick_names.
  destruct (memb n (names a)); reflexivity.
Qed.

Lemma flat_pickd a ks : flat_map (pickd (descr a)) ks = map fdesc (flat_map (pick a) ks).
Proof.
  induction ks as [|n t IH]; simpl; [reflexivity|]. now rewrite map_app, IH, pickd_pick.
Qed.

Lemma flat_pick_In a ks f : In f (flat_map (pick a) ks) -> In f (fields a).
Proof. intro H. apply in_flat_map in H as [n [_ Hf]]. now apply pick_In in Hf. Qed.

(* the named fields really come first, in the order given *)
Lemma reorder_names a ks :
  map fname (reorder_fields_spec a ks)
  = filter (fun n => memb n (names a)) ks ++ filter (fun n => negb (memb n ks)) (names a).
Proof.
  unfold reorder_fields_spec, names. now rewrite map_app, flat_pick_names, filter_map_comm.
Qed.

(* reordering neither drops nor invents a field *)
Lemma reorder_spec_sub a ks f : In f (reorder_fields_spec a ks) -> In f (fields a).
Proof.
  unfold reorder_fields_spec. rewrite in_app_iff, filter_In.
  intros [H|[H _]]; [now apply flat_pick_In in H|exact H].
Qed.
Lemma reorder_spec_all a ks f : NoDup (names a) -> In f (fields a) -> In f (reorder_fields_spec a ks).
Proof.
  intros Hn Hi. unfold reorder_fields_spec. rewrite in_app_iff, filter_In, in_flat_map.
  destruct (memb (fname f) ks) eqn:M; [left|right; auto].
  exists (fname f). split; [now apply memb_In|]. unfold pick. rewrite (find_field_NoDup _ _ Hn Hi). now left.
Qed.

Lemma reorder_char a ks strict :
  NoDup (names a) -> NoDup (given ks) ->
  reorder_fields a ks strict
  = if reorder_rejects_b a (given ks) strict then Err EValue
    else Ok (mkA (shape a) (reorder_fields_spec a (given ks))).
Proof.
  intros Hn Hk. unfold reorder_fields, reorder_rejects_b. rewrite given_wrap, reorder_named_char.
  rewrite (forallb_ext _ _ _ (has_descr_memb a)).
  destruct (strict && negb (forallb (fun n => memb n (names a)) (given ks))); [reflexivity|].
  simpl. rewrite flat_pickd, names_fields, flat_pick_names, rebuild.
  - f_equal. f_equal. rewrite map_app, sel_fields by assumption. unfold reorder_fields_spec. f_equal.
    + rewrite map_map. apply map_id_in. intros f Hf. apply lookup_self; [exact Hn|].
      now apply flat_pick_In in Hf.
    + apply filter_ext_in. intros f Hf. f_equal. change (dname (fdesc f)) with (fname f).
      apply memb_ext. rewrite filter_In, memb_In. split; [tauto|]. intro H. split; [assumption|].
      now apply in_map.
  - exact Hn.
  - rewrite map_app, names_fields, flat_pick_names. apply NoDup_app_iff.
    split; [now apply NoDup_filter|split].
    + rewrite <- names_descr in Hn. now apply NoDup_map_filter.
    + intros x H1 H2. apply in_map_iff in H2 as [d [<- Hd]]. apply filter_In in Hd as [_ Hq].
      apply negb_true_iff, memb_false in Hq. contradiction.
  - intros d Hd _. apply in_app_or in Hd as [Hd|Hd]; [|now apply filter_In in Hd as [Hd _]].
    apply in_map_iff in Hd as [f [<- Hf]]. apply in_map. now apply flat_pick_In in Hf.
Qed.

Lemma reorder_rejects_dec a ks strict : reorder_rejects_b a ks strict = true <-> reorder_rejects a ks strict.
Proof.
  unfold reorder_rejects_b, reorder_rejects. now rewrite andb_true_iff, negb_true_iff, forallb_memb_false.
Qed.

(* ---------------------------------------------------- copy_fields_by_name *)
Definition setv (n : Z) (nv : list (string * dval)) (g : field) : field :=
  match assoc (fname g) nv with
  | Some v => mkF (fdesc g) (default_data n (fdesc g) v)
  | None => g
  end.

Lemma cfbn_expected_setv a ns vs : cfbn_expected a ns vs = map (setv (nelem a) (combine ns vs)) (fields a).
Proof. reflexivity. Qed.

Lemma setv_desc n nv g : fdesc (setv n nv g) = fdesc g.
Proof. unfold setv. destruct (assoc (fname g) nv); reflexivity. Qed.

Lemma fill_data_ok n d v : dval_ok n d v -> fill_data n d v = Ok (default_data n d v).
Proof.
  destruct v as [item|cell|cells]; simpl; intro H.
  - apply Z.eqb_eq in H. now rewrite H.
  - apply Z.eqb_eq in H. now rewrite H.
  - destruct H as [H1 H2]. apply Z.eqb_eq in H1. rewrite H1. simpl.
    assert (F : forallb (fun c => len c =? cellsize d) cells = true).
    { apply forallb_forall. intros c Hc. apply Z.eqb_eq. rewrite Forall_forall in H2. auto. }
    now rewrite F.
Qed.

Lemma assoc_None n nv : assoc n nv = None <-> ~ In n (map fst nv).
Proof.
  induction nv as [|[m v] t IH]; simpl; [tauto|].
  destruct (String.eqb_spec m n) as [E|E]; [split; [discriminate|tauto]|]. rewrite IH. tauto.
Qed.

Lemma setv_outside n nv g : ~ In (fname g) (map fst nv) -> setv n nv g = g.
Proof. intro H. unfold setv. apply assoc_None in H. now rewrite H. Qed.

Lemma assoc_Some_In n v nv : assoc n nv = Some v -> In (n, v) nv.
Proof.
  induction nv as [|[m w] t IH]; simpl; [discriminate|].
  destruct (String.eqb_spec m n) as [->|E]; [intros [= ->]; now left|auto].
Qed.

Lemma assoc_In n v nv : NoDup (map fst nv) -> In (n, v) nv -> assoc n nv = Some v.
Proof.
  induction nv as [|[m w] t IH]; simpl; intros Hn Hi; [contradiction|].
  apply NoDup_cons_iff in Hn as [Hx Hd]. destruct Hi as [[= -> ->]|Hi]; [now rewrite String.eqb_refl|].
  destruct (String.eqb_spec m n) as [->|E]; [|auto].
  exfalso. apply Hx. apply in_map_iff. exists (n, v). auto.
Qed.

(* one assignment arr[n] = v, seen from the values still to be assigned *)
Lemma setv_put N n v t fs g :
  NoDup (map fname fs) -> find_field n fs = Some g -> ~ In n (map fst t) ->
  map (setv N t) (put_field n (default_data N (fdesc g) v) fs) = map (setv N ((n, v) :: t)) fs.
Proof.
  intros Hn Hg Ht. unfold put_field. rewrite map_map. apply map_ext_in. intros g0 Hg0.
  unfold setv at 2. simpl. rewrite (String.eqb_sym n).
  destruct (String.eqb_spec (fname g0) n) as [E|E]; [|reflexivity].
  rewrite <- E, (find_field_NoDup _ _ Hn Hg0) in Hg. injection Hg as ->.
  apply assoc_None in Ht. unfold setv, fname in *. simpl. now rewrite E, Ht.
Qed.

Lemma cfbn_loop_char : forall nv s fs,
  NoDup (map fname fs) -> NoDup (map fst nv) ->
  (forall n v g, In (n, v) nv -> find_field n fs = Some g -> dval_ok (prodZ s) (fdesc g) v) ->
  cfbn_loop (mkA s fs) nv = Ok (mkA s (map (setv (prodZ s) nv) fs)).
Proof.
  induction nv as [|[n v] t IH]; intros s fs Hn Hk Hv.
  - simpl. now rewrite map_id.
  - apply NoDup_cons_iff in Hk as [Hx Hd]. simpl.
    destruct (find_field n fs) as [g|] eqn:E.
    + unfold nelem. simpl. rewrite (fill_data_ok _ _ _ (Hv n v g (or_introl eq_refl) E)). simpl.
      rewrite IH; [now rewrite setv_put|now rewrite put_field_names|assumption|].
      (* the later values meet fields of the same descr as before the assignment *)
      intros n' v' g' Hi Hf.
      pose proof (find_field_descr n' _ _ (put_field_descr n (default_data (prodZ s) (fdesc g) v) fs)) as D.
      rewrite Hf in D. destruct (find_field n' fs) as [g1|] eqn:E1; [|discriminate].
      injection D as ->. apply (Hv n' v' g1); [now right|assumption].
    + rewrite IH; [|assumption|assumption|intros n' v' g' Hi; apply Hv; now right].
      f_equal. f_equal. apply map_ext_in. intros g0 Hg0. unfold setv. simpl.
      destruct (String.eqb_spec n (fname g0)) as [E0|E0]; [|reflexivity].
      apply find_field_None in E. exfalso. apply E. rewrite E0. now apply in_map.
Qed.

Lemma cfbn_model a nms vals :
  cfbn_scope a (given nms) (given_vals vals) ->
  copy_fields_by_name a nms vals
  = Ok (mkA (shape a) (cfbn_expected a (given nms) (given_vals vals))).
Proof.
  intros [Hn [Hk [Hl Hv]]]. unfold copy_fields_by_name. rewrite given_wrap, given_vals_unwrap.
  rewrite Hl, Nat.eqb_refl. destruct a as [s fs].
  apply cfbn_loop_char; [assumption|now rewrite map_fst_combine|assumption].
Qed.

Lemma cfbn_rejects a nms vals :
  length (given nms) <> length (given_vals vals) -> copy_fields_by_name a nms vals = Err EValue.
Proof.
  intro H. unfold copy_fields_by_name. rewrite given_wrap, given_vals_unwrap.
  apply Nat.eqb_neq in H. now rewrite H.
Qed.

Lemma cfbn_expected_ok a ns vs r :
  NoDup ns -> length ns = length vs ->
  shape r = shape a -> fields r = cfbn_expected a ns vs -> cfbn_ok a ns vs r.
Proof.
  intros Hk Hl Hs Hf. unfold cfbn_ok, descr. rewrite Hf, cfbn_expected_setv. split; [exact Hs|].
  split; [|split].
  - rewrite map_map. apply map_ext, setv_desc.
  - intros n v g Hi Hg. rewrite (find_field_map _ _ _ (setv_desc _ _)), Hg. simpl.
    destruct (find_field_Some _ _ _ Hg) as [_ Hgn]. unfold setv. rewrite Hgn.
    rewrite (assoc_In n v); [reflexivity| |assumption]. now rewrite map_fst_combine.
  - intros n Hnot. rewrite (find_field_map _ _ _ (setv_desc _ _)).
    destruct (find_field n (fields a)) as [g|] eqn:Hg; [|reflexivity]. simpl.
    destruct (find_field_Some _ _ _ Hg) as [_ Hgn]. rewrite setv_outside; [reflexivity|].
    now rewrite Hgn, map_fst_combine.
Qed.

Lemma cfbn_ok_unique a ns vs r :
  NoDup (names a) -> length ns = length vs ->
  cfbn_ok a ns vs r -> r = mkA (shape a) (cfbn_expected a ns vs).
Proof.
  intros Hn Hl (Hs & Hd & Hc & Hu). apply eq_mkA; [exact Hs|].
  apply fields_eq_map; [apply setv_desc|exact Hn|exact Hd|]. intros n g f Eg Ef.
  destruct (find_field_Some _ _ _ Eg) as [_ Hgn]. unfold setv. rewrite Hgn.
  destruct (assoc n (combine ns vs)) as [v|] eqn:A.
  - rewrite (Hc n v g (assoc_Some_In _ _ _ A) Eg) in Ef. now injection Ef as <-.
  - apply assoc_None in A. rewrite map_fst_combine in A by assumption. rewrite (Hu n A) in Ef. congruence.
Qed.

(* -------------------------------------------------------------------- add *)
Lemma add_rejects_dec a add : add_rejects_b a add = true <-> add_rejects a add.
Proof.
  unfold add_rejects_b, add_rejects. rewrite existsb_exists.
  split; intros [d [H1 H2]]; exists d; (split; [assumption|]); now apply memb_In.
Qed.

Lemma add_zero a add :
  NoDup (names a) -> NoDup (map dname add) -> ~ add_rejects a add ->
  (do z <- np_zeros (shape a) (descr a ++ add); copy_fields a z)
  = Ok (mkA (shape a) (fields a ++ map (zero_field (nelem a)) add)).
Proof.
  intros Hn Ha Hdis.
  assert (Hnew : forall d, In d add -> ~ In (dname d) (names a)) by (intros d Hd Hi; apply Hdis; exists d; auto).
  rewrite rebuild.
  - f_equal. f_equal. rewrite map_app. f_equal.
    + unfold descr. rewrite map_map. apply map_id_in. intros f Hf. now apply lookup_self.
    + apply map_ext_in. intros d Hd. now apply lookup_absent, Hnew.
  - exact Hn.
  - rewrite map_app, names_descr. apply NoDup_app_iff. split; [assumption|split; [assumption|]].
    intros x H1 H2. apply in_map_iff in H2 as [d [<- Hd]]. now apply (Hnew d).
  - intros d Hd Hin. apply in_app_or in Hd as [Hd|Hd]; [assumption|]. now apply Hnew in Hd.
Qed.

(* the defaults are assigned by name to an array whose new fields are the zero fields of [add] *)
Lemma setv_zero_fields n add : forall vs,
  NoDup (map dname add) -> length vs = length add ->
  map (fun d => setv n (combine (map dname add) vs) (zero_field n d)) add
  = map (fun dv => mkF (fst dv) (default_data n (fst dv) (snd dv))) (combine add vs).
Proof.
  induction add as [|d t IH]; intros [|v vs] Hn Hl; try discriminate; [reflexivity|].
  simpl in *. apply NoDup_cons_iff in Hn as [Hx Hd]. f_equal.
  - unfold setv, fname. simpl. now rewrite String.eqb_refl.
  - rewrite <- IH by (auto; congruence). apply map_ext_in. intros d' Hd'.
    unfold setv, fname. simpl. destruct (String.eqb_spec (dname d) (dname d')) as [E|E]; [|reflexivity].
    exfalso. apply Hx. rewrite E. now apply in_map.
Qed.

Lemma add_char a add defaults :
  NoDup (names a) -> NoDup (map dname add) ->
  defaults_ok (nelem a) add (option_map given_vals defaults) ->
  add_fields a add defaults
  = if add_rejects_b a add then Err EValue
    else Ok (mkA (shape a) (fields a ++ new_fields (nelem a) add (option_map given_vals defaults))).
Proof.
  intros Hn Ha Hd. unfold add_fields. rewrite (proj2 (nodup_b_NoDup _) Ha). simpl.
  fold (add_rejects_b a add). destruct (add_rejects_b a add) eqn:R; [reflexivity|].
  apply (dec_false _ _ (add_rejects_dec a add)) in R.
  assert (Hnew : forall d, In d add -> ~ In (dname d) (names a)) by (intros d Hd' Hi; apply R; exists d; auto).
  pose proof (add_zero a add Hn Ha R) as Z.
  destruct (np_zeros (shape a) (descr a ++ add)) as [z|e]; simpl in Z; [|discriminate].
  simpl. rewrite Z. simpl. destruct defaults as [dv|]; [|reflexivity].
  destruct Hd as [Hl Hv]. rewrite given_vals_unwrap, Hl, Nat.eqb_refl. simpl.
  unfold copy_fields_by_name. simpl. rewrite map_length, Hl, Nat.eqb_refl.
  set (zs := map (zero_field (nelem a)) add).
  assert (Nz : map fname zs = map dname add) by (unfold zs; now rewrite map_map).
  rewrite cfbn_loop_char.
  - f_equal. f_equal. change (prodZ (shape a)) with (nelem a). rewrite map_app. f_equal.
    + apply map_id_in. intros g Hg. apply setv_outside. rewrite map_fst_combine by (now rewrite map_length).
      intro Hi. apply in_map_iff in Hi as [d [Ed Hd]]. apply (Hnew d Hd). rewrite Ed. now apply in_map.
    + unfold zs. rewrite map_map. now apply setv_zero_fields.
  - rewrite map_app, Nz. apply NoDup_app_iff. split; [exact Hn|split; [exact Ha|]].
    intros x H1 H2. apply in_map_iff in H2 as [d [<- Hd]]. now apply (Hnew d).
  - rewrite map_fst_combine; [exact Ha|now rewrite map_length].
  - (* a default meets the zero field of its own descr entry *)
    intros n v g Hi Hg. change (prodZ (shape a)) with (nelem a).
    rewrite combine_map_l in Hi. apply in_map_iff in Hi as [[d v'] [[= <- <-] Hp]].
    rewrite find_field_app in Hg. pose proof (in_combine_l _ _ _ _ Hp) as Hd.
    apply Hnew, find_field_None in Hd. rewrite Hd in Hg.
    assert (Hz : find_field (dname d) zs = Some (zero_field (nelem a) d)).
    { apply (find_field_NoDup zs (zero_field (nelem a) d)); [now rewrite Nz|].
      apply in_map. now apply in_combine_l in Hp. }
    rewrite Hz in Hg. injection Hg as <-. rewrite Forall_forall in Hv. exact (Hv (d, v') Hp).
Qed.

(* ---------------------------------------------------------------- combine *)
Lemma combine_descr_char num arrs :
  combine_descr num arrs
  = if forallb (fun a => nelem a =? num) arrs then Ok (concat (map descr arrs)) else Err EValue.
Proof.
  induction arrs as [|a t IH]; simpl; [reflexivity|].
  destruct (nelem a =? num); simpl; [|reflexivity]. rewrite IH.
  destruct (forallb (fun a0 => nelem a0 =? num) t); reflexivity.
Qed.

Lemma concat_names arrs : map dname (concat (map descr arrs)) = concat (map names arrs).
Proof.
  rewrite concat_map, map_map. f_equal. apply map_ext. intro a. apply names_descr.
Qed.

Definition zeros_of (n : Z) (a : sarray) : list field := map (zero_field n) (descr a).

Lemma upd_zeros n a : NoDup (names a) -> map (upd (fields a)) (zeros_of n a) = fields a.
Proof.
  intro Hn. unfold zeros_of, descr. rewrite !map_map.
  apply map_id_in. intros f Hf. unfold upd. simpl. unfold fname at 1. simpl. fold (fname f).
  rewrite (find_field_NoDup _ _ Hn Hf). unfold set_data. simpl. apply field_eta.
Qed.

Lemma zeros_names n a : map fname (zeros_of n a) = names a.
Proof. unfold zeros_of. rewrite map_map. simpl. apply names_descr. Qed.

Lemma concat_zeros_names n arrs :
  map fname (concat (map (zeros_of n) arrs)) = concat (map names arrs).
Proof. rewrite concat_map, map_map. f_equal. apply map_ext. intro a. apply zeros_names. Qed.

(* The output after some arrays have been copied: the fields P already filled, then the zero
   fields of the arrays still to come.  Copying [a] touches only its own zero fields, because all
   names are distinct. *)
Lemma combine_copy_char : forall arrs P s,
  NoDup (map fname P ++ concat (map names arrs)) ->
  (forall a, In a arrs -> shape a = s) ->
  combine_copy arrs (mkA s (P ++ concat (map (zeros_of (prodZ s)) arrs)))
  = Ok (mkA s (P ++ concat (map fields arrs))).
Proof.
  induction arrs as [|a t IH]; intros P s Hn Hs; [reflexivity|].
  simpl. simpl in Hn.
  destruct (proj1 (NoDup_app_iff _ _) Hn) as [HP [Hrest HPdis]].
  destruct (proj1 (NoDup_app_iff _ _) Hrest) as [Ha [Ht Hadis]].
  assert (Sa : shape a = s) by (apply Hs; now left).
  set (rest := concat (map (zeros_of (prodZ s)) t)).
  assert (Nrest : map fname rest = concat (map names t)) by apply concat_zeros_names.
  assert (Out : forall l, (forall x, In x (map fname l) -> ~ In x (names a)) -> map (upd (fields a)) l = l).
  { intros l H. apply map_id_in. intros g Hg. apply upd_outside. intro Hi. apply (H (fname g)); [now apply in_map|exact Hi]. }
  assert (OP : map (upd (fields a)) P = P).
  { apply Out. intros x H1 H2. apply (HPdis x H1), in_or_app. now left. }
  assert (Or : map (upd (fields a)) rest = rest).
  { apply Out. rewrite Nrest. intros x H1 H2. exact (Hadis x H2 H1). }
  unfold copy_fields. unfold nelem. simpl. rewrite Sa, Z.eqb_refl.
  rewrite copy_loop_char; simpl.
  - rewrite !map_app, upd_zeros, OP, Or by exact Ha.
    rewrite app_assoc, IH; [now rewrite <- app_assoc|now rewrite map_app, <- app_assoc|].
    intros a' Ha'. apply Hs. now right.
  - exact Ha.
  - (* a descr entry of the output called like a field of [a] is the entry of that field *)
    intros f d Hf Hd E. unfold descr in Hd. simpl in Hd. rewrite !map_app in Hd.
    assert (Hfa : In (dname d) (names a)) by (rewrite <- E; now apply in_map).
    assert (Hin : In d (descr a)).
    { apply in_app_or in Hd as [Hd|Hd]; [|apply in_app_or in Hd as [Hd|Hd]].
      - exfalso. apply in_map_iff in Hd as [g [<- Hg]]. apply (HPdis (fname g)); [now apply in_map|].
        apply in_or_app. now left.
      - unfold zeros_of in Hd. rewrite map_map in Hd. simpl in Hd. now rewrite map_id in Hd.
      - exfalso. apply in_map_iff in Hd as [g [<- Hg]]. apply (Hadis _ Hfa).
        rewrite <- Nrest. exact (in_map fname _ _ Hg). }
    rewrite (descr_unique a d f Ha Hin Hf E). apply same_type_refl.
  - apply assign_ok_refl.
Qed.

Lemma combine_rejects_dec arrs : combine_rejects_b arrs = true <-> combine_rejects arrs.
Proof.
  unfold combine_rejects_b, combine_rejects. destruct arrs as [|a0 t]; [split; auto|].
  rewrite orb_true_iff, !negb_true_iff, nodup_b_false. simpl hd. split.
  - intros [H|H]; [|right; right; exact H]. right; left.
    apply forallb_false_exists in H as [x [Hx Px]]. exists x. split; [assumption|now apply Z.eqb_neq].
  - intros [H|[[x [Hx Px]]|H]]; [discriminate| |right; exact H]. left.
    destruct (forallb (fun a => nelem a =? nelem a0) (a0 :: t)) eqn:F; [|reflexivity].
    rewrite forallb_forall in F. apply F in Hx. apply Z.eqb_eq in Hx. contradiction.
Qed.

Lemma combine_char arrs :
  combine_scope arrs ->
  combine_fields arrs
  = if combine_rejects_b arrs then Err EValue
    else Ok (mkA (shape (hd (mkA [] []) arrs)) (concat (map fields arrs))).
Proof.
  intro Hsc. destruct arrs as [|a0 [|a1 t]].
  - reflexivity.
  - simpl. rewrite Z.eqb_refl. simpl. rewrite !app_nil_r.
    destruct (Hsc a0 (or_introl eq_refl)) as [Hn _]. apply nodup_b_NoDup in Hn. rewrite Hn. simpl.
    now rewrite sarray_eta.
  - change (combine_fields (a0 :: a1 :: t))
      with (do ds <- combine_descr (nelem a0) (a0 :: a1 :: t);
            do z <- np_zeros (shape a0) ds; combine_copy (a0 :: a1 :: t) z).
    change (combine_rejects_b (a0 :: a1 :: t))
      with (negb (forallb (fun a => nelem a =? nelem a0) (a0 :: a1 :: t))
            || negb (nodup_b (concat (map names (a0 :: a1 :: t))))).
    change (hd (mkA [] []) (a0 :: a1 :: t)) with a0.
    assert (Hsc' : forall a, In a (a0 :: a1 :: t) ->
                     NoDup (names a) /\ (nelem a = nelem a0 -> shape a = shape a0)) by exact Hsc.
    clear Hsc. generalize dependent (a0 :: a1 :: t). intros arrs Hsc.
    rewrite combine_descr_char.
    destruct (forallb (fun a => nelem a =? nelem a0) arrs) eqn:F; [|reflexivity]. simpl.
    unfold np_zeros. rewrite concat_names.
    destruct (nodup_b (concat (map names arrs))) eqn:N; [|reflexivity]. simpl.
    apply nodup_b_NoDup in N. rewrite concat_map, map_map.
    apply (combine_copy_char arrs [] (shape a0)); [exact N|].
    intros a Ha. destruct (Hsc a Ha) as [_ Hsh]. apply Hsh.
    rewrite forallb_forall in F. apply Z.eqb_eq. now apply F.
Qed.

Lemma combine_scope_sound arrs : combine_scope_b arrs = true -> combine_scope arrs.
Proof.
  unfold combine_scope_b, combine_scope. destruct arrs as [|a0 t]; [intros _ a []|].
  rewrite forallb_forall. intros H a Ha. specialize (H a Ha). simpl hd.
  apply andb_true_iff in H as [H1 H2]. split; [now apply nodup_b_NoDup|].
  intro E. apply orb_true_iff in H2 as [H2|H2].
  - apply negb_true_iff, Z.eqb_neq in H2. contradiction.
  - now apply zlist_eqb_spec.
Qed.
