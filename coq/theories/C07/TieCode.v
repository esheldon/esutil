(* C07 — the functions of Model.v ARE the statement-by-statement translations of the source
   (GenCode.v, regenerated on every run): re-checked against the regenerated text on every run. *)
From EsVerif.Common Require Import Base Bytes.
From Coq.Strings Require String.
From EsVerif.C07 Require Import Model Spec Proofs Skel Gen Tie Py GenCode.

(* the dispatch on the names argument as the translated bodies spell it *)
Lemma wrap_names x : wrap_by (mkForms true true true false) x = Some (seq_or_wrap x).
Proof. now destruct x. Qed.

Lemma bind_ok_id {A} (x : result A) : (do a <- x; Ok a) = x.
Proof. destruct x; reflexivity. Qed.

Lemma assign_field_names a s f a' : assign_field a s f = Ok a' -> names a' = names a.
Proof.
  unfold assign_field. destruct (find_field (fname f) (fields a)); [|discriminate].
  destruct (negb (same_type _ _)); [discriminate|]. destruct (assign_ok s (shape a)); [|discriminate].
  intro H. injection H as <-. unfold names. cbn [fields]. apply put_field_names.
Qed.

(* ---- copy_fields *)
Lemma gen_copy_loop a1 : forall fs a2 N,
  (forall f, In f fs -> find_field (fname f) (fields a1) = Some f) -> names a2 = N ->
  py_for (map fname fs) a2
    (fun v_name v_arr2 => if py_in v_name N then (do v_arr2 <- py_copyfield v_arr2 a1 v_name; Ok v_arr2) else (Ok v_arr2))
  = copy_loop (shape a1) fs a2.
Proof.
  induction fs as [|f t IH]; intros a2 N Hf HN; [reflexivity|]. subst N. cbn [map py_for copy_loop].
  unfold py_in at 1. destruct (memb (fname f) (names a2)).
  - rewrite bind_ok_id. unfold py_copyfield at 1. rewrite (Hf f (or_introl eq_refl)).
    destruct (assign_field a2 (shape a1) f) as [a'|e] eqn:E; [|reflexivity]. cbn [bind].
    apply IH; [intros g Hg; apply Hf; now right|]. now apply (assign_field_names a2 (shape a1) f).
  - cbn [bind]. apply IH; [intros g Hg; apply Hf; now right|reflexivity].
Qed.

Lemma tie_code_copy a1 a2 : NoDup (names a1) -> gen_copy_fields a1 a2 = copy_fields a1 a2.
Proof.
  intro Hn. unfold gen_copy_fields, copy_fields, py_cmp, py_size, cmp_eval.
  destruct (nelem a1 =? nelem a2); [|reflexivity]. cbn [negb]. rewrite bind_ok_id.
  unfold py_names at 1. unfold names at 1. apply gen_copy_loop; [|reflexivity].
  intros f Hf. now apply find_field_NoDup.
Qed.

(* ---- copy_fields_by_name *)
Lemma gen_cfbn_loop : forall nv a N,
  names a = N ->
  py_for nv a (fun '(v_name, v_val) v_arr => if py_in v_name N then (do v_arr <- py_setval v_arr v_name v_val; Ok v_arr) else (Ok v_arr))
  = cfbn_loop a nv.
Proof.
  induction nv as [|[n v] t IH]; intros a N HN; [reflexivity|]. subst N. cbn [py_for cfbn_loop].
  unfold py_in at 1. destruct (memb n (names a)) eqn:M.
  - apply memb_In in M. destruct (find_field_In_names _ _ M) as [g Hg]. rewrite bind_ok_id.
    unfold py_setval at 1. rewrite Hg. destruct (fill_data (nelem a) (fdesc g) v) as [data|e]; [|reflexivity].
    cbn [bind]. apply IH. unfold names. cbn [fields]. apply put_field_names.
  - apply memb_false in M. apply find_field_None in M. rewrite M. cbn [bind]. now apply IH.
Qed.

Lemma tie_code_cfbn a nms vals : gen_copy_fields_by_name a nms vals = copy_fields_by_name a nms vals.
Proof.
  unfold gen_copy_fields_by_name, copy_fields_by_name.
  assert (V : vwrap_by (mkForms false true true false) vals = Some (unwrap_vals vals)) by (destruct vals; reflexivity).
  rewrite wrap_names, V. unfold py_cmp, py_len, cmp_eval. rewrite len_eqb_length.
  destruct (length (seq_or_wrap nms) =? length (unwrap_vals vals))%nat; [|reflexivity]. cbn [negb].
  rewrite bind_ok_id. unfold py_zip. now apply gen_cfbn_loop.
Qed.

(* ---- the two loops of extract_fields / remove_fields *)
Lemma gen_strict_loop N : forall keep,
  py_for keep tt (fun v_name _ => if negb (py_in v_name N) then Err EValue else (Ok tt))
  = if forallb (fun n => memb n N) keep then Ok tt else Err EValue.
Proof.
  induction keep as [|n t IH]; [reflexivity|]. cbn [py_for forallb]. unfold py_in at 1.
  destruct (memb n N); cbn [negb andb bind]; [exact IH|reflexivity].
Qed.

Lemma gen_filter_loop (P : dentry -> bool) : forall l acc,
  py_for l acc (fun v_d v_new_descr => let v_name := py_item0 v_d in
     if P v_d then (let v_new_descr := v_new_descr ++ [v_d] in Ok v_new_descr) else (Ok v_new_descr))
  = Ok (acc ++ filter P l).
Proof.
  induction l as [|d t IH]; intro acc; cbn [py_for filter]; [now rewrite app_nil_r|].
  destruct (P d); cbn [bind]; rewrite IH; [now rewrite <- app_assoc|reflexivity].
Qed.

(* the common end of extract_fields and remove_fields: refuse an empty descr, allocate, copy *)
Lemma gen_rebuild a ds :
  NoDup (names a) ->
  (if py_cmp CEq (py_len ds) 0 then Err EValue
   else do z <- np_zeros (py_shape a) ds; do r <- gen_copy_fields a z; Ok r)
  = match ds with [] => Err EValue | _ => do z <- np_zeros (shape a) ds; copy_fields a z end.
Proof.
  intro Hn. unfold py_cmp, py_len, cmp_eval, py_shape. rewrite len_zero_b.
  destruct ds as [|d l]; [reflexivity|].
  destruct (np_zeros (shape a) (d :: l)) as [z|e]; [|reflexivity]. cbn [bind].
  rewrite bind_ok_id. now apply tie_code_copy.
Qed.

Lemma tie_code_extract a k s : NoDup (names a) -> gen_extract_fields a k s = extract_fields a k s.
Proof.
  intro Hn. unfold gen_extract_fields, extract_fields.
  rewrite wrap_names. unfold py_names. rewrite gen_strict_loop.
  rewrite (gen_filter_loop (fun d => py_in (py_item0 d) (seq_or_wrap k))). cbn [app bind].
  rewrite (gen_rebuild a _ Hn).
  destruct s, (forallb (fun n => memb n (names a)) (seq_or_wrap k)); reflexivity.
Qed.

Lemma tie_code_remove a k : NoDup (names a) -> gen_remove_fields a k = remove_fields a k.
Proof.
  intro Hn. unfold gen_remove_fields, remove_fields.
  rewrite wrap_names. rewrite (gen_filter_loop (fun d => negb (py_in (py_item0 d) (seq_or_wrap k)))). cbn [app bind].
  exact (gen_rebuild a _ Hn).
Qed.

(* ---- combine_fields *)
Lemma gen_descr_loop num : forall l acc,
  py_for l acc (fun v_arr v_descr => if py_cmp CNe (py_size v_arr) num then Err EValue
                                     else (let v_descr := v_descr ++ py_descr v_arr in Ok v_descr))
  = do r <- combine_descr num l; Ok (acc ++ r).
Proof.
  induction l as [|a t IH]; intro acc; cbn [py_for combine_descr bind]; [now rewrite app_nil_r|].
  unfold py_cmp, py_size, cmp_eval. destruct (nelem a =? num); cbn [negb bind]; [|reflexivity].
  rewrite IH. unfold py_descr. destruct (combine_descr num t); cbn [bind]; [now rewrite app_assoc|reflexivity].
Qed.

Lemma gen_copy_all : forall l z,
  (forall a, In a l -> NoDup (names a)) ->
  py_for l z (fun v_arr v_new_array => do v_new_array <- gen_copy_fields v_arr v_new_array; Ok v_new_array)
  = combine_copy l z.
Proof.
  induction l as [|a t IH]; intros z H; [reflexivity|]. cbn [py_for combine_copy].
  rewrite bind_ok_id, (tie_code_copy a z (H a (or_introl eq_refl))).
  destruct (copy_fields a z); cbn [bind]; [|reflexivity]. apply IH. intros b Hb. apply H. now right.
Qed.

Lemma tie_code_combine arrs :
  (forall a, In a arrs -> NoDup (names a)) -> gen_combine_fields arrs = combine_fields arrs.
Proof.
  intro H. destruct arrs as [|a0 [|a1 t]]; [reflexivity|reflexivity|].
  unfold gen_combine_fields, combine_fields.
  assert (L0 : py_cmp CEq (py_len (a0 :: a1 :: t)) 0 = false) by reflexivity.
  assert (L1 : py_cmp CEq (py_len (a0 :: a1 :: t)) 1 = false).
  { apply Z.eqb_neq. intro E. apply (Nat2Z.inj _ 1%nat) in E. discriminate. }
  rewrite L0, L1. unfold py_first, py_size, py_shape. cbn [hd].
  rewrite gen_descr_loop. cbn [app].
  destruct (combine_descr (nelem a0) (a0 :: a1 :: t)) as [ds|e]; [|reflexivity]. cbn [bind].
  destruct (np_zeros (shape a0) ds) as [z|e]; [|reflexivity]. cbn [bind].
  rewrite bind_ok_id. now apply gen_copy_all.
Qed.
