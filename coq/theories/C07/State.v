(* C07 — the nine functions as operations on a STORE of array objects (what a Python process
   holds): which objects a call may write, and that an answer depends on nothing but the present
   contents of the call's own argument objects (no history).  Definitions first, lemmas after. *)
From EsVerif.Common Require Import Base Bytes.
From Coq.Strings Require String.
From EsVerif.C07 Require Import Model.

Definition store := list sarray.              (* object id = position *)

Inductive op :=
| OExtract (i : nat) (k : names_arg) (strict : bool)
| ORemove (i : nat) (k : names_arg)
| OReorder (i : nat) (k : names_arg) (strict : bool)
| OAdd (i : nat) (add : list dentry) (dv : option vals_arg)
| OCombine (ids : list nat)
| OCopy (i1 i2 : nat)                          (* copy_fields(arr1, arr2): writes arr2 *)
| OCfbn (i : nat) (k : names_arg) (v : vals_arg)   (* copy_fields_by_name: writes arr *)
| OSplit (i : nat) (flds : option names_arg)
| OCompare (i1 i2 : nat) (im : bool).

(* what the caller gets back *)
Inductive outv :=
| RNew (a : sarray)                            (* a new array object *)
| RNone                                        (* None (in-place functions) *)
| RViews (vs : list fview) (nm : list string)
| RBool (b : bool).

Definition get (s : store) (i : nat) : result sarray :=
  match nth_error s i with Some a => Ok a | None => Err EOther end.
Fixpoint gets (s : store) (ids : list nat) : result (list sarray) :=
  match ids with
  | [] => Ok []
  | i :: t => do a <- get s i; do r <- gets s t; Ok (a :: r)
  end.

(* the argument objects of a call *)
Definition args (o : op) : list nat :=
  match o with
  | OExtract i _ _ | ORemove i _ | OReorder i _ _ | OAdd i _ _ | OCfbn i _ _ | OSplit i _ => [i]
  | OCombine ids => ids
  | OCopy i1 i2 | OCompare i1 i2 _ => [i1; i2]
  end.
(* the only object a call may write *)
Definition written (o : op) : option nat :=
  match o with OCopy _ i2 => Some i2 | OCfbn i _ _ => Some i | _ => None end.

(* one call: new store and answer.  A call that raises leaves the store as it was: for
   copy_fields this is faithful because a refused assignment is refused at the FIRST common
   field (the shapes are the same for all fields); for copy_fields_by_name it is faithful only
   when the first offending value is the first one (the code has written the earlier fields by
   the time it raises). *)
Definition step (s : store) (o : op) : store * result outv :=
  match o with
  | OExtract i k strict => (s, do a <- get s i; do r <- extract_fields a k strict; Ok (RNew r))
  | ORemove i k => (s, do a <- get s i; do r <- remove_fields a k; Ok (RNew r))
  | OReorder i k strict => (s, do a <- get s i; do r <- reorder_fields a k strict; Ok (RNew r))
  | OAdd i add dv => (s, do a <- get s i; do r <- add_fields a add dv; Ok (RNew r))
  | OCombine ids => (s, do l <- gets s ids; do r <- combine_fields l; Ok (RNew r))
  | OSplit i flds => (s, do a <- get s i; do r <- split_fields a flds; Ok (RViews (fst r) (snd r)))
  | OCompare i1 i2 im => (s, do a1 <- get s i1; do a2 <- get s i2; do b <- compare_arrays a1 a2 im; Ok (RBool b))
  | OCopy i1 i2 =>
    match (do a1 <- get s i1; do a2 <- get s i2; copy_fields a1 a2) with
    | Ok r => (set_nth s i2 r, Ok RNone)
    | Err e => (s, Err e)
    end
  | OCfbn i k v =>
    match (do a <- get s i; copy_fields_by_name a k v) with
    | Ok r => (set_nth s i r, Ok RNone)
    | Err e => (s, Err e)
    end
  end.

(* a whole session: the answers of a sequence of calls *)
Fixpoint run (s : store) (os : list op) : list (result outv) :=
  match os with
  | [] => []
  | o :: t => let (s', r) := step s o in r :: run s' t
  end.
Fixpoint final (s : store) (os : list op) : store :=
  match os with [] => s | o :: t => final (fst (step s o)) t end.

(* ------------------------------------------------------------------ lemmas *)
Lemma nth_error_set_nth_neq {A} (l : list A) n m v : n <> m -> nth_error (set_nth l n v) m = nth_error l m.
Proof. revert n m; induction l as [|x t IH]; intros [|n] [|m] H; simpl; auto; congruence. Qed.
Lemma nth_error_set_nth_same {A} (l : list A) n v :
  nth_error (set_nth l n v) n = option_map (fun _ => v) (nth_error l n).
Proof. revert n; induction l as [|y t IH]; intros [|n]; simpl; auto. Qed.

(* FRAME: a call writes at most its one documented output object; every other object of the
   process — in particular every input of the seven functions that return new values, and arr1
   of copy_fields — is exactly what it was, and no object appears or disappears. *)
Lemma step_frame s o :
  length (fst (step s o)) = length s
  /\ forall j, written o <> Some j -> nth_error (fst (step s o)) j = nth_error s j.
Proof.
  destruct o; cbn [step fst written]; try (split; [reflexivity|reflexivity]).
  - destruct (do a1 <- get s i1; do a2 <- get s i2; copy_fields a1 a2); cbn [fst];
      (split; [try apply set_nth_length; reflexivity|]); intros j Hj; [|reflexivity].
    apply nth_error_set_nth_neq. congruence.
  - destruct (do a <- get s i; copy_fields_by_name a k v); cbn [fst];
      (split; [try apply set_nth_length; reflexivity|]); intros j Hj; [|reflexivity].
    apply nth_error_set_nth_neq. congruence.
Qed.

Lemma step_pure s o : written o = None -> fst (step s o) = s.
Proof. destruct o; cbn [written]; try discriminate; reflexivity. Qed.

(* NO HISTORY: the answer of a call, and the new content of the object it writes, are a function
   of the present contents of its argument objects only — two stores that agree on the arguments
   give the same answer, whatever else they hold and whatever calls produced them. *)
Lemma gets_local s t ids : (forall i, In i ids -> nth_error s i = nth_error t i) -> gets s ids = gets t ids.
Proof.
  induction ids as [|i r IH]; intro H; [reflexivity|]. cbn [gets]. unfold get.
  rewrite (H i (or_introl eq_refl)), IH; [reflexivity|]. intros j Hj. apply H. now right.
Qed.

Lemma step_local s t o :
  (forall i, In i (args o) -> nth_error s i = nth_error t i) ->
  snd (step s o) = snd (step t o)
  /\ forall j, written o = Some j -> nth_error (fst (step s o)) j = nth_error (fst (step t o)) j.
Proof.
  intro H.
  assert (G : forall i, In i (args o) -> get s i = get t i) by (intros i Hi; unfold get; now rewrite (H i Hi)).
  destruct o; cbn [args] in *; cbn [step snd fst written].
  1-4, 8: (rewrite (G i (or_introl eq_refl)); split; [reflexivity|discriminate]).
  - rewrite (gets_local s t ids H). split; [reflexivity|discriminate].
  - (* the written object is an argument: present in both stores or in neither *)
    rewrite (G i1 (or_introl eq_refl)), (G i2 (or_intror (or_introl eq_refl))).
    destruct (do a1 <- get t i1; do a2 <- get t i2; copy_fields a1 a2); cbn [snd fst];
      (split; [reflexivity|]); intros j [= <-]; rewrite ?nth_error_set_nth_same, H; simpl; auto.
  - rewrite (G i (or_introl eq_refl)).
    destruct (do a <- get t i; copy_fields_by_name a k v); cbn [snd fst];
      (split; [reflexivity|]); intros j [= <-]; rewrite ?nth_error_set_nth_same, H; simpl; auto.
  - rewrite (G i1 (or_introl eq_refl)), (G i2 (or_intror (or_introl eq_refl))). split; [reflexivity|discriminate].
Qed.

(* a call that writes nothing, at the head of a session, leaves every later answer what it is
   without it (a cache that made an answer depend on an earlier call would contradict this) *)
Lemma run_insert_pure s o os : written o = None -> run s (o :: os) = snd (step s o) :: run s os.
Proof. intro H. cbn [run]. destruct (step s o) as [s' r] eqn:E. pose proof (step_pure s o H) as P. rewrite E in P. cbn in P. now subst. Qed.

Lemma run_app s os1 os2 : run s (os1 ++ os2) = run s os1 ++ run (final s os1) os2.
Proof.
  revert s; induction os1 as [|o t IH]; intro s; [reflexivity|]. cbn [app run final].
  destruct (step s o) as [s' r]. cbn [fst]. now rewrite IH.
Qed.

Lemma run_length s os : length (run s os) = length os.
Proof.
  revert s; induction os as [|o t IH]; intro s; [reflexivity|]. cbn [run]. destruct (step s o). cbn. now rewrite IH.
Qed.

Lemma final_pure s os : Forall (fun o => written o = None) os -> final s os = s.
Proof.
  revert s; induction os as [|o t IH]; intros s H; [reflexivity|]. inversion H; subst. cbn [final].
  rewrite step_pure by assumption. now apply IH.
Qed.
