(* C07 — further consequences: the results of extract/remove/reorder are again well-formed
   structured arrays (same shape, distinct names, at least one field, every column of the right
   extent), so the operations compose; and extraction followed by removal of the same names
   partitions the field list. *)
From EsVerif.Common Require Import Base Bytes.
From Coq.Strings Require String.
From EsVerif.C07 Require Import Model Spec Proofs.

Lemma wf_sub a r :
  wf a -> shape r = shape a -> fields r <> [] -> NoDup (names r) ->
  (forall f, In f (fields r) -> In f (fields a)) -> wf r.
Proof.
  intros (Hs & Hn & Hne & Hf) Es Hr Hnr Hin. unfold wf. rewrite Es.
  repeat split; try assumption.
  unfold nelem. rewrite Es. apply Forall_forall. intros f Hfr.
  rewrite Forall_forall in Hf. apply (Hf f (Hin f Hfr)).
Qed.

Lemma filter_nonempty {A} (p : A -> bool) l :
  forallb (fun x => negb (p x)) l = false -> filter p l <> [].
Proof. rewrite forallb_negb_filter. now destruct (filter p l). Qed.

Lemma extract_wf a keep strict r :
  wf a -> extract_fields a keep strict = Ok r -> wf r.
Proof.
  intros Hw E. pose proof Hw as (_ & Hn & _ & _). rewrite (extract_char a keep strict Hn) in E.
  destruct (extract_rejects_b a (given keep) strict) eqn:R; [discriminate|]. injection E as <-.
  unfold extract_rejects_b in R. apply orb_false_iff in R as [_ R].
  apply (wf_sub a); cbn [shape fields]; try reflexivity; try assumption.
  - now apply filter_nonempty.
  - now apply NoDup_map_filter.
  - intros f Hf. now apply filter_In in Hf as [Hf _].
Qed.

Lemma remove_wf a rm r :
  wf a -> remove_fields a rm = Ok r -> wf r.
Proof.
  intros Hw E. pose proof Hw as (_ & Hn & _ & _). rewrite (remove_char a rm Hn) in E.
  destruct (remove_rejects_b a (given rm)) eqn:R; [discriminate|]. injection E as <-.
  apply (wf_sub a); cbn [shape fields]; try reflexivity; try assumption.
  - apply filter_nonempty. rewrite <- R. apply forallb_ext. intro f. now rewrite negb_involutive.
  - now apply NoDup_map_filter.
  - intros f Hf. now apply filter_In in Hf as [Hf _].
Qed.

(* the field lists of extraction and of removal of the same names (the two filters of
   extract_char / remove_char) split the fields of [a]: every field is in exactly one of them *)
Lemma extract_remove_partition a ks f :
  In f (fields a) ->
  (In f (filter (fun f => memb (fname f) ks) (fields a))
   /\ ~ In f (filter (fun f => negb (memb (fname f) ks)) (fields a)))
  \/ (~ In f (filter (fun f => memb (fname f) ks) (fields a))
      /\ In f (filter (fun f => negb (memb (fname f) ks)) (fields a))).
Proof.
  intro Hf. rewrite !filter_In. destruct (memb (fname f) ks); [left|right]; split; auto; now intros [_ H].
Qed.

Lemma reorder_wf a ks strict r :
  wf a -> NoDup (given ks) -> reorder_fields a ks strict = Ok r -> wf r.
Proof.
  intros Hw Hk E. pose proof Hw as (_ & Hn & Hne & _). rewrite (reorder_char a ks strict Hn Hk) in E.
  destruct (reorder_rejects_b a (given ks) strict); [discriminate|]. injection E as <-.
  apply (wf_sub a); cbn [shape fields]; try reflexivity; try assumption.
  - (* the first field of a is somewhere in the result *)
    destruct (fields a) as [|f0 t] eqn:Ef; [congruence|]. intro E0.
    assert (H0 : In f0 (reorder_fields_spec a (given ks))).
    { apply reorder_spec_all; [exact Hn|rewrite Ef; now left]. }
    now rewrite E0 in H0.
  - unfold names. cbn [fields]. rewrite reorder_names. apply NoDup_app_iff.
    split; [now apply NoDup_filter|split; [now apply NoDup_filter|]].
    intros n H1 H2. apply filter_In in H1 as [H1 _]. apply filter_In in H2 as [_ H2].
    apply memb_In in H1. rewrite H1 in H2. discriminate.
  - intro f. apply reorder_spec_sub.
Qed.
