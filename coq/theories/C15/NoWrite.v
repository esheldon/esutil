(* C15 — instrumented semantics: every execution carries the LOG of the buffers it wrote to.
   The frame checker does not only guarantee that the parameters' buffers have their initial contents at the end:
   no execution of an accepted skeleton ever performs a write that TARGETS a parameter's buffer -- not even one
   that stores the value already there, or one that a later write undoes (two byte swaps that cancel).  This is
   what the read-only form of the dynamic run observes: numpy refuses such a write with "... is read-only".
   Soundness of the checker is proved here, in that strong form; the final-state form follows because a buffer
   outside the log keeps its contents. *)
From Coq Require Import PArith List Bool.
From EsVerif.C15 Require Import Model Spec Proofs.
Import ListNotations.

Inductive execw_s : stmt -> state -> state -> bool -> list buf -> Prop :=
| WHalt : forall s st, execw_s s st st true []
| WBindFresh : forall x r st b v,
    ~ In b (alloc st) ->
    execw_s (SBind x r) st (mkState (upd_env (env st) x b) (upd_heap (heap st) b v) (b :: alloc st)) false []
| WBindAlias : forall x ys y b st,
    In y ys -> env st y = Some b ->
    execw_s (SBind x (MayAlias ys)) st (mkState (upd_env (env st) x b) (heap st) (alloc st)) false []
| WWrite : forall x b v st,
    env st x = Some b ->
    execw_s (SWrite x) st (mkState (env st) (upd_heap (heap st) b v) (alloc st)) false [b]
| WWriteUnbound : forall x st,
    env st x = None -> execw_s (SWrite x) st st false []
| WIfL : forall s1 s2 st st' h w, execw_l s1 st st' h w -> execw_s (SIf s1 s2) st st' h w
| WIfR : forall s1 s2 st st' h w, execw_l s2 st st' h w -> execw_s (SIf s1 s2) st st' h w
| WLoopDone : forall b st, execw_s (SLoop b) st st false []
| WLoopStep : forall b st st1 st2 h w1 w2,
    execw_l b st st1 false w1 -> execw_s (SLoop b) st1 st2 h w2 -> execw_s (SLoop b) st st2 h (w1 ++ w2)
| WLoopHalt : forall b st st1 w, execw_l b st st1 true w -> execw_s (SLoop b) st st1 true w
with execw_l : list stmt -> state -> state -> bool -> list buf -> Prop :=
| WNil : forall st, execw_l [] st st false []
| WCons : forall s r st st1 st2 h w1 w2,
    execw_s s st st1 false w1 -> execw_l r st1 st2 h w2 -> execw_l (s :: r) st st2 h (w1 ++ w2)
| WConsHalt : forall s r st st1 w, execw_s s st st1 true w -> execw_l (s :: r) st st1 true w.

Scheme execw_s_mut := Induction for execw_s Sort Prop
with execw_l_mut := Induction for execw_l Sort Prop.

Definition execw (sk : skeleton) (st st' : state) (w : list buf) : Prop := exists h, execw_l sk st st' h w.

(* the log is an annotation: the constructors of execw_s / execw_l are those of exec_s / exec_l, one for one, with a log *)
Lemma execw_erase_l : forall l st st' h w, execw_l l st st' h w -> exec_l l st st' h.
Proof.
  intros l st st' h w H.
  induction H using execw_l_mut with
    (P := fun s st st' h w (_ : execw_s s st st' h w) => exec_s s st st' h);
    econstructor; eassumption.
Qed.

Lemma exec_annotate_l : forall l st st' h, exec_l l st st' h -> exists w, execw_l l st st' h w.
Proof.
  intros l st st' h H.
  induction H using exec_l_mut with
    (P := fun s st st' h (_ : exec_s s st st' h) => exists w, execw_s s st st' h w);
    repeat match goal with IH : exists w, _ |- _ => destruct IH as [? ?] end;
    eexists; econstructor; eassumption.
Qed.

Lemma execw_exec sk st st' : (exists w, execw sk st st' w) <-> exec sk st st'.
Proof.
  split.
  - intros [w [h H]]. exists h. eapply execw_erase_l; eauto.
  - intros [h H]. destruct (exec_annotate_l _ _ _ _ H) as [w Hw]. exists w, h. exact Hw.
Qed.

(* the log is faithful: an existing buffer that is not in the log keeps its contents (so the log cannot be "too small"),
   and existing buffers stay allocated *)
Definition keeps (st st' : state) (w : list buf) : Prop :=
  (forall c, In c (alloc st) -> In c (alloc st')) /\
  (forall c, In c (alloc st) -> ~ In c w -> heap st' c = heap st c).

Lemma keeps_refl st : keeps st st [].
Proof. split; intros; [assumption | reflexivity]. Qed.

Lemma keeps_trans st st1 st2 w1 w2 : keeps st st1 w1 -> keeps st1 st2 w2 -> keeps st st2 (w1 ++ w2).
Proof.
  intros [A1 H1] [A2 H2]. split.
  - intros c Hc. apply A2, A1, Hc.
  - intros c Hc Hn. rewrite H2; [apply H1; [exact Hc|] | apply A1, Hc |].
    + intro Hi. apply Hn. apply in_or_app. left; exact Hi.
    + intro Hi. apply Hn. apply in_or_app. right; exact Hi.
Qed.

Lemma execw_keeps_l : forall l st st' h w, execw_l l st st' h w -> keeps st st' w.
Proof.
  intros l st st' h w H.
  induction H using execw_l_mut with
    (P := fun s st st' h w (_ : execw_s s st st' h w) => keeps st st' w);
    (* no effect: keeps_refl; a branch or a round cut short: the induction hypothesis; one after the other: keeps_trans;
       what remains are the three constructors that change the state *)
    try apply keeps_refl; try assumption; try (eapply keeps_trans; eassumption).
  - (* fresh *) split; cbn [alloc heap].
    + intros c Hc. right; exact Hc.
    + intros c Hc _. apply upd_heap_other. intros ->. contradiction.
  - (* alias *) split; cbn [alloc heap]; intros; [assumption | reflexivity].
  - (* write *) split; cbn [alloc heap].
    + intros c Hc; exact Hc.
    + intros c Hc Hn. apply upd_heap_other. intros ->. apply Hn. left; reflexivity.
Qed.

Section Judgement.
  Variable ps : list var.
  Variable e0 : var -> option buf.

  Notation isP := (isP ps e0).
  Notation AliasInv := (AliasInv ps e0).

  Definition clean (w : list buf) : Prop := forall b, In b w -> ~ isP b.

  Lemma clean_nil : clean [].
  Proof. intros b []. Qed.

  Lemma clean_app w1 w2 : clean w1 -> clean w2 -> clean (w1 ++ w2).
  Proof. intros H1 H2 b Hb. apply in_app_or in Hb. destruct Hb; [apply H1 | apply H2]; assumption. Qed.

  (* [safe run x a a']: started where a bounds the aliases, no run of x -- complete or cut short -- writes to a
     parameter's buffer, and a' bounds the aliases after a complete run *)
  Definition safe {X} (run : X -> state -> state -> bool -> list buf -> Prop) (x : X) (a a' : amap) : Prop :=
    forall st st' h w, AliasInv a st -> run x st st' h w -> clean w /\ (h = false -> AliasInv a' st').

  Lemma safe_weaken {X} (run : X -> state -> state -> bool -> list buf -> Prop) x a0 a a' a1 :
    within a0 a -> safe run x a a' -> within a' a1 -> safe run x a0 a1.
  Proof.
    intros L0 H L1 st st' h w HI Hex.
    destruct (H st st' h w (AliasInv_mono _ _ _ _ _ L0 HI) Hex) as [C I].
    split; [exact C|]. intro Hh. exact (AliasInv_mono _ _ _ _ _ L1 (I Hh)).
  Qed.

  Lemma safe_bind x r a :
    safe execw_s (SBind x r) a (update a x (match r with Fresh => [] | MayAlias ys => alias_of a ys end)).
  Proof.
    assert (Off : forall s z p, z <> x -> In p (lookup a z) -> In p (lookup (update a x s) z)).
    { intros s z p Nz. rewrite lookup_update_neq by exact Nz. auto. }
    intros st st' h w HI Hex.
    inversion Hex as [ | ? ? ? b v Hfresh | ? ys y b ? Hy Hb | | | | | | | ]; subst; (split; [apply clean_nil|]).
    - (* cut short *) discriminate.
    - (* a buffer that did not exist is not a parameter's *)
      intros _. eapply AliasInv_bind; [exact HI | intros c Hc; right; exact Hc | apply Off |].
      intro HP. destruct HI as [A1 _]. exfalso. auto.
    - (* the buffer of y: whatever y may alias, x may alias now *)
      intros _. eapply AliasInv_bind; [exact HI | auto | apply Off |].
      intro HP. destruct HI as [_ A2]. destruct (A2 y b Hb HP) as [p [Hp [Hpb Hin]]].
      exists p. rewrite lookup_update_eq. eauto using alias_of_In.
  Qed.

  Lemma safe_write x a : lookup a x = [] -> safe execw_s (SWrite x) a a.
  Proof.
    intros L st st' h w HI Hex.
    (* the state changes in the heap only, which the invariant does not mention *)
    inversion Hex as [ | | | ? b v ? Hx | | | | | | ]; subst; (split; [|intros _; exact HI]); try apply clean_nil.
    (* the one logged write: x is bound to b, and nothing is in lookup a x *)
    intros c [<-|[]] Hc. destruct HI as [_ A2].
    destruct (A2 x b Hx Hc) as [p [_ [_ Hin]]]. rewrite L in Hin. exact Hin.
  Qed.

  Lemma safe_if s1 s2 a a1 a2 :
    safe execw_l s1 a a1 -> safe execw_l s2 a a2 -> safe execw_s (SIf s1 s2) a (join a1 a2).
  Proof.
    intros H1 H2 st st' h w HI Hex. inversion Hex as [ | | | | | ? ? ? ? ? ? Hl | ? ? ? ? ? ? Hr | | | ]; subst.
    - (* cut short *) split; [apply clean_nil | discriminate].
    - exact (safe_weaken _ _ _ _ _ _ (within_refl a) H1 (join_l a1 a2) _ _ _ _ HI Hl).
    - exact (safe_weaken _ _ _ _ _ _ (within_refl a) H2 (join_r a1 a2) _ _ _ _ HI Hr).
  Qed.

  (* a is a loop invariant *)
  Lemma safe_loop b a a' : safe execw_l b a a' -> within a' a -> safe execw_s (SLoop b) a a.
  Proof.
    intros Hb L st st' h w HI Hex. remember (SLoop b) as s eqn:Es. revert HI.
    induction Hex as [ | | | | | | | | ? ? st1 ? ? ? ? Hround _ IH | ? ? ? ? Hround ];
      try discriminate; intro HI; try (injection Es as ->).
    - (* cut short *) split; [apply clean_nil | discriminate].
    - (* no round *) split; [apply clean_nil | intros _; exact HI].
    - (* a round brings the invariant back, then the loop again *)
      destruct (Hb _ _ _ _ HI Hround) as [C1 I1].
      destruct (IH eq_refl (AliasInv_mono _ _ _ _ _ L (I1 eq_refl))) as [C2 I2].
      split; [apply clean_app; assumption | exact I2].
    - (* a round cut short *)
      destruct (Hb _ _ _ _ HI Hround) as [C _]. split; [exact C | discriminate].
  Qed.

  Lemma safe_nil a : safe execw_l [] a a.
  Proof. intros st st' h w HI Hex. inversion Hex; subst. split; [apply clean_nil | intros _; exact HI]. Qed.

  Lemma safe_cons s l a a1 a' : safe execw_s s a a1 -> safe execw_l l a1 a' -> safe execw_l (s :: l) a a'.
  Proof.
    intros Hs Hl st st' h w HI Hex.
    inversion Hex as [ | ? ? ? st1 ? ? w1 w2 H1 H2 | ? ? ? ? ? H1 ]; subst.
    - destruct (Hs _ _ _ _ HI H1) as [C1 I1]. destruct (Hl _ _ _ _ (I1 eq_refl) H2) as [C2 I2].
      split; [apply clean_app; assumption | exact I2].
    - destruct (Hs _ _ _ _ HI H1) as [C _]. split; [exact C | discriminate].
  Qed.

  (* the analysis applies these rules; at a loop, with the stable map it found as invariant *)
  Theorem an_safe fuel : forall l a a', an_list fuel l a = AOk a' -> safe execw_l l a a'.
  Proof.
    apply (list_ind2 (fun s => forall a a', an_stmt fuel s a = AOk a' -> safe execw_s s a a')
                     (fun l => forall a a', an_list fuel l a = AOk a' -> safe execw_l l a a')).
    - intros x r a a' E. rewrite an_stmt_bind in E. injection E as <-. apply safe_bind.
    - intros x a a' E. rewrite an_stmt_write in E. destruct (lookup a x) eqn:L; [|discriminate]. injection E as <-. apply safe_write, L.
    - intros s1 s2 IH1 IH2 a a' E. rewrite an_stmt_if in E.
      destruct (an_list fuel s1 a) as [a1| |] eqn:E1; try discriminate.
      destruct (an_list fuel s2 a) as [a2| |] eqn:E2; try discriminate.
      injection E as <-. apply safe_if; auto.
    - intros b IH a a' E. rewrite an_stmt_loop in E. apply an_loop_spec in E. destruct E as [L [a2 [Eb L2]]].
      eapply safe_weaken; [exact L | eapply safe_loop; [apply IH, Eb | exact L2] | apply within_refl].
    - intros a a' E. injection E as <-. apply safe_nil.
    - intros s l IHs IHl a a' E. rewrite an_list_cons in E.
      destruct (an_stmt fuel s a) as [a1| |] eqn:E1; try discriminate.
      eapply safe_cons; eauto.
  Qed.
End Judgement.

(* an admissible start state satisfies the invariant for every map in which each parameter has itself *)
Lemma AliasInv_init ps a st :
  (forall p, In p ps -> In p (lookup a p)) ->
  params_bound ps st -> others_apart ps st -> AliasInv ps (env st) a st.
Proof.
  intros Hself HB HA. split.
  - intros b [p [Hp Hb]]. destruct (HB p Hp) as [b' [Eb Hin]]. rewrite Hb in Eb. injection Eb as <-. exact Hin.
  - intros x b Hx [q [Hq Hb]]. destruct (in_dec Pos.eq_dec x ps) as [Hin|Hn].
    + exists x. auto.
    + destruct (HA x q b Hn Hq Hb Hx).
Qed.

Lemma AliasInv_init_amap ps st :
  params_bound ps st -> others_apart ps st -> AliasInv ps (env st) (init_amap ps) st.
Proof.
  apply AliasInv_init. intros p Hp. rewrite lookup_init by exact Hp. left; reflexivity.
Qed.

Lemma frame_ok_no_write_attempt sk ps :
  frame_ok sk ps = true ->
  forall st st' w, params_bound ps st -> others_apart ps st ->
  execw sk st st' w ->
  forall p b, In p ps -> env st p = Some b -> ~ In b w.
Proof.
  intros Hok st st' w HB HA [h Hex] p b Hp Hb Hin.
  apply frame_ok_iff in Hok as [a' E].
  destruct (an_safe ps (env st) _ sk _ a' E st st' h w (AliasInv_init_amap ps st HB HA) Hex) as [C _].
  apply (C b Hin). exists p. auto.
Qed.

(* so the parameters' buffers have their initial contents at the end: they exist, and they are not in the log *)
Lemma no_write_implies_unchanged sk ps :
  frame_ok sk ps = true ->
  forall st st', params_bound ps st -> others_apart ps st ->
  exec sk st st' -> params_unchanged ps st st'.
Proof.
  intros Hok st st' HB HA Hex p b Hp Hb.
  apply execw_exec in Hex. destruct Hex as [w [h Hw]].
  destruct (execw_keeps_l _ _ _ _ _ Hw) as [_ K]. apply K.
  - destruct (HB p Hp) as [b' [E Hin]]. rewrite Hb in E. injection E as <-. exact Hin.
  - eapply frame_ok_no_write_attempt; eauto. exists h; exact Hw.
Qed.
