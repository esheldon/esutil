(* C15 — what "the extractor over-approximates" means, and why it suffices.
   [refines l' l]: the skeleton l' is MORE SPECIFIC than l -- an `if` resolved to one of its branches (a constant-folded option, a
   condition that is known), a loop unrolled some number of times (or not entered), a may-alias set narrowed, a may-alias replaced by
   "fresh".  Every execution of the more specific skeleton is an execution of the less specific one (simulation), so an obligation
   discharged for the extracted skeleton holds for every skeleton it over-approximates -- in particular for the (unknown) exact
   skeleton of the real call, PROVIDED the extracted one over-approximates it.  That proviso is the precise content of the trust
   placed in the extractor. *)
From Coq Require Import PArith List Bool.
From EsVerif.C15 Require Import Model Proofs.
Import ListNotations.

Inductive refines_s : stmt -> stmt -> Prop :=
| RBindAny : forall x r, refines_s (SBind x Fresh) (SBind x r)
| RBindSub : forall x ys' ys, incl ys' ys -> refines_s (SBind x (MayAlias ys')) (SBind x (MayAlias ys))
| RWrite : forall x, refines_s (SWrite x) (SWrite x)
| RIf : forall a' b' a b, refines a' a -> refines b' b -> refines_s (SIf a' b') (SIf a b)
| RLoop : forall b' b, refines b' b -> refines_s (SLoop b') (SLoop b)
with refines : list stmt -> list stmt -> Prop :=
| RNil : refines [] []
| RCons : forall s' s l' l, refines_s s' s -> refines l' l -> refines (s' :: l') (s :: l)
| RIfL : forall a' a b l' l, refines a' a -> refines l' l -> refines (a' ++ l') (SIf a b :: l)
| RIfR : forall b' a b l' l, refines b' b -> refines l' l -> refines (b' ++ l') (SIf a b :: l)
| RLoopSkip : forall b l' l, refines l' l -> refines l' (SLoop b :: l)
| RLoopUnroll : forall b' b l' l, refines b' b -> refines l' (SLoop b :: l) -> refines (b' ++ l') (SLoop b :: l).

Scheme refines_s_mut := Induction for refines_s Sort Prop
with refines_mut := Induction for refines Sort Prop.

Lemma exec_loop_prepend b st st1 st2 h :
  exec_l b st st1 false -> exec_l (SLoop b :: nil) st1 st2 h -> exec_l (SLoop b :: nil) st st2 h.
Proof. apply exec_cons_loop_prepend. Qed.

Lemma simulation : forall l' l, refines l' l -> forall st st' h, exec_l l' st st' h -> exec_l l st st' h.
Proof.
  apply (refines_mut
    (fun s' s (_ : refines_s s' s) => forall st st' h, exec_s s' st st' h -> exec_s s st st' h)
    (fun l' l (_ : refines l' l) => forall st st' h, exec_l l' st st' h -> exec_l l st st' h)).
  - (* fresh for any rhs *) intros x r st st' h H. inversion H; subst; [apply XHalt | apply XBindFresh; assumption].
  - (* narrower alias set *) intros x ys' ys Hi st st' h H. inversion H; subst.
    + apply XHalt.
    + apply XBindFresh; assumption.
    + eapply XBindAlias; [apply Hi; eassumption | assumption].
  - intros x st st' h H; exact H.
  - (* if *) intros a' b' a b _ IHa _ IHb st st' h H. inversion H; subst; [apply XHalt | apply XIfL; auto | apply XIfR; auto].
  - (* loop *) intros b' b _ IHb st st' h H. remember (SLoop b') as s eqn:Es. revert Es.
    induction H as [ | | | | | | | | b0 st st1 st2 h Hround _ IH | b0 st st1 Hround ]; intro Es; try discriminate.
    + apply XHalt.
    + apply XLoopDone.
    + inversion Es; subst b0. eapply XLoopStep; [apply IHb; exact Hround | apply IH; reflexivity].
    + inversion Es; subst b0. apply XLoopHalt. apply IHb. exact Hround.
  - (* nil *) intros st st' h H; exact H.
  - (* cons *) intros s' s l' l _ IHs _ IHl st st' h H. inversion H; subst.
    + eapply XCons; [apply IHs; eassumption | apply IHl; eassumption].
    + apply XConsHalt. apply IHs. assumption.
  - (* if resolved to its first branch *) intros a' a b l' l _ IHa _ IHl st st' h H.
    destruct (exec_l_app_inv _ _ _ _ _ H) as [[-> Hh]|[st1 [Ha Hb]]].
    + apply XConsHalt. apply XIfL. apply IHa. exact Hh.
    + eapply XCons; [apply XIfL; apply IHa; exact Ha | apply IHl; exact Hb].
  - (* second branch *) intros b' a b l' l _ IHb _ IHl st st' h H.
    destruct (exec_l_app_inv _ _ _ _ _ H) as [[-> Hh]|[st1 [Ha Hb]]].
    + apply XConsHalt. apply XIfR. apply IHb. exact Hh.
    + eapply XCons; [apply XIfR; apply IHb; exact Ha | apply IHl; exact Hb].
  - (* loop not entered *) intros b l' l _ IHl st st' h H. eapply XCons; [apply XLoopDone | apply IHl; exact H].
  - (* loop unrolled once more *) intros b' b l' l _ IHb _ IHl st st' h H.
    destruct (exec_l_app_inv _ _ _ _ _ H) as [[-> Hh]|[st1 [Ha Hb]]].
    + apply XConsHalt. apply XLoopHalt. apply IHb. exact Hh.
    + eapply exec_cons_loop_prepend; [apply IHb; exact Ha | apply IHl; exact Hb].
Qed.

Lemma refines_refl : forall l, refines l l.
Proof.
  apply (list_ind2 (fun s => refines_s s s) (fun l => refines l l)).
  - intros x [|ys]; [apply RBindAny | apply RBindSub; apply incl_refl].
  - apply RWrite.
  - intros; apply RIf; assumption.
  - intros; apply RLoop; assumption.
  - apply RNil.
  - intros; apply RCons; assumption.
Qed.
