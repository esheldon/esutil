(* C15 — exactness of the frame analysis with respect to the skeleton semantics:
   if the analysis reports a write through a name that may alias a parameter, then the skeleton
   really has an execution (from ANY start state in which the parameters are bound) that changes
   a parameter's buffer.  Together with soundness (NoWrite.v): up to fuel exhaustion (reported apart)
   frame_ok DECIDES "no execution of the skeleton changes a parameter's buffer".  A rejected
   obligation is therefore never an artefact of the abstract domain (joins, loop fixpoint);
   imprecision can only come from the extractor (dropped conditions, may-alias
   over-approximation), which is what the dynamic search then examines.
   With simulation (Refine.v) it follows that the checker is monotone under refinement. *)
From Coq Require Import PArith List Bool PeanoNat.
From EsVerif.C15 Require Import Model Spec Proofs NoWrite Refine.
Import ListNotations.

(* [ent a x p]: some entry for x (also a shadowed one) contains p.  Everything the analysis can
   ever look up is an entry. *)
Definition ent (a : amap) (x p : var) : Prop := exists s, In (x, s) a /\ In p s.

Lemma lookup_ent a x p : In p (lookup a x) -> ent a x p.
Proof.
  induction a as [|[k s] t IH]; simpl; intro H.
  - destruct H.
  - destruct (Pos.eqb k x) eqn:E.
    + apply Pos.eqb_eq in E; subst k. exists s. split; [left; reflexivity | exact H].
    + destruct (IH H) as [s' [H1 H2]]. exists s'. split; [right; exact H1 | exact H2].
Qed.

Lemma ent_remove_key y a x p : ent (remove_key y a) x p -> ent a x p /\ x <> y.
Proof.
  unfold ent, remove_key. intros [s [H1 H2]]. apply filter_In in H1. destruct H1 as [H1 H3]. simpl in H3.
  split; [exists s; split; assumption|].
  intro E; subst y. rewrite Pos.eqb_refl in H3. discriminate.
Qed.

Lemma ent_update a y s x p :
  ent (update a y s) x p -> (x = y /\ In p s) \/ (x <> y /\ ent a x p).
Proof.
  unfold update. destruct s as [|q t].
  - intro H. apply ent_remove_key in H. right. tauto.
  - intros [s' [[H1|H1] H2]].
    + inversion H1; subst. left. split; [reflexivity | exact H2].
    + right. assert (H : ent (remove_key y a) x p) by (exists s'; split; assumption).
      apply ent_remove_key in H. tauto.
Qed.

Lemma ent_cons_r k s t x p : ent t x p -> ent ((k, s) :: t) x p.
Proof. intros [s' [H1 H2]]. exists s'. split; [right; exact H1 | exact H2]. Qed.

Lemma ent_join a1 a2 x p : ent (join a1 a2) x p -> ent a1 x p \/ ent a2 x p.
Proof.
  induction a1 as [|[k s] t IH]; simpl; intro H.
  - right; exact H.
  - apply ent_update in H. destruct H as [[E H]|[_ H]].
    + subst k. apply union_In in H. destruct H as [H|H].
      * left. exists s. split; [left; reflexivity | exact H].
      * apply lookup_ent in H. destruct (IH H) as [H1|H1]; [left; apply ent_cons_r; exact H1 | right; exact H1].
    + destruct (IH H) as [H1|H1]; [left; apply ent_cons_r; exact H1 | right; exact H1].
Qed.

Lemma ent_alias_of a ys p : In p (alias_of a ys) -> exists y, In y ys /\ ent a y p.
Proof.
  induction ys as [|z t IH]; simpl; intro H.
  - destruct H.
  - apply union_In in H. destruct H as [H|H].
    + exists z. split; [left; reflexivity | apply lookup_ent; exact H].
    + destruct (IH H) as [y [H1 H2]]. exists y. split; [right; exact H1 | exact H2].
Qed.

Lemma ent_init ps x p : ent (init_amap ps) x p -> p = x /\ In x ps.
Proof.
  unfold ent, init_amap. intros [s [H1 H2]]. apply in_map_iff in H1. destruct H1 as [q [E Hq]].
  inversion E; subst. destruct H2 as [H2|[]]. subst. split; [reflexivity | exact Hq].
Qed.

Section Completeness.
  Variable ps : list var.
  Variable pb : var -> buf.        (* the buffer of each parameter *)
  Variable h0 : buf -> nat.        (* the heap when the call started *)
  Variable fuel : nat.

  (* every abstract fact "x may alias parameter p" is realised by some reachable state *)
  Definition Witness (a : amap) (R : state -> Prop) : Prop :=
    forall x p, ent a x p -> In p ps /\ exists st, R st /\ env st x = Some (pb p).

  (* from some reachable state there is a run after which a parameter's buffer differs from h0 *)
  Definition Bad (R : state -> Prop) (run : state -> state -> bool -> Prop) : Prop :=
    exists st st' h p, R st /\ run st st' h /\ In p ps /\ heap st' (pb p) <> h0 (pb p).

  Definition post_s (s : stmt) (R : state -> Prop) : state -> Prop :=
    fun st' => exists st, R st /\ exec_s s st st' false.
  Definition post_l (l : list stmt) (R : state -> Prop) : state -> Prop :=
    fun st' => exists st, R st /\ exec_l l st st' false.

  Lemma Witness_mono a (R R' : state -> Prop) : (forall st, R st -> R' st) -> Witness a R -> Witness a R'.
  Proof.
    intros HS W x p He. destruct (W x p He) as [Hp [st [H1 H2]]]. split; [exact Hp|]. exists st. split; [apply HS, H1 | exact H2].
  Qed.

  (* a bad run from R gives one from R', as soon as every run from R can be had from R' *)
  Lemma Bad_impl (R R' : state -> Prop) (run run' : state -> state -> bool -> Prop) :
    (forall st st' h, R st -> run st st' h -> exists st0 h', R' st0 /\ run' st0 st' h') ->
    Bad R run -> Bad R' run'.
  Proof.
    intros HR [st [st' [h [p [HS [Hex [Hp Hh]]]]]]].
    destruct (HR st st' h HS Hex) as [st0 [h' [HS' Hex']]]. exists st0, st', h', p. auto.
  Qed.

  Definition complete_s (s : stmt) : Prop :=
    forall a R, Witness a R ->
    match an_stmt fuel s a with
    | AOk a' => Witness a' (post_s s R)
    | ABad _ _ => Bad R (exec_s s)
    | AFuel => True
    end.

  Definition complete_l (l : list stmt) : Prop :=
    forall a R, Witness a R ->
    match an_list fuel l a with
    | AOk a' => Witness a' (post_l l R)
    | ABad _ _ => Bad R (exec_l l)
    | AFuel => True
    end.

  Lemma complete_bind x r : complete_s (SBind x r).
  Proof.
    intros a R W. rewrite an_stmt_bind. intros z p He. apply ent_update in He. destruct He as [[Ez Hp]|[Nz He]].
    - subst z. destruct r as [|ys]; [destruct Hp|].
      apply ent_alias_of in Hp. destruct Hp as [y [Hy He]].
      destruct (W y p He) as [Hps [st [HS Hy']]]. split; [exact Hps|].
      exists (mkState (upd_env (env st) x (pb p)) (heap st) (alloc st)). split.
      + exists st. split; [exact HS|]. eapply XBindAlias; eauto.
      + cbn [env]. unfold upd_env. rewrite Pos.eqb_refl. reflexivity.
    - destruct (W z p He) as [Hps [st [HS Hz]]]. split; [exact Hps|].
      destruct (fresh_exists (alloc st)) as [b Hb].
      exists (mkState (upd_env (env st) x b) (upd_heap (heap st) b 0) (b :: alloc st)). split.
      + exists st. split; [exact HS|]. apply XBindFresh. exact Hb.
      + cbn [env]. unfold upd_env. destruct (Pos.eqb z x) eqn:E; [|exact Hz].
        apply Pos.eqb_eq in E. contradiction.
  Qed.

  Lemma complete_write x : complete_s (SWrite x).
  Proof.
    intros a R W. rewrite an_stmt_write. destruct (lookup a x) as [|p t] eqn:L.
    - intros z q He. destruct (W z q He) as [Hps [st [HS Hz]]]. split; [exact Hps|].
      destruct (env st x) as [b|] eqn:Ex.
      + exists (mkState (env st) (upd_heap (heap st) b 0) (alloc st)). split.
        * exists st. split; [exact HS|]. apply XWrite. exact Ex.
        * exact Hz.
      + exists st. split; [|exact Hz]. exists st. split; [exact HS|]. apply XWriteUnbound. exact Ex.
    - assert (He : ent a x p) by (apply lookup_ent; rewrite L; left; reflexivity).
      destruct (W x p He) as [Hps [st [HS Hx]]].
      exists st, (mkState (env st) (upd_heap (heap st) (pb p) (S (h0 (pb p)))) (alloc st)), false, p.
      split; [exact HS|]. split; [apply XWrite; exact Hx|]. split; [exact Hps|].
      cbn [heap]. unfold upd_heap. rewrite Nat.eqb_refl. apply Nat.neq_succ_diag_l.
  Qed.

  Lemma complete_if s1 s2 : complete_l s1 -> complete_l s2 -> complete_s (SIf s1 s2).
  Proof.
    intros Q1 Q2 a R W. rewrite an_stmt_if. specialize (Q1 a R W). specialize (Q2 a R W).
    assert (Lft : forall st, post_l s1 R st -> post_s (SIf s1 s2) R st).
    { intros st' [st [HS Hex]]. exists st. split; [exact HS | apply XIfL, Hex]. }
    assert (Rgt : forall st, post_l s2 R st -> post_s (SIf s1 s2) R st).
    { intros st' [st [HS Hex]]. exists st. split; [exact HS | apply XIfR, Hex]. }
    destruct (an_list fuel s1 a) as [a1|y1 t1|].
    - destruct (an_list fuel s2 a) as [a2|y2 t2|].
      + intros z p He. apply ent_join in He.
        destruct He as [He|He]; [exact (Witness_mono _ _ _ Lft Q1 z p He) | exact (Witness_mono _ _ _ Rgt Q2 z p He)].
      + revert Q2. apply Bad_impl. intros st st' h HS Hex. exists st, h. split; [exact HS | apply XIfR, Hex].
      + exact I.
    - revert Q1. apply Bad_impl. intros st st' h HS Hex. exists st, h. split; [exact HS | apply XIfL, Hex].
    - exact I.
  Qed.

  (* the states reachable by some number of completed rounds are closed under one more round *)
  Lemma complete_loop b : complete_l b -> complete_s (SLoop b).
  Proof.
    intros Qb a R W. rewrite an_stmt_loop.
    set (T := post_s (SLoop b) R).
    assert (ST : forall st, R st -> T st).
    { intros st HS. exists st. split; [exact HS | apply XLoopDone]. }
    assert (TT : forall st, post_l b T st -> T st).
    { intros st2 [st1 [[st [HS H1]] H2]]. exists st. split; [exact HS|]. eapply loop_snoc; eauto. }
    assert (WT : Witness a T) by exact (Witness_mono a R T ST W).
    clear W. revert a WT. generalize fuel at 2. intro n.
    induction n as [|k IH]; intros a WT; simpl; [exact I|].
    specialize (Qb a T WT).
    destruct (an_list fuel b a) as [a1|y1 t1|].
    - destruct (amap_le a1 a).
      + exact WT.
      + apply IH. intros z p He. apply ent_join in He.
        destruct He as [He|He]; [exact (WT z p He) | exact (Witness_mono _ _ _ TT Qb z p He)].
    - revert Qb. apply Bad_impl. intros st1 st' h [st [HS H1]] Hex. exists st, h.
      split; [exact HS | eapply loop_snoc; eauto].
    - exact I.
  Qed.

  Lemma complete_nil : complete_l [].
  Proof.
    intros a R W. simpl. intros z p He. destruct (W z p He) as [Hps [st [HS Hz]]]. split; [exact Hps|].
    exists st. split; [|exact Hz]. exists st. split; [exact HS | apply XNil].
  Qed.

  Lemma complete_cons s l : complete_s s -> complete_l l -> complete_l (s :: l).
  Proof.
    intros Ps Ql a R W. rewrite an_list_cons. specialize (Ps a R W).
    destruct (an_stmt fuel s a) as [a1|y1 t1|].
    - specialize (Ql a1 (post_s s R) Ps).
      destruct (an_list fuel l a1) as [a2|y2 t2|].
      + eapply Witness_mono; [|exact Ql]. intros st2 [st1 [[st [HS H1]] H2]].
        exists st. split; [exact HS | eapply XCons; eauto].
      + revert Ql. apply Bad_impl. intros st1 st' h [st [HS H1]] Hex. exists st, h.
        split; [exact HS | eapply XCons; eauto].
      + exact I.
    - (* the bad run of s, cut short or followed by an idle run of l *)
      revert Ps. apply Bad_impl. intros st st' h HS Hex. exists st. destruct h.
      + exists true. split; [exact HS | apply XConsHalt, Hex].
      + destruct (idle_list l st') as [h' Hid]. exists h'. split; [exact HS | eapply XCons; eauto].
    - exact I.
  Qed.

  Lemma complete_list : forall l, complete_l l.
  Proof.
    apply (list_ind2 complete_s complete_l); [exact complete_bind | exact complete_write | exact complete_if
                             | exact complete_loop | exact complete_nil | exact complete_cons].
  Qed.
End Completeness.

Definition pb_of (st : state) (p : var) : buf :=
  match env st p with Some b => b | None => O end.

Lemma params_bound_env ps st : params_bound ps st -> forall p, In p ps -> exists b, env st p = Some b.
Proof. intros HB p Hp. destruct (HB p Hp) as [b [Eb _]]. exists b. exact Eb. Qed.

Lemma frame_ok_complete sk ps x s :
  analyze_r default_fuel sk (init_amap ps) = ABad x s ->
  forall st, (forall p, In p ps -> exists b, env st p = Some b) ->    (* bound; the buffers need not be allocated *)
  exists st', exec sk st st' /\ ~ params_unchanged ps st st'.
Proof.
  intros Han st HB.
  assert (W : Witness ps (pb_of st) (init_amap ps) (fun s0 => s0 = st)).
  { intros z p He. apply ent_init in He. destruct He as [-> Hz]. split; [exact Hz|].
    exists st. split; [reflexivity|]. destruct (HB z Hz) as [b Eb]. unfold pb_of. rewrite Eb. reflexivity. }
  pose proof (complete_list ps (pb_of st) (heap st) default_fuel sk (init_amap ps) (fun s0 => s0 = st) W) as H.
  unfold analyze_r in Han. rewrite Han in H.
  destruct H as [st1 [st' [h [p [E [Hex [Hp Hh]]]]]]]. subst st1.
  exists st'. split; [exists h; exact Hex|].
  intro HU. destruct (HB p Hp) as [b Eb].
  specialize (HU p b Hp Eb). apply Hh. unfold pb_of. rewrite Eb. exact HU.
Qed.

(* decision form: when the fuel suffices, frame_ok is false EXACTLY when some execution from the
   given start state changes a parameter's buffer *)
Lemma frame_ok_decides sk ps :
  analyze_r default_fuel sk (init_amap ps) <> AFuel ->
  forall st, params_bound ps st -> others_apart ps st ->
  (frame_ok sk ps = true <-> forall st', exec sk st st' -> params_unchanged ps st st').
Proof.
  intros NF st HB HA. split.
  - intros Hok st' Hex. eapply no_write_implies_unchanged; eauto.
  - intro Hall. destruct (frame_ok sk ps) eqn:E; [reflexivity|].
    apply frame_ok_false_cases in E. destruct E as [[x [s [E _]]]|E]; [|contradiction].
    destruct (frame_ok_complete sk ps x s E st (params_bound_env ps st HB)) as [st' [Hex Hn]].
    exfalso. apply Hn, Hall, Hex.
Qed.

(* a canonical admissible start state for any parameter list: parameter p lives in buffer (Pos.to_nat p), nothing else is bound *)
Definition canon_state (ps : list var) : state :=
  mkState (fun x => if mem x ps then Some (Pos.to_nat x) else None) (fun _ => 0%nat) (map Pos.to_nat ps).

Lemma canon_bound ps : params_bound ps (canon_state ps).
Proof.
  intros p Hp. exists (Pos.to_nat p). unfold canon_state; cbn [env alloc].
  rewrite (proj2 (mem_In p ps) Hp). split; [reflexivity | apply in_map; exact Hp].
Qed.

Lemma canon_apart ps : others_apart ps (canon_state ps).
Proof.
  intros x p b Hx Hp Hb. unfold canon_state in *; cbn [env] in *.
  destruct (mem x ps) eqn:E; [apply mem_In in E; contradiction | discriminate].
Qed.

Lemma frame_ok_monotone sk' sk ps :
  refines sk' sk -> frame_ok sk ps = true ->
  analyze_r default_fuel sk' (init_amap ps) <> AFuel ->
  frame_ok sk' ps = true.
Proof.
  intros R Hok NF.
  apply (proj2 (frame_ok_decides sk' ps NF (canon_state ps) (canon_bound ps) (canon_apart ps))).
  intros st' [h Hex]. apply (no_write_implies_unchanged sk ps Hok _ _ (canon_bound ps) (canon_apart ps)).
  exists h. exact (simulation sk' sk R _ _ _ Hex).
Qed.
