(* C15 — runs of a concatenation.  A `<driver>#seq` obligation is frame_ok of the concatenation of two call skeletons over
   the union of their parameter sets (Properties.C15_sequence_sound says what it proves).  Here: what the analysis and the logged semantics
   do on l1 ++ l2 (the plain semantics: Proofs.exec_l_app, exec_l_app_inv). *)
From Coq Require Import PArith List Bool.
From EsVerif.C15 Require Import Model Spec Proofs NoWrite.
Import ListNotations.

Lemma an_list_app fuel l1 : forall l2 a,
  an_list fuel (l1 ++ l2) a = match an_list fuel l1 a with AOk a1 => an_list fuel l2 a1 | e => e end.
Proof.
  induction l1 as [|s r IH]; intros l2 a.
  - reflexivity.
  - simpl app. rewrite !an_list_cons. destruct (an_stmt fuel s a) as [a1|x t|]; [apply IH | reflexivity | reflexivity].
Qed.

Lemma exec_l_app_halt l1 l2 st st1 : exec_l l1 st st1 true -> exec_l (l1 ++ l2) st st1 true.
Proof.
  intro H1. remember true as t eqn:Et. revert Et.
  induction H1 as [ | s r st st1 st2 h Hs _ IH | s r st st1 Hs ]; intros Et; try discriminate.
  - simpl. eapply XCons; [exact Hs | apply IH; exact Et].
  - simpl. apply XConsHalt. exact Hs.
Qed.

Lemma execw_l_app l1 l2 st st1 st2 h w1 w2 :
  execw_l l1 st st1 false w1 -> execw_l l2 st1 st2 h w2 -> execw_l (l1 ++ l2) st st2 h (w1 ++ w2).
Proof.
  intro H1. remember false as f eqn:Ef. revert Ef l2 st2 h w2.
  induction H1 as [ | s r st st1 st2 h w1 w2 Hs _ IH | ]; intros Ef l2 st3 h' w3 H2; try discriminate.
  - exact H2.
  - simpl. rewrite <- app_assoc. eapply WCons; [exact Hs | apply IH; [exact Ef | exact H2]].
Qed.

Lemma frame_ok_prefix sk1 sk2 ps : frame_ok (sk1 ++ sk2) ps = true -> frame_ok sk1 ps = true.
Proof.
  unfold frame_ok, analyze, analyze_r. rewrite an_list_app.
  destruct (an_list default_fuel sk1 (init_amap ps)); [reflexivity | discriminate | discriminate].
Qed.

Lemma params_bound_app ps1 ps2 st : params_bound (ps1 ++ ps2) st -> params_bound ps1 st /\ params_bound ps2 st.
Proof. intro H. split; intros p Hp; apply H; apply in_or_app; [left | right]; exact Hp. Qed.

