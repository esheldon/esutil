(* C15 — a flow-insensitive may-alias certificate and its soundness.
   E assigns to every name a set of parameters.  [fi_ok sk ps E]: every parameter is in its own set, and for every statement
   `x := MayAlias ys` ANYWHERE in the skeleton, E y is contained in E x for every y in ys.  Then in EVERY state reached by ANY
   (also a cut-short) execution, a name that refers to the buffer of a parameter has a parameter with that buffer in E x
   (closed_preserved here, for any state that satisfies the alias invariant; from an admissible start state:
   Properties.C15_flow_insensitive_alias_sound).
   This is the closure against which the dynamic alias trace (sys.settrace on the real call) is compared. *)
From Coq Require Import PArith List Bool.
From EsVerif.C15 Require Import Model Proofs.
Import ListNotations.

Fixpoint edges_s (s : stmt) : list (var * list var) :=
  let edges_l := fix edges_l (l : list stmt) : list (var * list var) :=
    match l with [] => [] | s :: r => edges_s s ++ edges_l r end in
  match s with
  | SBind x (MayAlias ys) => [(x, ys)]
  | SBind _ Fresh => []
  | SWrite _ => []
  | SIf a b => edges_l a ++ edges_l b
  | SLoop b => edges_l b
  end.

Fixpoint edges (l : list stmt) : list (var * list var) :=
  match l with [] => [] | s :: r => edges_s s ++ edges r end.

Definition edge_ok (E : amap) (e : var * list var) : bool :=
  forallb (fun y => subset (lookup E y) (lookup E (fst e))) (snd e).

Definition fi_ok (sk : skeleton) (ps : list var) (E : amap) : bool :=
  forallb (fun p => mem p (lookup E p)) ps && forallb (edge_ok E) (edges sk).

Lemma edges_s_if a b : edges_s (SIf a b) = edges a ++ edges b.
Proof. reflexivity. Qed.
Lemma edges_s_loop b : edges_s (SLoop b) = edges b.
Proof. reflexivity. Qed.

Section FI.
  Variable ps : list var.
  Variable e0 : var -> option buf.
  Variable E : amap.

  Definition closed (l : list (var * list var)) : Prop := forall e, In e l -> edge_ok E e = true.

  Lemma closed_app l1 l2 : closed (l1 ++ l2) -> closed l1 /\ closed l2.
  Proof. intro H. split; intros e He; apply H; apply in_or_app; [left | right]; exact He. Qed.

  (* E does not change along the run, so the invariant holds at every point of it, also where it is cut short *)
  Lemma closed_preserved : forall l st st' h,
    exec_l l st st' h -> closed (edges l) -> AliasInv ps e0 E st -> AliasInv ps e0 E st'.
  Proof.
    intros l st st' h H.
    induction H as [ | x r st b v Hfresh | x ys y b st Hy Hb | | | s1 s2 st st' h _ IH | s1 s2 st st' h _ IH |
                   | b st st1 st2 h _ IH1 _ IH2 | b st st1 _ IH | | s r st st1 st2 h _ IH1 _ IH2 | s r st st1 _ IH ]
      using exec_l_mut with
      (P := fun s st st' h (_ : exec_s s st st' h) => closed (edges_s s) -> AliasInv ps e0 E st -> AliasInv ps e0 E st');
      intros HC HJ; try exact HJ.
    - (* fresh: a buffer that did not exist is not a parameter's *)
      eapply AliasInv_bind; [exact HJ | intros c Hc; right; exact Hc | auto |].
      intro HP. destruct HJ as [J1 _]. exfalso. auto.
    - (* alias: the edge (x, ys) is closed *)
      eapply AliasInv_bind; [exact HJ | auto | auto |].
      intro HP. destruct HJ as [_ J2]. destruct (J2 y b Hb HP) as [q [Hq [Hqb Hin]]].
      assert (He : edge_ok E (x, ys) = true) by (apply HC; left; reflexivity).
      unfold edge_ok in He. rewrite forallb_forall in He.
      exists q. split; [exact Hq|]. split; [exact Hqb|]. exact (proj1 (subset_iff _ _) (He y Hy) q Hin).
    - (* first branch *) rewrite edges_s_if in HC. apply closed_app in HC as [H1 _]. exact (IH H1 HJ).
    - (* second branch *) rewrite edges_s_if in HC. apply closed_app in HC as [_ H2]. exact (IH H2 HJ).
    - (* one round, then the loop again *) rewrite edges_s_loop in HC. apply IH2; [rewrite edges_s_loop; exact HC|]. exact (IH1 HC HJ).
    - (* a round cut short *) rewrite edges_s_loop in HC. exact (IH HC HJ).
    - (* cons *) cbn [edges] in HC. apply closed_app in HC as [H1 H2]. exact (IH2 H2 (IH1 H1 HJ)).
    - (* cons, cut short *) cbn [edges] in HC. apply closed_app in HC as [H1 _]. exact (IH H1 HJ).
  Qed.
End FI.

(* what the boolean certificate check establishes *)
Lemma fi_ok_closed sk ps E :
  fi_ok sk ps E = true -> (forall p, In p ps -> In p (lookup E p)) /\ closed E (edges sk).
Proof.
  unfold fi_ok. intro H. apply andb_true_iff in H as [H1 H2]. rewrite forallb_forall in H1, H2.
  split; [intros p Hp; apply mem_In, H1, Hp | exact H2].
Qed.

(* non-vacuity: a certificate for  v := a.view() ; out := v or fresh ; g := out *)
Example fi_ok_example :
  fi_ok [SBind 2 (MayAlias [1]); SIf [SBind 3 (MayAlias [2])] [SBind 3 Fresh]; SBind 4 (MayAlias [3])]%positive [1%positive]
        [(1, [1]); (2, [1]); (3, [1]); (4, [1])]%positive = true
  /\ fi_ok [SBind 2 (MayAlias [1])]%positive [1%positive] [(1, [1])]%positive = false.
Proof. split; reflexivity. Qed.
