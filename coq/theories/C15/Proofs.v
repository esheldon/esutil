(* C15 — facts about the model alone: the abstract domain; the equations of the analysis and an induction principle for
   the nested statement type; what a rejection carries and when a skeleton is accepted; runs of the semantics; the alias
   invariant on which the soundness theorems (NoWrite.v, FlowIns.v) rest. *)
From Coq Require Import PArith List Bool PeanoNat.
From EsVerif.C15 Require Import Model.
Import ListNotations.

Lemma mem_In p s : mem p s = true <-> In p s.
Proof.
  induction s as [|q t IH]; simpl.
  - split; [discriminate | intros []].
  - rewrite orb_true_iff, IH, Pos.eqb_eq. reflexivity.
Qed.

Lemma union_In s1 s2 : forall p, In p (union s1 s2) <-> In p s1 \/ In p s2.
Proof.
  induction s1 as [|q t IH]; simpl; intro p.
  - split; [intro H; right; exact H | intros [[]|H]; exact H].
  - destruct (mem q (union t s2)) eqn:E.
    + (* q is in the union already *)
      rewrite IH. split; [intros [H|H]; auto|].
      intros [[<-|H]|H]; [apply IH, mem_In, E | left; exact H | right; exact H].
    + simpl. rewrite IH. symmetry. apply or_assoc.
Qed.

Lemma subset_iff s1 s2 : subset s1 s2 = true <-> forall p, In p s1 -> In p s2.
Proof. unfold subset. rewrite forallb_forall. split; intros H p Hp; apply mem_In, H, Hp. Qed.

Lemma lookup_remove_key x a y :
  lookup (remove_key x a) y = if Pos.eqb x y then [] else lookup a y.
Proof.
  induction a as [|[k s] t IH]; simpl.
  - destruct (Pos.eqb x y); reflexivity.
  - destruct (Pos.eqb_spec k x) as [->|Nkx]; simpl; rewrite IH.
    + destruct (Pos.eqb x y); reflexivity.
    + destruct (Pos.eqb_spec k y) as [->|Nky]; [|reflexivity].
      destruct (Pos.eqb_spec x y); [congruence | reflexivity].
Qed.

(* also for s = [], which update does not store: lookup answers [] for a name that is absent *)
Lemma lookup_update a x s y :
  lookup (update a x s) y = if Pos.eqb x y then s else lookup a y.
Proof.
  unfold update. destruct s as [|p t]; simpl; rewrite lookup_remove_key; destruct (Pos.eqb x y); reflexivity.
Qed.

Lemma lookup_update_eq a x s : lookup (update a x s) x = s.
Proof. rewrite lookup_update, Pos.eqb_refl. reflexivity. Qed.

Lemma lookup_update_neq a x s y : y <> x -> lookup (update a x s) y = lookup a y.
Proof. intro N. rewrite lookup_update. destruct (Pos.eqb_spec x y); [congruence | reflexivity]. Qed.

Definition within (a b : amap) : Prop := forall x p, In p (lookup a x) -> In p (lookup b x).

Lemma within_refl a : within a a.
Proof. intros x p H; exact H. Qed.

Lemma within_trans a b c : within a b -> within b c -> within a c.
Proof. intros H1 H2 x p H. apply H2, H1, H. Qed.

Lemma join_r a1 a2 : within a2 (join a1 a2).
Proof.
  induction a1 as [|[k s] t IH]; simpl.
  - apply within_refl.
  - intros x p H. rewrite lookup_update. destruct (Pos.eqb k x) eqn:E.
    + apply Pos.eqb_eq in E; subst k. apply union_In. right. apply IH, H.
    + apply IH, H.
Qed.

Lemma join_l a1 a2 : within a1 (join a1 a2).
Proof.
  induction a1 as [|[k s] t IH]; simpl.
  - intros x p H. destruct H.
  - intros x p H. rewrite lookup_update. simpl in H. destruct (Pos.eqb k x) eqn:E.
    + apply union_In. left. exact H.
    + apply IH, H.
Qed.

Lemma amap_le_within a b : amap_le a b = true -> within a b.
Proof.
  unfold amap_le. rewrite forallb_forall. intros H x p Hp.
  induction a as [|[k s] t IH]; simpl in Hp.
  - destruct Hp.
  - destruct (Pos.eqb k x) eqn:E.
    + apply Pos.eqb_eq in E; subst k.
      assert (Hs : subset s (lookup b x) = true) by (apply (H (x, s)); left; reflexivity).
      exact (proj1 (subset_iff _ _) Hs p Hp).
    + apply IH; [|exact Hp]. intros kv Hkv. apply H. right. exact Hkv.
Qed.

Lemma alias_of_In a ys y p : In y ys -> In p (lookup a y) -> In p (alias_of a ys).
Proof.
  induction ys as [|z t IH]; simpl; intros Hy Hp.
  - destruct Hy.
  - apply union_In. destruct Hy as [->|Hy]; [left; exact Hp | right; apply IH; assumption].
Qed.

Lemma lookup_init ps x : In x ps -> lookup (init_amap ps) x = [x].
Proof.
  induction ps as [|q t IH]; simpl; intro H.
  - destruct H.
  - destruct (Pos.eqb q x) eqn:E.
    + apply Pos.eqb_eq in E; subst; reflexivity.
    + destruct H as [->|H]; [rewrite Pos.eqb_refl in E; discriminate | apply IH, H].
Qed.

Lemma upd_heap_other h b v c : c <> b -> upd_heap h b v c = h c.
Proof. intro N. unfold upd_heap. destruct (Nat.eqb_spec c b); [contradiction | reflexivity]. Qed.

Lemma an_stmt_if fuel s1 s2 a :
  an_stmt fuel (SIf s1 s2) a =
  match an_list fuel s1 a with
  | AOk a1 => match an_list fuel s2 a with AOk a2 => AOk (join a1 a2) | e => e end
  | e => e
  end.
Proof. reflexivity. Qed.

Lemma an_stmt_bind fuel x r a :
  an_stmt fuel (SBind x r) a =
  AOk (update a x (match r with Fresh => [] | MayAlias ys => alias_of a ys end)).
Proof. destruct r; reflexivity. Qed.

Lemma an_stmt_write fuel x a :
  an_stmt fuel (SWrite x) a = match lookup a x with [] => AOk a | p :: t => ABad x (p :: t) end.
Proof. reflexivity. Qed.

Lemma an_stmt_loop fuel b a : an_stmt fuel (SLoop b) a = an_loop fuel b fuel a.
Proof. reflexivity. Qed.

Lemma an_list_cons fuel s r a :
  an_list fuel (s :: r) a = match an_stmt fuel s a with AOk a1 => an_list fuel r a1 | e => e end.
Proof. reflexivity. Qed.

Lemma an_loop_spec fuel b n : forall a a',
  an_loop fuel b n a = AOk a' ->
  within a a' /\ exists a'', an_list fuel b a' = AOk a'' /\ within a'' a'.
Proof.
  induction n as [|k IH]; intros a a' H; simpl in H.
  - discriminate.
  - destruct (an_list fuel b a) as [a1| |] eqn:E; try discriminate.
    destruct (amap_le a1 a) eqn:L.
    + inversion H; subst a'. split; [apply within_refl|]. exists a1. split; [exact E|].
      apply amap_le_within, L.
    + apply IH in H. destruct H as [H1 H2]. split; [|exact H2].
      eapply within_trans; [apply join_l | exact H1].
Qed.

Section stmt_ind2.
  Variable P : stmt -> Prop.
  Variable Q : list stmt -> Prop.
  Hypothesis HB : forall x r, P (SBind x r).
  Hypothesis HW : forall x, P (SWrite x).
  Hypothesis HI : forall s1 s2, Q s1 -> Q s2 -> P (SIf s1 s2).
  Hypothesis HL : forall b, Q b -> P (SLoop b).
  Hypothesis HN : Q [].
  Hypothesis HC : forall s l, P s -> Q l -> Q (s :: l).

  Fixpoint stmt_ind2 (s : stmt) : P s :=
    let lst := fix lst (l : list stmt) : Q l :=
      match l with
      | [] => HN
      | s :: r => HC s r (stmt_ind2 s) (lst r)
      end in
    match s with
    | SBind x r => HB x r
    | SWrite x => HW x
    | SIf s1 s2 => HI s1 s2 (lst s1) (lst s2)
    | SLoop b => HL b (lst b)
    end.

  Definition list_ind2 : forall l, Q l :=
    fix lst (l : list stmt) : Q l :=
      match l with
      | [] => HN
      | s :: r => HC s r (stmt_ind2 s) (lst r)
      end.
End stmt_ind2.

Definition bad_nonempty (r : ares) : Prop :=
  match r with ABad _ s => s <> [] | _ => True end.

(* ABad is produced by SWrite only, with the non-empty alias set it found, and handed on unchanged *)
Lemma an_list_bad_nonempty fuel : forall l a, bad_nonempty (an_list fuel l a).
Proof.
  apply (list_ind2 (fun s => forall a, bad_nonempty (an_stmt fuel s a))
                   (fun l => forall a, bad_nonempty (an_list fuel l a))).
  - intros x r a. rewrite an_stmt_bind. exact I.
  - intros x a. rewrite an_stmt_write. destruct (lookup a x); [exact I | discriminate].
  - intros s1 s2 IH1 IH2 a. rewrite an_stmt_if. specialize (IH1 a). specialize (IH2 a).
    destruct (an_list fuel s1 a); [|exact IH1|exact I].
    destruct (an_list fuel s2 a); [exact I|exact IH2|exact I].
  - intros b IH a. rewrite an_stmt_loop. generalize fuel at 2. intro n. revert a.
    induction n as [|k IHk]; intro a; simpl; [exact I|]. specialize (IH a).
    destruct (an_list fuel b a) as [a1| |]; [|exact IH|exact I].
    destruct (amap_le a1 a); [exact I | apply IHk].
  - intro a. exact I.
  - intros s l IHs IHl a. rewrite an_list_cons. specialize (IHs a).
    destruct (an_stmt fuel s a) as [a1| |]; [apply IHl|exact IHs|exact I].
Qed.

(* fuel exhaustion is reported apart *)
Lemma frame_ok_false_cases sk ps :
  frame_ok sk ps = false ->
  (exists x s, analyze_r default_fuel sk (init_amap ps) = ABad x s /\ s <> [])
  \/ analyze_r default_fuel sk (init_amap ps) = AFuel.
Proof.
  unfold frame_ok, analyze, analyze_r. intro H.
  pose proof (an_list_bad_nonempty default_fuel sk (init_amap ps)) as G.
  destruct (an_list default_fuel sk (init_amap ps)) as [a|x s|]; [discriminate| |right; reflexivity].
  left. exists x, s. split; [reflexivity | exact G].
Qed.

Lemma frame_ok_iff sk ps :
  frame_ok sk ps = true <-> exists a', analyze_r default_fuel sk (init_amap ps) = AOk a'.
Proof.
  unfold frame_ok, analyze.
  destruct (analyze_r default_fuel sk (init_amap ps)) as [a'| |]; split; try discriminate; try reflexivity.
  - exists a'. reflexivity.
  - intros [a' E]. discriminate E.
  - intros [a' E]. discriminate E.
Qed.

Scheme exec_s_mut := Induction for exec_s Sort Prop
with exec_l_mut := Induction for exec_l Sort Prop.

(* facts about runs: concatenation and its inverse, a run that does nothing, one more round of a loop at either end *)
Lemma exec_l_app l1 l2 st st1 st2 h :
  exec_l l1 st st1 false -> exec_l l2 st1 st2 h -> exec_l (l1 ++ l2) st st2 h.
Proof.
  intro H1. remember false as f eqn:Ef. revert Ef l2 st2 h.
  induction H1 as [ | s r st st1 st2 h Hs _ IH | ]; intros Ef l2 st3 h' H2; try discriminate.
  - exact H2.
  - simpl. eapply XCons; [exact Hs | apply IH; [exact Ef | exact H2]].
Qed.

Lemma exec_l_app_inv l1 : forall l2 st st2 h,
  exec_l (l1 ++ l2) st st2 h ->
  (h = true /\ exec_l l1 st st2 true) \/ (exists st1, exec_l l1 st st1 false /\ exec_l l2 st1 st2 h).
Proof.
  induction l1 as [|s r IH]; intros l2 st st2 h H.
  - right. exists st. split; [apply XNil | exact H].
  - simpl in H. inversion H; subst.
    + match goal with Hr : exec_l (r ++ l2) _ _ _ |- _ => destruct (IH _ _ _ _ Hr) as [[-> Hh]|[stm [Ha Hb]]] end.
      * left. split; [reflexivity|]. eapply XCons; eassumption.
      * right. exists stm. split; [eapply XCons; eassumption | exact Hb].
    + left. split; [reflexivity|]. apply XConsHalt. assumption.
Qed.

Lemma exec_cons_loop_prepend b l st st1 st2 h :
  exec_l b st st1 false -> exec_l (SLoop b :: l) st1 st2 h -> exec_l (SLoop b :: l) st st2 h.
Proof.
  intros Hb H. inversion H; subst.
  - eapply XCons; [eapply XLoopStep; eassumption | eassumption].
  - apply XConsHalt. eapply XLoopStep; eassumption.
Qed.

Lemma idle_list l st : exists h, exec_l l st st h.
Proof.
  destruct l as [|s r].
  - exists false. apply XNil.
  - exists true. apply XConsHalt. apply XHalt.
Qed.

Lemma loop_snoc b st st1 :
  exec_s (SLoop b) st st1 false -> forall st2 h, exec_l b st1 st2 h -> exec_s (SLoop b) st st2 h.
Proof.
  intro H. remember (SLoop b) as s eqn:Es. remember false as f eqn:Ef. revert Es Ef.
  induction H as [ | | | | | | | | b0 st st1 st2 h Hround _ IH | ]; intros Es Ef; try discriminate.
  - (* no round yet: the new one is the only one *)
    inversion Es; subst b0. intros st2 h Hb. destruct h.
    + apply XLoopHalt. exact Hb.
    + eapply XLoopStep; [exact Hb | apply XLoopDone].
  - inversion Es; subst b0. intros st3 h' Hb. eapply XLoopStep; [exact Hround | apply IH; auto].
Qed.

Lemma fresh_exists (l : list nat) : exists b, ~ In b l.
Proof.
  exists (S (list_max l)). intro H.
  pose proof (proj1 (list_max_le l (list_max l)) (Nat.le_refl _)) as G. rewrite Forall_forall in G.
  apply G in H. exact (Nat.nle_succ_diag_l _ H).
Qed.

Section Alias.
  Variable ps : list var.              (* the parameters whose buffers must not change *)
  Variable e0 : var -> option buf.     (* the environment when the call started *)

  Definition isP (b : buf) : Prop := exists p, In p ps /\ e0 p = Some b.

  (* [lookup a x] bounds the parameters whose buffer the name x may refer to: parameter buffers exist (so a fresh
     buffer is never one of them), and a name that refers to the buffer of a parameter has a parameter with that
     buffer in [lookup a x].  Nothing is said about the heap: writes leave the invariant alone. *)
  Definition AliasInv (a : amap) (st : state) : Prop :=
    (forall b, isP b -> In b (alloc st))
    /\ (forall x b, env st x = Some b -> isP b -> exists p, In p ps /\ e0 p = Some b /\ In p (lookup a x)).

  Lemma AliasInv_mono a a' st : within a a' -> AliasInv a st -> AliasInv a' st.
  Proof.
    intros L [A1 A2]. split; [exact A1|].
    intros x c Hx Hc. destruct (A2 x c Hx Hc) as [p [Hp [Hb Hin]]]. exists p. auto.
  Qed.

  (* the one step that changes the environment: x is bound to b, which is new or the buffer of another name *)
  Lemma AliasInv_bind a a' st x b h al :
    AliasInv a st -> (forall c, In c (alloc st) -> In c al) ->
    (forall y p, y <> x -> In p (lookup a y) -> In p (lookup a' y)) ->
    (isP b -> exists p, In p ps /\ e0 p = Some b /\ In p (lookup a' x)) ->
    AliasInv a' (mkState (upd_env (env st) x b) h al).
  Proof.
    intros [A1 A2] Hal Hoff Hx. split; cbn [env alloc].
    - intros c Hc. apply Hal, A1, Hc.
    - intros y c Hy Hc. unfold upd_env in Hy. destruct (Pos.eqb_spec y x) as [->|Ny].
      + injection Hy as <-. exact (Hx Hc).
      + destruct (A2 y c Hy Hc) as [p [Hp [Hb Hin]]]. exists p. auto.
  Qed.
End Alias.
