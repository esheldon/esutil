(* C15 — glue evaluated by generated case files (frame_ret_cert also evaluates the certificate check FlowIns.fi_ok). *)
From EsVerif.Common Require Import Base Bytes.
From EsVerif.C15 Require Import Model Spec FlowIns.
From Coq.Strings Require Import String.

(* static obligation, with the reason of a failure: [0] ok; 1 :: x :: params  a write through x, which
   may alias these parameters; [2] loop analysis did not stabilise within the fuel *)
Definition diag (sk : skeleton) (ps : list var) : list Z :=
  match analyze_r default_fuel sk (init_amap ps) with
  | AOk _ => [0]
  | ABad x s => 1 :: Zpos x :: map Zpos s
  | AFuel => [2]
  end.

Definition mk_snap (hexdata : string) (meta : string) : snap := (unhex hexdata, bytes_of_string meta).

(* dynamic case: static_ok = the skeleton obligation of this driver was discharged (the model then
   predicts "every argument unchanged"; otherwise it predicts nothing); args = (before, after)
   snapshots of every non-exempt array argument of one real call. *)
Definition v_dynamic (static_ok : bool) (args : list (snap * snap)) : Z :=
  let same := unchanged_check args in
  verdict (if static_ok then same else true) same.

(* ------------------------------------------------------------------------------------------
   Faster literal transport (string literals cost ~100 us per character in coqc 8.16, primitive
   integers ~1 us): a byte string of length n is printed as  (n, [c0; c1; ...])  where every ci is a
   primitive 63-bit integer holding 7 bytes, most significant first; the last chunk is padded on
   the right with zero bytes, the padding is cut off by [firstn n].  Decoding yields the same
   [list byte] objects as [unhex]; the verified checker is unchanged. *)
From Coq Require Import Uint63.
From Coq.Strings Require Import Byte.

Definition byte_of_int (i : int) : byte := byte_of_N (Z.to_N (Uint63.to_Z (Uint63.land i 255%uint63))).

Definition chunk7 (i : int) : list byte :=
  [ byte_of_int (Uint63.lsr i 48%uint63); byte_of_int (Uint63.lsr i 40%uint63); byte_of_int (Uint63.lsr i 32%uint63);
    byte_of_int (Uint63.lsr i 24%uint63); byte_of_int (Uint63.lsr i 16%uint63); byte_of_int (Uint63.lsr i 8%uint63);
    byte_of_int i ].

Fixpoint unchunk7 (l : list int) : list byte :=
  match l with
  | nil => nil
  | c :: t => chunk7 c ++ unchunk7 t
  end.

Definition bytes63 (n : Z) (l : list int) : list byte := firstn (Z.to_nat n) (unchunk7 l).

(* a decoded byte string of the wrong length (printer and chunk list disagree) is rejected by
   [wf63]; v_dynamic63 then returns 3 + 4 = 7 (never "agree and ok") *)
Definition wf63 (n : Z) (l : list int) : bool :=
  (0 <=? n) && (Z.of_nat (List.length l) =? (n + 6) / 7).

Definition mk_snap63 (n : Z) (data : list int) (m : Z) (meta : list int) : snap := (bytes63 n data, bytes63 m meta).

Definition v_dynamic63 (static_ok : bool)
    (args : list ((Z * list int * Z * list int) * (Z * list int * Z * list int))) : Z :=
  let wf1 := fun q : Z * list int * Z * list int => match q with (n, d, m, t) => wf63 n d && wf63 m t end in
  let mk := fun q : Z * list int * Z * list int => match q with (n, d, m, t) => mk_snap63 n d m t end in
  if forallb (fun p => wf1 (fst p) && wf1 (snd p)) args
  then v_dynamic static_ok (map (fun p => (mk (fst p), mk (snd p))) args)
  else 7.

(* the two transports agree (every byte value, every position inside a chunk, a padded last chunk) *)
Example transport_agree :
  mk_snap63 10 [0x00017f80fffe10%uint63; 0x20304000000000%uint63] 3 [0x61623b00000000%uint63]
  = mk_snap "00017f80fffe10203040"%string "ab;"%string.
Proof. vm_compute. reflexivity. Qed.

(* ------------------------------------------------------------------------------------------
   Correspondence of the ALIAS part of the model: [ret_alias] is the set of parameters (ids, as Z) the
   name r -- the return slot of the driver -- may refer to according to the verified analysis
   (Properties.C15_alias_sound); [-1] when the obligation failed (no prediction).  It is evaluated once per
   driver; the dynamic cases carry the value.  v_dynamic_alias sets the "model <> implementation" bit
   when the real return value shares memory with an argument outside the predicted set. *)
Definition ret_alias (sk : skeleton) (ps : list var) (r : var) : list Z :=
  match analyze_r default_fuel sk (init_amap ps) with
  | AOk a => map Zpos (lookup a r)
  | _ => [(-1)%Z]
  end.

Definition v_dynamic_alias (static_ok : bool) (ret_static observed : list Z)
    (args : list ((Z * list int * Z * list int) * (Z * list int * Z * list int))) : Z :=
  let v := v_dynamic63 static_ok args in
  let covered := forallb (fun p => existsb (Z.eqb p) ret_static) observed in
  if static_ok && negb covered then (if Z.odd v then v else v + 1) else v.

(* A case in which the arguments were made READ-ONLY and the call died with numpy's "... is read-only" error: the call
   tried to write into the caller's array (the flag turned the silent mutation into an exception).  The property checker
   rejects it, whatever the snapshots say. *)
Definition v_case (ro_write_attempt static_ok : bool) (ret_static observed : list Z)
    (args : list ((Z * list int * Z * list int) * (Z * list int * Z * list int))) : Z :=
  if ro_write_attempt then (if static_ok then 3 else 2)
  else v_dynamic_alias static_ok ret_static observed args.

(* one evaluation per driver: 0 :: predicted aliases of the name r  when the frame obligation holds (ExecProofs.frame_ret_ok),
   1 :: x :: params  when a write through x may reach these parameters, [2] when the loop analysis ran out of fuel *)
Definition frame_ret (sk : skeleton) (ps : list var) (r : var) : list Z :=
  match analyze_r default_fuel sk (init_amap ps) with
  | AOk a => 0 :: map Zpos (lookup a r)
  | ABad x s => 1 :: Zpos x :: map Zpos s
  | AFuel => [2]
  end.

(* compact printing of a pair whose two snapshots are the SAME literal (the common case: nothing changed) *)
Definition dup63 (q : Z * list int * Z * list int) : (Z * list int * Z * list int) * (Z * list int * Z * list int) := (q, q).

(* the static obligation and the flow-insensitive alias certificate of one skeleton in ONE evaluation (the skeleton literal is
   parsed once): frame_ret ... ++ [100] when the certificate E passes FlowIns.fi_ok, ++ [101] otherwise *)
Definition frame_ret_cert (sk : skeleton) (ps : list var) (r : var) (E : amap) : list Z :=
  frame_ret sk ps r ++ [if fi_ok sk ps E then 100 else 101].
