(* C15 — the verdict of a dynamic case, as a specification over decoded snapshots, with its exact meaning: first that the
   snapshot comparison it rests on (Spec.unchanged_check) decides equality, then the table of verdict_spec and what each value means.
   (Exec.v_case works on the primitive-integer transport; ExecProofs.v_case_spec ties it to verdict_spec.) *)
From EsVerif.Common Require Import Base Bytes.
From EsVerif.C15 Require Import Model Spec.

Lemma snap_eqb_eq a b : snap_eqb a b = true <-> a = b.
Proof.
  destruct a as [a1 a2], b as [b1 b2]. unfold snap_eqb; simpl.
  rewrite andb_true_iff, !bytes_eqb_eq. split; [intros [-> ->]; reflexivity | intro E; inversion E; auto].
Qed.

Lemma unchanged_check_iff l : unchanged_check l = true <-> all_unchanged l.
Proof.
  unfold unchanged_check, all_unchanged. rewrite forallb_forall, Forall_forall.
  split; intros H p Hp; apply snap_eqb_eq, H, Hp.
Qed.

Definition covered (observed predicted : list Z) : bool :=
  forallb (fun p => existsb (Z.eqb p) predicted) observed.

(* ro_write_attempt: the call died with "... is read-only" on a read-only argument;  static_ok: the frame obligation of the driver
   was discharged;  predicted / observed: parameters the return value may / does share memory with;  args: (before, after) *)
Definition verdict_spec (ro_write_attempt static_ok : bool) (predicted observed : list Z) (args : list (snap * snap)) : Z :=
  if ro_write_attempt then (if static_ok then 3 else 2)
  else
    let same := unchanged_check args in
    let v := verdict (if static_ok then same else true) same in
    if static_ok && negb (covered observed predicted) then (if Z.odd v then v else v + 1) else v.

Lemma covered_incl obs pred : covered obs pred = true <-> incl obs pred.
Proof.
  unfold covered, incl. rewrite forallb_forall. split.
  - intros H p Hp. specialize (H p Hp). apply existsb_exists in H. destruct H as [q [Hq E]].
    apply Z.eqb_eq in E. subst q. exact Hq.
  - intros H p Hp. apply existsb_exists. exists p. split; [apply H, Hp | apply Z.eqb_refl].
Qed.

(* the complete table *)
Lemma verdict_spec_table ro ok pred obs args :
  verdict_spec ro ok pred obs args =
  if ro then (if ok then 3 else 2)
  else if unchanged_check args
       then (if ok && negb (covered obs pred) then 1 else 0)
       else (if ok then 3 else 2).
Proof.
  unfold verdict_spec, verdict. destruct ro; [reflexivity|].
  destruct (unchanged_check args), ok; simpl; try reflexivity; destruct (covered obs pred); reflexivity.
Qed.

(* verdict 0 -- the only one that is not reported -- means EXACTLY: no refused write, every observed argument unchanged, and
   (when the model makes a prediction) the real return value shares memory only with predicted parameters *)
Lemma verdict_spec_zero ro ok pred obs args :
  verdict_spec ro ok pred obs args = 0 <->
  ro = false /\ all_unchanged args /\ (ok = true -> incl obs pred).
Proof.
  rewrite verdict_spec_table. split.
  - destruct ro; [destruct ok; discriminate|].
    destruct (unchanged_check args) eqn:E; [|destruct ok; discriminate].
    intro H. split; [reflexivity|]. split; [apply unchanged_check_iff; exact E|].
    intro Hok. subst ok. simpl in H. destruct (covered obs pred) eqn:C; [apply covered_incl; exact C | discriminate].
  - intros [-> [HU HC]]. rewrite (proj2 (unchanged_check_iff _) HU).
    destruct ok; [|reflexivity]. simpl. rewrite (proj2 (covered_incl obs pred) (HC eq_refl)). reflexivity.
Qed.

(* a failing input (verdict >= 2) means EXACTLY: a refused write into a read-only argument, or a changed argument *)
Lemma verdict_spec_failing ro ok pred obs args :
  2 <= verdict_spec ro ok pred obs args <-> ro = true \/ ~ all_unchanged args.
Proof.
  rewrite verdict_spec_table. split.
  - destruct ro; [left; reflexivity|]. destruct (unchanged_check args) eqn:E.
    + destruct (ok && negb (covered obs pred)); intro H; lia.
    + intros _. right. intro HU. rewrite (proj2 (unchanged_check_iff _) HU) in E. discriminate.
  - intros [->|HN]; [destruct ok; lia|].
    destruct ro; [destruct ok; lia|].
    destruct (unchanged_check args) eqn:E; [exfalso; apply HN, unchanged_check_iff, E | destruct ok; lia].
Qed.

(* verdict 1 (model <> implementation, nothing was modified) means EXACTLY: the return value shares memory with an argument
   outside the predicted alias set although the obligation was discharged *)
Lemma verdict_spec_one ro ok pred obs args :
  verdict_spec ro ok pred obs args = 1 <->
  ro = false /\ all_unchanged args /\ ok = true /\ ~ incl obs pred.
Proof.
  rewrite verdict_spec_table. split.
  - destruct ro; [destruct ok; discriminate|].
    destruct (unchanged_check args) eqn:E; [|destruct ok; discriminate].
    destruct ok; simpl; [|discriminate]. destruct (covered obs pred) eqn:C; [discriminate|].
    intros _. repeat split; try reflexivity; [apply unchanged_check_iff; exact E|].
    intro HI. apply covered_incl in HI. congruence.
  - intros [-> [HU [-> HN]]]. rewrite (proj2 (unchanged_check_iff _) HU). simpl.
    destruct (covered obs pred) eqn:C; [exfalso; apply HN, covered_incl, C | reflexivity].
Qed.
