(* C15 — what a verdict of the generated case files means. *)
From EsVerif.Common Require Import Base Bytes.
From EsVerif.C15 Require Import Model Spec Exec Verdict.
From Coq Require Import Uint63.

(* without the read-only and the alias part the verdict is v_dynamic *)
Lemma v_dynamic_is_spec b args : v_dynamic b args = verdict_spec false b [] [] args.
Proof. unfold verdict_spec, covered, v_dynamic. cbn [forallb negb]. rewrite andb_false_r. reflexivity. Qed.

Lemma v_dynamic_zero_sound b args : v_dynamic b args = 0 -> all_unchanged args.
Proof. rewrite v_dynamic_is_spec. intro H. apply verdict_spec_zero in H. apply H. Qed.

Lemma v_dynamic_changed b args : ~ all_unchanged args -> 2 <= v_dynamic b args.
Proof. rewrite v_dynamic_is_spec. intro H. apply verdict_spec_failing. right. exact H. Qed.

Definition dec63 (q : Z * list int * Z * list int) : snap :=
  match q with (n, d, m, t) => mk_snap63 n d m t end.

(* a malformed literal gives 7; otherwise the transport is decoded and the verified checker runs *)
Lemma v_dynamic63_cases b args :
  v_dynamic63 b args = v_dynamic b (map (fun p => (dec63 (fst p), dec63 (snd p))) args) \/ v_dynamic63 b args = 7.
Proof. unfold v_dynamic63. destruct (forallb _ args); [left | right]; reflexivity. Qed.

(* the generated static obligation, in the form in which it is evaluated: head 0 of frame_ret IS frame_ok = true,
   and the tail is the alias set of r in the final abstract map *)
Lemma frame_ret_ok sk ps r l :
  frame_ret sk ps r = 0 :: l ->
  frame_ok sk ps = true /\ exists a, analyze sk (init_amap ps) = Some a /\ l = map Zpos (lookup a r).
Proof.
  unfold frame_ret, frame_ok, analyze.
  destruct (analyze_r default_fuel sk (init_amap ps)) as [a|x s|]; intro H; try discriminate.
  inversion H. split; [reflexivity|]. exists a. split; reflexivity.
Qed.

(* the function the generated cases evaluate IS the specified verdict on the decoded snapshots, unless a literal is malformed
   (then 7: reported) *)
Lemma v_case_spec ro b rs obs args :
  v_case ro b rs obs args = verdict_spec ro b rs obs (map (fun p => (dec63 (fst p), dec63 (snd p))) args)
  \/ (ro = false /\ v_dynamic63 b args = 7).
Proof.
  unfold v_case, verdict_spec. destruct ro; [left; reflexivity|].
  unfold v_dynamic_alias. destruct (v_dynamic63_cases b args) as [E|E]; [left | right; split; [reflexivity | exact E]].
  rewrite E. reflexivity.
Qed.

(* verdict 0 of a full case: no refused write into a read-only argument, and every observed argument unchanged *)
Lemma v_case_zero_sound ro b rs obs args :
  v_case ro b rs obs args = 0 ->
  ro = false /\ all_unchanged (map (fun p => (dec63 (fst p), dec63 (snd p))) args).
Proof.
  intro H. destruct (v_case_spec ro b rs obs args) as [E|[-> E]].
  - rewrite E in H. apply verdict_spec_zero in H. tauto.
  - (* a malformed literal: the verdict is 7, or 7 with the bit added *)
    exfalso. unfold v_case, v_dynamic_alias in H. rewrite E in H. destruct (b && negb _); discriminate H.
Qed.
