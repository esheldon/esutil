(* C15 — the property theorems.  A corollary of a few lines is proved where it stands; every other proof is the lemma it names. *)
From Coq Require Import PArith ZArith List Bool.
From EsVerif.C15 Require Import Model Spec Proofs NoWrite Sequence Refine Complete Verdict FlowIns Exec ExecProofs.
From EsVerif.Common Require Import Bytes.
From Coq.Strings Require Import Byte.
Import ListNotations.

(* Soundness of the frame checker: if the verified analysis accepts a skeleton for the parameter
   list ps, then in EVERY execution of the skeleton (any branch choices, any number of loop
   iterations, any aliasing choice allowed by MayAlias, any values written, and also every
   execution cut short by an exception) started in a state in which the parameters have
   pairwise distinct existing buffers that no other name refers to, the buffer of every
   parameter has at the end exactly the contents it had at the start. *)
Theorem C15_frame_ok_sound : forall sk ps,
  frame_ok sk ps = true ->
  forall st st', params_bound ps st -> params_distinct ps st -> others_apart ps st ->
  exec sk st st' -> params_unchanged ps st st'.
Proof. intros sk ps Hok st st' HB _. exact (no_write_implies_unchanged sk ps Hok st st' HB). Qed.

(* The same without the distinctness premise (two parameters may be the same array). *)
Theorem C15_frame_ok_sound_general : forall sk ps,
  frame_ok sk ps = true ->
  forall st st', params_bound ps st -> others_apart ps st ->
  exec sk st st' -> params_unchanged ps st st'.
Proof. exact no_write_implies_unchanged. Qed.

(* A rejected skeleton is rejected for one of two reported reasons: a write through a name whose
   alias set is a NON-EMPTY set of parameters, or a loop that did not stabilise within the fuel. *)
Theorem C15_rejection_reasons : forall sk ps,
  frame_ok sk ps = false ->
  (exists x s, analyze_r default_fuel sk (init_amap ps) = ABad x s /\ s <> [])
  \/ analyze_r default_fuel sk (init_amap ps) = AFuel.
Proof. exact frame_ok_false_cases. Qed.

(* The checker applied to the observed snapshots of the dynamic run decides equality. *)
Theorem C15_unchanged_check_sound : forall l, unchanged_check l = true -> all_unchanged l.
Proof. intro l. apply unchanged_check_iff. Qed.

Theorem C15_unchanged_check_complete : forall l, all_unchanged l -> unchanged_check l = true.
Proof. intro l. apply unchanged_check_iff. Qed.

(* Exactness of the checker with respect to the skeleton semantics: a rejection for a write (the only
   reason besides fuel, by C15_rejection_reasons) is never an artefact of the abstract domain -- from EVERY
   start state in which the parameters are bound the rejected skeleton has an execution that changes a
   parameter's buffer. *)
Theorem C15_rejection_exact : forall sk ps x s,
  analyze_r default_fuel sk (init_amap ps) = ABad x s ->
  forall st, params_bound ps st ->
  exists st', exec sk st st' /\ ~ params_unchanged ps st st'.
Proof. intros sk ps x s E st HB. exact (frame_ok_complete sk ps x s E st (params_bound_env ps st HB)). Qed.

(* Decision form: unless the loop analysis ran out of fuel (reported apart, fail closed), frame_ok is true
   EXACTLY when no execution of the skeleton from the given admissible start state changes a parameter. *)
Theorem C15_frame_ok_decides : forall sk ps,
  analyze_r default_fuel sk (init_amap ps) <> AFuel ->
  forall st, params_bound ps st -> others_apart ps st ->
  (frame_ok sk ps = true <-> forall st', exec sk st st' -> params_unchanged ps st st').
Proof. exact frame_ok_decides. Qed.

(* What the verdict of a generated dynamic case means: verdict 0 (the only one that is not reported)
   implies that every observed argument snapshot is unchanged; a changed argument gives a verdict >= 2,
   whatever the static obligation said. *)
Theorem C15_verdict_zero_sound : forall static_ok args, v_dynamic static_ok args = 0%Z -> all_unchanged args.
Proof. intros static_ok args. apply v_dynamic_zero_sound. Qed.

Theorem C15_verdict_changed : forall static_ok args, ~ all_unchanged args -> (2 <= v_dynamic static_ok args)%Z.
Proof. exact v_dynamic_changed. Qed.

(* Soundness of the ALIAS part of the analysis (what the dynamic correspondence compares with np.shares_memory of
   the real return value): after a completed execution, a name that refers to the buffer of a parameter has a
   parameter with that buffer in its computed alias set. *)
Theorem C15_alias_sound : forall sk ps a',
  analyze sk (init_amap ps) = Some a' ->
  forall st st', params_bound ps st -> others_apart ps st ->
  exec_l sk st st' false ->
  forall x b, env st' x = Some b ->
  (exists p, In p ps /\ env st p = Some b) ->
  exists q, In q ps /\ env st q = Some b /\ In q (lookup a' x).
Proof.
  intros sk ps a' Han st st' HB HA Hex x b Hx HP.
  unfold analyze, analyze_r in Han.
  destruct (an_list default_fuel sk (init_amap ps)) as [a1| |] eqn:E; try discriminate. injection Han as ->.
  destruct (exec_annotate_l _ _ _ _ Hex) as [w Hw].
  destruct (an_safe ps (env st) _ sk _ a' E st st' false w (AliasInv_init_amap ps st HB HA) Hw) as [_ I].
  exact (proj2 (I eq_refl) x b Hx HP).
Qed.

(* Non-vacuity.
   def f(a, inplace):                      parameter a = 1
       v = a.view()                        v = 2
       if inplace: out = v  else: out = v.copy()       out = 3
       out.dtype = ...                     write through out
   specialised to inplace=False it is accepted, specialised to inplace=True it is rejected, and
   the rejected one really has an execution (from an admissible state) that changes a's buffer. *)
Definition ex_copy : skeleton := [SBind 2 (MayAlias [1]); SBind 3 Fresh; SWrite 3]%positive.
Definition ex_inplace : skeleton := [SBind 2 (MayAlias [1]); SBind 3 (MayAlias [2]); SWrite 3]%positive.
Definition ex_state : state :=
  mkState (fun x => if Pos.eqb x 1 then Some 0%nat else None) (fun _ => 7%nat) [0%nat].

(* the accepted skeleton has a logged execution whose log is exactly the fresh buffer it wrote *)
Lemma ex_copy_run : exists st', execw ex_copy ex_state st' [1%nat].
Proof.
  eexists. exists false. unfold ex_copy.
  change [1%nat] with ([] ++ [] ++ [1%nat] ++ @nil nat).
  eapply WCons. { eapply WBindAlias with (y := 1%positive) (b := 0%nat); [left; reflexivity | reflexivity]. }
  eapply WCons. { eapply WBindFresh with (b := 1%nat) (v := 0%nat). intros [H|[]]. discriminate H. }
  eapply WCons. { eapply WWrite with (b := 1%nat) (v := 9%nat). reflexivity. }
  apply WNil.
Qed.

Example C15_nonvacuous :
  frame_ok ex_copy [1%positive] = true
  /\ frame_ok ex_inplace [1%positive] = false
  /\ params_bound [1%positive] ex_state /\ params_distinct [1%positive] ex_state /\ others_apart [1%positive] ex_state
  /\ (exists st', exec ex_copy ex_state st')
  /\ (exists st', exec ex_inplace ex_state st' /\ ~ params_unchanged [1%positive] ex_state st').
Proof.
  split; [reflexivity|]. split; [reflexivity|].
  split. { intros p [<-|[]]. exists 0%nat. split; [reflexivity | left; reflexivity]. }
  split. { intros p q b [<-|[]] [<-|[]] _ _. reflexivity. }
  split. { intros x p b Hx [<-|[]] Hb. unfold ex_state in *. cbn [env] in *.
           rewrite Pos.eqb_refl in Hb. inversion Hb; subst b.
           destruct (Pos.eqb x 1) eqn:E; [|intro H0; discriminate H0].
           apply Pos.eqb_eq in E. subst x. exfalso. apply Hx. left; reflexivity. }
  split.
  { destruct ex_copy_run as [st' H]. exists st'. apply execw_exec. exists [1%nat]. exact H. }
  { eexists. split.
    - exists false. unfold ex_inplace.
      eapply XCons. { eapply XBindAlias with (y := 1%positive) (b := 0%nat); [left; reflexivity | reflexivity]. }
      eapply XCons. { eapply XBindAlias with (y := 2%positive) (b := 0%nat); [left; reflexivity | reflexivity]. }
      eapply XCons. { eapply XWrite with (b := 0%nat) (v := 9%nat). reflexivity. }
      apply XNil.
    - intro H. specialize (H 1%positive 0%nat (or_introl eq_refl) eq_refl). simpl in H. discriminate. }
Qed.


(* NO WRITE ATTEMPT.  Instrumented semantics (NoWrite.execw): every execution carries the log of the buffers it wrote to.  An
   accepted skeleton never performs a write that TARGETS a parameter's buffer -- not one that stores the value already there, not
   one that a later write undoes (two byte swaps that cancel).  Stronger than "unchanged at the end"; it is what the read-only
   form of the dynamic run observes (numpy refuses such a write). *)
Theorem C15_no_write_attempt : forall sk ps,
  frame_ok sk ps = true ->
  forall st st' w, params_bound ps st -> others_apart ps st ->
  execw sk st st' w ->
  forall p b, In p ps -> env st p = Some b -> ~ In b w.
Proof. exact frame_ok_no_write_attempt. Qed.

(* the log is an annotation of the plain semantics (same executions) ... *)
Theorem C15_write_log_total : forall sk st st', (exists w, execw sk st st' w) <-> exec sk st st'.
Proof. exact execw_exec. Qed.

(* ... and it is faithful: an existing buffer outside the log keeps its contents, existing buffers stay allocated *)
Theorem C15_write_log_faithful : forall l st st' h w, execw_l l st st' h w -> keeps st st' w.
Proof. exact execw_keeps_l. Qed.

(* CALL SEQUENCES (what a `<driver>#seq` obligation proves).  If the concatenation of two call skeletons is accepted for the
   union of their parameter sets, then after the first call has completed -- leaving ANY state: module-level containers, object
   fields, references it kept -- the second call (possibly cut short) leaves the arguments of BOTH calls unchanged ... *)
Theorem C15_sequence_sound : forall sk1 sk2 ps1 ps2,
  frame_ok (sk1 ++ sk2) (ps1 ++ ps2) = true ->
  forall st st1 st2, params_bound (ps1 ++ ps2) st -> others_apart (ps1 ++ ps2) st ->
  exec_l sk1 st st1 false -> exec sk2 st1 st2 ->
  params_unchanged ps1 st st1 /\ params_unchanged (ps1 ++ ps2) st st2.
Proof.
  intros sk1 sk2 ps1 ps2 Hok st st1 st2 HB HA H1 [h H2]. split.
  - intros p b Hp Hb.
    apply (no_write_implies_unchanged sk1 _ (frame_ok_prefix _ _ _ Hok) st st1 HB HA (ex_intro _ false H1) p b);
      [apply in_or_app; left; exact Hp | exact Hb].
  - apply (no_write_implies_unchanged _ _ Hok st st2 HB HA). exists h. eapply exec_l_app; eassumption.
Qed.

(* ... and neither call ever attempts a write into any of them *)
Theorem C15_sequence_no_write_attempt : forall sk1 sk2 ps1 ps2,
  frame_ok (sk1 ++ sk2) (ps1 ++ ps2) = true ->
  forall st st1 st2 w1 w2, params_bound (ps1 ++ ps2) st -> others_apart (ps1 ++ ps2) st ->
  execw_l sk1 st st1 false w1 -> execw sk2 st1 st2 w2 ->
  forall p b, In p (ps1 ++ ps2) -> env st p = Some b -> ~ In b w1 /\ ~ In b w2.
Proof.
  intros sk1 sk2 ps1 ps2 Hok st st1 st2 w1 w2 HB HA H1 [h H2] p b Hp Hb.
  assert (N : ~ In b (w1 ++ w2)).
  { eapply frame_ok_no_write_attempt; try eassumption. exists h. eapply execw_l_app; eassumption. }
  split; intro Hi; apply N; apply in_or_app; [left | right]; exact Hi.
Qed.

(* the obligation of a sequence contains the obligation of its first call *)
Theorem C15_frame_ok_prefix : forall sk1 sk2 ps, frame_ok (sk1 ++ sk2) ps = true -> frame_ok sk1 ps = true.
Proof. exact frame_ok_prefix. Qed.

(* HISTORY IS IRRELEVANT for the verdict on one call: whatever ran before (ANY skeleton, accepted or not), if in the state it
   left the call's own arguments are bound and no other name refers to their buffers, the accepted call leaves them alone *)
Theorem C15_history_irrelevant : forall sk0 sk ps,
  frame_ok sk ps = true ->
  forall st0 st st', exec sk0 st0 st ->
  params_bound ps st -> others_apart ps st ->
  exec sk st st' -> params_unchanged ps st st'.
Proof. intros sk0 sk ps Hok st0 st st' _. exact (no_write_implies_unchanged sk ps Hok st st'). Qed.

(* OVER-APPROXIMATION.  [refines l' l]: l' is more specific than l (an `if` resolved to a branch, a loop unrolled or not entered,
   a may-alias set narrowed or replaced by "fresh").  Every execution of the more specific skeleton is an execution of the less
   specific one ... *)
Theorem C15_simulation : forall l' l, refines l' l -> forall st st' h, exec_l l' st st' h -> exec_l l st st' h.
Proof. exact simulation. Qed.

(* ... so an obligation discharged for the extracted skeleton holds for everything it over-approximates: the trust placed in the
   extractor is exactly "the real call's effect skeleton refines the extracted one" *)
Theorem C15_refinement_sound : forall sk' sk ps,
  refines sk' sk -> frame_ok sk ps = true ->
  forall st st', params_bound ps st -> others_apart ps st ->
  exec sk' st st' -> params_unchanged ps st st'.
Proof.
  intros sk' sk ps R Hok st st' HB HA [h Hex]. apply (no_write_implies_unchanged sk ps Hok st st' HB HA).
  exists h. exact (simulation sk' sk R st st' h Hex).
Qed.

(* the checker itself is monotone under refinement (up to fuel): soundness + simulation + exactness *)
Theorem C15_frame_ok_monotone : forall sk' sk ps,
  refines sk' sk -> frame_ok sk ps = true ->
  analyze_r default_fuel sk' (init_amap ps) <> AFuel ->
  frame_ok sk' ps = true.
Proof. exact frame_ok_monotone. Qed.

(* THE VERDICT, EXACTLY (Verdict.verdict_spec is what the generated cases evaluate, on decoded snapshots; ExecProofs.v_case_spec).
   0 <-> no refused write into a read-only argument, every observed argument unchanged, and (when the model predicts) the real
   return value shares memory only with predicted parameters;  >= 2 <-> a refused write or a changed argument;  1 <-> nothing
   modified but sharing outside the prediction *)
Theorem C15_verdict_zero_exact : forall ro ok pred obs args,
  verdict_spec ro ok pred obs args = 0%Z <-> ro = false /\ all_unchanged args /\ (ok = true -> incl obs pred).
Proof. exact verdict_spec_zero. Qed.

Theorem C15_verdict_failing_exact : forall ro ok pred obs args,
  (2 <= verdict_spec ro ok pred obs args)%Z <-> ro = true \/ ~ all_unchanged args.
Proof. exact verdict_spec_failing. Qed.

Theorem C15_verdict_one_exact : forall ro ok pred obs args,
  verdict_spec ro ok pred obs args = 1%Z <-> ro = false /\ all_unchanged args /\ ok = true /\ ~ incl obs pred.
Proof. exact verdict_spec_one. Qed.

(* logs are not empty by construction, and the parameter's buffer 0 is not in this one *)
Example C15_log_nonvacuous :
  exists st', execw ex_copy ex_state st' [1%nat] /\ ~ In 0%nat [1%nat].
Proof.
  destruct ex_copy_run as [st' H]. exists st'. split; [exact H|]. intros [E|[]]. discriminate E.
Qed.

(* a sequence obligation is strictly stronger than the two single-call obligations: the first call stores its argument in a
   module-level name (10), the second writes through that name.  Each call alone is accepted; the sequence is rejected; and a
   sequence in which the second call only writes fresh memory is accepted. *)
Definition seq_keep : skeleton := [SBind 10 (MayAlias [1])]%positive.          (* g := a *)
Definition seq_bad2 : skeleton := [SBind 11 (MayAlias [2]); SWrite 10]%positive.    (* v := b ; write through g *)
Definition seq_good2 : skeleton := [SBind 11 (MayAlias [2]); SBind 12 Fresh; SWrite 12]%positive.
Example C15_sequence_nonvacuous :
  frame_ok seq_keep [1%positive] = true /\ frame_ok seq_bad2 [2%positive] = true
  /\ frame_ok (seq_keep ++ seq_bad2) [1%positive; 2%positive] = false
  /\ frame_ok (seq_keep ++ seq_good2) ([1%positive] ++ [2%positive]) = true.
Proof. repeat split; reflexivity. Qed.

(* refinement: the extracted skeleton keeps both branches of an option and a loop; the specific one took the second branch and ran
   the loop once.  The general one is accepted, the specific one refines it. *)
Definition gen_sk : skeleton :=
  [SBind 2 (MayAlias [1; 5]); SIf [SBind 3 Fresh] [SBind 3 Fresh; SWrite 3]; SLoop [SWrite 3]]%positive.
Definition spec_sk : skeleton := [SBind 2 (MayAlias [1]); SBind 3 Fresh; SWrite 3; SWrite 3]%positive.
Example C15_refinement_nonvacuous : frame_ok gen_sk [1%positive] = true /\ refines spec_sk gen_sk.
Proof.
  split; [reflexivity|]. unfold spec_sk, gen_sk.
  apply RCons. { apply RBindSub. intros y [<-|[]]. left; reflexivity. }
  change [SBind 3%positive Fresh; SWrite 3%positive; SWrite 3%positive]
    with ([SBind 3%positive Fresh; SWrite 3%positive] ++ [SWrite 3%positive]).
  apply RIfR. { apply refines_refl. }
  change [SWrite 3%positive] with ([SWrite 3%positive] ++ []).
  apply RLoopUnroll. { apply refines_refl. }
  apply RLoopSkip. apply RNil.
Qed.

(* the verdict table on concrete snapshots *)
Example C15_verdict_nonvacuous :
  let a := ([x01; x02], [x61]) in let b := ([x01; x03], [x61]) in
  verdict_spec false true [1%Z] [1%Z] [(a, a)] = 0%Z /\ verdict_spec false true [] [1%Z] [(a, a)] = 1%Z
  /\ verdict_spec false false [] [] [(a, b)] = 2%Z /\ verdict_spec false true [] [] [(a, b)] = 3%Z
  /\ verdict_spec true true [] [] [(a, a)] = 3%Z.
Proof. vm_compute. repeat split; reflexivity. Qed.

(* A flow-insensitive may-alias CERTIFICATE: E (name -> set of parameters) contains every parameter in its own set and is
   closed under every `x := MayAlias ys` statement anywhere in the skeleton (fi_ok, a boolean check evaluated on every run for every
   extracted skeleton).  Then in EVERY state reached by ANY execution -- also one cut short -- a name that refers to the buffer of a
   parameter has a parameter with that buffer in E x.  E is what the alias trace of the real calls (sys.settrace) is compared with. *)
Theorem C15_flow_insensitive_alias_sound : forall sk ps E,
  fi_ok sk ps E = true ->
  forall st st', params_bound ps st -> others_apart ps st ->
  exec sk st st' ->
  forall x b, env st' x = Some b ->
  (exists p, In p ps /\ env st p = Some b) ->
  exists q, In q ps /\ env st q = Some b /\ In q (lookup E x).
Proof.
  intros sk ps E Hok st st' HB HA [h Hex] x b Hx HP.
  destruct (fi_ok_closed sk ps E Hok) as [Hself HC].
  pose proof (AliasInv_init ps E st Hself HB HA) as HI.
  apply (closed_preserved ps (env st) E sk st st' h Hex HC) in HI.
  exact (proj2 HI x b Hx HP).
Qed.

Example C15_flow_insensitive_nonvacuous :
  fi_ok [SBind 2 (MayAlias [1]); SIf [SBind 3 (MayAlias [2])] [SBind 3 Fresh]; SBind 4 (MayAlias [3])]%positive [1%positive]
        [(1, [1]); (2, [1]); (3, [1]); (4, [1])]%positive = true
  /\ fi_ok [SBind 2 (MayAlias [1])]%positive [1%positive] [(1, [1])]%positive = false.
Proof. exact fi_ok_example. Qed.
