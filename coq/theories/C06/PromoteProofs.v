(* C06 — mixed signedness at 64 bits: outside the known class the promoted search is the exact
   search, so the full statement holds. *)
From Coq Require Import Sorting.Permutation Sorting.Sorted Arith.
From EsVerif.Common Require Import Base.
From EsVerif.C06 Require Import Model Spec Lemmas MatchProofs.
Local Open Scope nat_scope.

Section Ext.
  Variable A : Type.
  Variable sltb ltb eqb : A -> A -> bool.

  Lemma match_with2_same str p st a1 a2 :
    match_with2 ltb ltb eqb str p st a1 a2 = match_with ltb eqb str p st a1 a2.
  Proof. reflexivity. Qed.

  Lemma count_lt_ext (view a2 : list A) :
    (forall x v, In x view -> In v a2 -> sltb x v = ltb x v) ->
    map (count_lt sltb view) a2 = map (count_lt ltb view) a2.
  Proof.
    intro H. apply map_ext_in. intros v Hv. unfold count_lt. f_equal.
    apply filter_ext_in. intros x Hx. apply H; assumption.
  Qed.

  (* when the search order agrees with the dtype's order on (element of a1, element of a2) the
     promoted search changes nothing *)
  Lemma match_with2_ext str p st a1 a2 :
    (forall x v, In x a1 -> In v a2 -> sltb x v = ltb x v) ->
    match_with2 sltb ltb eqb str p st a1 a2 = match_with ltb eqb str p st a1 a2.
  Proof.
    intro H. unfold match_with2, match_with.
    destruct a1 as [|d1 t1]; [reflexivity|]. destruct a2 as [|d2 t2]; [reflexivity|].
    destruct (negb (nodupb eqb (d1 :: t1))); [reflexivity|].
    destruct p.
    - cbn [bind]. rewrite (count_lt_ext (d1 :: t1) (d2 :: t2) H). reflexivity.
    - destruct (ogather (d1 :: t1) st) as [view|e] eqn:G; [|reflexivity]. cbn [bind].
      rewrite (count_lt_ext view (d2 :: t2)); [reflexivity|].
      intros x v Hx Hv. apply H; [|exact Hv]. unfold ogather in G.
      destruct (gather (d1 :: t1) st) as [w|] eqn:G'; [|discriminate]. inversion G; subst w.
      eapply gather_In; eauto.
  Qed.
End Ext.

Lemma rltb_exact x v : round53 x = x -> round53 v = v -> rltb x v = zltb x v.
Proof. intros Ex Ev. unfold rltb, zltb. rewrite Ex, Ev. reflexivity. Qed.

(* the full statement for every integer pair outside the known class - in particular for
   mixed-signedness pairs whose elements are all exactly representable in binary64 (|x| <= 2^53,
   and beyond that the multiples of the spacing) *)
Lemma match_z_outside_known mixed str p a1 a2 :
  kf_mixed_sign_above_2p53 mixed a1 a2 = false ->
  NoDup a1 -> a1 <> [] -> a2 <> [] -> (p = true -> sorted zltb a1) ->
  (exists o, match_z mixed str p a1 a2 = Ok o /\ match_ok a1 a2 o)
  /\ (exists o, match_multi_z mixed str p a1 a2 = Ok o /\ match_ok a1 a2 o).
Proof.
  intros K ND N1 N2 S.
  assert (E : forall q, match_z mixed str q a1 a2 = match_ zltb zeqb str q a1 a2).
  { intro q. unfold match_z. destruct mixed; [|reflexivity]. unfold match_.
    apply match_with2_ext. intros x v Hx Hv. cbn [kf_mixed_sign_above_2p53 andb] in K.
    assert (R : forall y, In y (a1 ++ a2) -> round53 y = y).
    { intros y Hy. destruct (Z.eqb_spec (round53 y) y) as [Ey|Ey]; [exact Ey|]. exfalso.
      assert (X : existsb (fun x => negb (round53 x =? x)%Z) (a1 ++ a2) = true).
      { apply existsb_exists. exists y. split; [exact Hy|]. destruct (Z.eqb_spec (round53 y) y); [contradiction|reflexivity]. }
      rewrite X in K. discriminate. }
    apply rltb_exact; apply R; apply in_or_app; [left|right]; assumption. }
  split.
  - rewrite E. destruct p.
    + rewrite (match_presorted_same Z zltb zeqb z_total_order str a1 a2 (S eq_refl)).
      apply (match_correct Z zltb zeqb z_total_order); assumption.
    + apply (match_correct Z zltb zeqb z_total_order); assumption.
  - unfold match_multi_z. rewrite E. apply (match_correct Z zltb zeqb z_total_order); assumption.
Qed.
