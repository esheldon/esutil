(* C06 — MatchProofs.match_with2_lands at the search order "compare the binary64 roundings"
   (safe because rounding is monotone): a probe is lost iff a smaller element of the first array
   rounds to the same double. *)
From Coq Require Import Sorting.Permutation Sorting.Sorted Arith.
From EsVerif.Common Require Import Base.
From EsVerif.C06 Require Import Model Spec Lemmas MatchProofs RoundProofs.
Local Open Scope nat_scope.

Section Char.
  Variable A : Type.
  Variable sltb ltb : A -> A -> bool.

  (* the promoted search lands where the exact search does *)
  Definition hit (view : list A) (x : A) : bool := count_lt sltb view x =? count_lt ltb view x.
End Char.

Lemma rltb_safe m v : zltb m v = false -> rltb m v = false.
Proof.
  unfold zltb, rltb. intro H. apply Z.ltb_ge in H. apply Z.ltb_ge. apply round53_mono. exact H.
Qed.

(* a probe that occurs in the first array is LOST: a smaller element rounds to the same double *)
Definition collides_below (a1 : list Z) (v : Z) : bool :=
  existsb (fun y => (y <? v)%Z && (round53 y =? round53 v)%Z) a1.
Definition lost_b (a1 a2 : list Z) : bool := existsb (fun v => memb zeqb v a1 && collides_below a1 v) a2.

Lemma lands_iff_collides view a1 x : Permutation view a1 ->
  (count_lt rltb view x = count_lt zltb view x <-> collides_below a1 x = false).
Proof.
  intro P. split.
  - intro E. destruct (collides_below a1 x) eqn:C; [|reflexivity]. exfalso.
    apply existsb_exists in C as [y [Hy Hc]]. apply andb_true_iff in Hc as [H1 H2].
    apply Z.ltb_lt in H1. apply Z.eqb_eq in H2.
    assert (Hv : In y view) by (apply (Permutation_in _ (Permutation_sym P)); exact Hy).
    pose proof (filter_len_eq_pointwise (fun z => rltb z x) (fun z => zltb z x) view) as Pw.
    assert (S : forall z, In z view -> rltb z x = true -> zltb z x = true).
    { intros z _ Hz. destruct (zltb z x) eqn:Ez; [reflexivity|]. rewrite (rltb_safe z x Ez) in Hz. discriminate. }
    specialize (Pw S E y Hv). unfold rltb, zltb in Pw. rewrite H2, Z.ltb_irrefl in Pw.
    symmetry in Pw. apply Z.ltb_ge in Pw. lia.
  - intro C. unfold count_lt. f_equal. apply filter_ext_in. intros y Hy.
    assert (Ha : In y a1) by (apply (Permutation_in _ P); exact Hy).
    unfold rltb, zltb. destruct (Z.ltb_spec y x) as [L|G].
    + apply Z.ltb_lt. pose proof (round53_mono y x ltac:(lia)).
      destruct (Z.eq_dec (round53 y) (round53 x)) as [E|N]; [|lia]. exfalso.
      assert (X : collides_below a1 x = true).
      { apply existsb_exists. exists y. split; [exact Ha|]. apply andb_true_iff. split; [apply Z.ltb_lt; exact L | apply Z.eqb_eq; exact E]. }
      congruence.
    + apply Z.ltb_ge. apply round53_mono. exact G.
Qed.

(* the exact behaviour of match / match_multi on a mixed-signedness pair: always an answer, never an
   unequal pair, ascending; the full statement holds IF AND ONLY IF no probe is lost *)
Lemma match_z_mixed_exact str a1 a2 :
  NoDup a1 -> a1 <> [] -> a2 <> [] ->
  exists o, match_z true str false a1 a2 = Ok o /\ match_multi_z true str true a1 a2 = Ok o
    /\ Forall2 (fun i j => exists x, nth_error a1 i = Some x /\ nth_error a2 j = Some x) (fst o) (snd o)
    /\ StronglySorted lt (snd o)
    /\ (forall j x, nth_error a2 j = Some x -> In x a1 -> (In j (snd o) <-> collides_below a1 x = false))
    /\ (match_ok a1 a2 o <-> lost_b a1 a2 = false).
Proof.
  intros ND N1 N2.
  destruct (match_with2_lands Z rltb zltb zeqb z_total_order rltb_safe str (argsort zltb a1) a1 a2 ND N1 N2
              (argsort_sorting_perm Z zltb zeqb z_total_order a1)) as (o & view & Gv & E & F & S & C).
  assert (P : Permutation view a1).
  { eapply gather_perm; [|exact Gv]. apply (argsort_sorting_perm Z zltb zeqb z_total_order a1). }
  exists o. split; [exact E|]. split; [exact E|]. split; [exact F|]. split; [exact S|].
  assert (C' : forall j x, nth_error a2 j = Some x -> In x a1 -> (In j (snd o) <-> collides_below a1 x = false)).
  { intros j x Hj Hx. rewrite (C j x Hj Hx). apply lands_iff_collides. exact P. }
  split; [exact C'|]. split.
  - intros [_ [_ Cm]]. destruct (lost_b a1 a2) eqn:L; [|reflexivity]. exfalso.
    apply existsb_exists in L as [v [Hv Hl]]. apply andb_true_iff in Hl as [H1 H2].
    apply (memb_In Z zltb zeqb z_total_order) in H1. apply In_nth_error in Hv as [j Hj].
    pose proof (Cm j v Hj H1) as Hin. apply (C' j v Hj H1) in Hin. congruence.
  - intro L. split; [exact F|]. split; [exact S|]. intros j x Hj Hx. apply (C' j x Hj Hx).
    destruct (collides_below a1 x) eqn:Cb; [|reflexivity]. exfalso.
    assert (X : lost_b a1 a2 = true).
    { apply existsb_exists. exists x. split; [eapply nth_error_In; exact Hj|].
      rewrite (proj2 (memb_In Z zltb zeqb z_total_order x a1) Hx), Cb. reflexivity. }
    congruence.
Qed.
