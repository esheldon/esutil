(* C06 — the property theorems.  The longer proofs live in the other files of the package.
   All statements are generic over the element type: any [ltb]/[eqb] forming a decidable strict
   total order (C06_element_orders gives the two instances the checks run at). *)
From Coq Require Import Sorting.Permutation Sorting.Sorted.
From EsVerif.Common Require Import Base.
From EsVerif.C06 Require Import Model Spec Lemmas MatchProofs DedupProofs Forms Skel Gen Tie PromoteProofs RoundProofs PromoteChar DedupMore History.
Local Open Scope nat_scope.

(* integers (and order-embedded floats) and code-point strings are total orders *)
Theorem C06_element_orders : total_order zltb zeqb /\ total_order lex_ltb lex_eqb.
Proof. exact (conj z_total_order lex_total_order). Qed.

(* match: for a first array of distinct values and non-empty arrays the call succeeds and the
   returned index pairs have equal elements, contain every element of the second array whose
   value occurs in the first, ascending by position in the second array. *)
Theorem C06_match : forall A (ltb eqb : A -> A -> bool), total_order ltb eqb ->
  forall is_string a1 a2, NoDup a1 -> a1 <> [] -> a2 <> [] ->
  exists o, match_ ltb eqb is_string false a1 a2 = Ok o /\ match_ok a1 a2 o.
Proof. exact match_correct. Qed.

(* the same for ANY sorting permutation numpy's argsort may return *)
Theorem C06_match_any_argsort : forall A (ltb eqb : A -> A -> bool), total_order ltb eqb ->
  forall is_string s a1 a2, NoDup a1 -> a1 <> [] -> a2 <> [] -> sorting_perm ltb s a1 ->
  exists o, match_with ltb eqb is_string false s a1 a2 = Ok o /\ match_ok a1 a2 o.
Proof. exact match_with_correct. Qed.

(* reading of match_ok: exactly the positions of the second array whose value occurs in the
   first are reported, each exactly once (and hence no other element appears) *)
Theorem C06_match_exactly_once : forall A (a1 a2 : list A) o, match_ok a1 a2 o ->
  NoDup (snd o) /\ length (fst o) = length (snd o)
  /\ forall j, In j (snd o) <-> exists x, nth_error a2 j = Some x /\ In x a1.
Proof.
  intros A a1 a2 o H. split; [|split].
  - destruct H as [_ [S _]]. exact (ssorted_NoDup lt _ Nat.lt_irrefl S).
  - destruct H as [F _]. eapply Forall2_len; exact F.
  - apply match_ok_members. exact H.
Qed.

(* the specification determines both index arrays *)
Theorem C06_match_ok_unique : forall A (a1 a2 : list A) o o',
  NoDup a1 -> match_ok a1 a2 o -> match_ok a1 a2 o' -> o = o'.
Proof. exact match_ok_unique. Qed.

(* declaring a sorted first array as presorted gives the same result *)
Theorem C06_match_presorted : forall A (ltb eqb : A -> A -> bool), total_order ltb eqb ->
  forall is_string a1 a2, a1 <> [] -> a2 <> [] -> sorted ltb a1 ->
  match_ ltb eqb is_string true a1 a2 = match_ ltb eqb is_string false a1 a2.
Proof. intros A ltb eqb TO str a1 a2 _ _. exact (match_presorted_same A ltb eqb TO str a1 a2). Qed.

(* a first array with repeated values is rejected (ValueError), presorted or not *)
Theorem C06_match_rejects_dups : forall A (ltb eqb : A -> A -> bool), total_order ltb eqb ->
  forall is_string presorted a1 a2, ~ NoDup a1 -> a2 <> [] ->
  match_ ltb eqb is_string presorted a1 a2 = Err EValue.
Proof. exact match_rejects_dups. Qed.

(* match_multi is match with presorted=False whatever it is told *)
Theorem C06_match_multi : forall A (ltb eqb : A -> A -> bool), total_order ltb eqb ->
  forall is_string presorted a1 a2, NoDup a1 -> a1 <> [] -> a2 <> [] ->
  exists o, match_multi ltb eqb is_string presorted a1 a2 = Ok o /\ match_ok a1 a2 o.
Proof. exact @match_multi_correct. Qed.

(* scalars (np.atleast_1d makes them one-element arrays) are accepted on either side *)
Theorem C06_match_scalars : forall A (ltb eqb : A -> A -> bool), total_order ltb eqb ->
  forall is_string presorted x a2, a2 <> [] ->
  exists o, match_ ltb eqb is_string presorted [x] a2 = Ok o /\ match_ok [x] a2 o.
Proof.
  intros A ltb eqb TO s p x a2 N2.
  assert (ND : NoDup [x]) by (constructor; [intros []|constructor]).
  assert (E : match_ ltb eqb s p [x] a2 = match_ ltb eqb s false [x] a2).
  { destruct p; [|reflexivity]. apply (match_presorted_same A ltb eqb TO). repeat constructor. }
  rewrite E. apply (match_correct A ltb eqb TO); auto. discriminate.
Qed.

(* unique (repaired, fixes/C06): exactly one index per distinct value, for every sorting
   permutation numpy's argsort may return; values=True returns the distinct values *)
Theorem C06_unique : forall A (ltb eqb : A -> A -> bool), total_order ltb eqb ->
  forall s a, a <> [] -> sorting_perm ltb s a ->
  exists keep, unique_with eqb s a = Ok keep /\ one_per_value a keep.
Proof. exact unique_with_correct. Qed.

Theorem C06_unique_values : forall A (ltb eqb : A -> A -> bool), total_order ltb eqb ->
  forall s a, a <> [] -> sorting_perm ltb s a ->
  exists vals, unique_values_with eqb s a = Ok vals /\ values_ok a vals.
Proof. exact unique_values_with_correct. Qed.

(* the code as found (val = arr[0]; keep[0] = 0) does not have the property *)
Theorem C06_unique_as_found_refuted :
  exists s a keep, a <> [] /\ sorting_perm zltb s a
                   /\ unique_orig_with zeqb s a = Ok keep /\ ~ one_per_value a keep.
Proof. exact unique_as_found_refuted. Qed.

(* rem_dup: one index per distinct value, carrying the largest flag found with that value *)
Theorem C06_rem_dup : forall A (ltb eqb : A -> A -> bool), total_order ltb eqb ->
  forall s a flag, a <> [] -> length flag = length a -> sorting_perm ltb s a ->
  exists keep, rem_dup_with eqb s a flag = Ok keep /\ rem_dup_ok a flag keep.
Proof. exact rem_dup_with_correct. Qed.

Theorem C06_rem_dup_values : forall A (ltb eqb : A -> A -> bool), total_order ltb eqb ->
  forall s a flag, a <> [] -> length flag = length a -> sorting_perm ltb s a ->
  exists keep vals, rem_dup_values_with eqb s a flag = Ok (keep, vals)
                    /\ rem_dup_ok a flag keep /\ gather a keep = Some vals /\ values_ok a vals.
Proof. exact rem_dup_values_with_correct. Qed.

(* the argsort oracle: the run-time contract monitor is sound, and the contract is
   satisfiable for every array (the model's own argsort meets it) *)
Theorem C06_argsort_contract : forall A (ltb eqb : A -> A -> bool), total_order ltb eqb ->
  (forall s a, sorting_perm_check ltb s a = true -> sorting_perm ltb s a)
  /\ (forall a, sorting_perm ltb (argsort ltb a) a).
Proof. intros A ltb eqb TO. split; [exact (sorting_perm_check_sound A ltb eqb TO) | exact (argsort_sorting_perm A ltb eqb TO)]. Qed.

(* checker soundness: what the correspondence run evaluates on the implementation's outputs *)
Theorem C06_checkers_sound : forall A (ltb eqb : A -> A -> bool), total_order ltb eqb ->
  (forall a1 a2 o, match_check eqb a1 a2 o = true -> match_ok a1 a2 o)
  /\ (forall a keep, one_per_value_check eqb a keep = true -> one_per_value a keep)
  /\ (forall a vals, values_check eqb a vals = true -> values_ok a vals)
  /\ (forall a flag keep, rem_dup_check eqb a flag keep = true -> rem_dup_ok a flag keep).
Proof.
  intros A ltb eqb TO. split; [intros a1 a2 o; apply (match_check_iff A ltb eqb TO)|].
  split; [intros a keep; apply (one_per_value_check_iff A ltb eqb TO)|].
  split; [intros a vals; apply (values_check_iff A ltb eqb TO)|].
  intros a flag keep H. apply (rem_dup_check_iff A ltb eqb TO) in H. apply H.
Qed.

Theorem C06_checkers_complete : forall A (ltb eqb : A -> A -> bool), total_order ltb eqb ->
  (forall a1 a2 o, match_ok a1 a2 o -> match_check eqb a1 a2 o = true)
  /\ (forall a keep, one_per_value a keep -> one_per_value_check eqb a keep = true)
  /\ (forall a vals, values_ok a vals -> values_check eqb a vals = true)
  /\ (forall a flag keep, length a = length flag -> rem_dup_ok a flag keep -> rem_dup_check eqb a flag keep = true).
Proof.
  intros A ltb eqb TO. split; [intros a1 a2 o; apply (match_check_iff A ltb eqb TO)|].
  split; [intros a keep; apply (one_per_value_check_iff A ltb eqb TO)|].
  split; [intros a vals; apply (values_check_iff A ltb eqb TO)|].
  intros a flag keep L H. apply (rem_dup_check_iff A ltb eqb TO). split; assumption.
Qed.

(* Non-vacuity: concrete instances meet the hypotheses and the conclusions compute. *)
Example C06_nonvacuous :
  (NoDup [3; 1; 2]%Z /\ match_ zltb zeqb false false [3; 1; 2]%Z [2; 2; 7; -1; 3]%Z = Ok ([2; 2; 0], [0; 1; 4]))
  /\ match_ lex_ltb lex_eqb true false [[98]; [97; 98]; [97]]%Z [[97]; [122]; [98]; [98]]%Z = Ok ([2; 0; 0], [0; 2; 3])
  /\ match_ zltb zeqb false true [1; 2; 3]%Z [2; 2; 7; -1; 3]%Z = Ok ([1; 1; 2], [0; 1; 4])
  /\ match_ zltb zeqb false false [3; 1; 3]%Z [2]%Z = Err EValue
  /\ (sorting_perm zltb [1; 0; 2] [5; 1; 5]%Z /\ unique_with zeqb [1; 0; 2] [5; 1; 5]%Z = Ok [1; 0])
  /\ rem_dup_with zeqb [1; 0; 2; 3] [5; 1; 5; 5]%Z [3; 2; 7; 1]%Z = Ok [1; 2].
Proof.
  split; [split; [|reflexivity]|].
  - apply (nodupb_NoDup Z zltb zeqb z_total_order). reflexivity.
  - split; [reflexivity|]. split; [reflexivity|]. split; [reflexivity|]. split; [|reflexivity].
    split; [|reflexivity].
    apply (sorting_perm_check_sound _ zltb zeqb z_total_order). reflexivity.
Qed.

(* byte strings and unicode strings in one pair of arrays (tagged strings) form a total order too *)
Theorem C06_element_orders_tagged : total_order tag_ltb tag_eqb.
Proof. exact tag_total_order. Qed.

(* an empty second array is rejected (ValueError); an empty first array fails earlier, at
   `el = arr1[0]` (IndexError) - the code that exists; empty arrays are outside the quantifier *)
Theorem C06_match_empty : forall A (ltb eqb : A -> A -> bool) (str p : bool) (a1 a2 : list A),
  (a1 <> [] -> match_ ltb eqb str p a1 [] = Err EValue /\ match_multi ltb eqb str p a1 [] = Err EValue)
  /\ match_ ltb eqb str p [] a2 = Err EIndex /\ match_multi ltb eqb str p [] a2 = Err EIndex.
Proof.
  intros A ltb eqb str p a1 a2. split; [|split; reflexivity].
  intro N. destruct a1 as [|d t]; [congruence|]. split; reflexivity.
Qed.

(* a scalar second argument: exactly its position in the first array, or nothing *)
Theorem C06_match_scalar_second : forall A (ltb eqb : A -> A -> bool), total_order ltb eqb ->
  forall (str p : bool) (a1 : list A) (y : A), NoDup a1 -> a1 <> [] -> (p = true -> sorted ltb a1) ->
  (forall i, nth_error a1 i = Some y -> match_ ltb eqb str p a1 [y] = Ok ([i], [0]))
  /\ (~ In y a1 -> match_ ltb eqb str p a1 [y] = Ok ([], [])).
Proof. exact match_scalar_second. Qed.

(* nothing in common: nothing reported; in particular bytes against unicode, either way round *)
Theorem C06_match_nothing_in_common : forall A (ltb eqb : A -> A -> bool), total_order ltb eqb ->
  forall (str p : bool) (a1 a2 : list A), NoDup a1 -> a1 <> [] -> a2 <> [] -> (p = true -> sorted ltb a1) ->
  (forall x, In x a1 -> In x a2 -> False) -> match_ ltb eqb str p a1 a2 = Ok ([], []).
Proof. exact match_nothing_in_common. Qed.

Theorem C06_match_bytes_vs_unicode : forall str p (a1 a2 : list tstr) u,
  NoDup a1 -> a1 <> [] -> a2 <> [] -> (p = true -> sorted tag_ltb a1) ->
  (forall x, In x a1 -> fst x = u) -> (forall y, In y a2 -> fst y = negb u) ->
  match_ tag_ltb tag_eqb str p a1 a2 = Ok ([], []).
Proof.
  intros str p a1 a2 u ND N1 N2 S H1 H2. apply (match_nothing_in_common _ tag_ltb tag_eqb tag_total_order); auto.
  intros x I1 I2. apply H1 in I1. apply H2 in I2. rewrite I1 in I2. destruct u; discriminate.
Qed.

(* the output read as groups (match_multi): the positions of the second array paired with index i
   of the first are exactly the positions holding a1[i], ascending; the boolean form is what the
   correspondence run evaluates on the implementation's output *)
Theorem C06_match_groups : forall A (ltb eqb : A -> A -> bool), total_order ltb eqb ->
  forall (a1 a2 : list A) o i x, NoDup a1 -> match_ok a1 a2 o -> nth_error a1 i = Some x ->
  group_of i (fst o) (snd o) = positions_of eqb x a2.
Proof. exact match_ok_group. Qed.

Theorem C06_match_groups_check : forall A (ltb eqb : A -> A -> bool), total_order ltb eqb ->
  forall (a1 a2 : list A) o, NoDup a1 -> match_ok a1 a2 o -> groups_check eqb a1 a2 o = true.
Proof. exact match_ok_groups. Qed.

(* unique with its complete return value: indices (values=False), the distinct values = arr[keep]
   (values=True); a 0-d array raises IndexError *)
Theorem C06_unique_call : forall A (ltb eqb : A -> A -> bool), total_order ltb eqb ->
  forall s (a : list A), a <> [] -> sorting_perm ltb s a ->
  (exists keep, unique_call eqb false s a false = Ok (UIdx keep) /\ one_per_value a keep)
  /\ (exists keep vals, unique_call eqb false s a true = Ok (UVals vals)
                        /\ one_per_value a keep /\ gather a keep = Some vals /\ values_ok a vals)
  /\ (forall v, unique_call eqb true s a v = Err EIndex).
Proof.
  intros A ltb eqb TO s a Na SP. destruct (unique_with_correct A ltb eqb TO s a Na SP) as [keep [E H]].
  split; [|split; [|reflexivity]].
  - exists keep. unfold unique_call. rewrite E. split; [reflexivity | exact H].
  - destruct (one_per_value_values a keep H) as [vals [G V]].
    exists keep, vals. unfold unique_call, unique_values_with. rewrite E. cbn [bind]. unfold ogather. rewrite G.
    cbn [bind]. split; [reflexivity|]. split; [exact H|]. split; [reflexivity | exact V].
Qed.

(* rem_dup with its complete return value: a python scalar exactly when n = 1 (also a 0-d array),
   values=True adds arr[keep] *)
Theorem C06_rem_dup_call : forall A (ltb eqb : A -> A -> bool), total_order ltb eqb ->
  forall s (a : list A) flag v, a <> [] -> length flag = length a -> sorting_perm ltb s a ->
  exists sc keep vals, rem_dup_call eqb s a flag v = Ok (sc, keep, vals)
    /\ rem_dup_ok a flag keep
    /\ (sc = true <-> length a = 1)
    /\ (v = true -> exists vl, vals = Some vl /\ gather a keep = Some vl /\ values_ok a vl)
    /\ (v = false -> vals = None).
Proof. exact rem_dup_call_correct. Qed.

(* the skeletons (Skel.v) at the modelled parameters ARE the model, for every input *)
Theorem C06_skeleton_match : forall A (ltb eqb : A -> A -> bool) k p st (a1 a2 : list A),
  match_g ltb eqb ref_match k p st a1 a2 = match_with ltb eqb (is_string_of k) p st a1 a2.
Proof. exact skel_match. Qed.

Theorem C06_skeleton_match_multi : forall A (ltb eqb : A -> A -> bool) k p (a1 a2 : list A),
  match_multi_g ltb eqb ref_match_multi ref_match k p (argsort ltb a1) a1 a2
  = match_multi ltb eqb (is_string_of k) p a1 a2.
Proof. exact skel_match_multi. Qed.

Theorem C06_skeleton_unique : forall A (ltb eqb : A -> A -> bool) z s (a : list A) v,
  unique_call_g ltb eqb ref_unique z s a v = unique_call eqb z s a v.
Proof. exact skel_unique_call. Qed.

Theorem C06_skeleton_rem_dup : forall A (ltb eqb : A -> A -> bool) s (a : list A) flag v,
  rem_dup_call_g ltb eqb ref_rem_dup s a flag v = rem_dup_call eqb s a flag v.
Proof. exact skel_rem_dup_call. Qed.

(* the code as found is the same skeleton at the parameters read from ITS source
   (val = arr[0], keep[0] zero-initialised), and there the property is refuted *)
Theorem C06_skeleton_unique_as_found : forall A (ltb eqb : A -> A -> bool) s (a : list A),
  unique_g ltb eqb asfound_unique s a = unique_orig_with eqb s a.
Proof. exact skel_unique_as_found. Qed.

Theorem C06_skeleton_unique_as_found_refuted :
  exists s a keep, a <> [] /\ sorting_perm zltb s a
                   /\ unique_g zltb zeqb asfound_unique s a = Ok keep /\ ~ one_per_value a keep.
Proof. exact skel_unique_as_found_refuted. Qed.

(* the tie: Gen.v is regenerated from esutil/numpy_util.py on every run (harness/props/c06_translate.py); the statements
   that mention gen_* are about what was read from the tree under check and stop building when the source changes one of
   the parts listed in Skel.v *)
Theorem C06_tie_parameters :
  gen_match = ref_match /\ gen_match_multi = ref_match_multi /\ gen_unique = ref_unique /\ gen_rem_dup = ref_rem_dup.
Proof. exact tie_params. Qed.

Theorem C06_tie_match : forall A (ltb eqb : A -> A -> bool) k p st (a1 a2 : list A),
  match_g ltb eqb gen_match k p st a1 a2 = match_with ltb eqb (is_string_of k) p st a1 a2.
Proof. exact @tie_match. Qed.

Theorem C06_tie_match_multi : forall A (ltb eqb : A -> A -> bool) k p (a1 a2 : list A),
  match_multi_g ltb eqb gen_match_multi gen_match k p (argsort ltb a1) a1 a2
  = match_multi ltb eqb (is_string_of k) p a1 a2.
Proof. exact @tie_match_multi. Qed.

Theorem C06_tie_unique : forall A (ltb eqb : A -> A -> bool) z s (a : list A) v,
  unique_call_g ltb eqb gen_unique z s a v = unique_call eqb z s a v.
Proof. exact @tie_unique. Qed.

Theorem C06_tie_rem_dup : forall A (ltb eqb : A -> A -> bool) s (a : list A) flag v,
  rem_dup_call_g ltb eqb gen_rem_dup s a flag v = rem_dup_call eqb s a flag v.
Proof. exact @tie_rem_dup. Qed.

Theorem C06_tie_defaults :
  mp_presorted_default gen_match = false /\ mm_presorted_default gen_match_multi = false
  /\ up_values_default gen_unique = false /\ rp_values_default gen_rem_dup = false.
Proof. exact tie_defaults. Qed.

(* the property stated about the regenerated definitions, keywords at their source defaults *)
Theorem C06_source_match : forall A (ltb eqb : A -> A -> bool), total_order ltb eqb ->
  forall k (a1 a2 : list A), NoDup a1 -> a1 <> [] -> a2 <> [] ->
  exists o, match_g ltb eqb gen_match k (mp_presorted_default gen_match) (argsort ltb a1) a1 a2 = Ok o
            /\ match_ok a1 a2 o.
Proof. exact @source_match. Qed.

Theorem C06_source_match_multi : forall A (ltb eqb : A -> A -> bool), total_order ltb eqb ->
  forall k p (a1 a2 : list A), NoDup a1 -> a1 <> [] -> a2 <> [] ->
  exists o, match_multi_g ltb eqb gen_match_multi gen_match k p (argsort ltb a1) a1 a2 = Ok o
            /\ match_ok a1 a2 o /\ groups_check eqb a1 a2 o = true.
Proof. exact @source_match_multi. Qed.

Theorem C06_source_unique : forall A (ltb eqb : A -> A -> bool), total_order ltb eqb ->
  forall s (a : list A), a <> [] -> sorting_perm ltb s a ->
  (exists keep, unique_call_g ltb eqb gen_unique false s a (up_values_default gen_unique) = Ok (UIdx keep)
                /\ one_per_value a keep)
  /\ (exists vals, unique_call_g ltb eqb gen_unique false s a true = Ok (UVals vals) /\ values_ok a vals).
Proof. exact @source_unique. Qed.

Theorem C06_source_rem_dup : forall A (ltb eqb : A -> A -> bool), total_order ltb eqb ->
  forall s (a : list A) flag, a <> [] -> length flag = length a -> sorting_perm ltb s a ->
  exists sc keep, rem_dup_call_g ltb eqb gen_rem_dup s a flag (rp_values_default gen_rem_dup) = Ok (sc, keep, None)
                  /\ rem_dup_ok a flag keep.
Proof. exact @source_rem_dup. Qed.

(* Non-vacuity of the parameterisation: each interpreted parameter changes the function
   (searchsorted side, clamp operator, uniqueness-guard operator, rem_dup's tie rule), and
   concrete instances of the statements about Forms.v and Gen.v compute. *)
Example C06_nonvacuous_round2 :
  match_ tag_ltb tag_eqb true false [(true, [97]); (true, [98])]%Z [(false, [97]); (false, [99])]%Z = Ok ([], [])
  /\ match_ zltb zeqb false false [3; 1; 2]%Z [] = Err EValue
  /\ unique_call zeqb false [1; 0; 2] [5; 1; 5]%Z true = Ok (UVals [1; 5]%Z)
  /\ rem_dup_call zeqb [0] [5]%Z [1]%Z true = Ok (true, [0], Some [5]%Z)
  /\ group_of 2 [2; 2; 0] [0; 1; 4] = positions_of zeqb 2%Z [2; 2; 7; -1; 3]%Z
  /\ match_g zltb zeqb gen_match ClsNum false (argsort zltb [3; 1; 2]%Z) [3; 1; 2]%Z [2; 2; 7; -1; 3]%Z = Ok ([2; 2; 0], [0; 1; 4]).
Proof. repeat split; reflexivity. Qed.

(* Mixed signedness at 64 bits (uint64 against a signed integer kind): numpy promotes
   the pair to float64 inside np.searchsorted, so the search compares binary64 roundings
   ([round53]) while np.unique, argsort, max and == stay exact ([match_z true]).  The full
   statement is REFUTED there (matches are lost; no unequal pair is ever returned because the
   equality filter is exact) and PROVED outside the known class
   C06.kf_mixed_sign_above_2p53 = mixed pair with some element not exactly representable in
   binary64 (Spec.kf_mixed_sign_above_2p53). *)
Theorem C06_match_mixed_refuted :
  exists a1 a2 o, NoDup a1 /\ a1 <> [] /\ a2 <> []
    /\ kf_mixed_sign_above_2p53 true a1 a2 = true
    /\ match_z true false false a1 a2 = Ok o /\ ~ match_ok a1 a2 o.
Proof.
  (* 2^53+1 rounds to 2^53, the search lands on the element 2^53, the exact equality filter drops
     the probe, and position 0 of the second array is not reported *)
  exists [2 ^ 53 + 1; 2 ^ 53 + 2; 2 ^ 53]%Z, [2 ^ 53 + 1; 2 ^ 53 + 2; 2 ^ 53]%Z, ([1; 2], [1; 2]).
  split; [apply (nodupb_NoDup Z zltb zeqb z_total_order); vm_compute; reflexivity|].
  split; [discriminate|]. split; [discriminate|]. split; [vm_compute; reflexivity|].
  split; [vm_compute; reflexivity|].
  intro H. apply (match_check_iff Z zltb zeqb z_total_order) in H. vm_compute in H. discriminate.
Qed.

Theorem C06_match_outside_known : forall mixed str p (a1 a2 : list Z),
  kf_mixed_sign_above_2p53 mixed a1 a2 = false ->
  NoDup a1 -> a1 <> [] -> a2 <> [] -> (p = true -> sorted zltb a1) ->
  (exists o, match_z mixed str p a1 a2 = Ok o /\ match_ok a1 a2 o)
  /\ (exists o, match_multi_z mixed str p a1 a2 = Ok o /\ match_ok a1 a2 o).
Proof. exact match_z_outside_known. Qed.

(* the promoted search is the exact search whenever both orders agree on (element of the first,
   element of the second array) - any element type *)
Theorem C06_match_promoted_ext : forall A (sltb ltb eqb : A -> A -> bool) str p st (a1 a2 : list A),
  (forall x v, In x a1 -> In v a2 -> sltb x v = ltb x v) ->
  match_with2 sltb ltb eqb str p st a1 a2 = match_with ltb eqb str p st a1 a2.
Proof. exact match_with2_ext. Qed.

Example C06_nonvacuous_round2b :
  round53 9007199254740993 = 9007199254740992%Z /\ round53 9007199254740995 = 9007199254740996%Z
  /\ round53 (-18446744073709551615) = (-18446744073709551616)%Z /\ round53 9007199254740992 = 9007199254740992%Z
  /\ kf_mixed_sign_above_2p53 true [5; 9007199254740992]%Z [7; -3]%Z = false
  /\ match_z true false false [5; 9007199254740992]%Z [7; -3; 9007199254740992]%Z = Ok ([1], [2]).
Proof. repeat split; vm_compute; reflexivity. Qed.

(* the float64 promotion: round53 is monotone and odd (pure integer arithmetic) *)
Theorem C06_round53_monotone : forall x y, (x <= y)%Z -> (round53 x <= round53 y)%Z.
Proof. exact round53_mono. Qed.

Theorem C06_round53_odd : forall x, round53 (- x) = (- round53 x)%Z.
Proof. exact round53_neg. Qed.

(* the promoted search characterised exactly, for ANY search order that never puts a probe above
   an element >= it: always an answer, only equal pairs, ascending, and position j of a probe x that
   occurs in the first array is reported IFF the search lands on x (the number of first-array
   elements below x in the search order equals the number below x) *)
Theorem C06_match_promoted_exact : forall A (sltb ltb eqb : A -> A -> bool), total_order ltb eqb ->
  (forall m v, ltb m v = false -> sltb m v = false) ->
  forall str st (a1 a2 : list A), NoDup a1 -> a1 <> [] -> a2 <> [] -> sorting_perm ltb st a1 ->
  exists o view, gather a1 st = Some view
    /\ match_with2 sltb ltb eqb str false st a1 a2 = Ok o
    /\ Forall2 (fun i j => exists x, nth_error a1 i = Some x /\ nth_error a2 j = Some x) (fst o) (snd o)
    /\ StronglySorted lt (snd o)
    /\ (forall j x, nth_error a2 j = Some x -> In x a1 -> (In j (snd o) <-> hit A sltb ltb view x = true)).
Proof.
  intros A sltb ltb eqb TO Hsafe str st a1 a2 ND N1 N2 SP.
  destruct (match_with2_lands A sltb ltb eqb TO Hsafe str st a1 a2 ND N1 N2 SP) as (o & view & G & E & F & S & C).
  exists o, view. split; [exact G|]. split; [exact E|]. split; [exact F|]. split; [exact S|].
  intros j x Hj Hx. rewrite (C j x Hj Hx). unfold hit. symmetry. apply Nat.eqb_eq.
Qed.

(* mixed signedness at 64 bits, EXACTLY: match / match_multi always answer, never return an
   unequal pair, report ascending positions, report a probe occurring in the first array iff no
   smaller first-array element rounds to the same double; the full statement holds IFF no probe is
   lost ([lost_b], decidable), and that condition lies inside the known class *)
Theorem C06_match_mixed_exact : forall str (a1 a2 : list Z), NoDup a1 -> a1 <> [] -> a2 <> [] ->
  exists o, match_z true str false a1 a2 = Ok o /\ match_multi_z true str true a1 a2 = Ok o
    /\ Forall2 (fun i j => exists x, nth_error a1 i = Some x /\ nth_error a2 j = Some x) (fst o) (snd o)
    /\ StronglySorted lt (snd o)
    /\ (forall j x, nth_error a2 j = Some x -> In x a1 -> (In j (snd o) <-> collides_below a1 x = false))
    /\ (match_ok a1 a2 o <-> lost_b a1 a2 = false).
Proof. exact match_z_mixed_exact. Qed.

Theorem C06_lost_inside_known_class : forall a1 a2,
  lost_b a1 a2 = true -> kf_mixed_sign_above_2p53 true a1 a2 = true.
Proof.
  intros a1 a2 L. apply existsb_exists in L as [v [Hv Hl]]. apply andb_true_iff in Hl as [_ H2].
  apply existsb_exists in H2 as [y [Hy Hc]]. apply andb_true_iff in Hc as [H1 H3].
  apply Z.ltb_lt in H1. apply Z.eqb_eq in H3.
  cbn [kf_mixed_sign_above_2p53 andb]. apply existsb_exists.
  destruct (Z.eq_dec (round53 y) y) as [Ey|Ny].
  - exists v. split; [apply in_or_app; right; exact Hv|].
    destruct (Z.eqb_spec (round53 v) v) as [Ev|Nv]; [lia | reflexivity].
  - exists y. split; [apply in_or_app; left; exact Hy|].
    destruct (Z.eqb_spec (round53 y) y); [contradiction | reflexivity].
Qed.

(* unique(values=True): strictly ascending, hence the same array for EVERY sorting permutation
   numpy's argsort may return (the tie choice of argsort is invisible in the values) *)
Theorem C06_unique_values_ascending : forall A (ltb eqb : A -> A -> bool), total_order ltb eqb ->
  forall s (a : list A), a <> [] -> sorting_perm ltb s a ->
  exists vals, unique_values_with eqb s a = Ok vals /\ values_ok a vals /\ strict_asc A ltb vals.
Proof. exact unique_values_with_ascending. Qed.

Theorem C06_unique_values_determined : forall A (ltb eqb : A -> A -> bool), total_order ltb eqb ->
  forall s s' (a : list A), a <> [] -> sorting_perm ltb s a -> sorting_perm ltb s' a ->
  unique_values_with eqb s a = unique_values_with eqb s' a.
Proof.
  intros A ltb eqb TO s s' a Na SP SP'.
  destruct (unique_values_with_ascending A ltb eqb TO s a Na SP) as [v [E [[_ V] S]]].
  destruct (unique_values_with_ascending A ltb eqb TO s' a Na SP') as [v' [E' [[_ V'] S']]].
  rewrite E, E'. f_equal. apply (ssorted_ext (fun x y => ltb x y = true)); auto.
  - intros x y H1 H2. rewrite (ltb_asym _ ltb eqb TO _ _ H1) in H2. discriminate.
  - intro x. rewrite <- V, <- V'. reflexivity.
Qed.

(* with the model's own argsort (verified: C06_argsort_contract) no sort contract is left *)
Theorem C06_unique_own_sort : forall A (ltb eqb : A -> A -> bool), total_order ltb eqb ->
  forall a : list A, a <> [] ->
  exists keep vals, unique_with eqb (argsort ltb a) a = Ok keep /\ one_per_value a keep
    /\ unique_values_with eqb (argsort ltb a) a = Ok vals /\ values_ok a vals /\ strict_asc A ltb vals.
Proof.
  intros A ltb eqb TO a Na. pose proof (argsort_sorting_perm A ltb eqb TO a) as SP.
  destruct (unique_with_correct A ltb eqb TO _ a Na SP) as [keep [E H]].
  destruct (unique_values_with_ascending A ltb eqb TO _ a Na SP) as [vals [E' [V S]]].
  exists keep, vals. auto.
Qed.

Theorem C06_rem_dup_own_sort : forall A (ltb eqb : A -> A -> bool), total_order ltb eqb ->
  forall (a : list A) flag, a <> [] -> length flag = length a ->
  exists keep, rem_dup_with eqb (argsort ltb a) a flag = Ok keep /\ rem_dup_ok a flag keep.
Proof.
  intros A ltb eqb TO a flag Na L. apply (rem_dup_with_correct A ltb eqb TO); auto. apply (argsort_sorting_perm A ltb eqb TO).
Qed.

(* rem_dup sees only the ORDER of the flags: any strictly monotone re-encoding (unsigned or
   extreme integers, the bit-pattern embedding of floats used by the harness) gives the same answer;
   C06_rem_dup itself quantifies over ALL integer flags (Z is unbounded) *)
Theorem C06_rem_dup_flag_order : forall A (eqb : A -> A -> bool) (h : Z -> Z) s (a : list A) flag,
  (forall x y, (x < y)%Z <-> (h x < h y)%Z) ->
  rem_dup_with eqb s a (map h flag) = rem_dup_with eqb s a flag.
Proof. exact rem_dup_flag_order. Qed.

(* history: the model is a state machine whose state is unit; the answer to a call in any
   history is the answer to that call alone *)
Theorem C06_history_independent : forall A (ltb eqb : A -> A -> bool) (h1 : list (call A)) c h2,
  nth_error (run A ltb eqb tt (h1 ++ c :: h2)) (length h1) = Some (answer_of A ltb eqb c)
  /\ run A ltb eqb tt [c] = [answer_of A ltb eqb c].
Proof.
  intros A ltb eqb h1 c h2. split; [|reflexivity]. rewrite run_map, map_app. cbn [map].
  rewrite nth_error_app2 by (rewrite map_length; apply Nat.le_refl).
  rewrite map_length, Nat.sub_diag. reflexivity.
Qed.

(* the statement order of `el = arr1[0]` and the emptiness guard is regenerated (mp_el_first):
   it decides only the error class for an empty first array *)
Theorem C06_skeleton_statement_order : forall A (ltb eqb : A -> A -> bool) k p st (a1 a2 : list A),
  match_g ltb eqb ref_match k p st [] a2 = Err EIndex
  /\ match_g ltb eqb ref_match_guard_first k p st [] a2 = Err EValue
  /\ (a1 <> [] -> match_g ltb eqb ref_match_guard_first k p st a1 a2 = match_g ltb eqb ref_match k p st a1 a2).
Proof. exact @skel_statement_order. Qed.

Example C06_nonvacuous_deepening :
  (* a lost probe: 2^53+1 in both arrays, 2^53 below it rounds to the same double *)
  lost_b [9007199254740993; 9007199254740992]%Z [9007199254740993]%Z = true
  /\ lost_b [9007199254740993; 5]%Z [9007199254740993; 9007199254740992]%Z = false
  /\ kf_mixed_sign_above_2p53 true [9007199254740993; 5]%Z [9007199254740993; 9007199254740992]%Z = true
  /\ match_z true false false [9007199254740993; 5]%Z [9007199254740993; 9007199254740992]%Z = Ok ([0], [0])
  /\ unique_values_with zeqb [1; 3; 0; 2] [5; 1; 5; 3]%Z = Ok [1; 3; 5]%Z
  /\ unique_values_with zeqb [1; 0; 2; 3] [5; 1; 5; 3]%Z = Ok [1; 5; 3]%Z   (* not a sorting permutation: no claim *)
  /\ rem_dup_with zeqb [1; 0; 2] [5; 1; 5]%Z (map (fun f => 2 * f + 18446744073709551615)%Z [3; 2; 7]%Z)
      = rem_dup_with zeqb [1; 0; 2] [5; 1; 5]%Z [3; 2; 7]%Z
  /\ run Z zltb zeqb tt [CUnique Z false [1; 0; 2] [5; 1; 5]%Z true; CMatch Z false ClsNum false [3; 1]%Z [1]%Z]
      = [AUnique Z (Ok (UVals [1; 5]%Z)); AMatch Z (Ok ([1], [0]))].
Proof. repeat split; vm_compute; reflexivity. Qed.

(* Error paths as a theorem: exactly which inputs match / match_multi reject and with
   which class - IndexError iff the first array is empty; ValueError iff it is not empty and the
   second is empty or the first has a repeated value; an answer otherwise; no other error class;
   match_multi (whatever presorted= it is given) is the same function. *)
Theorem C06_match_rejections : forall A (ltb eqb : A -> A -> bool), total_order ltb eqb ->
  forall str (a1 a2 : list A),
  let r := match_ ltb eqb str false a1 a2 in
  (r = Err EIndex <-> a1 = [])
  /\ (r = Err EValue <-> a1 <> [] /\ (a2 = [] \/ ~ NoDup a1))
  /\ ((exists o, r = Ok o) <-> a1 <> [] /\ a2 <> [] /\ NoDup a1)
  /\ (forall e, r = Err e -> e = EIndex \/ e = EValue)
  /\ match_multi ltb eqb str true a1 a2 = r.
Proof. exact match_rejections. Qed.

Example C06_nonvacuous_round6 :
  match_ zltb zeqb false false [] [1]%Z = Err EIndex /\ match_ zltb zeqb false false [1; 1]%Z [1]%Z = Err EValue
  /\ match_ zltb zeqb false false [2; 1]%Z [] = Err EValue /\ match_ zltb zeqb false false [2; 1]%Z [1]%Z = Ok ([1], [0]).
Proof. repeat split; reflexivity. Qed.
