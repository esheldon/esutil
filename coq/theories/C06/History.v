(* C06 — the history dimension.  A process makes a sequence of calls; whatever state an
   implementation carries between them, the MODEL carries none: its step function ignores and
   returns the unit state, so the answer to a call in any history is the answer to that call
   alone.  This is the statement the `history` entry of the harness tests the real code against
   (every call of a sequence is compared with the model's answer on the contents the arrays have
   at that call, and with the same call repeated on fresh copies). *)
From EsVerif.Common Require Import Base.
From EsVerif.C06 Require Import Model Forms.
Local Open Scope nat_scope.

Section Hist.
  Variable A : Type.
  Variable ltb eqb : A -> A -> bool.

  Inductive call :=
  | CMatch (multi : bool) (k : elclass) (presorted : bool) (a1 a2 : list A)
  | CUnique (zero_d : bool) (s : list nat) (a : list A) (values : bool)
  | CRemDup (s : list nat) (a : list A) (flag : list Z) (values : bool).

  Inductive answer :=
  | AMatch (r : result (list nat * list nat))
  | AUnique (r : result (uout A))
  | ARemDup (r : result (rdout A)).

  Definition answer_of (c : call) : answer :=
    match c with
    | CMatch multi k p a1 a2 =>
        AMatch (if multi then match_multi ltb eqb (is_string_of k) p a1 a2 else match_ ltb eqb (is_string_of k) p a1 a2)
    | CUnique z s a v => AUnique (unique_call eqb z s a v)
    | CRemDup s a flag v => ARemDup (rem_dup_call eqb s a flag v)
    end.

  (* the model as a state machine: the state is unit *)
  Definition step (st : unit) (c : call) : unit * answer := (tt, answer_of c).

  Fixpoint run (st : unit) (h : list call) : list answer :=
    match h with
    | [] => []
    | c :: t => let '(st', a) := step st c in a :: run st' t
    end.

  Lemma run_map st h : run st h = map answer_of h.
  Proof. revert st; induction h as [|c t IH]; intro st; [reflexivity|]. cbn [run step map]. rewrite IH. reflexivity. Qed.

End Hist.
