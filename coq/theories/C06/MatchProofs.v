(* C06 — match: the model meets match_ok; the specification determines the answer; the
   presorted variant; exactly which inputs are rejected; checker soundness and completeness;
   the parts of the code modelled in Forms.v (a scalar second argument, arrays with nothing in
   common, tagged strings, the grouping reading of the output). *)
From Coq Require Import Sorting.Permutation Sorting.Sorted Arith.
From EsVerif.Common Require Import Base.
From EsVerif.C06 Require Import Model Spec Lemmas Forms.
Local Open Scope nat_scope.

(* presorted=True is the general path with the identity as sorting permutation: no condition *)
Lemma match_with2_presorted {A} (sltb ltb eqb : A -> A -> bool) str st a1 a2 :
  match_with2 sltb ltb eqb str true st a1 a2
  = match_with2 sltb ltb eqb str false (seq 0 (length a1)) a1 a2.
Proof.
  unfold match_with2. destruct a1 as [|d1 t1]; [reflexivity|]. destruct a2 as [|d2 t2]; [reflexivity|].
  destruct (negb (nodupb eqb (d1 :: t1))); [reflexivity|].
  remember (d1 :: t1) as a1 eqn:E1. remember (d2 :: t2) as a2 eqn:E2. clear E1 E2.
  cbv zeta. unfold ogather at 3. rewrite gather_seq. cbn [bind].
  set (sub1 := if str || ltb (maxl ltb d1 a1) (maxl ltb d2 a2) then _ else _).
  unfold ogather. rewrite gather_iota.
  destruct (gather a1 sub1) as [vals|] eqn:G; cbn [bind]; [|reflexivity].
  rewrite G. cbn [bind].
  destruct (gather sub1 (where_ (eq_mask eqb vals a2))) as [t|] eqn:Gt; cbn [bind]; [|reflexivity].
  rewrite gather_iota, (gather_map_nth a1 d1 t); [reflexivity|].
  intros i Hi. apply (gather_bound _ _ _ G). exact (gather_In _ _ _ Gt i Hi).
Qed.

Lemma match_with_presorted {A} (ltb eqb : A -> A -> bool) str st a1 a2 :
  match_with ltb eqb str true st a1 a2 = match_with ltb eqb str false (seq 0 (length a1)) a1 a2.
Proof. exact (match_with2_presorted ltb ltb eqb str st a1 a2). Qed.

(* the general path, for ANY search order [sltb] that never puts a probe above an element that
   is >= it *)
Section Search.
  Variable A : Type.
  Variable sltb ltb eqb : A -> A -> bool.
  Hypothesis TO : total_order ltb eqb.
  Hypothesis Hsafe : forall m v, ltb m v = false -> sltb m v = false.

  (* position searched for v: searchsorted-left, clamped at the high end when [c] *)
  Definition search_pos (c : bool) (n : nat) (view : list A) (v : A) : nat :=
    if c then clamp_hi n (count_lt sltb view v) else count_lt sltb view v.

  Lemma sub1_pos (c : bool) n view (a2 : list A) :
    (if c then map (clamp_hi n) (map (count_lt sltb view) a2) else map (count_lt sltb view) a2)
    = map (search_pos c n view) a2.
  Proof. unfold search_pos. destruct c; [rewrite map_map|]; reflexivity. Qed.

  Lemma pos_bound c n view v :
    length view = n -> 1 <= n ->
    (c = true \/ exists m, In m view /\ sltb m v = false) -> search_pos c n view v < n.
  Proof.
    intros L N H. unfold search_pos. pose proof (count_lt_le _ sltb view v) as B.
    destruct c.
    - unfold clamp_hi. destruct (count_lt sltb view v =? n) eqn:E; [lia|].
      apply Nat.eqb_neq in E. lia.
    - destruct H as [H|[m [Hm Hv]]]; [discriminate|].
      pose proof (count_lt_lt _ sltb view v m Hm Hv). lia.
  Qed.

  Lemma count_s_le view x : count_lt sltb view x <= count_lt ltb view x.
  Proof.
    unfold count_lt. apply filter_len_sub. intros y _ Hy.
    destruct (ltb y x) eqn:E; [reflexivity|]. rewrite (Hsafe y x E) in Hy. discriminate.
  Qed.

  (* the search lands on an element x of the (sorted, duplicate-free) view exactly when as many
     elements are below x in the search order as in the dtype's *)
  Lemma lands_iff c n view x :
    NoDup view -> sorted ltb view -> length view = n -> In x view ->
    (nth_error view (search_pos c n view x) = Some x <-> count_lt sltb view x = count_lt ltb view x).
  Proof.
    intros ND S L Hin.
    pose proof (count_lt_found _ ltb eqb TO view x ND S Hin) as F.
    pose proof (count_s_le view x) as Le.
    assert (Lt : count_lt ltb view x < n) by (rewrite <- L; apply nth_error_Some; congruence).
    assert (Ep : search_pos c n view x = count_lt sltb view x).
    { unfold search_pos. destruct c; [|reflexivity]. unfold clamp_hi.
      destruct (count_lt sltb view x =? n) eqn:E; [apply Nat.eqb_eq in E; lia | reflexivity]. }
    rewrite Ep. split.
    - intro H. apply (proj1 (NoDup_nth_error view) ND); [apply nth_error_Some; congruence | congruence].
    - intro E. rewrite E. exact F.
  Qed.

  (* when the clamp is switched off every probe is <= max(arr1) *)
  Lemma unclamped_has_upper str d1 a1 d2 a2 v :
    In d1 a1 -> In v a2 ->
    str || ltb (maxl ltb d1 a1) (maxl ltb d2 a2) = false ->
    exists m, In m a1 /\ ltb m v = false.
  Proof.
    intros H1 Hv Hc. apply orb_false_iff in Hc as [_ Hc].
    destruct (maxl_spec _ ltb eqb TO a1 d1) as [I1 _].
    destruct (maxl_spec _ ltb eqb TO a2 d2) as [_ I2].
    exists (maxl ltb d1 a1). split.
    - destruct I1 as [E|I]; [rewrite <- E; exact H1 | exact I].
    - eapply (le_trans _ ltb eqb TO); [|exact Hc]. apply I2. right. exact Hv.
  Qed.

  Lemma eq_mask_map (h : A -> A) l : eq_mask eqb (map h l) l = map (fun v => eqb (h v) v) l.
  Proof. induction l as [|x t IH]; simpl; [reflexivity|]. rewrite IH. reflexivity. Qed.

  (* always an answer, only equal pairs, ascending; position j of a probe x that occurs in the
     first array is reported iff the search lands on x *)
  Theorem match_with2_lands str st a1 a2 :
    NoDup a1 -> a1 <> [] -> a2 <> [] -> sorting_perm ltb st a1 ->
    exists o view, gather a1 st = Some view
      /\ match_with2 sltb ltb eqb str false st a1 a2 = Ok o
      /\ Forall2 (fun i j => exists x, nth_error a1 i = Some x /\ nth_error a2 j = Some x) (fst o) (snd o)
      /\ StronglySorted lt (snd o)
      /\ (forall j x, nth_error a2 j = Some x -> In x a1 ->
            (In j (snd o) <-> count_lt sltb view x = count_lt ltb view x)).
  Proof.
    intros ND N1 N2 SP. destruct a1 as [|d1 t1]; [congruence|]. destruct a2 as [|d2 t2]; [congruence|].
    assert (Hd1 : In d1 (d1 :: t1)) by (left; reflexivity).
    unfold match_with2. cbv beta iota zeta.
    rewrite (proj2 (nodupb_NoDup _ ltb eqb TO _) ND). cbn [negb].
    remember (d1 :: t1) as a1 eqn:Ea1. remember (d2 :: t2) as a2 eqn:Ea2. clear Ea1 Ea2 N1 N2 t1 t2.
    destruct (sorting_perm_facts _ ltb st a1 SP) as [Lst [_ Hst]].
    destruct SP as [P [view [Gv Sv]]].
    set (n := length a1) in *.
    assert (Nn : 1 <= n) by (unfold n; destruct a1; [destruct Hd1 | simpl; lia]).
    assert (Pv : Permutation view a1) by (eapply gather_perm; eauto).
    assert (NDv : NoDup view) by (apply (Permutation_NoDup (Permutation_sym Pv)); exact ND).
    assert (Lv : length view = n) by (apply Permutation_length; exact Pv).
    pose proof (proj1 (gather_Forall2 _ _ _) Gv) as Fv.
    unfold ogather at 1. rewrite Gv. cbn [bind]. rewrite sub1_pos.
    set (c := str || ltb (maxl ltb d1 a1) (maxl ltb d2 a2)).
    set (ps := search_pos c n view).
    (* every searched position is inside the array *)
    assert (B : forall v, In v a2 -> ps v < length st).
    { intros v Hv. rewrite Lst. apply pos_bound; [exact Lv | exact Nn |].
      destruct c eqn:Ec; [left; reflexivity | right].
      destruct (unclamped_has_upper str d1 a1 d2 a2 v Hd1 Hv Ec) as [m [Hm Hmv]].
      exists m. split; [apply (Permutation_in _ (Permutation_sym Pv)); exact Hm | apply Hsafe; exact Hmv]. }
    (* g v = st1[ps v]: the index in arr1 the probe v is led to; arr1 holds view[ps v] there *)
    set (g := fun v => nth (ps v) st 0).
    assert (Bg : forall v, In v a2 -> g v < length a1).
    { intros v Hv. apply Hst. apply nth_In. apply B. exact Hv. }
    assert (Hg : forall v y, nth_error view (ps v) = Some y -> nth (g v) a1 d1 = y).
    { intros v y Hy. destruct (Forall2_nth_error_r _ _ _ _ _ Fv Hy) as [i [H1 H2]].
      unfold g. rewrite (nth_error_nth st (ps v) 0 H1). apply nth_error_nth. exact H2. }
    (* the answer in closed form: the probes that pass the equality filter, and their positions *)
    set (p := fun v => eqb (nth (g v) a1 d1) v).
    unfold ogather. rewrite (gather_map_nth_f st 0 ps a2 B). cbn [bind]. fold g.
    rewrite (gather_map_nth_f a1 d1 g a2 Bg). cbn [bind].
    rewrite eq_mask_map. cbn beta. fold p. rewrite gather_where. cbn [bind].
    rewrite (gather_map_nth_f st 0 ps (filter p a2)) by (intros v Hv; apply B; apply filter_In in Hv; apply Hv).
    cbn [bind]. eexists. exists view. split; [reflexivity|]. split; [reflexivity|]. cbn [fst snd].
    split; [|split].
    - apply Forall2_filter_where. intros j v Hj Hp. exists v. split; [|exact Hj].
      apply (to_eqb _ _ _ TO) in Hp. rewrite <- Hp at 2. apply nth_error_nth'. apply Bg. eapply nth_error_In; exact Hj.
    - apply where_from_sorted.
    - intros j x Hj Hx. rewrite where_In, (map_nth_error p j a2 Hj).
      assert (Hxv : In x view) by (apply (Permutation_in _ (Permutation_sym Pv)); exact Hx).
      assert (Bx : ps x < length st) by (apply B; eapply nth_error_In; exact Hj).
      rewrite <- (lands_iff c n view x NDv Sv Lv Hxv). fold (ps x).
      destruct (nth_error view (ps x)) as [y|] eqn:Ey; [|apply nth_error_None in Ey; lia].
      unfold p. rewrite (Hg x y Ey). split.
      + intro H. inversion H as [H']. apply (to_eqb _ _ _ TO) in H'. congruence.
      + intro H. inversion H; subst y. f_equal. apply (to_eqb _ _ _ TO). reflexivity.
  Qed.
End Search.

Section Match.
  Variable A : Type.
  Variable ltb eqb : A -> A -> bool.
  Hypothesis TO : total_order ltb eqb.

  Theorem match_with_correct str s a1 a2 :
    NoDup a1 -> a1 <> [] -> a2 <> [] -> sorting_perm ltb s a1 ->
    exists o, match_with ltb eqb str false s a1 a2 = Ok o /\ match_ok a1 a2 o.
  Proof.
    intros ND N1 N2 SP.
    destruct (match_with2_lands A ltb ltb eqb TO (fun _ _ H => H) str s a1 a2 ND N1 N2 SP)
      as (o & view & _ & E & F & S & C).
    exists o. split; [exact E|]. split; [exact F|]. split; [exact S|].
    intros j x Hj Hx. apply (C j x Hj Hx). reflexivity.
  Qed.

  Theorem match_with_presorted_correct str s a1 a2 :
    NoDup a1 -> a1 <> [] -> a2 <> [] -> sorted ltb a1 ->
    exists o, match_with ltb eqb str true s a1 a2 = Ok o /\ match_ok a1 a2 o.
  Proof.
    intros ND N1 N2 S1.
    rewrite match_with_presorted.
    apply match_with_correct; auto.
    split; [apply Permutation_refl | exists a1; split; [apply gather_seq | exact S1]].
  Qed.

  Theorem match_with_rejects_dups str pres s a1 a2 :
    ~ NoDup a1 -> a2 <> [] -> match_with ltb eqb str pres s a1 a2 = Err EValue.
  Proof.
    intros ND N2. destruct a1 as [|d1 t1]; [exfalso; apply ND; constructor|].
    destruct a2 as [|d2 t2]; [congruence|]. unfold match_with.
    destruct (nodupb eqb (d1 :: t1)) eqn:E; [|reflexivity].
    exfalso. apply ND. apply (nodupb_NoDup _ ltb eqb TO). exact E.
  Qed.

  (* the specification has at most one solution: both index arrays are determined *)
  Lemma match_ok_members (a1 a2 : list A) o :
    match_ok a1 a2 o -> forall j, In j (snd o) <-> exists x, nth_error a2 j = Some x /\ In x a1.
  Proof.
    intros H j. destruct o as [o1 o2]. destruct H as [F [_ Cm]]. cbn [fst snd] in *. split.
    - clear Cm. induction F as [|i j' t1 t2 [x [H1 H2]] _ IH]; simpl; [tauto|].
      intros [E|Hj]; [subst; exists x; split; [exact H2 | eapply nth_error_In; exact H1] | auto].
    - intros [x [H1 H2]]. eapply Cm; eauto.
  Qed.

  Theorem match_ok_unique (a1 a2 : list A) o o' :
    NoDup a1 -> match_ok a1 a2 o -> match_ok a1 a2 o' -> o = o'.
  Proof.
    intros ND H H'. pose proof (match_ok_members _ _ _ H) as M. pose proof (match_ok_members _ _ _ H') as M'.
    destruct o as [o1 o2], o' as [o1' o2']. destruct H as [F [S _]], H' as [F' [S' _]]. cbn [fst snd] in *.
    assert (o2 = o2').
    { apply (ssorted_ext lt); auto; [exact Nat.lt_asymm|]. intro j. rewrite M, M'. reflexivity. }
    subst o2'. f_equal. clear M M' S S'.
    revert o1' F'. induction F as [|i j t1 t2 [x [H1 H2]] _ IH]; intros o1' F'.
    - inversion F'; reflexivity.
    - inversion F' as [|i' ? t1' ? [x' [H1' H2']] Ft]; subst. f_equal; [|apply IH; exact Ft].
      rewrite H2 in H2'. inversion H2'; subst x'.
      apply (proj1 (NoDup_nth_error a1) ND); [apply nth_error_Some|]; congruence.
  Qed.

  (* presorted=True on a sorted first array gives the same answer as the general path *)
  Theorem match_with_presorted_same str s s' a1 a2 :
    sorted ltb a1 -> sorting_perm ltb s a1 ->
    match_with ltb eqb str true s' a1 a2 = match_with ltb eqb str false s a1 a2.
  Proof.
    intros S1 SP. destruct a1 as [|d1 t1]; [reflexivity|]. destruct a2 as [|d2 t2]; [reflexivity|].
    assert (N1 : d1 :: t1 <> []) by discriminate. assert (N2 : d2 :: t2 <> []) by discriminate.
    remember (d1 :: t1) as a1 eqn:E1. remember (d2 :: t2) as a2 eqn:E2. clear E1 E2 d1 t1 d2 t2.
    destruct (nodupb eqb a1) eqn:E.
    - apply (nodupb_NoDup _ ltb eqb TO) in E.
      destruct (match_with_presorted_correct str s' a1 a2 E N1 N2 S1) as [o [E1 H1]].
      destruct (match_with_correct str s a1 a2 E N1 N2 SP) as [o' [E2 H2]].
      rewrite E1, E2. f_equal. eapply match_ok_unique; eauto.
    - assert (ND : ~ NoDup a1) by (intro ND; apply (nodupb_NoDup _ ltb eqb TO) in ND; congruence).
      rewrite !match_with_rejects_dups; auto.
  Qed.

  Definition ent_le (e f : nat * A) : Prop := ltb (snd f) (snd e) = false.

  Lemma ins_perm e l : Permutation (e :: l) (ins ltb e l).
  Proof.
    induction l as [|h t IH]; simpl; [apply Permutation_refl|].
    destruct (ltb (snd e) (snd h)); [apply Permutation_refl|].
    eapply Permutation_trans; [apply perm_swap|]. apply perm_skip. exact IH.
  Qed.

  Lemma ins_sorted e l : StronglySorted ent_le l -> StronglySorted ent_le (ins ltb e l).
  Proof.
    induction 1 as [|h t Ht IH Hh]; simpl; [repeat constructor|].
    destruct (ltb (snd e) (snd h)) eqn:E.
    - constructor; [constructor; assumption|]. constructor.
      + unfold ent_le. apply (ltb_asym _ ltb eqb TO). exact E.
      + rewrite Forall_forall in *. intros x Hx. unfold ent_le in *.
        eapply (le_trans _ ltb eqb TO); [|apply Hh; exact Hx]. apply (ltb_asym _ ltb eqb TO). exact E.
    - constructor; [exact IH|]. rewrite Forall_forall in *. intros x Hx.
      apply (Permutation_in _ (Permutation_sym (ins_perm e t))) in Hx. destruct Hx as [Ex|Hx].
      + subst x. exact E.
      + apply Hh; exact Hx.
  Qed.

  Lemma isort_perm l : Permutation l (fold_right (ins ltb) [] l).
  Proof. exact (fold_insert_perm (ins ltb) ins_perm l). Qed.

  Lemma isort_sorted l : StronglySorted ent_le (fold_right (ins ltb) [] l).
  Proof. induction l as [|x t IH]; simpl; [constructor | apply ins_sorted; exact IH]. Qed.

  Theorem argsort_sorting_perm a : sorting_perm ltb (argsort ltb a) a.
  Proof.
    unfold argsort. set (es := combine (seq 0 (length a)) a). set (srt := fold_right (ins ltb) [] es).
    assert (P : Permutation es srt) by apply isort_perm.
    split.
    - apply Permutation_sym. replace (seq 0 (length a)) with (map fst es).
      + apply Permutation_map. exact P.
      + unfold es. apply map_fst_combine. apply seq_length.
    - exists (map snd srt). split.
      + apply gather_Forall2.
        assert (H : forall e, In e srt -> nth_error a (fst e) = Some (snd e)).
        { intros [i x] He. apply (Permutation_in _ (Permutation_sym P)) in He. unfold es in He.
          apply combine_seq_In in He. rewrite Nat.sub_0_r in He. exact (proj2 He). }
        clear P. induction srt as [|e t IH]; simpl; constructor.
        * apply H; left; reflexivity.
        * apply IH. intros; apply H; right; assumption.
      + unfold sorted. apply ssorted_map. apply isort_sorted.
  Qed.

  Theorem match_correct str a1 a2 :
    NoDup a1 -> a1 <> [] -> a2 <> [] ->
    exists o, match_ ltb eqb str false a1 a2 = Ok o /\ match_ok a1 a2 o.
  Proof. intros. apply match_with_correct; auto. apply argsort_sorting_perm. Qed.

  Theorem match_presorted_same str a1 a2 :
    sorted ltb a1 -> match_ ltb eqb str true a1 a2 = match_ ltb eqb str false a1 a2.
  Proof. intro S. apply match_with_presorted_same; [exact S | apply argsort_sorting_perm]. Qed.

  Theorem match_rejects_dups str pres a1 a2 :
    ~ NoDup a1 -> a2 <> [] -> match_ ltb eqb str pres a1 a2 = Err EValue.
  Proof. intros. apply match_with_rejects_dups; auto. Qed.

  Lemma pairs_b_Forall2 a1 a2 o1 o2 :
    pairs_b eqb a1 a2 o1 o2 = true <->
    Forall2 (fun i j => exists x, nth_error a1 i = Some x /\ nth_error a2 j = Some x) o1 o2.
  Proof.
    revert o2; induction o1 as [|i t1 IH]; intros [|j t2]; simpl.
    - split; [constructor | reflexivity].
    - split; [discriminate | intro H; inversion H].
    - split; [discriminate | intro H; inversion H].
    - rewrite andb_true_iff, IH. split.
      + intros [H1 H2]. constructor; [|exact H2].
        destruct (nth_error a1 i) as [x|]; [|discriminate]. destruct (nth_error a2 j) as [y|]; [|discriminate].
        apply (to_eqb _ _ _ TO) in H1. subst y. exists x; auto.
      + intro H. inversion H as [|? ? ? ? [x [H1 H2]] Ft]; subst. split; [|exact Ft].
        rewrite H1, H2. apply (to_eqb _ _ _ TO). reflexivity.
  Qed.

  Theorem match_check_iff a1 a2 o : match_check eqb a1 a2 o = true <-> match_ok a1 a2 o.
  Proof.
    unfold match_check, match_ok. rewrite !andb_true_iff, pairs_b_Forall2, forallb_forall. split.
    - intros [[H1 H2] H3]. split; [exact H1|]. split; [apply ascending_b_sorted; exact H2|].
      intros j x Hj Hx. specialize (H3 (j, x)). cbn [fst snd] in H3.
      assert (I : In (j, x) (combine (seq 0 (length a2)) a2)) by (apply combine_seq_In; rewrite Nat.sub_0_r; split; [lia|exact Hj]).
      apply H3 in I. rewrite (proj2 (memb_In _ ltb eqb TO x a1) Hx) in I. cbn [implb] in I.
      apply mem_nat_In. exact I.
    - intros [H1 [H2 H3]]. split; [split; [exact H1 | apply sorted_ascending_b; exact H2]|].
      intros [j x] I. cbn [fst snd]. apply combine_seq_In in I. rewrite Nat.sub_0_r in I. destruct I as [_ Hj].
      destruct (memb eqb x a1) eqn:E; [|reflexivity]. cbn [implb].
      apply mem_nat_In. apply (H3 j x Hj). apply (memb_In _ ltb eqb TO). exact E.
  Qed.
End Match.

Lemma match_multi_correct {A} (ltb eqb : A -> A -> bool) : total_order ltb eqb ->
  forall is_string presorted a1 a2, NoDup a1 -> a1 <> [] -> a2 <> [] ->
  exists o, match_multi ltb eqb is_string presorted a1 a2 = Ok o /\ match_ok a1 a2 o.
Proof. intros TO s p a1 a2. unfold match_multi. apply match_correct. exact TO. Qed.

Section Rej.
  Variable A : Type.
  Variable ltb eqb : A -> A -> bool.
  Hypothesis TO : total_order ltb eqb.

  (* the three outcomes of match, exclusive and exhaustive *)
  Lemma match_outcome str a1 a2 :
    (a1 = [] /\ match_ ltb eqb str false a1 a2 = Err EIndex)
    \/ (a1 <> [] /\ (a2 = [] \/ ~ NoDup a1) /\ match_ ltb eqb str false a1 a2 = Err EValue)
    \/ (a1 <> [] /\ a2 <> [] /\ NoDup a1 /\ exists o, match_ ltb eqb str false a1 a2 = Ok o).
  Proof.
    destruct a1 as [|d1 t1]; [left; split; reflexivity | right].
    destruct a2 as [|d2 t2]; [left; split; [discriminate|]; split; [left|]; reflexivity|].
    destruct (nodupb eqb (d1 :: t1)) eqn:N.
    - right. apply (nodupb_NoDup _ ltb eqb TO) in N.
      destruct (match_correct A ltb eqb TO str (d1 :: t1) (d2 :: t2) N) as [o [E _]]; try discriminate.
      split; [discriminate|]. split; [discriminate|]. split; [exact N | exists o; exact E].
    - left. assert (ND : ~ NoDup (d1 :: t1)) by (intro X; apply (nodupb_NoDup _ ltb eqb TO) in X; congruence).
      split; [discriminate|]. split; [right; exact ND|].
      apply (match_rejects_dups A ltb eqb TO); [exact ND | discriminate].
  Qed.

  Lemma match_rejections str a1 a2 :
    let r := match_ ltb eqb str false a1 a2 in
    (r = Err EIndex <-> a1 = [])
    /\ (r = Err EValue <-> a1 <> [] /\ (a2 = [] \/ ~ NoDup a1))
    /\ ((exists o, r = Ok o) <-> a1 <> [] /\ a2 <> [] /\ NoDup a1)
    /\ (forall e, r = Err e -> e = EIndex \/ e = EValue)
    /\ match_multi ltb eqb str true a1 a2 = r.
  Proof.
    cbv zeta. unfold match_multi. set (r := match_ ltb eqb str false a1 a2).
    pose proof (match_outcome str a1 a2) as Hr. fold r in Hr.
    clearbody r. destruct Hr as [[N1 ->]|[(N1 & N2 & ->)|(N1 & N2 & ND & o & ->)]].
    - (* empty first array: IndexError *)
      split; [split; auto|]. split; [split; [discriminate | intros [X _]; contradiction]|].
      split; [split; [intros [o X]; discriminate | intros [X _]; contradiction]|].
      split; [intros e X; inversion X; auto | reflexivity].
    - (* empty second array or a repeated value: ValueError *)
      split; [split; [discriminate | contradiction]|]. split; [split; auto|].
      split; [split; [intros [o X]; discriminate | intros (_ & X & Y); destruct N2; contradiction]|].
      split; [intros e X; inversion X; auto | reflexivity].
    - (* an answer *)
      split; [split; [discriminate | contradiction]|].
      split; [split; [discriminate | intros [_ [X|X]]; contradiction]|].
      split; [split; [auto | intros _; exists o; reflexivity]|].
      split; [intros e X; discriminate | reflexivity].
  Qed.
End Rej.

Lemma tag_total_order : total_order tag_ltb tag_eqb.
Proof.
  pose proof lex_total_order as L. constructor.
  - intros [t x] [u y]. unfold tag_eqb. cbn [fst snd]. rewrite andb_true_iff, (to_eqb _ _ _ L). split.
    + intros [H1 H2]. apply Bool.eqb_prop in H1. subst. reflexivity.
    + intro H. inversion H; subst. split; [apply Bool.eqb_reflx | reflexivity].
  - intros [t x]. unfold tag_ltb. cbn [fst snd]. rewrite (to_irrefl _ _ _ L). destruct t; reflexivity.
  - (* bytes are below unicode; within one kind the order is the lexicographic one *)
    intros [t x] [u y] [w z]. unfold tag_ltb. cbn [fst snd].
    destruct t, u, w; cbn; try discriminate; try reflexivity; apply (to_trans _ _ _ L).
  - intros [t x] [u y]. unfold tag_ltb. cbn [fst snd].
    destruct t, u; cbn; try discriminate; intros H1 H2; f_equal; apply (to_total _ _ _ L); assumption.
Qed.

Lemma group_of_In i o1 : forall o2 j, In j (group_of i o1 o2) <-> In (i, j) (combine o1 o2).
Proof.
  induction o1 as [|x t IH]; intros [|y t2] j; cbn [group_of combine]; try tauto.
  destruct (Nat.eqb_spec x i) as [E|E].
  - subst x. cbn [In]. rewrite IH. split; (intros [H|H]; [left; congruence | right; exact H]).
  - rewrite IH. cbn [In]. split; [auto|]. intros [H|H]; [congruence|exact H].
Qed.

Lemma group_of_sorted i o1 : forall o2, StronglySorted lt o2 -> StronglySorted lt (group_of i o1 o2).
Proof.
  induction o1 as [|x t IH]; intros [|y t2] S; cbn [group_of]; try constructor.
  apply StronglySorted_inv in S as [S Hy]. destruct (x =? i); [|apply IH; exact S].
  constructor; [apply IH; exact S|]. rewrite Forall_forall in *. intros j Hj.
  apply group_of_In in Hj. apply Hy. eapply in_combine_r; exact Hj.
Qed.

Section Forms.
  Variable A : Type.
  Variable ltb eqb : A -> A -> bool.
  Hypothesis TO : total_order ltb eqb.

  (* outputs determined through match_ok_unique: exhibit an answer that meets match_ok *)
  Lemma match_returns str p a1 a2 o' :
    NoDup a1 -> a1 <> [] -> a2 <> [] -> (p = true -> sorted ltb a1) -> match_ok a1 a2 o' ->
    match_ ltb eqb str p a1 a2 = Ok o'.
  Proof.
    intros ND N1 N2 S H'.
    assert (E : match_ ltb eqb str p a1 a2 = match_ ltb eqb str false a1 a2).
    { destruct p; [|reflexivity]. apply (match_presorted_same A ltb eqb TO). apply S. reflexivity. }
    rewrite E. destruct (match_correct A ltb eqb TO str a1 a2 ND N1 N2) as [o [Eo H]].
    rewrite Eo. f_equal. eapply match_ok_unique; eauto.
  Qed.

  (* a scalar (or one-element) second argument *)
  Lemma match_scalar_second str p a1 y :
    NoDup a1 -> a1 <> [] -> (p = true -> sorted ltb a1) ->
    (forall i, nth_error a1 i = Some y -> match_ ltb eqb str p a1 [y] = Ok ([i], [0]))
    /\ (~ In y a1 -> match_ ltb eqb str p a1 [y] = Ok ([], [])).
  Proof.
    intros ND N1 S. split.
    - intros i Hi. apply match_returns; auto; [discriminate|]. split; [|split]; cbn [fst snd].
      + constructor; [|constructor]. exists y. split; [exact Hi | reflexivity].
      + repeat constructor.
      + intros j x Hj _. destruct j as [|j]; [left; reflexivity|]. destruct j; discriminate.
    - intro Hn. apply match_returns; auto; [discriminate|]. split; [|split]; cbn [fst snd].
      + constructor.
      + constructor.
      + intros j x Hj Hx. destruct j as [|j]; [|destruct j; discriminate].
        inversion Hj; subst x. contradiction.
  Qed.

  (* arrays with no common value: nothing is reported *)
  Lemma match_nothing_in_common str p a1 a2 :
    NoDup a1 -> a1 <> [] -> a2 <> [] -> (p = true -> sorted ltb a1) ->
    (forall x, In x a1 -> In x a2 -> False) ->
    match_ ltb eqb str p a1 a2 = Ok ([], []).
  Proof.
    intros ND N1 N2 S D. apply match_returns; auto. split; [|split]; cbn [fst snd]; try constructor.
    intros j x Hj Hx. exfalso. apply (D x Hx). eapply nth_error_In; exact Hj.
  Qed.

  (* the positions of the second array paired with index i are exactly the positions holding
     a1[i], ascending: the output of match / match_multi read as groups *)
  Lemma match_ok_group a1 a2 o i x :
    NoDup a1 -> match_ok a1 a2 o -> nth_error a1 i = Some x ->
    group_of i (fst o) (snd o) = positions_of eqb x a2.
  Proof.
    intros ND [F [S Cm]] Hi. apply (ssorted_ext lt).
    - exact Nat.lt_asymm.
    - apply group_of_sorted; exact S.
    - unfold positions_of, where_. apply where_from_sorted.
    - intro j. rewrite group_of_In. unfold positions_of. rewrite where_In, nth_error_map. split.
      + intro H. destruct (Forall2_combine_In _ _ _ _ _ F H) as [y [H1 H2]]. rewrite Hi in H1.
        inversion H1; subst y. rewrite H2. cbn. f_equal. apply (to_eqb _ _ _ TO). reflexivity.
      + intro H. destruct (nth_error a2 j) as [y|] eqn:Hj; [|discriminate]. cbn in H.
        assert (E : eqb y x = true) by congruence. apply (to_eqb _ _ _ TO) in E. subst y.
        assert (Hin : In j (snd o)) by (apply (Cm j x Hj); eapply nth_error_In; exact Hi).
        destruct (Forall2_In_r_ex _ _ _ F j Hin) as [i' Hc].
        destruct (Forall2_combine_In _ _ _ _ _ F Hc) as [y [H1 H2]]. rewrite Hj in H2. inversion H2; subst y.
        assert (i' = i); [|subst; exact Hc].
        apply (proj1 (NoDup_nth_error a1) ND); [apply nth_error_Some; congruence | congruence].
  Qed.

  Lemma match_ok_groups a1 a2 o : NoDup a1 -> match_ok a1 a2 o -> groups_check eqb a1 a2 o = true.
  Proof.
    intros ND H. unfold groups_check. apply forallb_forall. intros [i x] Hin. cbn [fst snd].
    apply combine_seq_In in Hin. rewrite Nat.sub_0_r in Hin. destruct Hin as [_ Hi].
    rewrite (match_ok_group a1 a2 o i x ND H Hi). apply list_eqb_spec; [intros; apply Nat.eqb_eq | reflexivity].
  Qed.
End Forms.
