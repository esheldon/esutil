(* C06 — unique / rem_dup: the (repaired) scan over an argsort permutation keeps exactly one
   index per distinct value, rem_dup the one with the largest flag; checker soundness and
   completeness; rem_dup's complete return value (Forms.v); the code as found (unique with
   val = arr[0]) is refuted. *)
From Coq Require Import Sorting.Permutation Sorting.Sorted Arith.
From EsVerif.Common Require Import Base.
From EsVerif.C06 Require Import Model Spec Lemmas Forms DedupMore.
Local Open Scope nat_scope.

Lemma entries_one_per_value {A B} (ix : B -> nat) (vl : B -> A) (a : list A) (out : list B) :
  (forall e, In e out -> nth_error a (ix e) = Some (vl e)) ->
  NoDup (map vl out) ->
  (forall v, In v a -> In v (map vl out)) ->
  one_per_value a (map ix out).
Proof.
  intros He ND Cov. split; [|split].
  - apply NoDup_map_inj_in; [eapply NoDup_map_inv; exact ND|].
    intros x y Hx Hy E. apply (NoDup_map_In_inj vl out x y ND Hx Hy).
    pose proof (He x Hx) as H1. pose proof (He y Hy) as H2. rewrite E in H1. congruence.
  - intros k Hk. apply in_map_iff in Hk as [e [E Hin]]. subst k. apply nth_error_Some.
    rewrite (He e Hin). discriminate.
  - intros v Hv. apply Cov in Hv. apply in_map_iff in Hv as [e [E Hin]].
    exists (ix e). split.
    + split; [apply in_map; exact Hin | rewrite (He e Hin); congruence].
    + intros k' [Hk' Hv']. apply in_map_iff in Hk' as [e' [E' Hin']]. subst k'.
      rewrite (He e' Hin') in Hv'. f_equal. apply (NoDup_map_In_inj vl out e e' ND Hin Hin'). congruence.
Qed.

Lemma one_per_value_perm {A} (a : list A) keep keep' :
  Permutation keep keep' -> one_per_value a keep -> one_per_value a keep'.
Proof.
  intros P [N [B U]]. split; [|split].
  - eapply Permutation_NoDup; eauto.
  - intros k Hk. apply B. eapply Permutation_in; [apply Permutation_sym; exact P | exact Hk].
  - intros v Hv. destruct (U v Hv) as [k [[H1 H2] H3]]. exists k. split.
    + split; [eapply Permutation_in; eauto | exact H2].
    + intros k' [H1' H2']. apply H3. split; [|exact H2'].
      eapply Permutation_in; [apply Permutation_sym; exact P | exact H1'].
Qed.

(* values=True: the values at the kept indices are the distinct values, once each *)
Lemma one_per_value_values {A} (a : list A) keep :
  one_per_value a keep -> exists vals, gather a keep = Some vals /\ values_ok a vals.
Proof.
  intros [N [B U]]. destruct a as [|d t].
  - destruct keep as [|k ks]; [|specialize (B k (or_introl eq_refl)); simpl in B; lia].
    exists []. split; [reflexivity|]. split; [constructor | tauto].
  - remember (d :: t) as a eqn:Ea. clear Ea t.
    exists (map (fun k => nth k a d) keep). split; [apply gather_map_nth; exact B|]. split.
    + apply NoDup_map_inj_in; [exact N|]. intros x y Hx Hy E.
      assert (Hv : In (nth x a d) a) by (apply nth_In; apply B; exact Hx).
      destruct (U _ Hv) as [k [_ Uk]].
      rewrite <- (Uk x), <- (Uk y); [reflexivity| |].
      * split; [exact Hy|]. rewrite E. apply nth_error_nth'. apply B; exact Hy.
      * split; [exact Hx|]. apply nth_error_nth'. apply B; exact Hx.
    + intro v. split; intro Hv.
      * destruct (U v Hv) as [k [[H1 H2] _]]. apply in_map_iff. exists k. split; [|exact H1].
        apply nth_error_nth. exact H2.
      * apply in_map_iff in Hv as [k [E Hk]]. subst v. apply nth_In. apply B; exact Hk.
Qed.

Lemma one_per_value_single {A} (x : A) : one_per_value [x] [0].
Proof.
  split; [|split].
  - constructor; [intros []|constructor].
  - intros k [E|[]]. subst. simpl. lia.
  - intros v [E|[]]. subst v. exists 0. split.
    + split; [left; reflexivity | reflexivity].
    + intros k' [[E|[]] _]. exact E.
Qed.

Lemma rem_dup_ok_perm {A} (a : list A) flag keep keep' :
  Permutation keep keep' -> rem_dup_ok a flag keep -> rem_dup_ok a flag keep'.
Proof.
  intros P [H1 H2]. split; [exact (one_per_value_perm a _ _ P H1)|].
  intros k j x fk fj Hk. apply (H2 k j x fk fj). exact (Permutation_in _ (Permutation_sym P) Hk).
Qed.

Section Dedup.
  Variable A : Type.
  Variable ltb eqb : A -> A -> bool.
  Hypothesis TO : total_order ltb eqb.

  (* entries (index, (value, flag)) *)
  Local Notation ent := (nat * (A * Z))%type.
  Definition ent_val (e : ent) : A := fst (snd e).
  Definition ent_flag (e : ent) : Z := snd (snd e).

  (* rem_dup's loop without its accumulator: the entries it keeps, in order.  [cur] is the best
     entry of the current run of equal values. *)
  Fixpoint scan (cur : ent) (rest : list ent) : list ent :=
    match rest with
    | [] => [cur]
    | e :: t =>
        if eqb (ent_val e) (ent_val cur) then scan (if (ent_flag cur <? ent_flag e)%Z then e else cur) t
        else cur :: scan e t
    end.

  Lemma rd_loop_scan rest : forall cur acc,
    rd_loop eqb (ent_val cur) (ent_flag cur) (fst cur) acc rest = rev acc ++ map fst (scan cur rest).
  Proof.
    induction rest as [|[i [x fx]] t IH]; intros cur acc; cbn [rd_loop scan]; [reflexivity|].
    change (ent_val (i, (x, fx))) with x. change (ent_flag (i, (x, fx))) with fx.
    destruct (eqb x (ent_val cur)) eqn:E.
    - apply (to_eqb _ _ _ TO) in E. destruct (ent_flag cur <? fx)%Z.
      + rewrite <- E. apply (IH (i, (x, fx)) acc).
      + apply IH.
    - pose proof (IH (i, (x, fx)) (fst cur :: acc)) as R. cbn [ent_val ent_flag fst snd rev] in R.
      rewrite R, <- app_assoc. reflexivity.
  Qed.

  (* unique's loop is rem_dup's with all flags equal *)
  Definition unflagged (e : nat * A) : ent := (fst e, (snd e, 0%Z)).

  Lemma unique_loop_rd rest : forall v i acc,
    unique_loop eqb v (i :: acc) rest = rd_loop eqb v 0 i acc (map unflagged rest).
  Proof.
    induction rest as [|[j x] t IH]; intros v i acc; cbn [unique_loop rd_loop map unflagged fst snd]; [reflexivity|].
    destruct (eqb x v); [rewrite Z.ltb_irrefl|]; apply IH.
  Qed.

  Lemma scan_relabel (h : nat -> nat) rest : forall cur,
    map (fun e : ent => (h (fst e), snd e)) (scan cur rest)
    = scan (h (fst cur), snd cur) (map (fun e : ent => (h (fst e), snd e)) rest).
  Proof.
    induction rest as [|e t IH]; intro cur; cbn [scan map]; [reflexivity|].
    change (ent_val (h (fst e), snd e)) with (ent_val e). change (ent_val (h (fst cur), snd cur)) with (ent_val cur).
    change (ent_flag (h (fst e), snd e)) with (ent_flag e). change (ent_flag (h (fst cur), snd cur)) with (ent_flag cur).
    destruct (eqb (ent_val e) (ent_val cur)); [destruct (ent_flag cur <? ent_flag e)%Z; apply IH|].
    cbn [map]. f_equal. apply IH.
  Qed.

  Lemma scan_incl rest : forall cur, incl (scan cur rest) (cur :: rest).
  Proof.
    induction rest as [|e t IH]; intro cur; cbn [scan]; [apply incl_refl|].
    destruct (eqb (ent_val e) (ent_val cur)).
    - intros x Hx. apply IH in Hx. destruct Hx as [<-|Hx]; [|right; right; exact Hx].
      destruct (ent_flag cur <? ent_flag e)%Z; [right; left | left]; reflexivity.
    - intros x [<-|Hx]; [left; reflexivity | right; apply IH; exact Hx].
  Qed.

  (* on entries sorted by value the scan keeps, for each value, an entry of the largest flag,
     and the kept values are strictly ascending *)
  Lemma scan_spec rest : forall cur,
    sorted ltb (map ent_val (cur :: rest)) ->
    strict_asc A ltb (map ent_val (scan cur rest))
    /\ (forall x, In x (cur :: rest) ->
          exists k, In k (scan cur rest) /\ ent_val k = ent_val x /\ (ent_flag x <= ent_flag k)%Z).
  Proof.
    induction rest as [|e t IH]; intros cur S; cbn [scan].
    - split; [repeat constructor|]. intros x [<-|[]]. exists cur. split; [left; reflexivity|].
      split; [reflexivity | apply Z.le_refl].
    - cbn [map] in S. apply StronglySorted_inv in S as [S Hc]. rewrite Forall_forall in Hc.
      destruct (eqb (ent_val e) (ent_val cur)) eqn:E.
      + (* same value: the run goes on with the better of the two *)
        apply (to_eqb _ _ _ TO) in E.
        set (w := if (ent_flag cur <? ent_flag e)%Z then e else cur).
        assert (Ew : ent_val w = ent_val e) by (unfold w; destruct (ent_flag cur <? ent_flag e)%Z; congruence).
        assert (Fw : (ent_flag cur <= ent_flag w /\ ent_flag e <= ent_flag w)%Z).
        { unfold w. destruct (Z.ltb_spec (ent_flag cur) (ent_flag e)); lia. }
        destruct (IH w) as [St C]; [cbn [map]; rewrite Ew; exact S|].
        split; [exact St|]. intros x Hx.
        assert (Hw : In x t \/ ent_val x = ent_val w /\ (ent_flag x <= ent_flag w)%Z).
        { destruct Hx as [<-|[<-|Hx]]; [right | right | left; exact Hx]; (split; [congruence | lia]). }
        destruct Hw as [Hx'|[Ex Fx]]; [apply C; right; exact Hx'|].
        destruct (C w (or_introl eq_refl)) as (k & Hk & Ek & Fk).
        exists k. split; [exact Hk|]. split; [congruence | lia].
      + (* new value: everything kept later is strictly above cur *)
        destruct (IH e S) as [St C].
        assert (Lt : forall k, In k (scan e t) -> ltb (ent_val cur) (ent_val k) = true).
        { intros k Hk. apply scan_incl in Hk. apply (lt_of_le_neq _ ltb eqb TO).
          - apply Hc. exact (in_map ent_val _ _ Hk).
          - intro X. apply (eqb_false_neq _ ltb eqb TO _ _ E).
            destruct Hk as [<-|Hk]; [symmetry; exact X|].
            apply StronglySorted_inv in S as [_ He]. rewrite Forall_forall in He.
            apply (to_total _ _ _ TO); [apply Hc; left; reflexivity|].
            rewrite X. apply He. apply in_map. exact Hk. }
        split.
        * cbn [map]. constructor; [exact St|]. apply Forall_forall. intros y Hy.
          apply in_map_iff in Hy as [k [<- Hk]]. apply Lt. exact Hk.
        * intros x [<-|Hx].
          -- exists cur. split; [left; reflexivity|]. split; [reflexivity | apply Z.le_refl].
          -- destruct (C x Hx) as (k & Hk & R). exists k. split; [right; exact Hk | exact R].
  Qed.

  Lemma strict_NoDup l : strict_asc A ltb l -> NoDup l.
  Proof. apply ssorted_NoDup. intros x H. rewrite (to_irrefl _ _ _ TO) in H. discriminate. Qed.

  (* the entries of [a] in a sorted order: what both functions scan *)
  Definition entries_of (a : list A) (ents : list ent) : Prop :=
    sorted ltb (map ent_val ents)
    /\ (forall e, In e ents -> nth_error a (fst e) = Some (ent_val e))
    /\ (forall j, j < length a -> exists e, In e ents /\ fst e = j).

  Section Scan.
    Variables (a : list A) (cur : ent) (rest : list ent).
    Hypothesis Hents : entries_of a (cur :: rest).
    Let out := scan cur rest.

    Lemma scan_points e : In e out -> nth_error a (fst e) = Some (ent_val e).
    Proof. intro He. apply Hents. apply scan_incl. exact He. Qed.

    Lemma scan_covers v : In v a -> In v (map ent_val out).
    Proof.
      destruct Hents as (S & P & Cov). intro Hv. apply In_nth_error in Hv as [j Hj].
      destruct (Cov j) as (x & Hx & <-); [apply nth_error_Some; congruence|].
      destruct (proj2 (scan_spec rest cur S) x Hx) as (k & Hk & Ek & _).
      rewrite (P x Hx) in Hj. inversion Hj; subst v. rewrite <- Ek. apply in_map. exact Hk.
    Qed.

    Lemma scan_ascending : strict_asc A ltb (map ent_val out).
    Proof. apply scan_spec. apply Hents. Qed.

    Lemma scan_one_per_value : one_per_value a (map fst out).
    Proof.
      apply entries_one_per_value with (vl := ent_val);
        [exact scan_points | apply strict_NoDup; exact scan_ascending | exact scan_covers].
    Qed.

    Lemma scan_values : gather a (map fst out) = Some (map ent_val out) /\ values_ok a (map ent_val out).
    Proof.
      split; [|split].
      - apply gather_Forall2. apply Forall2_map_map. intros e He. apply scan_points. exact He.
      - apply strict_NoDup. exact scan_ascending.
      - intro v. split; [exact (scan_covers v)|]. intro Hv. apply in_map_iff in Hv as [e [<- He]].
        eapply nth_error_In. apply scan_points. exact He.
    Qed.

    Lemma scan_max_flag flag :
      (forall e, In e (cur :: rest) -> nth_error flag (fst e) = Some (ent_flag e)) ->
      rem_dup_ok a flag (map fst out).
    Proof.
      intro Pf. split; [exact scan_one_per_value|].
      intros k j x fk fj Hk Hak Haj Hfk Hfj. destruct Hents as (S & P & Cov).
      apply in_map_iff in Hk as [ek [<- Hk]]. pose proof (scan_incl _ _ _ Hk) as Hk'.
      destruct (Cov j) as (ej & Hej & <-); [apply nth_error_Some; congruence|].
      destruct (proj2 (scan_spec rest cur S) ej Hej) as (k' & Hk2 & Ek & Fk).
      assert (k' = ek).
      { apply (NoDup_map_In_inj ent_val out); [apply strict_NoDup; exact scan_ascending | exact Hk2 | exact Hk |].
        rewrite Ek. pose proof (P ej Hej). pose proof (P ek Hk'). congruence. }
      subst k'. pose proof (Pf ej Hej) as Fj. pose proof (Pf ek Hk') as Fk'.
      rewrite Hfj in Fj. rewrite Hfk in Fk'. injection Fj as ->. injection Fk' as ->. exact Fk.
    Qed.
  End Scan.

  (* unique returns the indices of entries of [a] whose values are the distinct values of [a],
     strictly ascending *)
  Lemma unique_with_scan s a :
    a <> [] -> sorting_perm ltb s a ->
    exists cur rest, unique_with eqb s a = Ok (map fst (scan cur rest)) /\ entries_of a (cur :: rest).
  Proof.
    intros Na SP. destruct (sorting_perm_facts _ ltb s a SP) as [Ls [_ Hs]].
    destruct SP as [_ [sarr [G S]]].
    pose proof (gather_length _ _ _ G) as Lr. pose proof (proj1 (gather_Forall2 _ _ _) G) as F.
    unfold unique_with, ogather. rewrite G. cbn [bind].
    assert (Hents : entries_of a (map unflagged (combine s sarr))).
    { split; [|split].
      - unfold ent_val. rewrite map_map. cbn [unflagged fst snd]. rewrite map_snd_combine by lia. exact S.
      - intros e He. apply in_map_iff in He as [[i x] [<- He]]. exact (Forall2_combine_In _ _ _ _ _ F He).
      - intros j Hj. apply Hs in Hj. destruct (Forall2_In_l _ _ _ _ F Hj) as [y [_ Hc]].
        exists (unflagged (j, y)). split; [apply in_map; exact Hc | reflexivity]. }
    destruct (combine s sarr) as [|[i0 v0] rest] eqn:Ec.
    - exfalso. assert (L : length (combine s sarr) = 0) by (rewrite Ec; reflexivity).
      rewrite combine_length in L. destruct a; [congruence|]. simpl in Ls. lia.
    - exists (unflagged (i0, v0)), (map unflagged rest). split; [|exact Hents].
      rewrite unique_loop_rd. exact (f_equal Ok (rd_loop_scan _ (unflagged (i0, v0)) [])).
  Qed.

  Theorem unique_with_correct s a :
    a <> [] -> sorting_perm ltb s a ->
    exists keep, unique_with eqb s a = Ok keep /\ one_per_value a keep.
  Proof.
    intros Na SP. destruct (unique_with_scan s a Na SP) as (cur & rest & E & Hents).
    eexists. split; [exact E | apply scan_one_per_value; exact Hents].
  Qed.

  (* unique(values=True): the distinct values, strictly ascending *)
  Theorem unique_values_with_ascending s a :
    a <> [] -> sorting_perm ltb s a ->
    exists vals, unique_values_with eqb s a = Ok vals /\ values_ok a vals
                 /\ strict_asc A ltb vals.
  Proof.
    intros Na SP. destruct (unique_with_scan s a Na SP) as (cur & rest & E & Hents).
    destruct (scan_values a cur rest Hents) as [G V].
    eexists. split; [|split; [exact V | exact (scan_ascending a cur rest Hents)]].
    unfold unique_values_with. rewrite E. cbn [bind]. unfold ogather. rewrite G. reflexivity.
  Qed.

  Theorem unique_values_with_correct s a :
    a <> [] -> sorting_perm ltb s a ->
    exists vals, unique_values_with eqb s a = Ok vals /\ values_ok a vals.
  Proof.
    intros Na SP. destruct (unique_values_with_ascending s a Na SP) as (vals & E & V & _). exists vals. auto.
  Qed.

  Theorem rem_dup_with_correct s a flag :
    a <> [] -> length flag = length a -> sorting_perm ltb s a ->
    exists keep, rem_dup_with eqb s a flag = Ok keep /\ rem_dup_ok a flag keep.
  Proof.
    intros Na Lf SP. unfold rem_dup_with. destruct (length a =? 1) eqn:E1.
    - apply Nat.eqb_eq in E1. destruct a as [|x [|y t]]; simpl in E1; try lia.
      exists [0]. split; [reflexivity|]. split; [apply one_per_value_single|].
      intros k j x0 fk fj [Hk|[]] Hak Haj Hfk Hfj. subst k.
      destruct j as [|j]; [assert (fj = fk) by congruence; lia|]. destruct j; simpl in Haj; discriminate.
    - clear E1. destruct (sorting_perm_facts _ ltb s a SP) as [Ls [_ Hs]].
      destruct SP as [_ [sarr [G S]]].
      pose proof (gather_length _ _ _ G) as Lr. pose proof (proj1 (gather_Forall2 _ _ _) G) as F.
      assert (Bf : forall i, In i s -> i < length flag) by (intros i Hi; rewrite Lf; apply Hs; exact Hi).
      pose proof (gather_map_nth flag 0%Z s Bf) as Gf. set (sflag := map (fun i => nth i flag 0%Z) s) in *.
      pose proof (gather_length _ _ _ Gf) as Lsf. pose proof (proj1 (gather_Forall2 _ _ _) Gf) as Ff.
      unfold ogather at 1. rewrite G. cbn [bind]. unfold ogather at 1. rewrite Gf. cbn [bind].
      set (zs := combine sarr sflag). set (n := length a) in *.
      assert (Lzs : length zs = n) by (unfold zs; rewrite combine_length; lia).
      pose proof (Forall2_pair _ _ _ _ _ F Ff) as Fz. fold zs in Fz.
      (* in the coordinates of the original arrays the entries scanned are [combine s zs] *)
      assert (Hents : entries_of a (combine s zs)
                      /\ forall e, In e (combine s zs) -> nth_error flag (fst e) = Some (ent_flag e)).
      { split; [split; [|split]|].
        - unfold ent_val. rewrite <- (map_map snd fst), map_snd_combine by lia. unfold zs. rewrite map_fst_combine by lia. exact S.
        - intros [k z] He. exact (proj1 (Forall2_combine_In _ _ _ _ _ Fz He)).
        - intros j Hj. apply Hs in Hj. destruct (Forall2_In_l _ _ _ _ Fz Hj) as [z [_ Hc]]. exists (j, z). auto.
        - intros [k z] He. exact (proj2 (Forall2_combine_In _ _ _ _ _ Fz He)). }
      set (h := fun p => nth p s 0).
      pose proof (combine_seq_relabel s zs) as Erel. rewrite Ls in Erel. fold n h in Erel.
      destruct (combine (seq 0 n) zs) as [|[i0 [v0 f0]] rest] eqn:Ec.
      { exfalso. assert (L : length (combine (seq 0 n) zs) = 0) by (rewrite Ec; reflexivity).
        rewrite combine_length, seq_length in L. destruct a; [congruence|]. simpl in n. lia. }
      pose proof (rd_loop_scan rest (i0, (v0, f0)) []) as Ek. cbn [ent_val ent_flag fst snd rev app] in Ek. rewrite Ek.
      (* the positions kept are positions of s *)
      assert (Bpos : forall p, In p (map fst (scan (i0, (v0, f0)) rest)) -> p < length s).
      { intros p Hp. apply in_map_iff in Hp as [[q z] [<- He]]. apply scan_incl in He. rewrite <- Ec in He.
        apply in_combine_l, in_seq in He. cbn [fst]. lia. }
      unfold ogather. rewrite (gather_map_nth s 0 _ Bpos). fold h. cbn [bind].
      rewrite map_map, <- (map_map (fun e : ent => (h (fst e), snd e)) fst), scan_relabel.
      cbn [map] in Erel. rewrite <- Erel in Hents. destruct Hents as [Hents Pf].
      eexists. split; [reflexivity|].
      apply (rem_dup_ok_perm _ _ _ _ (sort_nat_perm _)). apply scan_max_flag; assumption.
  Qed.

  Theorem rem_dup_values_with_correct s a flag :
    a <> [] -> length flag = length a -> sorting_perm ltb s a ->
    exists keep vals, rem_dup_values_with eqb s a flag = Ok (keep, vals)
                      /\ rem_dup_ok a flag keep /\ gather a keep = Some vals /\ values_ok a vals.
  Proof.
    intros Na Lf SP. destruct (rem_dup_with_correct s a flag Na Lf SP) as [keep [E H]].
    destruct (one_per_value_values a keep (proj1 H)) as [vals [G V]].
    exists keep, vals. split; [|auto]. unfold rem_dup_values_with. rewrite E. cbn [bind].
    unfold ogather. rewrite G. reflexivity.
  Qed.

  Lemma rem_dup_call_correct s a flag v :
    a <> [] -> length flag = length a -> sorting_perm ltb s a ->
    exists sc keep vals, rem_dup_call eqb s a flag v = Ok (sc, keep, vals)
      /\ rem_dup_ok a flag keep
      /\ (sc = true <-> length a = 1)
      /\ (v = true -> exists vl, vals = Some vl /\ gather a keep = Some vl /\ values_ok a vl)
      /\ (v = false -> vals = None).
  Proof.
    intros Na L SP. destruct (rem_dup_with_correct s a flag Na L SP) as [keep [Ek H]].
    destruct (one_per_value_values a keep (proj1 H)) as [vl [G V]].
    unfold rem_dup_call, rem_dup_values_with. rewrite Ek. cbn [bind]. unfold ogather. rewrite G. cbn [bind fst snd].
    destruct (length a =? 1) eqn:E1.
    - (* n = 1: the scalar 0, and with values=True the whole input *)
      unfold rem_dup_with in Ek. rewrite E1 in Ek. inversion Ek; subst keep. apply Nat.eqb_eq in E1.
      destruct a as [|x [|y t]]; try discriminate. cbn in G. inversion G; subst vl.
      exists true, [0], (if v then Some [x] else None). split; [reflexivity|]. split; [exact H|].
      split; [split; reflexivity|]. split; intro Hv; subst v; [|reflexivity]. exists [x]. auto.
    - apply Nat.eqb_neq in E1. exists false, keep, (if v then Some vl else None).
      split; [destruct v; reflexivity|]. split; [exact H|]. split; [split; [discriminate | contradiction]|].
      split; intro Hv; subst v; [|reflexivity]. exists vl. auto.
  Qed.

  (* the checkers decide their properties *)
  Theorem one_per_value_check_iff a keep : one_per_value_check eqb a keep = true <-> one_per_value a keep.
  Proof.
    unfold one_per_value_check. split.
    - destruct (gather a keep) as [vals|] eqn:G; [|discriminate].
      intro H. apply andb_true_iff in H as [H1 H2].
      pose proof (gather_length _ _ _ G) as L. pose proof (proj1 (gather_Forall2 _ _ _) G) as F.
      rewrite <- (map_fst_combine keep vals) by lia. apply entries_one_per_value with (vl := snd).
      + intros [k x] He. exact (Forall2_combine_In _ _ _ _ _ F He).
      + rewrite map_snd_combine by lia. apply (nodupb_NoDup _ ltb eqb TO). exact H1.
      + intros v Hv. rewrite map_snd_combine by lia. rewrite forallb_forall in H2.
        apply (memb_In _ ltb eqb TO). apply H2. exact Hv.
    - intro H. destruct (one_per_value_values a keep H) as [vals [G [N C]]].
      rewrite G. apply andb_true_iff. split.
      + apply (nodupb_NoDup _ ltb eqb TO). exact N.
      + apply forallb_forall. intros v Hv. apply (memb_In _ ltb eqb TO). apply C. exact Hv.
  Qed.

  Theorem values_check_iff a vals : values_check eqb a vals = true <-> values_ok a vals.
  Proof.
    unfold values_check, values_ok. rewrite !andb_true_iff, (nodupb_NoDup _ ltb eqb TO), !forallb_forall.
    split.
    - intros [[N H1] H2]. split; [exact N|]. intro v. split; intro Hv; apply (memb_In _ ltb eqb TO); auto.
    - intros [N C]. split; [split; [exact N|]|]; intros v Hv; apply (memb_In _ ltb eqb TO); apply C; exact Hv.
  Qed.

  (* the check's first conjunct is the length condition under which rem_dup_ok says what it should *)
  Theorem rem_dup_check_iff a flag keep :
    rem_dup_check eqb a flag keep = true <-> length a = length flag /\ rem_dup_ok a flag keep.
  Proof.
    unfold rem_dup_check. rewrite !andb_true_iff, Nat.eqb_eq, one_per_value_check_iff, forallb_forall. split.
    - intros [[L H1] H3]. split; [exact L|]. split; [exact H1|].
      intros k j x fk fj Hk Hak Haj Hfk Hfj. specialize (H3 k Hk).
      rewrite Hak, Hfk in H3. rewrite forallb_forall in H3.
      assert (Hin : In (x, fj) (combine a flag)) by (apply In_combine_nth; exists j; split; assumption).
      specialize (H3 _ Hin). cbn [fst snd] in H3. rewrite (eqb_refl _ ltb eqb TO) in H3. cbn [implb] in H3.
      apply Z.leb_le. exact H3.
    - intros [L [H1 H2]]. split; [split; [exact L | exact H1]|].
      intros k Hk. destruct H1 as [_ [B _]]. pose proof (B k Hk) as Bk.
      destruct (nth_error a k) as [x|] eqn:Ea; [|apply nth_error_None in Ea; lia].
      destruct (nth_error flag k) as [fk|] eqn:Ef; [|apply nth_error_None in Ef; lia].
      apply forallb_forall. intros [y f] Hin. cbn [fst snd]. destruct (eqb y x) eqn:E; [|reflexivity]. cbn [implb].
      apply (to_eqb _ _ _ TO) in E. subst y. destruct (proj1 (In_combine_nth _ _ _ _) Hin) as [j [Hj1 Hj2]].
      apply Z.leb_le. exact (H2 k j x fk f Hk Ea Hj1 Ef Hj2).
  Qed.
End Dedup.

Section FlagOrder.
  Variable A : Type.
  Variable eqb : A -> A -> bool.

  (* rem_dup sees only the ORDER of the flags *)
  Lemma rd_loop_flag_map (h : Z -> Z) (Hh : forall x y, (x < y)%Z <-> (h x < h y)%Z) rest :
    forall val f cur acc,
    rd_loop eqb val (h f) cur acc (map (fun e => (fst e, (fst (snd e), h (snd (snd e))))) rest)
    = rd_loop eqb val f cur acc rest.
  Proof.
    induction rest as [|[i [x fx]] t IH]; intros val f cur acc; [reflexivity|].
    cbn [map rd_loop fst snd]. destruct (eqb x val); [|apply IH].
    assert (E : (h f <? h fx)%Z = (f <? fx)%Z).
    { destruct (Z.ltb_spec f fx) as [L|G]; [apply Z.ltb_lt; apply (proj1 (Hh f fx)); exact L|].
      apply Z.ltb_ge. destruct (Z_lt_le_dec (h f) (h fx)) as [Lt|?]; [|assumption]. apply (proj2 (Hh f fx)) in Lt. lia. }
    rewrite E. destruct (f <? fx)%Z; apply IH.
  Qed.

  Theorem rem_dup_flag_order (h : Z -> Z) s a flag :
    (forall x y, (x < y)%Z <-> (h x < h y)%Z) ->
    rem_dup_with eqb s a (map h flag) = rem_dup_with eqb s a flag.
  Proof.
    intro Hh. unfold rem_dup_with. destruct (length a =? 1); [reflexivity|].
    unfold ogather. destruct (gather a s) as [sarr|]; [|reflexivity]. cbn [bind].
    rewrite gather_map. destruct (gather flag s) as [sflag|]; [|reflexivity]. cbn [option_map bind].
    assert (Ec : combine (seq 0 (length a)) (combine sarr (map h sflag))
                 = map (fun e => (fst e, (fst (snd e), h (snd (snd e))))) (combine (seq 0 (length a)) (combine sarr sflag))).
    { rewrite (combine_map_r h sarr sflag), (combine_map_r (fun p : A * Z => (fst p, h (snd p)))). reflexivity. }
    rewrite Ec. destruct (combine (seq 0 (length a)) (combine sarr sflag)) as [|[i0 [v0 f0]] rest]; [reflexivity|].
    cbn [map fst snd]. rewrite (rd_loop_flag_map h Hh). reflexivity.
  Qed.

  (* values= only decides what is done with the kept indices at the very end *)
  Lemma rem_dup_call_unfold s a flag v :
    rem_dup_call eqb s a flag v =
    if length a =? 1 then Ok (true, [0], if v then Some a else None)
    else do k <- rem_dup_with eqb s a flag;
         if v then do vals <- ogather a k; Ok (false, k, Some vals) else Ok (false, k, None).
  Proof.
    unfold rem_dup_call, rem_dup_values_with. destruct (length a =? 1); [reflexivity|].
    destruct v; [|reflexivity]. destruct (rem_dup_with eqb s a flag) as [k|e]; [|reflexivity].
    cbn [bind]. destruct (ogather a k); reflexivity.
  Qed.
End FlagOrder.

(* the code as found: unique([5,1,5]) = [0] although numpy's argsort is a sorting permutation *)
Lemma unique_as_found_refuted :
  exists s a keep, a <> [] /\ sorting_perm zltb s a
                   /\ unique_orig_with zeqb s a = Ok keep /\ ~ one_per_value a keep.
Proof.
  exists [1; 0; 2], [5; 1; 5]%Z, [0]. split; [discriminate|]. split; [|split].
  - apply (sorting_perm_check_sound _ zltb zeqb z_total_order). reflexivity.
  - reflexivity.
  - intros [_ [_ U]]. destruct (U 1%Z) as [k [[Hk Hv] _]]; [right; left; reflexivity|].
    destruct Hk as [E|[]]. subst k. discriminate.
Qed.
