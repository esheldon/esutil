(* C06 — [strict_asc], the order in which unique(values=True) returns the distinct values
   (DedupProofs.unique_values_with_ascending). *)
From Coq Require Import Sorting.Sorted.
From EsVerif.Common Require Import Base.

Section More.
  Variable A : Type.
  Variable ltb : A -> A -> bool.

  Definition strict_asc (l : list A) : Prop := StronglySorted (fun x y => ltb x y = true) l.
End More.
