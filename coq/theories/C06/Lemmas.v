(* C06 — list, order and permutation lemmas shared by the match and de-duplication proofs; the two
   element types the checks run at are decidable total orders. *)
From Coq Require Import Sorting.Permutation Sorting.Sorted Arith.
From EsVerif.Common Require Import Base.
From EsVerif.C06 Require Import Model Spec.
Local Open Scope nat_scope.

Lemma gather_Forall2 {B} (l : list B) idx r :
  gather l idx = Some r <-> Forall2 (fun i x => nth_error l i = Some x) idx r.
Proof.
  revert r; induction idx as [|i t IH]; intros r; simpl.
  - split; intro H.
    + inversion H; constructor.
    + inversion H; reflexivity.
  - destruct (nth_error l i) as [x|] eqn:E.
    + destruct (gather l t) as [r'|] eqn:G.
      * split; intro H.
        -- inversion H; subst. constructor; [exact E | apply IH; reflexivity].
        -- inversion H as [|? y ? r2 Hy Hr]; subst. apply IH in Hr. rewrite E in Hy.
           inversion Hy; subst. inversion Hr; subst. reflexivity.
      * split; intro H; [discriminate|].
        inversion H as [|? y ? r2 Hy Hr]; subst. apply IH in Hr. discriminate.
    + split; intro H; [discriminate|].
      inversion H as [|? y ? r2 Hy Hr]; subst. rewrite E in Hy. discriminate.
Qed.

Lemma Forall2_len {B C} (R : B -> C -> Prop) l l' : Forall2 R l l' -> length l = length l'.
Proof. induction 1; simpl; congruence. Qed.

Lemma gather_length {B} (l : list B) idx r : gather l idx = Some r -> length r = length idx.
Proof. intro H. apply gather_Forall2 in H. symmetry. eapply Forall2_len; eauto. Qed.

Lemma gather_map_nth {B} (l : list B) d idx :
  (forall i, In i idx -> i < length l) -> gather l idx = Some (map (fun i => nth i l d) idx).
Proof.
  induction idx as [|i t IH]; intro H; simpl; [reflexivity|].
  rewrite (nth_error_nth' l d) by (apply H; left; reflexivity).
  rewrite IH by (intros; apply H; right; assumption). reflexivity.
Qed.

Lemma gather_map_nth_f {B C} (l : list B) d (f : C -> nat) xs :
  (forall x, In x xs -> f x < length l) -> gather l (map f xs) = Some (map (fun x => nth (f x) l d) xs).
Proof.
  intro H. rewrite (gather_map_nth l d), map_map; [reflexivity|].
  intros i Hi. apply in_map_iff in Hi as [x [<- Hx]]. apply H. exact Hx.
Qed.

Lemma gather_bound {B} (l : list B) idx r : gather l idx = Some r -> forall i, In i idx -> i < length l.
Proof.
  intro H. apply gather_Forall2 in H. induction H as [|i x t r' Hx _ IH]; intros j Hin.
  - destruct Hin.
  - destruct Hin as [E|Hj]; subst.
    + apply nth_error_Some. congruence.
    + apply IH; assumption.
Qed.

Lemma gather_In {B} (l : list B) idx r : gather l idx = Some r -> forall x, In x r -> In x l.
Proof.
  intro H. apply gather_Forall2 in H. induction H as [|i y t r' Hy _ IH]; intros x Hx; [destruct Hx|].
  destruct Hx as [<-|Hx]; [eapply nth_error_In; exact Hy | apply IH; exact Hx].
Qed.

Lemma gather_seq_app {B} (p l : list B) : gather (p ++ l) (seq (length p) (length l)) = Some l.
Proof.
  revert p; induction l as [|x t IH]; intro p; simpl; [reflexivity|].
  rewrite nth_error_app2 by lia. rewrite Nat.sub_diag. simpl.
  specialize (IH (p ++ [x])). rewrite <- app_assoc in IH. simpl in IH.
  rewrite app_length in IH. simpl in IH. rewrite Nat.add_1_r in IH. rewrite IH. reflexivity.
Qed.

Lemma gather_seq {B} (l : list B) : gather l (seq 0 (length l)) = Some l.
Proof. exact (gather_seq_app [] l). Qed.

(* indexing the identity permutation returns the indices, and fails where indexing [l] fails *)
Lemma gather_iota {B} (l : list B) idx :
  gather (seq 0 (length l)) idx = match gather l idx with Some _ => Some idx | None => None end.
Proof.
  induction idx as [|i t IH]; simpl; [reflexivity|]. rewrite IH.
  destruct (nth_error l i) as [x|] eqn:E.
  - assert (Hi : i < length l) by (apply nth_error_Some; congruence).
    rewrite (nth_error_nth' _ 0) by (rewrite seq_length; exact Hi). rewrite seq_nth by exact Hi.
    destruct (gather l t); reflexivity.
  - apply nth_error_None in E. rewrite <- (seq_length (length l) 0) in E.
    apply nth_error_None in E. rewrite E. reflexivity.
Qed.

Lemma Forall2_combine_In {B C} (R : B -> C -> Prop) l l' x y :
  Forall2 R l l' -> In (x, y) (combine l l') -> R x y.
Proof.
  induction 1 as [|a b t t' Hab _ IH]; simpl; [tauto|].
  intros [E|H]; [inversion E; subst; assumption | auto].
Qed.

Lemma Forall2_In_l {B C} (R : B -> C -> Prop) l l' x :
  Forall2 R l l' -> In x l -> exists y, R x y /\ In (x, y) (combine l l').
Proof.
  induction 1 as [|a b t t' Hab _ IH]; simpl; [tauto|].
  intros [E|H]; [subst; exists b; auto|].
  destruct (IH H) as [y [Hy Hin]]. exists y; auto.
Qed.

Lemma Forall2_nth_error_r {B C} (R : B -> C -> Prop) l l' p y :
  Forall2 R l l' -> nth_error l' p = Some y -> exists x, nth_error l p = Some x /\ R x y.
Proof.
  intro H; revert p; induction H as [|a b t t' Hab _ IH]; intros [|p] E; simpl in *; try discriminate.
  - inversion E; subst. exists a; auto.
  - apply IH; assumption.
Qed.

Lemma Forall2_map_map {B C D} (R : C -> D -> Prop) (f : B -> C) (g : B -> D) l :
  (forall e, In e l -> R (f e) (g e)) -> Forall2 R (map f l) (map g l).
Proof.
  induction l as [|x t IH]; intro H; simpl; constructor.
  - apply H; left; reflexivity.
  - apply IH; intros; apply H; right; assumption.
Qed.

Lemma map_fst_combine {B C} (l : list B) (l' : list C) : length l = length l' -> map fst (combine l l') = l.
Proof. revert l'; induction l as [|x t IH]; intros [|y t'] H; simpl in *; try discriminate; [reflexivity|]. f_equal. apply IH. lia. Qed.

Lemma map_snd_combine {B C} (l : list B) (l' : list C) : length l = length l' -> map snd (combine l l') = l'.
Proof. revert l'; induction l as [|x t IH]; intros [|y t'] H; simpl in *; try discriminate; [reflexivity|]. f_equal. apply IH. lia. Qed.

Lemma map_nth_seq {B} (l : list B) d : map (fun p => nth p l d) (seq 0 (length l)) = l.
Proof.
  assert (G := gather_seq l). rewrite (gather_map_nth l d) in G; [congruence|].
  intros i Hi. apply in_seq in Hi. lia.
Qed.

(* a gather through a permutation of all indices is a permutation of the array *)
Lemma gather_perm {B} (l : list B) idx r :
  Permutation idx (seq 0 (length l)) -> gather l idx = Some r -> Permutation r l.
Proof.
  intros P G. destruct l as [|d t].
  - simpl in P. apply Permutation_sym, Permutation_nil in P. subst. simpl in G. inversion G. constructor.
  - remember (d :: t) as l eqn:El. clear El t.
    assert (Hb : forall i, In i idx -> i < length l).
    { intros i Hi. apply (Permutation_in _ P) in Hi. apply in_seq in Hi. lia. }
    rewrite (gather_map_nth l d idx Hb) in G.
    assert (Er : map (fun i => nth i l d) idx = r) by congruence. subst r.
    eapply Permutation_trans; [apply Permutation_map; exact P | rewrite map_nth_seq; apply Permutation_refl].
Qed.

Lemma where_from_S k m : where_from (S k) m = map S (where_from k m).
Proof. revert k; induction m as [|b t IH]; intro k; simpl; [reflexivity|]. rewrite IH. destruct b; reflexivity. Qed.

Lemma where_from_ge k m j : In j (where_from k m) -> k <= j.
Proof.
  revert k; induction m as [|b t IH]; intro k; simpl; [tauto|].
  destruct b; [intros [<-|H]; [apply Nat.le_refl|] | intro H]; apply IH in H; lia.
Qed.

Lemma where_from_sorted k m : StronglySorted lt (where_from k m).
Proof.
  revert k; induction m as [|b t IH]; intro k; simpl; [constructor|].
  destruct b; [|apply IH]. constructor; [apply IH|].
  apply Forall_forall. intros j Hj. apply where_from_ge in Hj. exact Hj.
Qed.

Lemma where_In m j : In j (where_ m) <-> nth_error m j = Some true.
Proof.
  unfold where_. revert j; induction m as [|b t IH]; intro j; simpl.
  - split; [tauto | destruct j; discriminate].
  - assert (HS : forall i, In (S i) (map S (where_from 0 t)) <-> In i (where_from 0 t)).
    { intro i. rewrite in_map_iff. split; [intros [y [E H]]; injection E as ->; exact H | intro H; exists i; auto]. }
    assert (H0 : ~ In 0 (map S (where_from 0 t))) by (rewrite in_map_iff; intros [y [E _]]; discriminate).
    rewrite where_from_S. destruct j as [|j]; simpl.
    + destruct b; simpl; split; auto; [contradiction | discriminate].
    + rewrite <- IH, <- HS. destruct b; simpl; [|tauto]. split; [intros [E|H]; [discriminate | exact H] | auto].
Qed.

Lemma gather_cons_S {B} (x : B) l idx : gather (x :: l) (map S idx) = gather l idx.
Proof. induction idx as [|i t IH]; simpl; [reflexivity|]. rewrite IH. reflexivity. Qed.

(* selecting by a mask is filtering *)
Lemma gather_where {B C} (f : B -> C) (p : B -> bool) l :
  gather (map f l) (where_ (map p l)) = Some (map f (filter p l)).
Proof.
  unfold where_. induction l as [|x t IH]; simpl; [reflexivity|].
  rewrite where_from_S. destruct (p x); simpl; rewrite gather_cons_S, IH; reflexivity.
Qed.

Lemma Forall2_filter_where {B C} (R : C -> nat -> Prop) (f : B -> C) (p : B -> bool) l : forall k,
  (forall j v, nth_error l j = Some v -> p v = true -> R (f v) (k + j)) ->
  Forall2 R (map f (filter p l)) (where_from k (map p l)).
Proof.
  induction l as [|x t IH]; intros k H; simpl; [constructor|].
  assert (Ht : Forall2 R (map f (filter p t)) (where_from (S k) (map p t))).
  { apply IH. intros j v Hj Hp. rewrite Nat.add_succ_l, <- Nat.add_succ_r. apply (H (S j)); assumption. }
  destruct (p x) eqn:E; [|exact Ht]. constructor; [|exact Ht].
  rewrite <- (Nat.add_0_r k). apply (H 0); [reflexivity | exact E].
Qed.

(* a strictly sorted list is determined by its elements *)
Lemma ssorted_ext {B} (R : B -> B -> Prop) l l' :
  (forall x y, R x y -> R y x -> False) ->
  StronglySorted R l -> StronglySorted R l' -> (forall x, In x l <-> In x l') -> l = l'.
Proof.
  intros As H; revert l'; induction H as [|x t Ht IH Hx]; intros l' H' E.
  - destruct l' as [|y t']; [reflexivity|]. exfalso. apply (E y). left; reflexivity.
  - destruct l' as [|y t']; [exfalso; apply (E x); left; reflexivity|].
    apply StronglySorted_inv in H' as [Ht' Hy].
    rewrite Forall_forall in Hx, Hy.
    assert (x = y).
    { destruct (proj1 (E x) (or_introl eq_refl)) as [E1|I1]; [congruence|].
      destruct (proj2 (E y) (or_introl eq_refl)) as [E2|I2]; [congruence|].
      exfalso. exact (As _ _ (Hx _ I2) (Hy _ I1)). }
    subst y. f_equal. apply IH; [assumption|].
    intro z; split; intro Hz.
    + destruct (proj1 (E z) (or_intror Hz)) as [E1|I1]; [|assumption].
      subst z. exfalso. exact (As _ _ (Hx _ Hz) (Hx _ Hz)).
    + destruct (proj2 (E z) (or_intror Hz)) as [E1|I1]; [|assumption].
      subst z. exfalso. exact (As _ _ (Hy _ Hz) (Hy _ Hz)).
Qed.

Lemma ascending_b_sorted l : ascending_b l = true -> StronglySorted lt l.
Proof.
  intro H. apply Sorted_StronglySorted; [intros a b c; apply Nat.lt_trans|].
  induction l as [|x t IH]; [constructor|]. simpl in H. apply andb_true_iff in H as [H1 H2].
  constructor; [apply IH; exact H2|]. destruct t as [|y t']; constructor. apply Nat.ltb_lt. exact H1.
Qed.

Lemma sorted_ascending_b l : StronglySorted lt l -> ascending_b l = true.
Proof.
  induction 1 as [|x t Ht IH Hx]; [reflexivity|]. simpl. rewrite IH, andb_true_r.
  destruct t as [|y t']; [reflexivity|]. apply Nat.ltb_lt. inversion Hx; assumption.
Qed.

Lemma ins_nat_perm x l : Permutation (x :: l) (ins_nat x l).
Proof.
  induction l as [|h t IH]; simpl; [apply Permutation_refl|].
  destruct (x <=? h); [apply Permutation_refl|].
  eapply Permutation_trans; [apply perm_swap|]. apply perm_skip. exact IH.
Qed.

(* insertion sort permutes, whatever the insertion compares *)
Lemma fold_insert_perm {B} (ins : B -> list B -> list B) :
  (forall x l, Permutation (x :: l) (ins x l)) -> forall l, Permutation l (fold_right ins [] l).
Proof.
  intros Hins l. induction l as [|x t IH]; simpl; [constructor|].
  eapply Permutation_trans; [apply perm_skip; exact IH | apply Hins].
Qed.

Lemma sort_nat_perm l : Permutation l (sort_nat l).
Proof. exact (fold_insert_perm ins_nat ins_nat_perm l). Qed.

Lemma filter_all {B} (f : B -> bool) l : (forall x, In x l -> f x = true) -> filter f l = l.
Proof.
  induction l as [|x t IH]; intro H; simpl; [reflexivity|].
  rewrite (H x) by (left; reflexivity). f_equal. apply IH. intros; apply H; right; assumption.
Qed.

Lemma filter_none {B} (f : B -> bool) l : (forall x, In x l -> f x = false) -> filter f l = [].
Proof.
  induction l as [|x t IH]; intro H; simpl; [reflexivity|].
  rewrite (H x) by (left; reflexivity). apply IH. intros; apply H; right; assumption.
Qed.

Lemma filter_len_le {B} (f : B -> bool) l : length (filter f l) <= length l.
Proof. induction l as [|x t IH]; simpl; [lia|]. destruct (f x); simpl; lia. Qed.

Lemma filter_len_lt {B} (f : B -> bool) l m : In m l -> f m = false -> length (filter f l) < length l.
Proof.
  induction l as [|x t IH]; simpl; [tauto|]. intros [E|H] Hm.
  - subst. rewrite Hm. pose proof (filter_len_le f t). lia.
  - specialize (IH H Hm). destruct (f x); simpl; lia.
Qed.

Lemma filter_len_sub {B} (f g : B -> bool) l :
  (forall y, In y l -> f y = true -> g y = true) -> length (filter f l) <= length (filter g l).
Proof.
  induction l as [|y t IH]; intro H; [apply Nat.le_refl|]. cbn [filter].
  assert (IH' : length (filter f t) <= length (filter g t)) by (apply IH; intros; apply H; [right|]; assumption).
  destruct (f y) eqn:Ef.
  - rewrite (H y (or_introl eq_refl) Ef). cbn [length]. lia.
  - destruct (g y); cbn [length]; lia.
Qed.

Lemma ssorted_app_mid {B} (R : B -> B -> Prop) l1 x l2 :
  StronglySorted R (l1 ++ x :: l2) -> (forall y, In y l1 -> R y x) /\ (forall y, In y l2 -> R x y).
Proof.
  induction l1 as [|a t IH]; simpl; intro H.
  - apply StronglySorted_inv in H as [_ H]. rewrite Forall_forall in H. split; [tauto|exact H].
  - apply StronglySorted_inv in H as [H1 H2]. rewrite Forall_forall in H2.
    destruct (IH H1) as [I1 I2]. split; [|exact I2].
    intros y [E|Hy]; [subst; apply H2; apply in_or_app; right; left; reflexivity | apply I1; exact Hy].
Qed.

Lemma ssorted_app_l {B} (R : B -> B -> Prop) l1 l2 : StronglySorted R (l1 ++ l2) -> StronglySorted R l1.
Proof.
  induction l1 as [|a t IH]; simpl; intro H; [constructor|].
  apply StronglySorted_inv in H as [H1 H2]. constructor; [apply IH; exact H1|].
  rewrite Forall_forall in *. intros y Hy. apply H2. apply in_or_app; left; exact Hy.
Qed.

Lemma combine_seq_In {B} (l : list B) k j x :
  In (j, x) (combine (seq k (length l)) l) <-> k <= j /\ nth_error l (j - k) = Some x.
Proof.
  revert k; induction l as [|y t IH]; intro k; simpl.
  - split; [tauto|]. intros [_ H]. destruct (j - k); discriminate.
  - rewrite IH. split.
    + intros [E|[H1 H2]].
      * inversion E; subst. rewrite Nat.sub_diag. simpl. split; [lia|reflexivity].
      * split; [lia|]. replace (j - k) with (S (j - S k)) by lia. exact H2.
    + intros [H1 H2]. destruct (Nat.eq_dec k j) as [E|NE].
      * subst. rewrite Nat.sub_diag in H2. simpl in H2. inversion H2; subst. left; reflexivity.
      * right. split; [lia|]. replace (j - k) with (S (j - S k)) in H2 by lia. exact H2.
Qed.

Lemma NoDup_map_In_inj {B C} (f : B -> C) l x y :
  NoDup (map f l) -> In x l -> In y l -> f x = f y -> x = y.
Proof.
  induction l as [|z t IH]; simpl; [tauto|]. intros N Hx Hy E. apply NoDup_cons_iff in N as [N1 N2].
  destruct Hx as [Ex|Hx], Hy as [Ey|Hy]; subst.
  - reflexivity.
  - exfalso. apply N1. rewrite E. apply in_map. exact Hy.
  - exfalso. apply N1. rewrite <- E. apply in_map. exact Hx.
  - apply IH; assumption.
Qed.

Lemma NoDup_map_inj_in {B C} (f : B -> C) l :
  NoDup l -> (forall x y, In x l -> In y l -> f x = f y -> x = y) -> NoDup (map f l).
Proof.
  induction 1 as [|x t Hx Ht IH]; intro Inj; simpl; constructor.
  - intro Hin. apply in_map_iff in Hin as [y [E Hy]]. apply Hx.
    rewrite (Inj x y); [exact Hy | left; reflexivity | right; exact Hy | symmetry; exact E].
  - apply IH. intros a b Ha Hb. apply Inj; right; assumption.
Qed.

Lemma combine_map_l {B C D} (h : B -> D) (l : list B) (l' : list C) :
  combine (map h l) l' = map (fun e => (h (fst e), snd e)) (combine l l').
Proof. revert l'; induction l as [|x t IH]; intros [|y t']; simpl; try reflexivity. f_equal. apply IH. Qed.

Lemma Forall2_pair {B C D} (R : B -> C -> Prop) (R' : B -> D -> Prop) l l1 : forall l2,
  Forall2 R l l1 -> Forall2 R' l l2 -> Forall2 (fun x z => R x (fst z) /\ R' x (snd z)) l (combine l1 l2).
Proof.
  intros l2 F. revert l2. induction F as [|x y t t1 Hxy _ IH]; intros l2 F'; inversion F'; subst; cbn [combine].
  - constructor.
  - constructor; [split; assumption | apply IH; assumption].
Qed.

Lemma combine_map_r {B C D} (g : C -> D) (l : list B) : forall l' : list C,
  combine l (map g l') = map (fun p => (fst p, g (snd p))) (combine l l').
Proof. induction l as [|x t IH]; intros [|y t']; cbn; try reflexivity. f_equal. apply IH. Qed.

Lemma gather_map {B C} (h : B -> C) l idx : gather (map h l) idx = option_map (map h) (gather l idx).
Proof.
  induction idx as [|i t IH]; [reflexivity|]. cbn [gather]. rewrite nth_error_map, IH.
  destruct (nth_error l i); [|reflexivity]. destruct (gather l t); reflexivity.
Qed.

(* entries numbered by position, relabelled through s, are the entries labelled by s *)
Lemma combine_seq_relabel {C} (s : list nat) (zs : list C) :
  map (fun e => (nth (fst e) s 0, snd e)) (combine (seq 0 (length s)) zs) = combine s zs.
Proof. rewrite <- (combine_map_l (fun p => nth p s 0)), map_nth_seq. reflexivity. Qed.

Lemma ssorted_map {B C} (R : C -> C -> Prop) (f : B -> C) l :
  StronglySorted (fun x y => R (f x) (f y)) l -> StronglySorted R (map f l).
Proof.
  induction 1 as [|x t Ht IH Hx]; simpl; constructor; [exact IH|].
  rewrite Forall_forall in *. intros y Hy. apply in_map_iff in Hy as [z [E Hz]]. subst y. apply Hx; exact Hz.
Qed.

Lemma Forall2_In_r_ex {B C} (R : B -> C -> Prop) l l' :
  Forall2 R l l' -> forall y, In y l' -> exists x, In (x, y) (combine l l').
Proof.
  induction 1 as [|a b t t' H _ IH]; intros y; cbn [combine In]; [tauto|].
  intros [E|I]; [subst; exists a; left; reflexivity|]. destruct (IH y I) as [x Hx]. exists x. right; exact Hx.
Qed.

Lemma filter_len_eq_pointwise {B} (f g : B -> bool) l :
  (forall y, In y l -> f y = true -> g y = true) ->
  length (filter f l) = length (filter g l) -> forall y, In y l -> f y = g y.
Proof.
  induction l as [|z t IH]; intros Hs E y Hy; [destruct Hy|].
  assert (Hs' : forall y, In y t -> f y = true -> g y = true) by (intros; apply Hs; [right|]; assumption).
  pose proof (filter_len_sub f g t Hs') as Le.
  cbn [filter] in E. destruct (f z) eqn:Ef.
  - rewrite (Hs z (or_introl eq_refl) Ef) in E. cbn [length] in E.
    destruct Hy as [->|Hy]; [rewrite Ef; symmetry; apply Hs; [left; reflexivity | exact Ef] | apply IH; auto; lia].
  - destruct (g z) eqn:Eg; cbn [length] in E; [lia|].
    destruct Hy as [->|Hy]; [congruence | apply IH; auto].
Qed.

Lemma ssorted_NoDup {B} (R : B -> B -> Prop) l : (forall x, ~ R x x) -> StronglySorted R l -> NoDup l.
Proof.
  intros Irr H. induction H as [|x t _ IH Hx]; constructor; [|exact IH].
  intro Hin. rewrite Forall_forall in Hx. exact (Irr x (Hx x Hin)).
Qed.

Lemma In_combine_nth {B C} (l : list B) (l' : list C) x y :
  In (x, y) (combine l l') <-> exists j, nth_error l j = Some x /\ nth_error l' j = Some y.
Proof.
  split.
  - revert l'; induction l as [|b t IH]; intros [|c t']; simpl; try tauto.
    intros [E|H]; [inversion E; subst; exists 0; auto|].
    destruct (IH _ H) as [j Hj]. exists (S j). exact Hj.
  - intros [j [H1 H2]]. revert j l' H1 H2.
    induction l as [|b t IH]; intros [|j] [|c t'] H1 H2; simpl in *; try discriminate.
    + inversion H1; inversion H2; subst. left; reflexivity.
    + right. eapply IH; eauto.
Qed.

(* what holds of any comparison, order or not *)
Section Counting.
  Variable A : Type.
  Variable ltb : A -> A -> bool.

  Lemma count_lt_le l v : count_lt ltb l v <= length l.
  Proof. apply filter_len_le. Qed.

  Lemma count_lt_lt l v m : In m l -> ltb m v = false -> count_lt ltb l v < length l.
  Proof. intros. eapply filter_len_lt; eauto. Qed.

  Lemma sorting_perm_facts s a :
    sorting_perm ltb s a ->
    length s = length a /\ NoDup s /\ (forall i, In i s <-> i < length a).
  Proof.
    intros [P _]. split; [|split].
    - rewrite (Permutation_length P). apply seq_length.
    - apply (Permutation_NoDup (Permutation_sym P)). apply seq_NoDup.
    - intro i. split; intro H.
      + apply (Permutation_in _ P) in H. apply in_seq in H. lia.
      + apply (Permutation_in _ (Permutation_sym P)). apply in_seq. lia.
  Qed.
End Counting.

Lemma mem_nat_In x l : mem_nat x l = true <-> In x l.
Proof.
  unfold mem_nat. rewrite existsb_exists. split.
  - intros [y [Hy E]]. apply Nat.eqb_eq in E. subst; exact Hy.
  - intro H. exists x; split; [exact H | apply Nat.eqb_refl].
Qed.

Lemma nodup_nat_b_NoDup l : nodup_nat_b l = true -> NoDup l.
Proof.
  induction l as [|x t IH]; simpl; intro H; [constructor|].
  apply andb_true_iff in H as [H1 H2]. constructor; [|apply IH; exact H2].
  intro Hin. apply mem_nat_In in Hin. rewrite Hin in H1. discriminate.
Qed.

Section Order.
  Variable A : Type.
  Variable ltb eqb : A -> A -> bool.
  Hypothesis TO : total_order ltb eqb.

  Lemma eqb_refl x : eqb x x = true.
  Proof. apply (to_eqb _ _ _ TO). reflexivity. Qed.

  Lemma eqb_false_neq x y : eqb x y = false -> x <> y.
  Proof. intros H E. subst. rewrite eqb_refl in H. discriminate. Qed.

  Lemma ltb_asym x y : ltb x y = true -> ltb y x = false.
  Proof.
    intro H. destruct (ltb y x) eqn:E; [|reflexivity].
    pose proof (to_trans _ _ _ TO _ _ _ H E) as T. rewrite (to_irrefl _ _ _ TO) in T. discriminate.
  Qed.

  (* le x y is written  ltb y x = false *)
  Lemma le_trans x y z : ltb y x = false -> ltb z y = false -> ltb z x = false.
  Proof.
    intros H1 H2. destruct (ltb z x) eqn:E; [|reflexivity]. exfalso.
    destruct (ltb y z) eqn:E2.
    - pose proof (to_trans _ _ _ TO _ _ _ E2 E) as T. congruence.
    - pose proof (to_total _ _ _ TO _ _ E2 H2). subst. congruence.
  Qed.

  Lemma lt_of_le_neq x y : ltb y x = false -> x <> y -> ltb x y = true.
  Proof.
    intros H N. destruct (ltb x y) eqn:E; [reflexivity|]. exfalso. apply N.
    apply (to_total _ _ _ TO); assumption.
  Qed.

  Lemma memb_In x l : memb eqb x l = true <-> In x l.
  Proof.
    unfold memb. rewrite existsb_exists. split.
    - intros [y [Hy E]]. apply (to_eqb _ _ _ TO) in E. subst. exact Hy.
    - intro H. exists x. split; [exact H | apply eqb_refl].
  Qed.

  Lemma nodupb_NoDup l : nodupb eqb l = true <-> NoDup l.
  Proof.
    induction l as [|x t IH]; simpl.
    - split; [constructor | reflexivity].
    - rewrite andb_true_iff, negb_true_iff, IH, NoDup_cons_iff. split.
      + intros [H1 H2]. split; [|exact H2]. intro Hin. apply memb_In in Hin. congruence.
      + intros [H1 H2]. split; [|exact H2]. destruct (memb eqb x t) eqn:E; [|reflexivity].
        apply memb_In in E. contradiction.
  Qed.

  Lemma sorted_b_sorted l : sorted_b ltb l = true -> sorted ltb l.
  Proof.
    intro H. apply Sorted_StronglySorted.
    - intros a b c Hab Hbc. eapply le_trans; eassumption.
    - induction l as [|x t IH]; [constructor|]. simpl in H. apply andb_true_iff in H as [H1 H2].
      constructor; [apply IH; exact H2|]. destruct t as [|y t']; constructor.
      apply negb_true_iff. exact H1.
  Qed.

  (* searchsorted-left of a member of a strictly sorted array is its position *)
  Lemma count_lt_split l1 v l2 :
    sorted ltb (l1 ++ v :: l2) -> NoDup (l1 ++ v :: l2) -> count_lt ltb (l1 ++ v :: l2) v = length l1.
  Proof.
    intros S N. unfold count_lt. destruct (ssorted_app_mid _ _ _ _ S) as [H1 H2].
    rewrite filter_app. simpl. rewrite (to_irrefl _ _ _ TO).
    rewrite filter_all, filter_none.
    - rewrite app_nil_r. reflexivity.
    - intros y Hy. apply H2. exact Hy.
    - intros y Hy. apply lt_of_le_neq; [apply H1; exact Hy|].
      intro E; subst y. apply NoDup_remove_2 in N. apply N. apply in_or_app; left; exact Hy.
  Qed.

  Lemma count_lt_found l v : NoDup l -> sorted ltb l -> In v l -> nth_error l (count_lt ltb l v) = Some v.
  Proof.
    intros N S Hin. destruct (in_split _ _ Hin) as [l1 [l2 ->]]. rewrite count_lt_split by assumption.
    rewrite nth_error_app2, Nat.sub_diag by apply Nat.le_refl. reflexivity.
  Qed.

  Lemma maxl_spec l d :
    In (maxl ltb d l) (d :: l) /\ forall x, In x (d :: l) -> ltb (maxl ltb d l) x = false.
  Proof.
    unfold maxl. revert d; induction l as [|y t IH]; intro d; simpl.
    - split; [left; reflexivity|]. intros x [E|[]]. subst. apply (to_irrefl _ _ _ TO).
    - destruct (IH (if ltb d y then y else d)) as [I1 I2].
      set (m := if ltb d y then y else d) in *.
      assert (Hd : ltb m d = false).
      { unfold m. destruct (ltb d y) eqn:E; [apply ltb_asym; exact E | apply (to_irrefl _ _ _ TO)]. }
      assert (Hy : ltb m y = false).
      { unfold m. destruct (ltb d y) eqn:E; [apply (to_irrefl _ _ _ TO) | exact E]. }
      split.
      + destruct I1 as [E|I1]; [|right; right; exact I1].
        rewrite <- E. unfold m. destruct (ltb d y); [right; left|left]; reflexivity.
      + intros x [E|[E|Hx]].
        * subst x. eapply le_trans; [exact Hd | apply I2; left; reflexivity].
        * subst x. eapply le_trans; [exact Hy | apply I2; left; reflexivity].
        * apply I2. right. exact Hx.
  Qed.

  Lemma sorting_perm_check_sound s a : sorting_perm_check ltb s a = true -> sorting_perm ltb s a.
  Proof.
    unfold sorting_perm_check. intro H.
    apply andb_true_iff in H as [H H4]. apply andb_true_iff in H as [H H3].
    apply andb_true_iff in H as [H1 H2]. apply Nat.eqb_eq in H1.
    split.
    - apply NoDup_Permutation_bis.
      + apply nodup_nat_b_NoDup. exact H3.
      + rewrite seq_length. lia.
      + intros i Hi. rewrite forallb_forall in H2. apply H2 in Hi. apply Nat.ltb_lt in Hi.
        apply in_seq. lia.
    - destruct (gather a s) as [v|]; [|discriminate]. exists v. split; [reflexivity|].
      apply sorted_b_sorted. exact H4.
  Qed.
End Order.

(* the element types the checks run at *)
Lemma z_total_order : total_order zltb zeqb.
Proof.
  unfold zltb, zeqb. constructor.
  - intros x y. apply Z.eqb_eq.
  - intro x. apply Z.ltb_irrefl.
  - intros x y z H1 H2. apply Z.ltb_lt in H1, H2. apply Z.ltb_lt. lia.
  - intros x y H1 H2. apply Z.ltb_ge in H1, H2. lia.
Qed.

Lemma lex_irrefl x : lex_ltb x x = false.
Proof. induction x as [|a s IH]; simpl; [reflexivity|]. rewrite Z.ltb_irrefl, Z.eqb_refl, IH. reflexivity. Qed.

Lemma lex_trans x : forall y z, lex_ltb x y = true -> lex_ltb y z = true -> lex_ltb x z = true.
Proof.
  induction x as [|a s IH]; intros [|b t] [|c u]; simpl; intros H1 H2; try discriminate; try reflexivity.
  apply orb_true_iff in H1. apply orb_true_iff in H2. apply orb_true_iff.
  destruct H1 as [H1|H1], H2 as [H2|H2].
  - left. apply Z.ltb_lt in H1, H2. apply Z.ltb_lt. lia.
  - apply andb_true_iff in H2 as [H2 _]. apply Z.eqb_eq in H2. subst. left; exact H1.
  - apply andb_true_iff in H1 as [H1 _]. apply Z.eqb_eq in H1. subst. left; exact H2.
  - apply andb_true_iff in H1 as [H1 H1']. apply andb_true_iff in H2 as [H2 H2'].
    apply Z.eqb_eq in H1, H2. subst. right. rewrite Z.eqb_refl. simpl. eapply IH; eauto.
Qed.

Lemma lex_total x : forall y, lex_ltb x y = false -> lex_ltb y x = false -> x = y.
Proof.
  induction x as [|a s IH]; intros [|b t]; simpl; intros H1 H2; try discriminate; try reflexivity.
  apply orb_false_iff in H1 as [H1 H1']. apply orb_false_iff in H2 as [H2 H2'].
  apply Z.ltb_ge in H1, H2. assert (a = b) by lia. subst b.
  rewrite Z.eqb_refl in H1', H2'. simpl in H1', H2'. f_equal. apply IH; assumption.
Qed.

Lemma lex_total_order : total_order lex_ltb lex_eqb.
Proof.
  constructor.
  - intros x y. unfold lex_eqb. apply list_eqb_spec. intros; apply Z.eqb_eq.
  - apply lex_irrefl.
  - intros x y z. apply lex_trans.
  - intros x y. apply lex_total.
Qed.
