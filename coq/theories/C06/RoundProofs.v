(* C06 — Model.round53 (round to nearest, ties to even, 53 significant bits): shape, the binade
   it stays in, oddness, monotonicity.  Pure integer arithmetic. *)
From Coq Require Import ZArith Lia Bool.
From EsVerif.Common Require Import Base.
From EsVerif.C06 Require Import Model.
Local Open Scope Z_scope.

(* round a >= 0 to a multiple of p (p even, > 0), ties to the even quotient *)
Definition rne (p a : Z) : Z :=
  let q := a / p in let r := a mod p in let h := p / 2 in
  (if (h <? r) || ((r =? h) && Z.odd q) then q + 1 else q) * p.

Lemma rne_between p a : 0 < p -> (a / p) * p <= rne p a <= (a / p + 1) * p.
Proof. intro Hp. unfold rne. destruct ((p / 2 <? a mod p) || ((a mod p =? p / 2) && Z.odd (a / p))); nia. Qed.

Lemma rne_mono p a b : 0 < p -> 0 <= a <= b -> rne p a <= rne p b.
Proof.
  intros Hp Hab.
  assert (Qle : a / p <= b / p) by (apply Z.div_le_mono; lia).
  destruct (Z.eq_dec (a / p) (b / p)) as [E|NE].
  - assert (Rle : a mod p <= b mod p).
    { pose proof (Z.div_mod a p ltac:(lia)). pose proof (Z.div_mod b p ltac:(lia)). nia. }
    unfold rne. rewrite <- E.
    destruct ((p / 2 <? a mod p) || ((a mod p =? p / 2) && Z.odd (a / p))) eqn:Ua; [|
      destruct ((p / 2 <? b mod p) || ((b mod p =? p / 2) && Z.odd (a / p))); nia].
    assert (Ub : (p / 2 <? b mod p) || ((b mod p =? p / 2) && Z.odd (a / p)) = true).
    { apply orb_true_iff in Ua. apply orb_true_iff. destruct Ua as [U|U].
      - left. apply Z.ltb_lt in U. apply Z.ltb_lt. lia.
      - apply andb_true_iff in U as [U1 U2]. apply Z.eqb_eq in U1.
        destruct (Z.eq_dec (b mod p) (p / 2)) as [Eb|Nb].
        + right. rewrite Eb, Z.eqb_refl, U2. reflexivity.
        + left. apply Z.ltb_lt. lia. }
    rewrite Ub. lia.
  - pose proof (rne_between p a Hp). pose proof (rne_between p b Hp). nia.
Qed.

Lemma round53_small x : Z.abs x < 2 ^ 53 -> round53 x = x.
Proof. intro H. unfold round53. apply Z.ltb_lt in H. rewrite H. reflexivity. Qed.

(* shape above 2^53: with e = log2 a - 52 >= 1 and p = 2^e, the result is rne p a, and
   2^52 p <= a < 2^53 p *)
Lemma round53_big a : 2 ^ 53 <= a ->
  let e := Z.log2 a - 52 in
  1 <= e /\ round53 a = rne (2 ^ e) a /\ 2 ^ 52 * 2 ^ e <= a < 2 ^ 53 * 2 ^ e.
Proof.
  intros Ha e.
  assert (Pa : 0 < a) by (pose proof (Z.pow_pos_nonneg 2 53); lia).
  assert (L : 53 <= Z.log2 a).
  { apply Z.log2_le_pow2; [exact Pa | exact Ha]. }
  destruct (Z.log2_spec a Pa) as [Lo Hi].
  split; [unfold e; lia|]. split.
  - unfold round53. rewrite (Z.abs_eq a) by lia.
    destruct (a <? 2 ^ 53) eqn:E; [apply Z.ltb_lt in E; lia|].
    fold e. unfold rne. rewrite (Z.sgn_pos a Pa). cbv zeta. lia.
  - unfold e. rewrite <- !Z.pow_add_r by lia.
    replace (52 + (Z.log2 a - 52)) with (Z.log2 a) by lia.
    replace (53 + (Z.log2 a - 52)) with (Z.succ (Z.log2 a)) by lia. lia.
Qed.

Lemma round53_neg x : round53 (- x) = - round53 x.
Proof.
  unfold round53. rewrite Z.abs_opp, Z.sgn_opp.
  destruct (Z.abs x <? 2 ^ 53); [reflexivity|]. cbv zeta. lia.
Qed.

(* above 2^53 the result stays in the binade of its argument: 2^52 p <= round53 a <= 2^53 p *)
Lemma round53_range a : 2 ^ 53 <= a ->
  let p := 2 ^ (Z.log2 a - 52) in 2 <= p /\ 2 ^ 52 * p <= round53 a <= 2 ^ 53 * p.
Proof.
  intros Ha p. destruct (round53_big a Ha) as (He & -> & Lo & Hi). fold p in Lo, Hi |- *.
  assert (Two : 2 <= p) by (change 2 with (2 ^ 1) at 1; apply Z.pow_le_mono_r; lia).
  pose proof (rne_between p a ltac:(lia)) as B.
  assert (Q : 2 ^ 52 <= a / p < 2 ^ 53).
  { split; [apply Z.div_le_lower_bound | apply Z.div_lt_upper_bound]; lia. }
  split; [exact Two|]. split.
  - transitivity (a / p * p); [apply Z.mul_le_mono_nonneg_r; lia | apply B].
  - transitivity ((a / p + 1) * p); [apply B | apply Z.mul_le_mono_nonneg_r; lia].
Qed.

Lemma round53_nonneg a : 0 <= a -> 0 <= round53 a.
Proof.
  intro Ha. destruct (Z_lt_le_dec a (2 ^ 53)) as [S|B].
  - rewrite round53_small; [exact Ha | rewrite Z.abs_eq; lia].
  - destruct (round53_range a B) as (Two & Lo & _). lia.
Qed.

Lemma round53_mono_nonneg a b : 0 <= a <= b -> round53 a <= round53 b.
Proof.
  intros Hab.
  destruct (Z_lt_le_dec b (2 ^ 53)) as [Sb|Bb].
  - rewrite !round53_small by (rewrite Z.abs_eq; lia). lia.
  - destruct (round53_range b Bb) as (Twob & Lob & _).
    destruct (Z_lt_le_dec a (2 ^ 53)) as [Sa|Ba].
    + rewrite (round53_small a) by (rewrite Z.abs_eq; lia). lia.
    + destruct (Z.eq_dec (Z.log2 a) (Z.log2 b)) as [El|Nl].
      * (* same binade: the same spacing on both sides *)
        destruct (round53_big a Ba) as (_ & -> & _). destruct (round53_big b Bb) as (He & -> & _).
        rewrite El. apply rne_mono; [apply Z.pow_pos_nonneg; lia | lia].
      * (* a lower binade: round53 a <= 2^53 pa = 2^52 (2 pa) <= 2^52 pb <= round53 b *)
        destruct (round53_range a Ba) as (Twoa & _ & Hia).
        destruct (round53_big a Ba) as (Hea & _).
        assert (Lab : Z.log2 a < Z.log2 b) by (pose proof (Z.log2_le_mono a b); lia).
        assert (Pab : 2 ^ (Z.log2 a - 52) * 2 <= 2 ^ (Z.log2 b - 52)).
        { change 2 with (2 ^ 1) at 2. rewrite <- Z.pow_add_r by lia. apply Z.pow_le_mono_r; lia. }
        lia.
Qed.

(* round53 is monotone on all of Z *)
Theorem round53_mono x y : x <= y -> round53 x <= round53 y.
Proof.
  intro H. destruct (Z_le_gt_dec 0 x) as [Px|Nx].
  - apply round53_mono_nonneg. lia.
  - destruct (Z_le_gt_dec 0 y) as [Py|Ny].
    + pose proof (round53_nonneg y Py). pose proof (round53_nonneg (- x) ltac:(lia)) as N.
      rewrite round53_neg in N. lia.
    + pose proof (round53_mono_nonneg (- y) (- x) ltac:(lia)) as M. rewrite !round53_neg in M. lia.
Qed.

Corollary round53_lt_inv x y : round53 x < round53 y -> x < y.
Proof. intro H. destruct (Z_lt_le_dec x y) as [L|G]; [exact L|]. pose proof (round53_mono y x G). lia. Qed.
