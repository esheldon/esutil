(* C10 -- the constructor WCS(header): which headers it accepts and with which error class it rejects the others, in the
   order in which the code looks (esutil/wcsutil.py: _set_naxis, ExtractFromWCS, ExtractProjection, ExtractUnits, the CD
   block, ExtractDistortionModel / ExtractSIPCoeffs).  The header is abstracted to what these checks read: presence of
   keys, the projection string CTYPE1[4:].strip().upper(), CUNIT1.strip().lower(), the four CD entries (exact
   rationals), presence of A_ORDER / B_ORDER.  The allowed projections and the distortion family of each come from the
   regenerated tables of Gen.v (_allowed_projections, _ap). *)
From Coq Require Import List Bool String QArith.
From EsVerif.Common Require Import Base.
From EsVerif.C10 Require Import Gen.
Import ListNotations.
Local Open Scope string_scope.

Record raw := {
  q_znaxis1 : bool; q_znaxis2 : bool; q_naxis1 : bool; q_naxis2 : bool;
  q_crpix1 : bool; q_crpix2 : bool; q_crval1 : bool; q_crval2 : bool; q_ctype1 : bool; q_ctype2 : bool;
  q_projection : string;                 (* CTYPE1[4:].strip().upper(), meaningful when q_ctype1 *)
  q_cunit1 : option string;              (* CUNIT1.strip().lower() when present *)
  q_cd11 : option Q; q_cd12 : option Q; q_cd21 : option Q; q_cd22 : option Q;
  q_a_order : bool; q_b_order : bool
}.

Definition str_in (s : string) (l : list string) : bool := existsb (String.eqb s) l.

Fixpoint assoc_str {A} (k : string) (l : list (string * A)) : option A :=
  match l with
  | [] => None
  | (k', v) :: t => if String.eqb k k' then Some v else assoc_str k t
  end.

(* _ap[projection]["name"] *)
Definition distortion_family (p : string) : option string :=
  match assoc_str p ap_table with Some (nm :: _) => Some nm | _ => None end.
Definition is_sip_projection (p : string) : bool :=
  match distortion_family p with Some nm => String.eqb nm "sip" | None => false end.

Definition need (present : bool) (k : result unit) : result unit := if present then k else Err EKey.
Definition need_v (ok : bool) (k : result unit) : result unit := if ok then k else Err EValue.
Definition is_some {A} (o : option A) : bool := match o with Some _ => true | None => false end.

Definition cd_singular (a b c d : Q) : bool := Qeq_bool (a * d - b * c) 0.

Definition cd_block (q : raw) (k : result unit) : result unit :=
  match q_cd11 q with
  | None => k                                   (* no CD matrix: constructed, but no conversion is possible *)
  | Some a =>
      match q_cd12 q, q_cd21 q, q_cd22 q with
      | Some b, Some c, Some d => need_v (negb (cd_singular a b c d)) k
      | _, _, _ => Err EKey
      end
  end.

(* the constructor's checks, in source order *)
Definition construct_check (q : raw) : result unit :=
  need (if q_znaxis1 q then q_znaxis2 q else q_naxis1 q && q_naxis2 q)
  (need (q_crpix1 q && q_crpix2 q)
  (need (q_crval1 q && q_crval2 q)
  (need (q_ctype1 q && q_ctype2 q)
  (need_v (str_in (q_projection q) allowed_projections)
  (need_v (match q_cunit1 q with None => true | Some u => String.eqb u "deg" end)
  (cd_block q
  (need_v (if is_sip_projection (q_projection q) then q_a_order q && q_b_order q else true)
  (Ok tt)))))))).

(* a constructed object can convert only if it has a CD matrix *)
Definition can_convert (q : raw) : bool := is_some (q_cd11 q).

(* the closed form of the accepting case of construct_check (C10_constructor_accepts_iff): which keys must be present,
   and what is asked of the values *)
Definition keys_ok (q : raw) : bool :=
  (if q_znaxis1 q then q_znaxis2 q else q_naxis1 q && q_naxis2 q)
  && (q_crpix1 q && q_crpix2 q) && (q_crval1 q && q_crval2 q) && (q_ctype1 q && q_ctype2 q).
Definition cd_keys_ok (q : raw) : bool :=
  match q_cd11 q with None => true | Some _ => is_some (q_cd12 q) && is_some (q_cd21 q) && is_some (q_cd22 q) end.
Definition cd_regular (q : raw) : bool :=
  match q_cd11 q, q_cd12 q, q_cd21 q, q_cd22 q with
  | Some a, Some b, Some c, Some d => negb (cd_singular a b c d)
  | _, _, _, _ => true
  end.
Definition values_ok (q : raw) : bool :=
  str_in (q_projection q) allowed_projections
  && (match q_cunit1 q with None => true | Some u => String.eqb u "deg" end)
  && cd_regular q
  && (if is_sip_projection (q_projection q) then q_a_order q && q_b_order q else true).

(* when a chain of checks goes through *)
Lemma need_ok : forall b k, need b k = Ok tt <-> b = true /\ k = Ok tt.
Proof. intros [|] k; cbn; intuition discriminate. Qed.

Lemma need_v_ok : forall b k, need_v b k = Ok tt <-> b = true /\ k = Ok tt.
Proof. intros [|] k; cbn; intuition discriminate. Qed.

Lemma cd_block_ok : forall q k, cd_block q k = Ok tt <-> (cd_keys_ok q = true /\ cd_regular q = true) /\ k = Ok tt.
Proof.
  intros q k. unfold cd_block, cd_keys_ok, cd_regular.
  destruct (q_cd11 q), (q_cd12 q), (q_cd21 q), (q_cd22 q); cbn [is_some andb]; rewrite ?need_v_ok; intuition discriminate.
Qed.

(* every combinator hands on its continuation or raises one of the two error classes *)
Definition classified (r : result unit) : Prop := r = Ok tt \/ r = Err EKey \/ r = Err EValue.

Lemma need_classified : forall b k, classified k -> classified (need b k).
Proof. intros [|] k H; [exact H|right; left; reflexivity]. Qed.

Lemma need_v_classified : forall b k, classified k -> classified (need_v b k).
Proof. intros [|] k H; [exact H|right; right; reflexivity]. Qed.

Lemma cd_block_classified : forall q k, classified k -> classified (cd_block q k).
Proof.
  intros q k H. unfold cd_block. destruct (q_cd11 q); [|exact H].
  destruct (q_cd12 q), (q_cd21 q), (q_cd22 q); try (right; left; reflexivity). apply need_v_classified, H.
Qed.
