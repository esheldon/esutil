(* C10 -- LONPOLE other than 180.  For a zenithal projection (TAN: theta_0 = 90) the native pole is the reference
   point, (alpha_p, delta_p) = CRVAL for EVERY phi_p = LONPOLE (Calabretta & Greisen 2002, Sect. 2.2-2.4); GetPole
   returns CRVAL on that branch and CreateRotationMatrix uses self.longpole.  The forward chain therefore equals the
   paper's Euler rotation (alpha_p, delta_p, phi_p) = (CRVAL1, CRVAL2, LONPOLE) of the TAN native direction. *)
From Coq Require Import Reals.
From EsVerif.Common Require Import Base.
From EsVerif.C10 Require Import Model Spec Trig Forward.
Local Open Scope R_scope.

(* SIP coefficients within their declared orders; nothing is asked of LONPOLE *)
Definition sip_ok (h : header) : Prop :=
  h_proj h = PSip -> sip_wellformed (h_a_order h) (h_sipa h) /\ sip_wellformed (h_b_order h) (h_sipb h).

(* the FITS reference for any LONPOLE *)
Definition fits_sky_vec_lp (a0 d0 lp xi eta : R) : vec :=
  fits_celestial_vec (rad a0) (rad d0) (rad lp) (tan_native_vec xi eta).
Definition fits_pix2sky_vec_lp (h : header) (px py : R) : vec :=
  let xe := fits_intermediate h px py in
  fits_sky_vec_lp (h_crval1 h) (h_crval2 h) (h_longpole h) (fst xe) (snd xe).

Definition with_longpole (h : header) (lp : R) : header :=
  {| h_proj := h_proj h; h_crpix1 := h_crpix1 h; h_crpix2 := h_crpix2 h; h_crval1 := h_crval1 h; h_crval2 := h_crval2 h;
     h_cd11 := h_cd11 h; h_cd12 := h_cd12 h; h_cd21 := h_cd21 h; h_cd22 := h_cd22 h;
     h_naxis1 := h_naxis1 h; h_naxis2 := h_naxis2 h; h_longpole := lp;
     h_pv1 := h_pv1 h; h_pv2 := h_pv2 h; h_a_order := h_a_order h; h_b_order := h_b_order h;
     h_sipa := h_sipa h; h_sipb := h_sipb h; h_inv_a := h_inv_a h; h_inv_b := h_inv_b h |}.

Lemma pix2inter_longpole_irrelevant : forall h lp x y d,
  pix2inter (mk_wcs (with_longpole h lp)) x y d = pix2inter (mk_wcs h) x y d.
Proof. intros. destruct h. reflexivity. Qed.

Lemma fits_intermediate_longpole_irrelevant : forall h lp x y,
  fits_intermediate (with_longpole h lp) x y = fits_intermediate h x y.
Proof. intros. destruct h. reflexivity. Qed.

(* the reference pixel maps to CRVAL whatever LONPOLE is *)
Lemma tan_native_origin : tan_native_vec 0 0 = (0, 0, 1).
Proof.
  unfold tan_native_vec. replace (rad 0) with 0 by (unfold rad; field).
  replace (1 + 0 * 0 + 0 * 0) with 1 by ring. rewrite sqrt_1. f_equal; [f_equal|]; field.
Qed.

Lemma native_pole_to_crval : forall a0 d0 lp, fits_sky_vec_lp a0 d0 lp 0 0 = unitvec a0 d0.
Proof.
  intros. unfold fits_sky_vec_lp.
  rewrite tan_native_origin, fits_celestial_is_rotmat, rotmat_native_pole. symmetry. apply unitvec_vec_of.
Qed.
