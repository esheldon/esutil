(* C10 — lemmas about atan2, direction cosines and the longitude fold. *)
From Coq Require Import Reals Lra.
From EsVerif.C10 Require Import Model Spec.
Local Open Scope R_scope.

Lemma d2r_r2d : forall a, a * r2d * d2r = a.
Proof. intro a. unfold r2d, d2r. field. apply PI_neq0. Qed.

Lemma rad_d2r : forall a, rad a = a * d2r.
Proof. intro a. unfold rad, d2r. field. Qed.

(* the form in which [ring] can use the Pythagorean identity: a monomial on the left *)
Lemma sin_sqr : forall a, sin a * sin a = 1 - cos a * cos a.
Proof. intro a. pose proof (sin2_cos2 a) as H. unfold Rsqr in H. lra. Qed.

Lemma sqrt_1_plus_sq_pos : forall x y, 0 < x -> 0 < sqrt (x * x + y * y).
Proof. intros x y Hx. apply sqrt_lt_R0. nra. Qed.

Lemma norm_sq : forall x y, 0 <= x * x + y * y.
Proof. intros; nra. Qed.

Lemma sqrt_one_plus_tan : forall x y n, x <> 0 -> 0 < n -> n * n = x * x + y * y ->
  sqrt (1 + (y / x)²) = n / Rabs x.
Proof.
  intros x y n Hx Hn Hnn.
  assert (Ha : 0 < Rabs x) by (apply Rabs_pos_lt; exact Hx).
  apply sqrt_lem_1.
  - unfold Rsqr. assert (0 <= (y / x) * (y / x)) by nra. lra.
  - apply Rlt_le. apply Rdiv_lt_0_compat; assumption.
  - unfold Rsqr. assert (Hxx : Rabs x * Rabs x = x * x).
    { destruct (Rcase_abs x) as [Hneg|Hpos].
      - rewrite (Rabs_left x Hneg). ring.
      - rewrite (Rabs_right x Hpos). ring. }
    assert (Hne : Rabs x <> 0) by lra.
    replace (n / Rabs x * (n / Rabs x)) with ((n * n) / (Rabs x * Rabs x)) by (field; exact Hne).
    rewrite Hnn, Hxx. field. exact Hx.
Qed.

Lemma cos_sin_atan_ratio : forall x y n, x <> 0 -> 0 < n -> n * n = x * x + y * y ->
  cos (atan (y / x)) = Rabs x / n /\ sin (atan (y / x)) = y / x * (Rabs x / n).
Proof.
  intros x y n Hx Hn Hnn. assert (0 < Rabs x) by (apply Rabs_pos_lt, Hx).
  rewrite cos_atan, sin_atan, (sqrt_one_plus_tan x y n Hx Hn Hnn). split; field; repeat split; lra.
Qed.

Lemma atan2_cos_sin : forall y x, 0 < x * x + y * y ->
  cos (atan2 y x) = x / sqrt (x * x + y * y) /\ sin (atan2 y x) = y / sqrt (x * x + y * y).
Proof.
  intros y x Hpos. set (n := sqrt (x * x + y * y)).
  assert (Hn : 0 < n) by (apply sqrt_lt_R0; exact Hpos).
  assert (Hnn : n * n = x * x + y * y) by (apply sqrt_sqrt; lra).
  unfold atan2. destruct (Rlt_dec 0 x) as [Hx|Hx]; [|destruct (Rlt_dec x 0) as [Hx'|Hx']].
  - destruct (cos_sin_atan_ratio x y n) as [Hc Hs]; try lra.
    rewrite Hc, Hs, Rabs_right by lra. split; field; repeat split; lra.
  - (* x < 0: half a turn more or less, either way both signs flip *)
    destruct (cos_sin_atan_ratio x y n) as [Hc Hs]; try lra. rewrite Rabs_left in Hc, Hs by lra.
    destruct (Rle_dec 0 y).
    + rewrite neg_cos, neg_sin, Hc, Hs. split; field; repeat split; lra.
    + rewrite cos_minus, sin_minus, cos_PI, sin_PI, Hc, Hs. split; field; repeat split; lra.
  - (* x = 0: n = |y| *)
    assert (Hx0 : x = 0) by lra. rewrite Hx0 in Hnn.
    destruct (Rlt_dec 0 y) as [Hy|Hy]; [|destruct (Rlt_dec y 0) as [Hy'|Hy']].
    + assert (En : n = y) by nra. rewrite cos_PI2, sin_PI2, Hx0, En. split; field; lra.
    + assert (En : n = - y) by nra. rewrite cos_neg, sin_neg, cos_PI2, sin_PI2, Hx0, En. split; field; lra.
    + exfalso. nra.
Qed.

Lemma atan2_range : forall y x, - PI < atan2 y x <= PI.
Proof.
  intros y x. unfold atan2. pose proof PI_RGT_0 as Hpi.
  destruct (Rlt_dec 0 x) as [Hx|Hx].
  - pose proof (atan_bound (y / x)). lra.
  - destruct (Rlt_dec x 0) as [Hx'|Hx'].
    + pose proof (atan_bound (y / x)) as Hb.
      destruct (Rle_dec 0 y) as [Hy|Hy].
      * assert (Ht : y / x <= 0).
        { unfold Rdiv. assert (/ x < 0) by (apply Rinv_lt_0_compat; exact Hx'). nra. }
        assert (atan (y / x) <= 0).
        { destruct Ht as [Ht|Ht]. - left. rewrite <- atan_0. apply atan_increasing. exact Ht.
          - rewrite Ht, atan_0. lra. }
        lra.
      * assert (Ht : 0 < y / x).
        { unfold Rdiv. assert (/ x < 0) by (apply Rinv_lt_0_compat; exact Hx'). nra. }
        assert (0 < atan (y / x)) by (rewrite <- atan_0; apply atan_increasing; exact Ht).
        lra.
    + destruct (Rlt_dec 0 y); [lra|]. destruct (Rlt_dec y 0); lra.
Qed.

Lemma atan2_nonneg_range : forall y x, 0 <= x -> - (PI / 2) <= atan2 y x <= PI / 2.
Proof.
  intros y x Hx. unfold atan2. pose proof PI_RGT_0 as Hpi.
  destruct (Rlt_dec 0 x); [pose proof (atan_bound (y / x)); lra|].
  destruct (Rlt_dec x 0); [lra|]. destruct (Rlt_dec 0 y); [lra|]. destruct (Rlt_dec y 0); lra.
Qed.

(* direction cosines of (longitude, latitude) in radians *)
Definition vec_of (lon lat : R) : vec := (cos lat * cos lon, cos lat * sin lon, sin lat).

Lemma unitvec_vec_of : forall lon lat, unitvec lon lat = vec_of (lon * d2r) (lat * d2r).
Proof. intros. unfold unitvec, vec_of. rewrite !rad_d2r. reflexivity. Qed.

Lemma vec_of_unit : forall lon lat, vdot (vec_of lon lat) (vec_of lon lat) = 1.
Proof.
  intros. unfold vdot, vec_of, vx, vy, vz; simpl.
  pose proof (sin2_cos2 lon) as H1. pose proof (sin2_cos2 lat) as H2. unfold Rsqr in *. nra.
Qed.

(* spherical angles of a vector: longitude atan2 b a, latitude atan2 c (sqrt (a^2 + b^2)); their direction cosines
   are the normalised vector (also on the axis a = b = 0, where the longitude is irrelevant) *)
Lemma vec_of_atan2 : forall a b c, 0 < a * a + b * b + c * c ->
  vec_of (atan2 b a) (atan2 c (sqrt (a * a + b * b))) =
  (a / sqrt (a * a + b * b + c * c), b / sqrt (a * a + b * b + c * c), c / sqrt (a * a + b * b + c * c)).
Proof.
  intros a b c Hpos.
  set (rho := sqrt (a * a + b * b)).
  assert (Hrho : 0 <= rho) by apply sqrt_pos.
  assert (Hrr : rho * rho = a * a + b * b) by (apply sqrt_sqrt; nra).
  destruct (atan2_cos_sin c rho) as [Hc Hs]; [rewrite Hrr; lra|].
  rewrite Hrr in Hc, Hs. set (n := sqrt (a * a + b * b + c * c)) in *.
  assert (Hn : 0 < n) by (apply sqrt_lt_R0; exact Hpos).
  unfold vec_of. rewrite Hc, Hs.
  destruct (Req_dec rho 0) as [Hz|Hnz].
  - assert (a = 0 /\ b = 0) as [Ea Eb] by (rewrite Hz in Hrr; split; nra).
    rewrite Hz, Ea, Eb. f_equal. f_equal; field; lra.
  - destruct (atan2_cos_sin b a) as [Hc' Hs']; [rewrite <- Hrr; nra|].
    fold rho in Hc', Hs'. rewrite Hc', Hs'. f_equal. f_equal; field; lra.
Qed.

(* the angles that _rotate extracts from a unit vector reproduce the vector *)
Lemma angles_of_unit_vector : forall b0 b1 b2, b0 * b0 + b1 * b1 + b2 * b2 = 1 ->
  vec_of (atan2 b1 b0) (atan2 (Rclip b2 (-1) 1) (sqrt (b0 * b0 + b1 * b1))) = (b0, b1, b2).
Proof.
  intros b0 b1 b2 Hu.
  replace (Rclip b2 (-1) 1) with b2
    by (unfold Rclip; assert (-1 <= b2 <= 1) by nra; rewrite Rmax_left, Rmin_left by lra; reflexivity).
  rewrite vec_of_atan2, Hu, sqrt_1 by lra. f_equal; [f_equal|]; field.
Qed.

Lemma fold360_range : forall lon, -180 < lon <= 180 -> 0 <= fold360 lon < 360.
Proof.
  intros lon H. unfold fold360.
  destruct (Rlt_dec lon 0) as [Hl|Hl].
  - destruct (Rle_dec 360 (lon + 360)); lra.
  - destruct (Rle_dec 360 lon); lra.
Qed.

Lemma fold360_cases : forall lon, fold360 lon = lon \/ fold360 lon = lon + 360 \/ fold360 lon = lon - 360.
Proof.
  intro lon. unfold fold360.
  destruct (Rlt_dec lon 0); [destruct (Rle_dec 360 (lon + 360))|destruct (Rle_dec 360 lon)]; auto. left. lra.
Qed.

Lemma cos_sin_fold360 : forall lon, cos (fold360 lon * d2r) = cos (lon * d2r) /\ sin (fold360 lon * d2r) = sin (lon * d2r).
Proof.
  intro lon.
  assert (E1 : (lon + 360) * d2r = lon * d2r + 2 * PI) by (unfold d2r; field).
  assert (E2 : (lon - 360) * d2r = lon * d2r - 2 * PI) by (unfold d2r; field).
  destruct (fold360_cases lon) as [H|[H|H]]; rewrite H.
  - split; reflexivity.
  - rewrite E1, cos_plus, sin_plus, cos_2PI, sin_2PI. split; ring.
  - rewrite E2, cos_minus, sin_minus, cos_2PI, sin_2PI. split; ring.
Qed.

Lemma unitvec_fold360 : forall lon lat, unitvec (fold360 lon) lat = unitvec lon lat.
Proof.
  intros. rewrite !unitvec_vec_of. unfold vec_of.
  destruct (cos_sin_fold360 lon) as [Hc Hs]. rewrite Hc, Hs. reflexivity.
Qed.

Lemma atan2_deg_range : forall y x, -180 < atan2 y x * r2d <= 180.
Proof.
  intros y x. pose proof (atan2_range y x) as H. pose proof PI_RGT_0 as Hpi.
  rewrite <- (d2r_r2d (atan2 y x)) in H. unfold d2r in H. set (b := atan2 y x * r2d) in *. split; nra.
Qed.
