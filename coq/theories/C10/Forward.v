(* C10 — the rotation matrix and the forward and inverse chains between intermediate coordinates and sky positions
   (image2sph, sph2image, the CD matrix), on the level of direction vectors.  The operations of the object
   (image2sky, sky2image with their flags and state) are treated in Proofs.v and Inverse.v. *)
From Coq Require Import Reals Lra.
From EsVerif.C10 Require Import Model Spec Trig.
Local Open Scope R_scope.

Lemma cos_PI2_minus : forall x, cos (PI / 2 - x) = sin x.
Proof. intro x. rewrite cos_minus, cos_PI2, sin_PI2. ring. Qed.
Lemma sin_PI2_minus : forall x, sin (PI / 2 - x) = cos x.
Proof. intro x. rewrite sin_minus, cos_PI2, sin_PI2. ring. Qed.
Lemma cos_plus_PI2 : forall x, cos (x + PI / 2) = - sin x.
Proof. intro x. rewrite cos_plus, cos_PI2, sin_PI2. ring. Qed.
Lemma sin_plus_PI2 : forall x, sin (x + PI / 2) = cos x.
Proof. intro x. rewrite sin_plus, cos_PI2, sin_PI2. ring. Qed.

(* the last two factors of the Euler product, multiplied out first (the triple product in one step is three times
   as much polynomial arithmetic) *)
Lemma rot_x_rot_z : forall b c,
  mmul (rot_x b) (rot_z c) = mk3 (cos c) (sin c) 0 (- cos b * sin c) (cos b * cos c) (sin b) (sin b * sin c) (- sin b * cos c) (cos b).
Proof. intros. unfold mmul, rot_x, rot_z. cbn [m00 m01 m02 m10 m11 m12 m20 m21 m22]. f_equal; ring. Qed.

(* the code's matrix (which it applies as native -> celestial) is the transpose of the
   Euler rotation celestial -> native *)
Lemma rotmat_is_euler : forall alpha_p delta_p longpole,
  transpose (rotation_matrix alpha_p delta_p longpole) = euler_cel2nat alpha_p delta_p (longpole * d2r).
Proof.
  intros. unfold euler_cel2nat. rewrite rot_x_rot_z.
  unfold rotation_matrix, transpose, mmul, rot_z. cbn [m00 m01 m02 m10 m11 m12 m20 m21 m22].
  rewrite !cos_PI2_minus, !sin_PI2_minus, !cos_plus_PI2, !sin_plus_PI2.
  f_equal; ring.
Qed.

Definition orthogonal (r : mat3) : Prop := mmul r (transpose r) = mident /\ mmul (transpose r) r = mident.

Lemma rotmat_orthogonal : forall alpha_p delta_p longpole, orthogonal (rotation_matrix alpha_p delta_p longpole).
Proof.
  intros. unfold orthogonal, rotation_matrix, transpose, mmul, mident. cbn [m00 m01 m02 m10 m11 m12 m20 m21 m22].
  (* polynomial identities modulo sin^2 = 1 - cos^2 for the three angles *)
  split; f_equal; ring [(sin_sqr alpha_p) (sin_sqr delta_p) (sin_sqr (longpole * d2r))].
Qed.

Lemma transpose_involutive : forall r, transpose (transpose r) = r.
Proof. intro r. destruct r. reflexivity. Qed.

(* the reference direction of the papers, computed with the code's matrix *)
Lemma fits_celestial_is_rotmat : forall a0 d0 lp v,
  fits_celestial_vec (rad a0) (rad d0) (rad lp) v = mapply (rotation_matrix (a0 * d2r) (d0 * d2r) lp) v.
Proof.
  intros. unfold fits_celestial_vec. rewrite !rad_d2r, <- rotmat_is_euler, transpose_involutive. reflexivity.
Qed.

(* the native pole is carried to (alpha_p, delta_p), whatever LONPOLE is: the third column of the matrix *)
Lemma rotmat_native_pole : forall alpha_p delta_p longpole,
  mapply (rotation_matrix alpha_p delta_p longpole) (0, 0, 1) = vec_of alpha_p delta_p.
Proof.
  intros. unfold mapply, rotation_matrix, vec_of, vx, vy, vz. cbn [m00 m01 m02 m10 m11 m12 m20 m21 m22 fst snd].
  f_equal; [f_equal|]; ring.
Qed.

Lemma orthogonal_transpose : forall r, orthogonal r -> orthogonal (transpose r).
Proof. intros r [H1 H2]. unfold orthogonal. rewrite transpose_involutive. split; assumption. Qed.

Lemma mapply_mmul : forall a b v, mapply (mmul a b) v = mapply a (mapply b v).
Proof.
  intros a b [[x y] z]. unfold mapply, mmul, vx, vy, vz. cbn [m00 m01 m02 m10 m11 m12 m20 m21 m22 fst snd].
  f_equal; [f_equal|]; ring.
Qed.

Lemma mapply_mident : forall v, mapply mident v = v.
Proof. intros [[x y] z]. unfold mapply, mident, vx, vy, vz. cbn [m00 m01 m02 m10 m11 m12 m20 m21 m22 fst snd]. f_equal; [f_equal|]; ring. Qed.

Lemma vdot_mapply_transpose : forall r u v, vdot (mapply (transpose r) u) v = vdot u (mapply r v).
Proof.
  intros r u v. unfold vdot, mapply, transpose, vx, vy, vz. cbn [m00 m01 m02 m10 m11 m12 m20 m21 m22 fst snd]. ring.
Qed.

Lemma mapply_transpose_inv : forall r v, orthogonal r -> mapply (transpose r) (mapply r v) = v.
Proof. intros r v [_ H]. rewrite <- mapply_mmul, H. apply mapply_mident. Qed.

Lemma orthogonal_preserves_norm : forall r v, orthogonal r ->
  vdot (mapply (transpose r) v) (mapply (transpose r) v) = vdot v v.
Proof. intros r v [H _]. rewrite vdot_mapply_transpose, <- mapply_mmul, H, mapply_mident. reflexivity. Qed.

(* _rotate multiplies by the transpose of the matrix it is given *)
Lemma rotate_vec : forall lon lat r, orthogonal r ->
  unitvec (fst (rotate_ lon lat r)) (snd (rotate_ lon lat r)) = mapply (transpose r) (vec_of lon lat).
Proof.
  intros lon lat r Ho.
  (* the rotated vector has unit length, so its spherical angles give it back *)
  pose proof (orthogonal_preserves_norm r (vec_of lon lat) Ho) as Hn. rewrite vec_of_unit in Hn.
  unfold vdot, mapply, transpose, vec_of, vx, vy, vz in Hn. cbn [m00 m01 m02 m10 m11 m12 m20 m21 m22 fst snd] in Hn.
  unfold rotate_. cbn [fst snd]. rewrite unitvec_vec_of, !d2r_r2d, (angles_of_unit_vector _ _ _ Hn). reflexivity.
Qed.

(* the native latitude of image2sph is atan2 (180/pi) rho, also at the reference point, where rho = 0 *)
Lemma native_lat_is_atan2 : forall rho, 0 <= rho ->
  (if Rlt_dec 0 (rho * PI / 180) then atan (1 / (rho * PI / 180)) else PI / 2) = atan2 r2d rho.
Proof.
  intros rho Hrho. pose proof PI_RGT_0 as Hpi. unfold atan2. destruct (Rlt_dec 0 rho) as [H|H].
  - destruct (Rlt_dec 0 (rho * PI / 180)) as [_|C]; [|exfalso; apply C; nra]. f_equal. unfold r2d. field. lra.
  - assert (E : rho = 0) by lra. rewrite E.
    destruct (Rlt_dec 0 (0 * PI / 180)) as [C|_]; [lra|]. destruct (Rlt_dec 0 0) as [C|_]; [lra|].
    destruct (Rlt_dec 0 r2d) as [_|C]; [reflexivity|]. exfalso. apply C. apply Rdiv_lt_0_compat; lra.
Qed.

(* direction cosines of the native (phi, theta) that image2sph computes = [P2] TAN native vector: the spherical angles
   of (-y, x, 180/pi), which is 180/pi times (-Y, X, 1) *)
Lemma image2sph_native : forall x y,
  let r := sqrt (x ^ 2 + y ^ 2) * PI / 180 in
  vec_of (atan2 x (- y)) (if Rlt_dec 0 r then atan (1 / r) else PI / 2) = tan_native_vec x y.
Proof.
  intros x y r. unfold r. rewrite native_lat_is_atan2 by apply sqrt_pos.
  replace (x ^ 2 + y ^ 2) with (- y * - y + x * x) by ring.
  pose proof PI_RGT_0 as Hpi. assert (Hr : 0 < r2d) by (apply Rdiv_lt_0_compat; lra).
  rewrite vec_of_atan2 by nra.
  unfold tan_native_vec. set (m := sqrt (1 + rad x * rad x + rad y * rad y)).
  assert (Hm : 0 < m) by (apply sqrt_lt_R0; nra).
  replace (sqrt (- y * - y + x * x + r2d * r2d)) with (r2d * m).
  - unfold rad, r2d in *. f_equal; [f_equal|]; field; lra.
  - symmetry. apply sqrt_lem_1; [nra|apply Rmult_le_pos; lra|].
    replace (r2d * m * (r2d * m)) with (r2d * r2d * (m * m)) by ring.
    unfold m. rewrite sqrt_sqrt by nra. unfold rad, r2d. field. lra.
Qed.

Lemma image2sph_vec : forall w x y, orthogonal (w_rot w) ->
  unitvec (fst (image2sph w x y)) (snd (image2sph w x y)) = mapply (w_rot w) (tan_native_vec x y).
Proof.
  intros w x y Ho. unfold image2sph. cbn [fst snd]. rewrite unitvec_fold360.
  unfold Rotate. rewrite !d2r_r2d.
  rewrite (rotate_vec _ _ _ (orthogonal_transpose _ Ho)), transpose_involutive, image2sph_native. reflexivity.
Qed.

Lemma image2sph_lon_range : forall w x y, 0 <= fst (image2sph w x y) < 360.
Proof.
  intros. unfold image2sph. cbn [fst]. apply fold360_range.
  unfold Rotate, rotate_. cbn [fst]. apply atan2_deg_range.
Qed.

(* with LONPOLE = 180 the rotated native vector is the gnomonic deprojection about CRVAL *)
Lemma sin_180 : sin (180 * d2r) = 0.
Proof. replace (180 * d2r) with PI by (unfold d2r; field). apply sin_PI. Qed.
Lemma cos_180 : cos (180 * d2r) = -1.
Proof. replace (180 * d2r) with PI by (unfold d2r; field). apply cos_PI. Qed.

Lemma rotated_native_is_gnomonic : forall a0 d0 xi eta,
  mapply (rotation_matrix (a0 * d2r) (d0 * d2r) 180) (tan_native_vec xi eta) = fits_sky_vec a0 d0 xi eta.
Proof.
  intros. unfold mapply, rotation_matrix, tan_native_vec, fits_sky_vec, vx, vy, vz.
  cbn [m00 m01 m02 m10 m11 m12 m20 m21 m22 fst snd].
  rewrite sin_180, cos_180, !rad_d2r.
  set (n := sqrt (1 + xi * d2r * (xi * d2r) + eta * d2r * (eta * d2r))).
  assert (Hn : 0 < n) by (apply sqrt_lt_R0; nra).
  f_equal; [f_equal|]; field; lra.
Qed.

(* and the same statement through [P2]: Euler rotation of the TAN native direction *)
Lemma gnomonic_is_paper_chain : forall a0 d0 xi eta,
  fits_sky_vec a0 d0 xi eta = fits_celestial_vec (rad a0) (rad d0) PI (tan_native_vec xi eta).
Proof.
  intros. replace PI with (rad 180) by (unfold rad; field).
  rewrite fits_celestial_is_rotmat. symmetry. apply rotated_native_is_gnomonic.
Qed.

Lemma mk_wcs_orthogonal : forall h, orthogonal (w_rot (mk_wcs h)).
Proof. intro h. unfold mk_wcs. cbn [w_rot]. apply rotmat_orthogonal. Qed.

(* the sky part of the forward chain, for any LONPOLE: the papers' Euler rotation of the TAN native direction *)
Lemma image2sph_is_celestial : forall h xi eta,
  unitvec (fst (image2sph (mk_wcs h) xi eta)) (snd (image2sph (mk_wcs h) xi eta))
  = fits_celestial_vec (rad (h_crval1 h)) (rad (h_crval2 h)) (rad (h_longpole h)) (tan_native_vec xi eta).
Proof. intros. rewrite (image2sph_vec _ _ _ (mk_wcs_orthogonal h)), fits_celestial_is_rotmat. reflexivity. Qed.

(* for LONPOLE = 180 that is the gnomonic deprojection about CRVAL *)
Lemma image2sph_matches_fits : forall h xi eta, h_longpole h = 180 ->
  unitvec (fst (image2sph (mk_wcs h) xi eta)) (snd (image2sph (mk_wcs h) xi eta))
  = fits_sky_vec (h_crval1 h) (h_crval2 h) xi eta.
Proof.
  intros h xi eta Hl. rewrite image2sph_is_celestial, Hl, gnomonic_is_paper_chain. f_equal. unfold rad. field.
Qed.

Lemma rad_inj : forall a b, rad a = rad b -> a = b.
Proof. intros a b H. unfold rad in H. pose proof PI_RGT_0. apply Rmult_eq_reg_r with (PI / 180); lra. Qed.

Lemma r2d_rad : forall a, rad (r2d * a) = a.
Proof. intro a. unfold rad, r2d. pose proof PI_RGT_0. field. lra. Qed.

Lemma tan_native_vec_inj : forall x y x' y', tan_native_vec x y = tan_native_vec x' y' -> (x, y) = (x', y').
Proof.
  intros x y x' y' H. unfold tan_native_vec in H.
  set (n := sqrt (1 + rad x * rad x + rad y * rad y)) in H.
  set (n' := sqrt (1 + rad x' * rad x' + rad y' * rad y')) in H.
  assert (Hn : 0 < n) by (apply sqrt_lt_R0; nra). assert (Hn' : 0 < n') by (apply sqrt_lt_R0; nra).
  inversion H as [[H0 H1 H2]].
  assert (E : n = n').
  { assert (A : 1 / n' * n = 1) by (rewrite <- H2; field; lra). assert (B : 1 / n' * n' = 1) by (field; lra).
    apply Rmult_eq_reg_l with (1 / n'); [lra|]. intro Z. rewrite Z in B. lra. }
  rewrite <- E in H0, H1.
  f_equal; apply rad_inj; apply Rmult_eq_reg_r with (/ n); try lra; apply Rinv_neq_0_compat; lra.
Qed.

(* the TAN projection formulas of sph2image produce the point whose native direction has the given angles *)
Lemma tan_native_of_sph : forall lo la, 0 < la < PI / 2 ->
  tan_native_vec (r2d / tan la * sin lo) (- (r2d / tan la) * cos lo) = vec_of lo la.
Proof.
  intros lo la [H0 H1].
  assert (Hs : 0 < sin la) by (apply sin_gt_0; pose proof PI_RGT_0; lra).
  assert (Hc : 0 < cos la) by (apply cos_gt_0; lra).
  unfold tan_native_vec, vec_of.
  replace (r2d / tan la * sin lo) with (r2d * (sin lo * cos la / sin la)) by (unfold tan; field; lra).
  replace (- (r2d / tan la) * cos lo) with (r2d * - (cos lo * cos la / sin la)) by (unfold tan; field; lra).
  rewrite !r2d_rad.
  (* 1 + cot^2 = 1 / sin^2 *)
  replace (1 + sin lo * cos la / sin la * (sin lo * cos la / sin la) + - (cos lo * cos la / sin la) * - (cos lo * cos la / sin la))
    with (/ sin la * / sin la) by (field [(sin_sqr lo) (sin_sqr la)]; lra).
  rewrite sqrt_square by (left; apply Rinv_0_lt_compat, Hs). f_equal; [f_equal|]; field; lra.
Qed.

(* rotating a sky position of image2sph back gives the native angles of the point it came from *)
Lemma rotate_back_native : forall w x y, orthogonal (w_rot w) ->
  let ll := image2sph w x y in
  let na := Rotate w (fst ll) (snd ll) false in
  vec_of (fst na * d2r) (snd na * d2r) = tan_native_vec x y.
Proof.
  intros w x y Ho ll na. unfold na, Rotate.
  rewrite <- unitvec_vec_of, (rotate_vec _ _ _ Ho), <- unitvec_vec_of. unfold ll. rewrite (image2sph_vec w x y Ho).
  apply mapply_transpose_inv, Ho.
Qed.

(* the latitude _rotate returns is between -90 and 90 degrees *)
Lemma rotate_lat_range : forall lon lat r, - (PI / 2) <= snd (rotate_ lon lat r) * d2r <= PI / 2.
Proof. intros. unfold rotate_. cbn [snd]. rewrite d2r_r2d. apply atan2_nonneg_range, sqrt_pos. Qed.

(* a native direction of the TAN projection away from the pole has latitude strictly between 0 and 90 degrees *)
Lemma native_lat_range : forall lo la x y, - (PI / 2) <= la <= PI / 2 ->
  vec_of lo la = tan_native_vec x y -> (x, y) <> (0, 0) -> 0 < la < PI / 2.
Proof.
  intros lo la x y Hb Hv Hxy. unfold vec_of, tan_native_vec in Hv.
  set (s := sqrt (1 + rad x * rad x + rad y * rad y)) in Hv.
  assert (Hs : 0 < s) by (apply sqrt_lt_R0; nra).
  inversion Hv as [[H0 H1 H2]]. pose proof PI_RGT_0 as Hpi. split.
  - (* sin la = 1 / s > 0 *)
    assert (0 < sin la) by (rewrite H2; apply Rdiv_lt_0_compat; lra).
    destruct (Rlt_dec 0 la) as [H'|H']; [exact H'|]. exfalso.
    assert (0 <= sin (- la)) by (apply sin_ge_0; lra). rewrite sin_neg in *. lra.
  - (* at 90 degrees cos la = 0 and the point is the reference point *)
    destruct (Rlt_dec la (PI / 2)) as [H'|H']; [exact H'|]. exfalso. apply Hxy.
    replace la with (PI / 2) in H0, H1 by lra. rewrite cos_PI2, Rmult_0_l in H0, H1.
    assert (rad y = 0) by (replace (rad y) with (- (- rad y / s) * s) by (field; lra); rewrite <- H0; ring).
    assert (rad x = 0) by (replace (rad x) with (rad x / s * s) by (field; lra); rewrite <- H1; ring).
    f_equal; apply rad_inj; unfold rad at 2; lra.
Qed.

Lemma native_latitude_of_image2sph : forall w x y, orthogonal (w_rot w) -> (x, y) <> (0, 0) ->
  let ll := image2sph w x y in
  0 < snd (Rotate w (fst ll) (snd ll) false) * d2r < PI / 2.
Proof.
  intros w x y Ho Hxy ll.
  apply (native_lat_range _ _ x y (rotate_lat_range _ _ _) (rotate_back_native w x y Ho) Hxy).
Qed.

(* sph2image undoes image2sph away from the reference point (at the reference point itself the
   code divides by tan(pi/2), which has no value over the reals; the floating-point code gets
   r2d / 1.6e16 there, see the sampled check) *)
Lemma sph2image_image2sph : forall w x y, orthogonal (w_rot w) -> (x, y) <> (0, 0) ->
  sph2image w (fst (image2sph w x y)) (snd (image2sph w x y)) = (x, y).
Proof.
  intros w x y Ho Hxy.
  pose proof (native_latitude_of_image2sph w x y Ho Hxy) as Hla. pose proof (rotate_back_native w x y Ho) as Hv.
  cbv zeta in Hla, Hv. unfold sph2image.
  destruct (Rlt_dec 0 _) as [_|C]; [|exfalso; lra].
  apply tan_native_vec_inj. rewrite <- Hv. apply tan_native_of_sph, Hla.
Qed.

(* and image2sph undoes sph2image on directions, on the visible hemisphere without the reference point *)
Lemma image2sph_of_sph2image : forall w lon lat, orthogonal (w_rot w) ->
  let ll := Rotate w lon lat false in
  0 < snd ll * d2r < PI / 2 ->
  let xy := sph2image w lon lat in
  unitvec (fst (image2sph w (fst xy) (snd xy))) (snd (image2sph w (fst xy) (snd xy))) = unitvec lon lat.
Proof.
  intros w lon lat Ho ll Hla xy.
  rewrite (image2sph_vec w _ _ Ho). unfold xy, sph2image. fold ll.
  destruct (Rlt_dec 0 (snd ll * d2r)) as [_|C]; [|exfalso; lra]. cbn [fst snd].
  rewrite (tan_native_of_sph (fst ll * d2r) (snd ll * d2r) Hla).
  rewrite <- unitvec_vec_of. unfold ll, Rotate. cbn [fst snd].
  rewrite (rotate_vec _ _ _ Ho), <- unitvec_vec_of.
  rewrite <- (transpose_involutive (w_rot w)) at 1. apply mapply_transpose_inv, orthogonal_transpose, Ho.
Qed.

Lemma apply_cdinv_cd : forall h x y, cd_det h <> 0 ->
  apply_cdinv h (fst (apply_cd h x y)) (snd (apply_cd h x y)) = (x, y).
Proof.
  intros h x y Hd. unfold apply_cdinv, apply_cd. cbn [fst snd]. unfold cd_det in *. f_equal; field; exact Hd.
Qed.

Lemma apply_cd_nonzero : forall h x y, cd_det h <> 0 -> (x, y) <> (0, 0) -> apply_cd h x y <> (0, 0).
Proof.
  intros h x y Hd Hxy E. apply Hxy.
  pose proof (apply_cdinv_cd h x y Hd) as Hi. rewrite E in Hi. cbn [fst snd] in Hi.
  rewrite <- Hi. unfold apply_cdinv. f_equal; ring.
Qed.

Lemma apply_cd_cdinv : forall h x y, cd_det h <> 0 ->
  apply_cd h (fst (apply_cdinv h x y)) (snd (apply_cdinv h x y)) = (x, y).
Proof.
  intros h x y Hd. unfold apply_cdinv, apply_cd. cbn [fst snd]. unfold cd_det in *. f_equal; field; exact Hd.
Qed.

Lemma apply_cdinv_inj : forall h p q, cd_det h <> 0 ->
  apply_cdinv h (fst p) (snd p) = apply_cdinv h (fst q) (snd q) -> p = q.
Proof.
  intros h p q Hd E. rewrite (surjective_pairing p), (surjective_pairing q).
  rewrite <- (apply_cd_cdinv h (fst p) (snd p) Hd), <- (apply_cd_cdinv h (fst q) (snd q) Hd), E. reflexivity.
Qed.
