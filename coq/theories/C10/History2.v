(* C10 -- the state machine extended by the explicit call InvertDistortion(): it (re)fits the inverse polynomial, leaves
   the object with _inverse_computed = True (through the nested Distort(inverse=True) of its own accuracy test) and
   returns the rms of the fit; it touches neither the scratch buffers nor anything the forward chain reads.  Outputs of
   every operation, InvertDistortion() included, remain independent of the history (the coherence invariant of History.v
   is kept by the new operation). *)
From Coq Require Import Reals List.
From EsVerif.C10 Require Import Model History.
Import ListNotations.
Local Open Scope R_scope.

Inductive xop := XCore (o : op) | XInvert.
Inductive xout := XOut (o : out) | XRms (r : R).

Section History2.
  Variable fit : header -> coeffs * coeffs.
  Variable fsolve : (R * R -> R * R) -> R * R -> R -> R * R.
  Variable rms : header -> R.          (* the value InvertDistortion returns: a function of the header *)

  Definition invert_state (w : wcs) (s : state) : state :=
    {| s_inv_computed := true; s_ap := fst (fit (w_hdr w)); s_bp := snd (fit (w_hdr w));
       s_lonlat_answer := s_lonlat_answer s; s_xyguess := s_xyguess s; s_xy_answer := s_xy_answer s |}.

  Definition xstep (w : wcs) (s : state) (o : xop) : state * xout :=
    match o with
    | XCore o => let r := step fit fsolve w s o in (fst r, XOut (snd r))
    | XInvert => (invert_state w s, XRms (rms (w_hdr w)))
    end.

  Fixpoint xrun (w : wcs) (s : state) (ops : list xop) : state :=
    match ops with
    | [] => s
    | o :: t => xrun w (fst (xstep w s o)) t
    end.

  Definition xlast_out (w : wcs) (ops : list xop) (o : xop) : xout :=
    snd (xstep w (xrun w (init_state w) ops) o).

  Lemma invert_coherent : forall w s, coherent fit w (invert_state w s).
  Proof. intros w s _. split; reflexivity. Qed.

  Lemma xstep_coherent : forall w s o, coherent fit w s -> coherent fit w (fst (xstep w s o)).
  Proof.
    intros w s [o|] H; cbn [xstep fst].
    - apply step_coherent. exact H.
    - apply invert_coherent.
  Qed.

  Lemma xstep_out : forall w s1 s2 o, coherent fit w s1 -> coherent fit w s2 ->
    snd (xstep w s1 o) = snd (xstep w s2 o).
  Proof.
    intros w s1 s2 [o|] H1 H2; cbn [xstep snd]; [|reflexivity].
    f_equal. apply step_out; assumption.
  Qed.

  Lemma xrun_coherent : forall w ops s, coherent fit w s -> coherent fit w (xrun w s ops).
  Proof.
    intros w ops. induction ops as [|o t IH]; intros s H; cbn [xrun]; [exact H|].
    apply IH. apply xstep_coherent. exact H.
  Qed.
End History2.
