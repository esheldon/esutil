(* C10 — the distortion polynomials: the regenerated scamp table against the TPV term order, the
   SIP matrix against the SIP sum, and pixel -> intermediate coordinates of the model against
   the conventions. *)
From Coq Require Import Reals Lia List String.
From EsVerif.Common Require Import Base.
From EsVerif.C10 Require Import Gen Model Spec.
Import ListNotations.
Local Open Scope R_scope.

Ltac table_cbv :=
  cbv [poly2d poly_rows sum_row pv_matrix pv_store pv_init scanned_ks scamp_map1 scamp_map2 scamp_skip
       scamp_max_ncoeff scamp_max_order zeros mset mget set_nth assoc_nat
       tpv_poly tpv_value tpv_default tpv_term tpv_terms tpv_supported
       List.fold_left List.fold_right List.filter List.seq List.existsb List.nth List.repeat
       Nat.eqb negb andb orb].

(* the polynomial that ExtractPVCoeffs + Apply2DPolynomial
   evaluate for axis 1 (resp. 2) is the TPV polynomial in (x, y) (resp. (y, x)) restricted to
   the supported terms, with the TPV defaults for keys that are not in the header. *)
Lemma tpv_table_correct : forall look x y,
  poly2d (pv_matrix scamp_map1 look) x y = tpv_poly look x y /\
  poly2d (pv_matrix scamp_map2 look) x y = tpv_poly look y x.
Proof. intros. table_cbv. split; ring. Qed.

(* the supported terms are exactly the non-radial TPV terms of order <= _scamp_max_order, and the scanned keys are
   the supported ones *)
Definition tpv_terms_of_order (n : nat) : nat :=   (* number of PV terms up to order n incl. radial *)
  match n with 0 => 1 | 1 => 4 | 2 => 7 | 3 => 12 | 4 => 17 | 5 => 24 | 6 => 31 | _ => 40 end%nat.

Lemma tpv_supported_are_the_polynomial_terms :
  tpv_supported = filter (fun k => negb (tpv_radial k)) (seq 0 (tpv_terms_of_order scamp_max_order - 1))
  /\ scanned_ks = tpv_supported.
Proof. split; reflexivity. Qed.

(* _ap: which distortion convention each allowed projection uses *)
Lemma ap_table_ok :
  map (fun e => (fst e, nth 0 (snd e) ""%string)) ap_table
  = [("-TAN", "scamp"); ("-TPV", "scamp"); ("-TAN-SIP", "sip")]%string
  /\ allowed_projections = ["-TAN"; "-TPV"; "-TAN-SIP"]%string.
Proof. split; reflexivity. Qed.

Definition rsum (f : nat -> R) (l : list nat) : R := fold_right (fun k acc => f k + acc) 0 l.

Lemma rsum_app : forall f l1 l2, rsum f (l1 ++ l2) = rsum f l1 + rsum f l2.
Proof. intros f l1 l2. induction l1 as [|a t IH]; simpl; [ring|]. rewrite IH. ring. Qed.

Lemma rsum_zero : forall f l, (forall k, In k l -> f k = 0) -> rsum f l = 0.
Proof.
  intros f l H. induction l as [|a t IH]; simpl; [reflexivity|].
  rewrite (H a) by (left; reflexivity). rewrite IH; [ring|]. intros k Hk. apply H. right. exact Hk.
Qed.

Lemma rsum_head_only : forall f a l, (forall k, In k l -> f k = 0) -> rsum f (a :: l) = f a.
Proof. intros f a l H. cbn [rsum fold_right]. fold (rsum f l). rewrite (rsum_zero f l H). ring. Qed.

Lemma rsum_ext : forall f g l, (forall k, In k l -> f k = g k) -> rsum f l = rsum g l.
Proof.
  intros f g l H. induction l as [|a t IH]; simpl; [reflexivity|].
  rewrite (H a) by (left; reflexivity). rewrite IH; [reflexivity|]. intros k Hk. apply H. right. exact Hk.
Qed.

Lemma sum_row_map_seq : forall (g : nat -> R) x y ix m j,
  sum_row (map g (seq j m)) x y ix j = rsum (fun q => g q * x ^ ix * y ^ q) (seq j m).
Proof.
  intros g x y ix m. induction m as [|m IH]; intro j; simpl; [reflexivity|]. rewrite IH. reflexivity.
Qed.

Lemma poly_rows_map_seq : forall (f : nat -> list R) x y n i,
  poly_rows (map f (seq i n)) x y i = rsum (fun p => sum_row (f p) x y p 0) (seq i n).
Proof.
  intros f x y n. induction n as [|n IH]; intro i; simpl; [reflexivity|]. rewrite IH. reflexivity.
Qed.

Lemma sip_matrix_poly : forall order cs u v,
  poly2d (sip_matrix order cs) u v
  = rsum (fun p => rsum (fun q => sip_coef cs p q * u ^ p * v ^ q) (seq 0 (S order))) (seq 0 (S order)).
Proof.
  intros. unfold poly2d, sip_matrix. rewrite poly_rows_map_seq.
  apply rsum_ext. intros p _. apply sum_row_map_seq.
Qed.

Lemma sip_poly_rsum : forall order cs u v,
  sip_poly order cs u v
  = rsum (fun p => rsum (fun q => sip_value cs p q * u ^ p * v ^ q) (seq 0 (S order - p))) (seq 0 (S order)).
Proof. reflexivity. Qed.

(* the (order+1)^2 matrix of the code sums the same terms as the SIP triangle p + q <= order
   when the header has no coefficient beyond the declared order *)
Lemma sip_order : forall order cs u v, sip_wellformed order cs ->
  poly2d (sip_matrix order cs) u v = sip_poly order cs u v.
Proof.
  intros order cs u v Hwf. rewrite sip_matrix_poly, sip_poly_rsum.
  apply rsum_ext. intros p Hp. apply in_seq in Hp.
  replace (S order) with ((S order - p) + p)%nat at 1 by lia.
  rewrite seq_app, rsum_app. simpl (0 + _)%nat.
  rewrite (rsum_zero _ (seq (S order - p) p)).
  - unfold sip_coef, sip_value. ring.
  - intros q Hq. apply in_seq in Hq. unfold sip_coef. rewrite Hwf by lia. ring.
Qed.

(* no coefficient present within the matrix => the SIP polynomial vanishes *)
Lemma filter_nil_forall : forall {A} (f : A -> bool) l, List.length (filter f l) = 0%nat -> forall a, In a l -> f a = false.
Proof.
  intros A f l H a Ha. destruct (f a) eqn:E; [|reflexivity].
  assert (In a (filter f l)) by (apply filter_In; split; assumption).
  destruct (filter f l); [contradiction|discriminate].
Qed.

Lemma sip_count_zero : forall order cs u v, sip_count order cs = 0%nat -> sip_poly order cs u v = 0.
Proof.
  intros order cs u v H. rewrite sip_poly_rsum. apply rsum_zero. intros p Hp. apply in_seq in Hp.
  apply rsum_zero. intros q Hq. apply in_seq in Hq.
  unfold sip_count in H.
  pose proof (filter_nil_forall _ _ H (p, q)) as Hf. cbn [fst snd] in Hf.
  assert (Hin : In (p, q) (list_prod (seq 0 (S order)) (seq 0 (S order)))).
  { apply in_prod; apply in_seq; lia. }
  specialize (Hf Hin). unfold sip_value. destruct (assoc_nn p q cs); [discriminate|ring].
Qed.

Lemma tpv_poly_ext : forall l1 l2 x y, (forall k, In k tpv_supported -> l1 k = l2 k) ->
  tpv_poly l1 x y = tpv_poly l2 x y.
Proof.
  intros l1 l2 x y H. unfold tpv_poly.
  induction tpv_supported as [|a t IH]; simpl; [reflexivity|].
  unfold tpv_value at 1 3. rewrite (H a) by (left; reflexivity).
  rewrite IH; [reflexivity|]. intros k Hk. apply H. right. exact Hk.
Qed.

Lemma tpv_poly_none : forall x y, tpv_poly (fun _ => None) x y = x.
Proof. intros. table_cbv. ring. Qed.

Lemma pv_count_zero : forall look x y, pv_count look = 0%nat -> tpv_poly look x y = x.
Proof.
  intros look x y H. transitivity (tpv_poly (fun _ => None) x y); [|apply tpv_poly_none].
  apply tpv_poly_ext. intros k Hk.
  unfold pv_count in H. pose proof (filter_nil_forall _ _ H k) as Hf.
  destruct tpv_supported_are_the_polynomial_terms as [_ E]. rewrite E in Hf. specialize (Hf Hk).
  destruct (look k); [discriminate|reflexivity].
Qed.

(* the TAN / TPV arm over variables: no PV key on either axis => no distortion model and the TPV polynomial is the
   identity; otherwise the scamp matrices evaluate the TPV polynomials *)
Lemma scamp_arm_matches_tpv : forall l1 l2 X Y,
  let d := if Nat.eqb (pv_count l1) 0 && Nat.eqb (pv_count l2) 0
           then {| d_name := DNone; d_a := []; d_b := [] |}
           else {| d_name := DScamp; d_a := pv_matrix scamp_map1 l1; d_b := pv_matrix scamp_map2 l2 |} in
  (if match d_name d with DNone => false | _ => true end then distort_with (d_name d) (d_a d) (d_b d) X Y else (X, Y))
  = (tpv_poly l1 X Y, tpv_poly l2 Y X).
Proof.
  intros l1 l2 X Y d. unfold d.
  destruct (Nat.eqb (pv_count l1) 0 && Nat.eqb (pv_count l2) 0) eqn:Ec; cbn [d_name d_a d_b].
  - apply andb_true_iff in Ec. destruct Ec as [E1 E2]. apply Nat.eqb_eq in E1, E2.
    rewrite (pv_count_zero _ _ _ E1), (pv_count_zero _ _ _ E2). reflexivity.
  - unfold distort_with.
    rewrite (proj1 (tpv_table_correct l1 X Y)), (proj2 (tpv_table_correct l2 X Y)), !Rmult_0_l, !Rplus_0_l.
    reflexivity.
Qed.

Lemma pix2inter_matches_fits : forall h x y,
  (h_proj h = PSip -> sip_wellformed (h_a_order h) (h_sipa h) /\ sip_wellformed (h_b_order h) (h_sipb h)) ->
  pix2inter (mk_wcs h) x y true = fits_intermediate h x y.
Proof.
  intros h x y Hsip. unfold pix2inter, fits_intermediate, has_dist, mk_wcs. cbn [w_hdr w_dist].
  unfold extract_distortion, apply_cd.
  destruct (h_proj h) eqn:Ep; [apply scamp_arm_matches_tpv|apply scamp_arm_matches_tpv|].
  (* -TAN-SIP *)
  destruct (Hsip eq_refl) as [Wa Wb]. set (u := x - h_crpix1 h). set (v := y - h_crpix2 h).
  destruct (Nat.eqb (sip_count (h_a_order h) (h_sipa h)) 0 &&
            Nat.eqb (sip_count (h_b_order h) (h_sipb h)) 0) eqn:Ec; cbn [d_name d_a d_b andb fst snd].
  - apply andb_true_iff in Ec. destruct Ec as [E1 E2]. apply Nat.eqb_eq in E1, E2.
    rewrite (sip_count_zero _ _ _ _ E1), (sip_count_zero _ _ _ _ E2), !Rplus_0_r. reflexivity.
  - unfold distort_with. cbn [fst snd].
    rewrite (sip_order _ _ _ _ Wa), (sip_order _ _ _ _ Wb), !Rmult_1_r. reflexivity.
Qed.

(* with distort=False every header is treated as a plain tangent-plane header *)
Lemma pix2inter_nodistort : forall h x y,
  pix2inter (mk_wcs h) x y false = apply_cd h (x - h_crpix1 h) (y - h_crpix2 h).
Proof.
  intros. unfold pix2inter. cbn [andb w_hdr mk_wcs]. destruct (h_proj h); reflexivity.
Qed.
