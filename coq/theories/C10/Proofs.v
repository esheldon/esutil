(* C10 — facts on the level of the object's operations and of the specification: when the reference pixel has
   intermediate coordinates (0,0), image2sky / sky2image without distortion are inverse to each other, the reference
   directions have unit length, the two facts that justify what Model.v leaves out, the rational checkers decide their
   properties. *)
From Coq Require Import Reals Lra Lia List Bool QArith Qabs.
From EsVerif.Common Require Import Base.
From EsVerif.C10 Require Import Gen Model Spec Trig Forward Poly.
Import ListNotations.
Local Open Scope R_scope.

(* when does the reference pixel have intermediate coordinates (0,0): TAN/TPV iff the constant
   terms PV1_0, PV2_0 are absent or zero; SIP when A_0_0, B_0_0 are absent or zero *)
Lemma crpix_intermediate_tpv : forall h, h_proj h <> PSip ->
  fits_intermediate h (h_crpix1 h) (h_crpix2 h)
  = (tpv_value (fun k => assoc_nat k (h_pv1 h)) 0, tpv_value (fun k => assoc_nat k (h_pv2 h)) 0).
Proof.
  intros h Hp. unfold fits_intermediate.
  replace (h_crpix1 h - h_crpix1 h) with 0 by ring. replace (h_crpix2 h - h_crpix2 h) with 0 by ring.
  replace (h_cd11 h * 0 + h_cd12 h * 0) with 0 by ring. replace (h_cd21 h * 0 + h_cd22 h * 0) with 0 by ring.
  assert (E : forall look, tpv_poly look 0 0 = tpv_value look 0) by (intro look; table_cbv; ring).
  destruct (h_proj h); try (rewrite !E; reflexivity). contradiction Hp; reflexivity.
Qed.

Lemma crpix_intermediate_tan : forall h, h_proj h <> PSip ->
  assoc_nat 0%nat (h_pv1 h) = None -> assoc_nat 0%nat (h_pv2 h) = None ->
  fits_intermediate h (h_crpix1 h) (h_crpix2 h) = (0, 0).
Proof.
  intros h Hp H1 H2. rewrite (crpix_intermediate_tpv h Hp). unfold tpv_value. rewrite H1, H2. reflexivity.
Qed.

(* at u = v = 0 only the term p = q = 0 survives *)
Lemma sip_poly_at_origin : forall order cs, sip_poly order cs 0 0 = sip_value cs 0 0.
Proof.
  intros. rewrite sip_poly_rsum. change (seq 0 (S order)) with (0%nat :: seq 1 order). rewrite rsum_head_only.
  - rewrite Nat.sub_0_r. change (seq 0 (S order)) with (0%nat :: seq 1 order). rewrite rsum_head_only; [simpl; ring|].
    intros q Hq. apply in_seq in Hq. destruct q as [|q]; [lia|simpl; ring].
  - intros p Hp. apply in_seq in Hp. apply rsum_zero. intros q _. destruct p as [|p]; [lia|simpl; ring].
Qed.

Lemma crpix_intermediate_sip : forall h, h_proj h = PSip ->
  assoc_nn 0 0 (h_sipa h) = None -> assoc_nn 0 0 (h_sipb h) = None ->
  fits_intermediate h (h_crpix1 h) (h_crpix2 h) = (0, 0).
Proof.
  intros h Hp H1 H2. unfold fits_intermediate. rewrite Hp.
  replace (h_crpix1 h - h_crpix1 h) with 0 by ring. replace (h_crpix2 h - h_crpix2 h) with 0 by ring.
  rewrite !sip_poly_at_origin. unfold sip_value. rewrite H1, H2. f_equal; ring.
Qed.

(* both flags act only through `distort && has_dist w`: switched off, or without a distortion model, the chain is
   the distortion-free one and the state is not touched *)
Lemma pix2inter_off : forall w x y d, d && has_dist w = false -> pix2inter w x y d = pix2inter w x y false.
Proof. intros w x y d H. unfold pix2inter. rewrite H. reflexivity. Qed.

Lemma sky2image_direct_off : forall fit w s lon lat d, d && has_dist w = false ->
  sky2image_direct fit w s lon lat d = (s, sky2image_nodistort w lon lat).
Proof.
  intros fit w s lon lat d H. unfold sky2image_direct, sky2image_nodistort. rewrite H.
  destruct (h_proj (w_hdr w)); reflexivity.
Qed.

Lemma tan_inverse : forall h x y, cd_det h <> 0 -> (x, y) <> (h_crpix1 h, h_crpix2 h) ->
  let ll := image2sky (mk_wcs h) x y false in
  sky2image_nodistort (mk_wcs h) (fst ll) (snd ll) = (x, y).
Proof.
  intros h x y Hd Hxy. cbv zeta. unfold image2sky. rewrite pix2inter_nodistort.
  set (uv := apply_cd h (x - h_crpix1 h) (y - h_crpix2 h)).
  assert (Hne : (x - h_crpix1 h, y - h_crpix2 h) <> (0, 0)).
  { intro E. inversion E. apply Hxy. f_equal; lra. }
  assert (Huv : uv <> (0, 0)) by (apply apply_cd_nonzero; assumption).
  unfold sky2image_nodistort. cbn [w_hdr mk_wcs].
  rewrite (sph2image_image2sph (mk_wcs h) (fst uv) (snd uv) (mk_wcs_orthogonal h)).
  2:{ destruct uv; exact Huv. }
  cbn [fst snd]. unfold uv. rewrite (apply_cdinv_cd h _ _ Hd). cbn [fst snd].
  destruct (h_proj h); f_equal; ring.
Qed.

Lemma unitvec_unit : forall lon lat, vdot (unitvec lon lat) (unitvec lon lat) = 1.
Proof. intros. rewrite unitvec_vec_of. apply vec_of_unit. Qed.

Lemma sky_close_angle : forall u v tol, vdot u u = 1 -> vdot v v = 1 -> sky_close u v tol ->
  cos (rad tol) <= vdot u v.
Proof.
  intros [[u0 u1] u2] [[v0 v1] v2] tol Hu Hv Hc.
  unfold sky_close, vdist2, vdot, vx, vy, vz in *. cbn [fst snd] in *.
  (* |u - v|^2 = 2 - 2 u.v  and  cos tol = 1 - 2 sin^2 (tol / 2) *)
  replace (rad tol) with (2 * (rad tol / 2)) by field. rewrite cos_2a_sin.
  set (s := sin (rad tol / 2)) in *. nra.
Qed.

Lemma tan_native_vec_unit : forall x y, vdot (tan_native_vec x y) (tan_native_vec x y) = 1.
Proof.
  intros. unfold tan_native_vec, vdot, vx, vy, vz. cbn [fst snd].
  set (n := sqrt (1 + rad x * rad x + rad y * rad y)).
  assert (Hn : 0 < n) by (apply sqrt_lt_R0; nra).
  assert (Hnn : n * n = 1 + rad x * rad x + rad y * rad y) by (apply sqrt_sqrt; nra).
  replace 1 with ((1 + rad x * rad x + rad y * rad y) / (n * n)) at 3 by (rewrite Hnn; field; nra).
  field. lra.
Qed.

Lemma fits_sky_vec_unit : forall a0 d0 xi eta,
  vdot (fits_sky_vec a0 d0 xi eta) (fits_sky_vec a0 d0 xi eta) = 1.
Proof.
  intros. rewrite <- rotated_native_is_gnomonic, <- (transpose_involutive (rotation_matrix _ _ _)).
  rewrite orthogonal_preserves_norm by apply orthogonal_transpose, rotmat_orthogonal. apply tan_native_vec_unit.
Qed.

(* wrap_ra_diff: one pass of each loop suffices for |d| <= 540, in particular for differences of two longitudes in [0,360) *)
Lemma wrap_once_suffices : forall d, -540 <= d <= 540 -> -180 <= wrap_ra_diff d <= 180.
Proof.
  intros d H. unfold wrap_ra_diff. destruct (Rlt_dec d (-180)); [lra|]. destruct (Rlt_dec 180 d); lra.
Qed.

(* it undoes a whole turn added to or taken from a difference in (-180, 180) *)
Lemma wrap_ra_diff_fold : forall d k, -180 < d < 180 -> (k = 0 \/ k = 360 \/ k = -360) -> wrap_ra_diff (d + k) = d.
Proof.
  intros d k Hd Hk. unfold wrap_ra_diff.
  destruct Hk as [-> | [-> | ->]]; destruct (Rlt_dec _ (-180)); try lra; destruct (Rlt_dec 180 _); lra.
Qed.

(* every scanned key has a table entry *)
Lemma scamp_tables_total :
  forallb (fun k => is_some (assoc_nat k scamp_map1) && is_some (assoc_nat k scamp_map2)) scanned_ks = true.
Proof. reflexivity. Qed.

Local Open Scope Q_scope.

Lemma Qlt_bool_iff : forall a b, negb (Qle_bool b a) = true <-> a < b.
Proof.
  intros a b. rewrite negb_true_iff, <- not_true_iff_false, Qle_bool_iff. split; [apply Qnot_le_lt|apply Qlt_not_le].
Qed.

Lemma range_check_iff : forall lon lat, range_check lon lat = true <->
  0 <= lon /\ lon < 360 /\ -90 <= lat /\ lat <= 90.
Proof. intros. unfold range_check. rewrite !andb_true_iff, Qlt_bool_iff, !Qle_bool_iff. tauto. Qed.

Lemma px_close_check_iff : forall x y xb yb tol, px_close_check x y xb yb tol = true <->
  0 <= tol /\ qdist2 x y xb yb < tol * tol.
Proof. intros. unfold px_close_check. rewrite andb_true_iff, Qlt_bool_iff, Qle_bool_iff. tauto. Qed.

Lemma cdinv_check_iff : forall a b c d ia ib ic id tol, cdinv_check a b c d ia ib ic id tol = true <->
  Qabs (ia * a + ib * c - 1) <= tol /\ Qabs (ia * b + ib * d) <= tol /\
  Qabs (ic * a + id * c) <= tol /\ Qabs (ic * b + id * d - 1) <= tol.
Proof. intros. unfold cdinv_check. rewrite !andb_true_iff, !Qle_bool_iff. tauto. Qed.

Lemma sky_same_check_iff : forall lon lat lon' lat' tol, sky_same_check lon lat lon' lat' tol = true <->
  Qabs (lat - lat') <= tol /\ lon_wrap_abs (lon - lon') * lon_weight lat <= tol.
Proof. intros. unfold sky_same_check. rewrite andb_true_iff, !Qle_bool_iff. tauto. Qed.

Lemma qlist_eqb_iff : forall a b, qlist_eqb a b = true <-> Forall2 Qeq a b.
Proof.
  induction a as [|x s IH]; intros [|y t]; cbn [qlist_eqb]; try (split; [discriminate|intro H; inversion H]).
  - split; [constructor|reflexivity].
  - rewrite andb_true_iff, Qeq_bool_iff, IH. split; [intros [? ?]; constructor; assumption|intro H; inversion H; tauto].
Qed.

Lemma qlist_close_abs_iff : forall a b tol, qlist_close_abs a b tol = true <->
  Forall2 (fun x y => Qabs (x - y) <= tol) a b.
Proof.
  induction a as [|x s IH]; intros [|y t] tol; cbn [qlist_close_abs]; try (split; [discriminate|intro H; inversion H]).
  - split; [constructor|reflexivity].
  - rewrite andb_true_iff, Qle_bool_iff, IH. split; [intros [? ?]; constructor; assumption|intro H; inversion H; tauto].
Qed.

Lemma sky_list_same_sound : forall a b tol, sky_list_same a b tol = true ->
  Forall2 (fun p q => Qabs (snd p - snd q) <= tol /\
                      lon_wrap_abs (fst p - fst q) * lon_weight (snd p) <= tol) a b.
Proof.
  induction a as [|[l t] s IH]; intros [|[l' t'] s'] tol H; simpl in H; try discriminate; [constructor|].
  apply andb_true_iff in H. destruct H as [H1 H2].
  constructor; [apply sky_same_check_iff; exact H1|apply IH; exact H2].
Qed.
