(* C10 — the property theorems.  All statements are over Coq's real numbers (style R); the gap to the IEEE
   evaluation of the same formulas is measured per sampled case by kernel-checked interval certificates. *)
From Coq Require Import Reals List Bool QArith Lra Lia String.
From EsVerif.Common Require Import Base.
From EsVerif.C10 Require Import Gen Model Spec Trig Forward Poly History Proofs Source Inverse SkySame Lonpole History2 Construct.
Import ListNotations.
Local Open Scope R_scope.

(* The nine entries of CreateRotationMatrix: the matrix (applied by the code as native ->
   celestial) is the transpose of the Z-X-Z Euler rotation celestial -> native of Calabretta &
   Greisen 2002 Sect. 2.3 for (alpha_p, delta_p, phi_p); it is orthogonal. *)
Theorem C10_rotmat_is_euler : forall alpha_p delta_p longpole,
  transpose (rotation_matrix alpha_p delta_p longpole) = euler_cel2nat alpha_p delta_p (longpole * d2r)
  /\ mmul (rotation_matrix alpha_p delta_p longpole) (transpose (rotation_matrix alpha_p delta_p longpole)) = mident
  /\ mmul (transpose (rotation_matrix alpha_p delta_p longpole)) (rotation_matrix alpha_p delta_p longpole) = mident.
Proof. intros. split; [apply rotmat_is_euler|apply rotmat_orthogonal]. Qed.

(* The matrix of CreateRotationMatrix realises eq. (2) of Calabretta & Greisen 2002 in direction-cosine form for every
   native (phi, theta). *)
Theorem C10_rotation_is_paper_eq2 : forall alpha_p delta_p longpole phi theta,
  mapply (rotation_matrix alpha_p delta_p longpole) (vec_of phi theta)
  = paper_eq2_vec alpha_p delta_p (longpole * d2r) phi theta.
Proof.
  intros. unfold mapply, rotation_matrix, paper_eq2_vec, vec_of, vx, vy, vz.
  cbn [m00 m01 m02 m10 m11 m12 m20 m21 m22 fst snd].
  rewrite cos_minus, sin_minus. f_equal; [f_equal|]; ring.
Qed.

(* The regenerated _scamp_map: what ExtractPVCoeffs + Apply2DPolynomial evaluate is the TPV
   polynomial (TPV term order and defaults, written independently in Spec.v) over the supported
   terms, which are exactly the non-radial terms up to _scamp_max_order; no scanned key lacks a
   table entry. *)
Theorem C10_tpv_table_correct :
  (forall look x y,
     poly2d (pv_matrix scamp_map1 look) x y = tpv_poly look x y /\
     poly2d (pv_matrix scamp_map2 look) x y = tpv_poly look y x)
  /\ tpv_supported = filter (fun k => negb (tpv_radial k)) (seq 0 (tpv_terms_of_order scamp_max_order - 1))
  /\ scanned_ks = tpv_supported
  /\ forallb (fun k => is_some (assoc_nat k scamp_map1) && is_some (assoc_nat k scamp_map2)) scanned_ks = true.
Proof.
  split; [exact tpv_table_correct|]. split; [apply tpv_supported_are_the_polynomial_terms|].
  split; [apply tpv_supported_are_the_polynomial_terms|exact scamp_tables_total].
Qed.

(* SIP: the (order+1)^2 coefficient matrix of the code sums exactly the SIP terms p + q <= order. *)
Theorem C10_sip_order : forall order cs u v, sip_wellformed order cs ->
  poly2d (sip_matrix order cs) u v = sip_poly order cs u v.
Proof. exact sip_order. Qed.

(* Composition order of both conventions: pixel -> intermediate world coordinates of the model
   equal the conventions' (TPV: polynomial after the CD matrix; SIP: polynomial added to the
   pixel offsets before the CD matrix; no coefficients: plain CD matrix). *)
Theorem C10_intermediate_matches_conventions : forall h x y, supported h ->
  pix2inter (mk_wcs h) x y true = fits_intermediate h x y.
Proof. intros h x y Hs. apply pix2inter_matches_fits, Hs. Qed.

(* LONPOLE other than 180 (theta_0 = 90, the TAN case): the forward chain is the paper's Euler rotation
   (alpha_p, delta_p, phi_p) = (CRVAL1, CRVAL2, LONPOLE) of the TAN native direction of the convention's intermediate
   coordinates -- for EVERY LONPOLE. *)
Theorem C10_forward_matches_fits_any_lonpole : forall h x y, sip_ok h ->
  let ll := image2sky (mk_wcs h) x y true in
  unitvec (fst ll) (snd ll) = fits_pix2sky_vec_lp h x y.
Proof.
  intros h x y Hs. cbv zeta. unfold image2sky, fits_pix2sky_vec_lp.
  rewrite (pix2inter_matches_fits h x y Hs). apply image2sph_is_celestial.
Qed.

Theorem C10_lonpole_180_is_gnomonic : forall h x y, h_longpole h = 180 ->
  fits_pix2sky_vec_lp h x y = fits_pix2sky_vec h x y.
Proof.
  intros h x y Hl. unfold fits_pix2sky_vec_lp, fits_pix2sky_vec, fits_sky_vec_lp. rewrite Hl.
  rewrite gnomonic_is_paper_chain. f_equal. unfold rad. field.
Qed.

Theorem C10_crpix_maps_to_crval_any_lonpole : forall h, sip_ok h ->
  fits_intermediate h (h_crpix1 h) (h_crpix2 h) = (0, 0) ->
  let ll := image2sky (mk_wcs h) (h_crpix1 h) (h_crpix2 h) true in
  unitvec (fst ll) (snd ll) = unitvec (h_crval1 h) (h_crval2 h).
Proof.
  intros h Hs H0. cbv zeta. rewrite (C10_forward_matches_fits_any_lonpole h _ _ Hs).
  unfold fits_pix2sky_vec_lp. rewrite H0. apply native_pole_to_crval.
Qed.

(* Forward chain: for every supported header (TAN, TPV, SIP; LONPOLE = 180, theta_0 = 90), every
   CRVAL including the poles and the seam, and every pixel, the direction of image2sky's result is
   the FITS reference direction: gnomonic deprojection about the reference point of the
   convention's intermediate coordinates. *)
Theorem C10_forward_matches_fits : forall h x y, supported h ->
  let ll := image2sky (mk_wcs h) x y true in
  unitvec (fst ll) (snd ll) = fits_pix2sky_vec h x y.
Proof.
  intros h x y [Hl Hs]. cbv zeta. rewrite <- (C10_lonpole_180_is_gnomonic h x y Hl).
  exact (C10_forward_matches_fits_any_lonpole h x y Hs).
Qed.

(* distort=False: the same header read as a plain tangent-plane header *)
Theorem C10_forward_nodistort : forall h x y, h_longpole h = 180 ->
  let ll := image2sky (mk_wcs h) x y false in
  let xe := apply_cd h (x - h_crpix1 h) (y - h_crpix2 h) in
  unitvec (fst ll) (snd ll) = fits_sky_vec (h_crval1 h) (h_crval2 h) (fst xe) (snd xe).
Proof.
  intros h x y Hl. cbv zeta. unfold image2sky. rewrite pix2inter_nodistort. apply image2sph_matches_fits, Hl.
Qed.

(* The reference direction used above is the one of the papers: Euler rotation with
   (alpha_p, delta_p, phi_p) = (CRVAL1, CRVAL2, 180 deg) of the TAN native direction; it is a unit
   vector. *)
Theorem C10_gnomonic_is_paper_chain : forall a0 d0 xi eta,
  fits_sky_vec a0 d0 xi eta = fits_celestial_vec (rad a0) (rad d0) PI (tan_native_vec xi eta)
  /\ vdot (fits_sky_vec a0 d0 xi eta) (fits_sky_vec a0 d0 xi eta) = 1.
Proof. intros. split; [apply gnomonic_is_paper_chain|apply fits_sky_vec_unit]. Qed.

(* Longitudes returned by image2sky are in [0,360) for every header, pixel and flag. *)
Theorem C10_lon_range : forall h x y d, 0 <= fst (image2sky (mk_wcs h) x y d) < 360.
Proof. intros. unfold image2sky. apply image2sph_lon_range. Qed.

(* The reference pixel maps to the reference sky position, longitude in [0,360), whenever the
   convention gives it the intermediate coordinates (0,0) — always for a header without
   constant distortion terms (PV1_0, PV2_0 / A_0_0, B_0_0 absent). *)
Theorem C10_crpix_maps_to_crval : forall h, supported h ->
  fits_intermediate h (h_crpix1 h) (h_crpix2 h) = (0, 0) ->
  let ll := image2sky (mk_wcs h) (h_crpix1 h) (h_crpix2 h) true in
  unitvec (fst ll) (snd ll) = unitvec (h_crval1 h) (h_crval2 h) /\ 0 <= fst ll < 360.
Proof.
  intros h Hs H0. split; [exact (C10_crpix_maps_to_crval_any_lonpole h (proj2 Hs) H0)|apply C10_lon_range].
Qed.

Theorem C10_crpix_condition :
  (forall h, h_proj h <> PSip -> assoc_nat 0%nat (h_pv1 h) = None -> assoc_nat 0%nat (h_pv2 h) = None ->
     fits_intermediate h (h_crpix1 h) (h_crpix2 h) = (0, 0))
  /\ (forall h, h_proj h = PSip -> assoc_nn 0 0 (h_sipa h) = None -> assoc_nn 0 0 (h_sipb h) = None ->
     fits_intermediate h (h_crpix1 h) (h_crpix2 h) = (0, 0)).
Proof. split; [exact crpix_intermediate_tan|exact crpix_intermediate_sip]. Qed.

(* Inverse without distortion: det CD <> 0 -> sky2image (image2sky p) = p, on the level of the
   operations of the object (any state, any oracles); the reference pixel itself is excluded
   because there the code's formula r2d / tan(pi/2) has no value over the reals. *)
Theorem C10_tan_inverse : forall fit fsolve h s x y xtol,
  cd_det h <> 0 -> (x, y) <> (h_crpix1 h, h_crpix2 h) ->
  let ll := image2sky (mk_wcs h) x y false in
  snd (sky2image fit fsolve (mk_wcs h) s (fst ll) (snd ll) false false xtol) = (x, y).
Proof.
  intros fit fsolve h s x y xtol Hd Hxy. cbv zeta. unfold sky2image. cbn [andb].
  rewrite sky2image_direct_off by reflexivity. apply tan_inverse; assumption.
Qed.

(* The same inverse for a header without distortion model, whatever the flags are *)
Theorem C10_tan_inverse_plain_header : forall fit fsolve h s x y distort distort' find xtol,
  has_dist (mk_wcs h) = false ->
  cd_det h <> 0 -> (x, y) <> (h_crpix1 h, h_crpix2 h) ->
  let ll := image2sky (mk_wcs h) x y distort in
  snd (sky2image fit fsolve (mk_wcs h) s (fst ll) (snd ll) distort' find xtol) = (x, y).
Proof.
  intros fit fsolve h s x y distort distort' find xtol Hn Hd Hxy. cbv zeta. unfold image2sky, sky2image.
  assert (Hoff : forall b, b && has_dist (mk_wcs h) = false) by (intro b; rewrite Hn; apply andb_false_r).
  rewrite (pix2inter_off _ _ _ _ (Hoff distort)), Hoff, (sky2image_direct_off _ _ _ _ _ _ (Hoff distort')).
  apply tan_inverse; assumption.
Qed.

(* History independence: for every inverse-fit routine and every root finder (functions of
   their arguments), the output of an operation after any history equals the output after any
   other history, in particular on a fresh object; the lazily fitted inverse coefficients are a
   function of the header only. *)
Theorem C10_history_independent : forall fit fsolve w h1 h2 o,
  last_out fit fsolve w h1 o = last_out fit fsolve w h2 o.
Proof.
  intros fit fsolve w h1 h2 o. unfold last_out. apply step_out; apply run_coherent; apply init_coherent.
Qed.

Theorem C10_history_vs_fresh : forall fit fsolve w h o,
  last_out fit fsolve w h o = snd (step fit fsolve w (init_state w) o).
Proof. intros fit fsolve w h o. apply (C10_history_independent fit fsolve w h [] o). Qed.

Theorem C10_inverse_fit_function_of_header : forall fit fsolve w h,
  let s := fst (run fit fsolve w (init_state w) h) in
  s_inv_computed s = true -> (s_ap s, s_bp s) = fit (w_hdr w).
Proof.
  intros fit fsolve w h s E. destruct (run_coherent fit fsolve w h _ (init_coherent fit w) E) as [A B].
  fold s in A, B. rewrite A, B. symmetry. apply surjective_pairing.
Qed.

(* wrap_ra_diff: one pass of its loops suffices for differences of longitudes in [0,360) *)
Theorem C10_wrap_once_suffices : forall d, -360 < d < 360 -> -180 <= wrap_ra_diff d <= 180.
Proof. intros d H. apply wrap_once_suffices. lra. Qed.

(* What a per-case certificate `sky_close u v tol` means: the angle between the unit vectors is
   at most tol degrees. *)
Theorem C10_sky_close_angle : forall u v tol, vdot u u = 1 -> vdot v v = 1 -> sky_close u v tol ->
  cos (rad tol) <= vdot u v.
Proof. exact sky_close_angle. Qed.

(* Checker soundness: what the correspondence run evaluates on the implementation's outputs. *)
Theorem C10_checkers_sound :
  (forall lon lat, range_check lon lat = true -> (0 <= lon /\ lon < 360 /\ -90 <= lat /\ lat <= 90)%Q)
  /\ (forall x y xb yb tol, px_close_check x y xb yb tol = true -> (0 <= tol /\ qdist2 x y xb yb < tol * tol)%Q)
  /\ (forall a b, qlist_eqb a b = true -> Forall2 Qeq a b)
  /\ (forall a b c d ia ib ic id tol, cdinv_check a b c d ia ib ic id tol = true ->
        (Qabs.Qabs (ia * a + ib * c - 1) <= tol /\ Qabs.Qabs (ia * b + ib * d) <= tol /\
         Qabs.Qabs (ic * a + id * c) <= tol /\ Qabs.Qabs (ic * b + id * d - 1) <= tol)%Q).
Proof.
  split; [apply range_check_iff|]. split; [apply px_close_check_iff|].
  split; [apply qlist_eqb_iff|apply cdinv_check_iff].
Qed.

(* Soundness of the closeness checkers used for "scalar calls = array calls" (pixels and jacobian
   entries absolutely; sky positions: latitude, and longitude across the seam weighted by an upper
   bound of cos(lat)). *)
Theorem C10_same_checkers_sound :
  (forall a b tol, qlist_close_abs a b tol = true -> Forall2 (fun x y => (Qabs.Qabs (x - y) <= tol)%Q) a b)
  /\ (forall a b tol, sky_list_same a b tol = true ->
        Forall2 (fun p q => (Qabs.Qabs (snd p - snd q) <= tol /\ lon_wrap_abs (fst p - fst q) * lon_weight (snd p) <= tol)%Q) a b).
Proof. split; [apply qlist_close_abs_iff|exact sky_list_same_sound]. Qed.

(* Inverse WITHOUT root finding on a distorted header: for every fit routine, the round-trip error
   of sky2image(find=False) o image2sky is exactly the residual of the fitted inverse polynomial the
   object holds (TPV: CD^-1 (P_inv (P_fwd (CD d)) - CD d); SIP: P_inv (d + f(d)) - d), i.e. the
   inverse chain itself adds nothing: "to the fitted-polynomial accuracy".  The point whose
   intermediate coordinates are (0,0) is excluded as in C10_tan_inverse. *)
Theorem C10_fit_roundtrip : forall fit fsolve h s x y xtol,
  has_dist (mk_wcs h) = true -> cd_det h <> 0 ->
  pix2inter (mk_wcs h) x y true <> (0, 0) ->
  let w := mk_wcs h in
  let ll := image2sky w x y true in
  let ab := inv_coeffs fit w s in
  snd (sky2image fit fsolve w s (fst ll) (snd ll) true false xtol) =
  (x + fst (fit_residual w (fst ab) (snd ab) x y), y + snd (fit_residual w (fst ab) (snd ab) x y)).
Proof. exact fit_roundtrip. Qed.

Theorem C10_fit_roundtrip_exact : forall fit fsolve h s x y xtol,
  has_dist (mk_wcs h) = true -> cd_det h <> 0 ->
  pix2inter (mk_wcs h) x y true <> (0, 0) ->
  let w := mk_wcs h in
  let ab := inv_coeffs fit w s in
  fit_residual w (fst ab) (snd ab) x y = (0, 0) ->
  let ll := image2sky w x y true in
  snd (sky2image fit fsolve w s (fst ll) (snd ll) true false xtol) = (x, y).
Proof.
  intros fit fsolve h s x y xtol Hdist Hd Hne w ab Hz ll.
  unfold ll, w. rewrite (fit_roundtrip fit fsolve h s x y xtol Hdist Hd Hne).
  fold w. fold ab. rewrite Hz. cbn [fst snd]. f_equal; ring.
Qed.

(* Tie to the source: the model's rotation matrix, _rotate, CD-matrix application, the formulas of
   image2sph / sph2image and the jacobian are, expression for expression, what c10_translate.py
   translated from esutil/wcsutil.py into Gen.v (the src_ definitions) for the tree under check. *)
Theorem C10_model_is_source :
  (src_d2r = d2r /\ src_r2d = r2d)
  /\ (forall alpha_p delta_p longpole,
        mat3_rows (rotation_matrix alpha_p delta_p longpole) = src_rotation_matrix alpha_p delta_p longpole)
  /\ (forall longitude latitude r,
        rotate_ longitude latitude r =
        src_rotate atan2 Rclip (m00 r) (m01 r) (m02 r) (m10 r) (m11 r) (m12 r) (m20 r) (m21 r) (m22 r) longitude latitude)
  /\ (forall h x y, apply_cd h x y = src_apply_cd (h_cd11 h) (h_cd12 h) (h_cd21 h) (h_cd22 h) x y)
  /\ (forall h x y, apply_cdinv h x y =
        src_apply_cdinv (h_cd22 h / cd_det h) (- h_cd12 h / cd_det h) (- h_cd21 h / cd_det h) (h_cd11 h / cd_det h) x y)
  /\ (forall w x y, image2sph w x y =
        let r := src_image2sph_r x y in
        let latitude := if Rlt_dec 0 r then src_image2sph_lat r else src_image2sph_lat_pole in
        let ll := Rotate w (src_image2sph_lon atan2 x y * src_r2d) (latitude * src_r2d) true in
        (fold360 (fst ll), snd ll))
  /\ (forall w longitude latitude, sph2image w longitude latitude =
        let ll := Rotate w longitude latitude false in
        let lo := fst ll * src_d2r in
        let la := snd ll * src_d2r in
        if Rlt_dec 0 la then src_sph2image lo la else (0, 0))
  /\ (forall c p0 m0 zp zm step, jac_of c p0 m0 zp zm step =
        src_jacobian wrap_ra_diff step (fst c) (snd c) (fst p0) (snd p0) (fst m0) (snd m0) (fst zp) (snd zp) (fst zm) (snd zm)).
Proof.
  (* every component is an identity between the hand-written expression and the translated one, up to unfolding *)
  repeat split; intros; try reflexivity.
  (* image2sph is the one part that is not plain unfolding: the source writes the pole latitude as 0 + pi/2 *)
  rewrite src_lat_pole. reflexivity.
Qed.

(* Tie to the source of the control flow of image2sky and of sky2image(find=False): per projection, which of
   CD matrix and distortion polynomial is applied first and what the distortion switch does (the
   translator refuses a tree in which (u, v) can be read before it is assigned). *)
Theorem C10_control_flow_is_source :
  (forall w x y distort,
     pix2inter w x y distort =
     src_pix2inter (apply_cd (w_hdr w)) (distort_with (d_name (w_dist w)) (d_a (w_dist w)) (d_b (w_dist w)))
                   (distort && has_dist w) (is_sip (h_proj (w_hdr w))) x y (h_crpix1 (w_hdr w)) (h_crpix2 (w_hdr w)))
  /\ (forall fit w s lon lat distort,
     snd (sky2image_direct fit w s lon lat distort) =
     let uv := sph2image w lon lat in
     src_inter2pix (apply_cdinv (w_hdr w)) (fun a b => snd (distort_inverse fit w s a b))
                   (distort && has_dist w) (is_sip (h_proj (w_hdr w))) (fst uv) (snd uv)
                   (h_crpix1 (w_hdr w)) (h_crpix2 (w_hdr w))).
Proof.
  split; intros.
  - unfold pix2inter, src_pix2inter, is_sip.
    destruct (h_proj (w_hdr w)); destruct (distort && has_dist w); cbn [fst snd];
      try reflexivity; rewrite <- surjective_pairing; reflexivity.
  - unfold sky2image_direct, src_inter2pix, is_sip. cbv zeta.
    destruct (h_proj (w_hdr w)); destruct (distort && has_dist w); reflexivity.
Qed.

(* Tie to the source of the domain of the lazy inverse fit ("over the whole image"): the grid ranges that
   InvertPVDistortion / InvertSipDistortion hand to make_xy_grid are the image rectangle, axis by
   axis (a swapped naxis or crpix index in the source breaks this theorem). *)
Theorem C10_fit_grid_is_image : forall h,
  src_pv_fit_ranges (h_naxis1 h) (h_naxis2 h) (h_crpix1 h) (h_crpix2 h) = image_rect_offsets h /\
  src_sip_fit_ranges (h_naxis1 h) (h_naxis2 h) (h_crpix1 h) (h_crpix2 h) = image_rect h.
Proof. intros. split; reflexivity. Qed.

(* Meaning of the rational checker used for "scalar calls = array calls" and for the input forms: the chord
   between two sky positions is 4 sin^2(dlat/2) + 4 cos lat cos lat' sin^2(dlon/2) exactly, and two positions
   that pass range_check and sky_same_check with tolerance tol (degrees) are closer than sqrt (2 + PI) tol on the
   sky -- across the RA = 0 seam and however close to a pole. *)
Theorem C10_sky_chord_identity : forall l t l' t',
  vdist2 (unitvec l t) (unitvec l' t') =
  4 * (sin (rad (t - t') / 2)) ^ 2 + 4 * cos (rad t) * cos (rad t') * (sin (rad (l - l') / 2)) ^ 2.
Proof. exact sky_chord_identity. Qed.

Theorem C10_sky_same_meaning : forall lon lat lon' lat' tol : Q,
  range_check lon lat = true -> range_check lon' lat' = true ->
  sky_same_check lon lat lon' lat' tol = true ->
  vdist2 (unitvec (Q2R lon) (Q2R lat)) (unitvec (Q2R lon') (Q2R lat')) <= (2 + PI) * (rad (Q2R tol)) ^ 2.
Proof. exact sky_same_check_meaning. Qed.

(* Tie to the source of the start values of Distort per convention (TPV: the polynomial alone; SIP: a correction added to
   the input), translated from the source. *)
Theorem C10_distort_is_source : forall a b x y,
  distort_with DScamp a b x y = src_distort true (poly2d a x y) (poly2d b x y) x y /\
  distort_with DSip a b x y = src_distort false (poly2d a x y) (poly2d b x y) x y.
Proof. intros. split; reflexivity. Qed.

(* Tie to the source of root finding: the residual of _lonlatdiff and the use _findxy_one / _fsolve_xy make of fsolve (start value
   = target = undistorted inverse, result returned unchanged), translated from the source; an added branch or
   fallback in _fsolve_xy / _findxy_one / _findxy is refused by the translator. *)
Theorem C10_rootfinder_is_source :
  (forall w target xy,
     lonlatdiff w target xy = src_lonlatdiff (fun x y => image2sky w x y true) (sky2image_nodistort w) target xy)
  /\ (forall fsolve w s lon lat xtol,
     snd (findxy_one fsolve w s lon lat xtol) =
     src_findxy_one (sky2image_nodistort w) fsolve (lonlatdiff w) lon lat xtol).
Proof. split; intros; reflexivity. Qed.

(* Root finding: sky2image(find=True) on a distorted header returns fsolve applied to the residual of _lonlatdiff from
   the undistorted start value; a zero of that residual has the intermediate coordinates and the sky position of the
   pixel the sky position came from, and is that pixel wherever pixel -> intermediate coordinates is injective.  The
   oracle fsolve is thereby reduced to "returns a zero of the residual". *)
Theorem C10_find_is_fsolve_of_residual : forall fit fsolve h s lon lat distort xtol,
  has_dist (mk_wcs h) = true ->
  let w := mk_wcs h in
  snd (sky2image fit fsolve w s lon lat distort true xtol) =
  fsolve (lonlatdiff w (sky2image_nodistort w lon lat)) (sky2image_nodistort w lon lat) xtol.
Proof.
  intros fit fsolve h s lon lat distort xtol Hdist w. unfold sky2image. subst w. rewrite Hdist. reflexivity.
Qed.

Theorem C10_root_has_same_intermediate : forall h px py x y,
  cd_det h <> 0 ->
  pix2inter (mk_wcs h) px py true <> (0, 0) -> pix2inter (mk_wcs h) x y true <> (0, 0) ->
  let w := mk_wcs h in
  let ll := image2sky w px py true in
  let target := sky2image_nodistort w (fst ll) (snd ll) in
  lonlatdiff w target (x, y) = (0, 0) ->
  pix2inter w x y true = pix2inter w px py true /\ image2sky w x y true = image2sky w px py true.
Proof. exact root_has_same_intermediate. Qed.

Theorem C10_find_returns_the_pixel : forall fit fsolve h s px py distort xtol,
  has_dist (mk_wcs h) = true -> cd_det h <> 0 ->
  let w := mk_wcs h in
  let ll := image2sky w px py true in
  let r := snd (sky2image fit fsolve w s (fst ll) (snd ll) distort true xtol) in
  let target := sky2image_nodistort w (fst ll) (snd ll) in
  pix2inter w px py true <> (0, 0) -> pix2inter w (fst r) (snd r) true <> (0, 0) ->
  lonlatdiff w target r = (0, 0) ->
  image2sky w (fst r) (snd r) true = ll /\
  ((forall q, pix2inter w (fst q) (snd q) true = pix2inter w px py true -> q = (px, py)) -> r = (px, py)).
Proof.
  intros fit fsolve h s px py distort xtol Hdist Hd w ll r target Hp Hr Hz.
  destruct (root_has_same_intermediate h px py (fst r) (snd r) Hd Hp Hr) as [E1 E2].
  { fold w ll target. rewrite <- surjective_pairing. exact Hz. }
  split; [exact E2|]. intros Hinj. apply Hinj. exact E1.
Qed.

(* History with the explicit call InvertDistortion() as an operation: outputs (the returned rms included) do not depend
   on the history; frame conditions: which parts of the object's state each operation leaves untouched. *)
Theorem C10_xhistory_independent : forall fit fsolve rms w h1 h2 o,
  xlast_out fit fsolve rms w h1 o = xlast_out fit fsolve rms w h2 o.
Proof.
  intros fit fsolve rms w h1 h2 o. unfold xlast_out. apply xstep_out; apply xrun_coherent; apply init_coherent.
Qed.

Theorem C10_xhistory_vs_fresh : forall fit fsolve rms w h o,
  xlast_out fit fsolve rms w h o = snd (xstep fit fsolve rms w (init_state w) o).
Proof. intros fit fsolve rms w h o. apply (C10_xhistory_independent fit fsolve rms w h [] o). Qed.

Theorem C10_frame_conditions : forall fit fsolve rms w s,
  (forall x y d stp, fst (xstep fit fsolve rms w s (XCore (OpImage2sky x y d))) = s /\
                     fst (xstep fit fsolve rms w s (XCore (OpJacobian x y d stp))) = s)
  /\ (forall lon lat d f xtol, (d = false /\ f = false) \/ has_dist w = false ->
        fst (xstep fit fsolve rms w s (XCore (OpSky2image lon lat d f xtol))) = s)
  /\ (forall lon lat d xtol, has_dist w = true ->
        let s' := fst (xstep fit fsolve rms w s (XCore (OpSky2image lon lat d true xtol))) in
        s_inv_computed s' = s_inv_computed s /\ s_ap s' = s_ap s /\ s_bp s' = s_bp s)
  /\ (forall lon lat d xtol,
        let s' := fst (xstep fit fsolve rms w s (XCore (OpSky2image lon lat d false xtol))) in
        s_lonlat_answer s' = s_lonlat_answer s /\ s_xyguess s' = s_xyguess s /\ s_xy_answer s' = s_xy_answer s)
  /\ (let s' := fst (xstep fit fsolve rms w s XInvert) in
      s_lonlat_answer s' = s_lonlat_answer s /\ s_xyguess s' = s_xyguess s /\ s_xy_answer s' = s_xy_answer s).
Proof.
  intros fit fsolve rms w s. split; [intros; apply (forward_ops_pure fit fsolve)|]. split; [|split; [|split]].
  - (* no distortion is applied: neither the lazy fit nor the root finder is reached *)
    intros lon lat d f xtol H. cbn [xstep fst step]. unfold sky2image.
    assert (Hd : d && has_dist w = false) by (destruct H as [[-> _] | ->]; [reflexivity|apply andb_false_r]).
    assert (Hf : f && has_dist w = false) by (destruct H as [[_ ->] | ->]; [reflexivity|apply andb_false_r]).
    rewrite Hf, (sky2image_direct_off _ _ _ _ _ _ Hd). reflexivity.
  - (* root finding writes the three scratch buffers only *)
    intros lon lat d xtol Hd. cbn [xstep fst step]. unfold sky2image. rewrite Hd. repeat split; reflexivity.
  - (* the direct inverse writes the cached inverse polynomial only *)
    intros lon lat d xtol. cbn [xstep fst step]. unfold sky2image. cbn [andb]. rewrite sky2image_direct_state.
    destruct (d && has_dist w); [|repeat split; reflexivity].
    unfold ensure_inverse. destruct (s_inv_computed s); repeat split; reflexivity.
  - repeat split; reflexivity.
Qed.

(* The boolean checkers decide their properties (completeness; soundness is C10_checkers_sound / C10_same_checkers_sound). *)
Theorem C10_checkers_complete :
  (forall lon lat, (0 <= lon /\ lon < 360 /\ -90 <= lat /\ lat <= 90)%Q -> range_check lon lat = true)
  /\ (forall x y xb yb tol, (0 <= tol /\ qdist2 x y xb yb < tol * tol)%Q -> px_close_check x y xb yb tol = true)
  /\ (forall a b, Forall2 Qeq a b -> qlist_eqb a b = true)
  /\ (forall a b tol, Forall2 (fun x y => (Qabs.Qabs (x - y) <= tol)%Q) a b -> qlist_close_abs a b tol = true)
  /\ (forall a b c d ia ib ic id tol,
        (Qabs.Qabs (ia * a + ib * c - 1) <= tol /\ Qabs.Qabs (ia * b + ib * d) <= tol /\
         Qabs.Qabs (ic * a + id * c) <= tol /\ Qabs.Qabs (ic * b + id * d - 1) <= tol)%Q ->
        cdinv_check a b c d ia ib ic id tol = true)
  /\ (forall lon lat lon' lat' tol,
        (Qabs.Qabs (lat - lat') <= tol /\ lon_wrap_abs (lon - lon') * lon_weight lat <= tol)%Q ->
        sky_same_check lon lat lon' lat' tol = true).
Proof.
  split; [apply range_check_iff|]. split; [apply px_close_check_iff|]. split; [apply qlist_eqb_iff|].
  split; [apply qlist_close_abs_iff|]. split; [apply cdinv_check_iff|apply sky_same_check_iff].
Qed.

(* The constructor: exactly which headers WCS(header) accepts (required keys present; projection among the regenerated
   _allowed_projections; CUNIT1 absent or 'deg'; CD keys complete and the matrix regular, or no CD matrix at all; A_ORDER
   and B_ORDER for the SIP family of the regenerated _ap table), that a rejection is a KeyError or a ValueError, that a
   missing required key is reported before any value is judged, and an unsupported projection as ValueError. *)
Theorem C10_constructor_accepts_iff : forall q,
  construct_check q = Ok tt <-> keys_ok q && cd_keys_ok q && values_ok q = true.
Proof.
  intro q. unfold construct_check. rewrite !need_ok, !need_v_ok, cd_block_ok, need_v_ok.
  unfold keys_ok, values_ok. rewrite !andb_true_iff. intuition.
Qed.

Theorem C10_constructor_error_classes :
  (forall q, construct_check q = Ok tt \/ construct_check q = Err EKey \/ construct_check q = Err EValue)
  /\ (forall q, keys_ok q = false -> construct_check q = Err EKey)
  /\ (forall q, keys_ok q = true -> str_in (q_projection q) allowed_projections = false -> construct_check q = Err EValue).
Proof.
  split; [|split]; intro q.
  - change (classified (construct_check q)). unfold construct_check.
    do 4 apply need_classified. do 2 apply need_v_classified. apply cd_block_classified, need_v_classified.
    left. reflexivity.
  - (* the four groups of required keys are looked up first, in this order *)
    unfold keys_ok, construct_check, need.
    destruct (if q_znaxis1 q then q_znaxis2 q else q_naxis1 q && q_naxis2 q); [|reflexivity].
    destruct (q_crpix1 q && q_crpix2 q); [|reflexivity].
    destruct (q_crval1 q && q_crval2 q); [|reflexivity].
    destruct (q_ctype1 q && q_ctype2 q); [discriminate|reflexivity].
  - intros Hk Hp. unfold keys_ok in Hk.
    destruct (andb_prop _ _ Hk) as [Hk3 K4]. destruct (andb_prop _ _ Hk3) as [Hk2 K3]. destruct (andb_prop _ _ Hk2) as [K1 K2].
    unfold construct_check. rewrite K1, K2, K3, K4, Hp. reflexivity.
Qed.

(* The tangent-plane inverse is two-sided: image2sky(distort=False) o sky2image(find=False, distort=False) is the identity
   on directions for every sky position whose native latitude is strictly between 0 and 90 degrees (the visible
   hemisphere without the reference point); every image2sph output away from the reference point is such a position. *)
Theorem C10_tan_forward_of_inverse : forall h lon lat, cd_det h <> 0 ->
  let w := mk_wcs h in
  0 < snd (Rotate w lon lat false) * d2r < PI / 2 ->
  let xy := sky2image_nodistort w lon lat in
  let ll := image2sky w (fst xy) (snd xy) false in
  unitvec (fst ll) (snd ll) = unitvec lon lat.
Proof.
  intros h lon lat Hd w Hla xy ll. unfold ll, image2sky. unfold w. rewrite pix2inter_nodistort. fold w.
  (* CD (CD^-1 uv + CRPIX - CRPIX) = uv: image2sph is applied to what sph2image returned *)
  replace (apply_cd h (fst xy - h_crpix1 h) (snd xy - h_crpix2 h)) with (sph2image w lon lat).
  { apply (image2sph_of_sph2image w lon lat (mk_wcs_orthogonal h) Hla). }
  rewrite (surjective_pairing (sph2image w lon lat)) at 1. rewrite <- (apply_cd_cdinv h _ _ Hd).
  unfold xy, sky2image_nodistort. cbn [w_hdr w mk_wcs]. destruct (h_proj h); cbn [fst snd]; f_equal; ring.
Qed.

Theorem C10_native_latitude_of_image2sph : forall h x y, (x, y) <> (0, 0) ->
  let w := mk_wcs h in
  let ll := image2sph w x y in
  0 < snd (Rotate w (fst ll) (snd ll) false) * d2r < PI / 2.
Proof. intros h x y H. exact (native_latitude_of_image2sph (mk_wcs h) x y (mk_wcs_orthogonal h) H). Qed.

(* get_jacobian does not see the RA = 0 seam: for true longitude differences in (-180, 180) wrap_ra_diff returns the
   difference whether or not one of the two longitudes was folded by 360, hence the jacobian computed from folded
   longitudes equals the one computed from unfolded longitudes. *)
Theorem C10_wrap_undoes_seam : forall d, -180 < d < 180 ->
  wrap_ra_diff d = d /\ wrap_ra_diff (d + 360) = d /\ wrap_ra_diff (d - 360) = d.
Proof.
  intros d Hd. repeat split.
  - rewrite <- (Rplus_0_r d) at 1. apply wrap_ra_diff_fold; auto.
  - apply wrap_ra_diff_fold; auto.
  - replace (d - 360) with (d + -360) by lra. apply wrap_ra_diff_fold; auto.
Qed.

Theorem C10_jacobian_seam_invariant : forall c p0 m0 zp zm step k1 k2 k3 k4,
  -180 < fst p0 - fst m0 < 180 -> -180 < fst zp - fst zm < 180 ->
  (k1 - k2 = 0 \/ k1 - k2 = 360 \/ k1 - k2 = -360) -> (k3 - k4 = 0 \/ k3 - k4 = 360 \/ k3 - k4 = -360) ->
  jac_of c (fst p0 + k1, snd p0) (fst m0 + k2, snd m0) (fst zp + k3, snd zp) (fst zm + k4, snd zm) step =
  jac_of c p0 m0 zp zm step.
Proof.
  intros c p0 m0 zp zm step k1 k2 k3 k4 Hx Hy H12 H34. unfold jac_of. cbn [fst snd].
  replace (fst p0 + k1 - (fst m0 + k2)) with (fst p0 - fst m0 + (k1 - k2)) by ring.
  replace (fst zp + k3 - (fst zm + k4)) with (fst zp - fst zm + (k3 - k4)) by ring.
  rewrite (wrap_ra_diff_fold _ _ Hx H12), (wrap_ra_diff_fold _ _ Hy H34).
  rewrite (proj1 (C10_wrap_undoes_seam _ Hx)), (proj1 (C10_wrap_undoes_seam _ Hy)). reflexivity.
Qed.

Example C10_seam_example : wrap_ra_diff (359 - 1) = -2 /\ wrap_ra_diff (1 - 359) = 2.
Proof.
  split.
  - replace (359 - 1) with (-2 + 360) by lra. apply C10_wrap_undoes_seam. lra.
  - replace (1 - 359) with (2 - 360) by lra. apply C10_wrap_undoes_seam. lra.
Qed.

(* Decisions, thresholds and defaults are translated from the source as well: the longitude fold of image2sph
   (comparison operators, thresholds, steps; scalar and array code agree), one pass of wrap_ra_diff's loops, the branch
   conditions r > 0 and latitude > 0, the rule "distortion model iff either axis has coefficients", the default PVi_1 = 1,
   GetPole's zenithal branch and the constructor's default angles (which select that branch). *)
Theorem C10_decisions_are_source :
  (forall lon, fold360 lon = src_fold360 lon)
  /\ (forall d, wrap_ra_diff d = src_wrap_once d)
  /\ (forall w x y, image2sph w x y =
        let r := src_image2sph_r x y in
        let ll := Rotate w (src_image2sph_lon atan2 x y * src_r2d) (src_image2sph_latitude r * src_r2d) true in
        (src_fold360 (fst ll), snd ll))
  /\ (forall w longitude latitude, sph2image w longitude latitude =
        let ll := Rotate w longitude latitude false in src_sph2image_sel (fst ll * src_d2r) (snd ll * src_d2r))
  /\ (forall h,
        (h_proj h <> PSip ->
           (d_name (extract_distortion h) = DNone <->
            src_has_distortion (pv_count (fun k => assoc_nat k (h_pv1 h))) (pv_count (fun k => assoc_nat k (h_pv2 h))) = false))
        /\ (h_proj h = PSip ->
           (d_name (extract_distortion h) = DNone <->
            src_has_distortion (sip_count (h_a_order h) (h_sipa h)) (sip_count (h_b_order h) (h_sipb h)) = false)))
  /\ (forall table, pv_init table =
        let z := zeros (S scamp_max_order) (S scamp_max_order) in
        match assoc_nat src_pv_default_key table with Some (i, j) => mset z i j src_pv_default_value | None => z end)
  /\ (forall h, w_rot (mk_wcs h) =
        rotation_matrix (fst (src_getpole_zenithal (h_crval1 h) (h_crval2 h)))
                        (snd (src_getpole_zenithal (h_crval1 h) (h_crval2 h))) (h_longpole h))
  /\ (src_default_theta0 = src_zenithal_theta0 /\ src_default_longpole = 180 /\ src_default_latpole = 90).
Proof.
  split; [reflexivity|]. split; [exact wrap_is_source|].
  split; [intros; unfold src_image2sph_latitude; rewrite src_lat_pole; reflexivity|].
  split; [reflexivity|]. split; [exact has_distortion_is_source|]. repeat split; reflexivity.
Qed.

(* Non-vacuity: concrete distorted headers meet the hypotheses used above. *)
Definition ex_header (p : proj) : header :=
  {| h_proj := p; h_crpix1 := 100; h_crpix2 := 200; h_crval1 := 359; h_crval2 := 89;
     h_cd11 := -1 / 10000; h_cd12 := 0; h_cd21 := 0; h_cd22 := 1 / 10000;
     h_naxis1 := 1024; h_naxis2 := 1024; h_longpole := 180;
     h_pv1 := [(4%nat, 1 / 100)]; h_pv2 := [(0%nat, 1 / 1000); (7%nat, 1 / 50)];
     h_a_order := 2; h_b_order := 3;
     h_sipa := [((2%nat, 0%nat), 1 / 1000000)]; h_sipb := [((1%nat, 2%nat), 1 / 1000000000)];
     h_inv_a := []; h_inv_b := [] |}.

Example C10_nonvacuous :
  supported (ex_header PTpv) /\ supported (ex_header PSip)
  /\ has_dist (mk_wcs (ex_header PTpv)) = true /\ has_dist (mk_wcs (ex_header PSip)) = true
  /\ cd_det (ex_header PTpv) <> 0 /\ (0, 0) <> (h_crpix1 (ex_header PTpv), h_crpix2 (ex_header PTpv))
  /\ fits_intermediate (ex_header PSip) 100 200 = (0, 0)
  /\ fst (fits_intermediate (ex_header PTpv) 100 200) = 0 /\ snd (fits_intermediate (ex_header PTpv) 100 200) = 1 / 1000.
Proof.
  assert (Wa : sip_wellformed 2 [((2%nat, 0%nat), 1 / 1000000)]).
  { intros p q H. simpl. destruct p as [|[|[|p]]]; destruct q as [|q]; simpl; try reflexivity; lia. }
  assert (Wb : sip_wellformed 3 [((1%nat, 2%nat), 1 / 1000000000)]).
  { intros p q H. simpl. destruct p as [|[|p]]; destruct q as [|[|[|q]]]; simpl; try reflexivity; lia. }
  split; [split; [reflexivity|intro C; discriminate C]|].
  split; [split; [reflexivity|intros _; split; assumption]|].
  split; [reflexivity|]. split; [reflexivity|].
  split; [unfold cd_det, ex_header; cbn; lra|].
  split; [intro C; inversion C; lra|].
  split; [apply crpix_intermediate_sip; reflexivity|].
  change (fits_intermediate (ex_header PTpv) 100 200)
    with (fits_intermediate (ex_header PTpv) (h_crpix1 (ex_header PTpv)) (h_crpix2 (ex_header PTpv))).
  rewrite (crpix_intermediate_tpv (ex_header PTpv)) by (intro C; discriminate C).
  split; reflexivity.
Qed.

(* Non-vacuity of the LONPOLE and root-finding theorems: a SIP header with LONPOLE = 90 meets sip_ok; the root hypothesis is met
   by the pixel itself at a point with non-zero intermediate coordinates of a distorted header. *)
Example C10_nonvacuous_deepening :
  sip_ok (with_longpole (ex_header PSip) 90) /\ h_longpole (with_longpole (ex_header PSip) 90) = 90
  /\ has_dist (mk_wcs (ex_header PTpv)) = true /\ cd_det (ex_header PTpv) <> 0
  /\ pix2inter (mk_wcs (ex_header PTpv)) 100 200 true <> (0, 0)
  /\ (let w := mk_wcs (ex_header PTpv) in
      let ll := image2sky w 100 200 true in
      lonlatdiff w (sky2image_nodistort w (fst ll) (snd ll)) (100, 200) = (0, 0)).
Proof.
  destruct C10_nonvacuous as (S1 & S2 & D1 & _ & Hdet & _ & _ & I1 & I2).
  split; [exact (proj2 S2)|]. split; [reflexivity|]. split; [exact D1|]. split; [exact Hdet|].
  split; [|apply residual_zero_at_the_pixel].
  rewrite (pix2inter_matches_fits (ex_header PTpv) 100 200 (proj2 S1)). intro C.
  rewrite C in I2. cbn [snd] in I2. lra.
Qed.

(* Non-vacuity of the constructor theorems: an accepted SIP header, a KeyError and a ValueError instance. *)
Definition ex_raw (proj : String.string) (crpix1 : bool) : raw :=
  {| q_znaxis1 := false; q_znaxis2 := false; q_naxis1 := true; q_naxis2 := true;
     q_crpix1 := crpix1; q_crpix2 := true; q_crval1 := true; q_crval2 := true; q_ctype1 := true; q_ctype2 := true;
     q_projection := proj; q_cunit1 := Some "deg"%string;
     q_cd11 := Some (1 # 10000)%Q; q_cd12 := Some 0%Q; q_cd21 := Some 0%Q; q_cd22 := Some (1 # 10000)%Q;
     q_a_order := true; q_b_order := true |}.
Example C10_constructor_nonvacuous :
  construct_check (ex_raw "-TAN-SIP" true) = Ok tt
  /\ construct_check (ex_raw "-TAN-SIP" false) = Err EKey
  /\ construct_check (ex_raw "-SIN" true) = Err EValue
  /\ is_sip_projection "-TAN-SIP" = true /\ is_sip_projection "-TPV" = false.
Proof. repeat split; vm_compute; reflexivity. Qed.
