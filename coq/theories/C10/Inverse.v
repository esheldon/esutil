(* C10 — sky2image without root finding on a distorted header: the round-trip error IS the residual
   of the fitted inverse polynomial (whatever the fit routine returned), carried to pixels.  This is
   the meaning of "to the fitted-polynomial accuracy" and the yardstick the harness evaluates
   (c10_gen.fit_rms) for the find=False round trips. *)
From Coq Require Import Reals Lra.
From EsVerif.Common Require Import Base.
From EsVerif.C10 Require Import Model Forward.
Local Open Scope R_scope.

(* the inverse coefficients the object holds after the lazy fit *)
Definition inv_coeffs (fit : header -> coeffs * coeffs) (w : wcs) (s : state) : coeffs * coeffs :=
  (s_ap (ensure_inverse fit w s), s_bp (ensure_inverse fit w s)).

(* residual of the inverse polynomial (ap, bp) at pixel (x, y), in pixels:
   TPV: CD^-1 (P_inv (P_fwd (CD d)) - CD d);  SIP: P_inv (d + f(d)) - d,   d = pixel - CRPIX *)
Definition fit_residual (w : wcs) (ap bp : coeffs) (x y : R) : R * R :=
  let h := w_hdr w in
  let d := w_dist w in
  let xd := x - h_crpix1 h in
  let yd := y - h_crpix2 h in
  match h_proj h with
  | PTan | PTpv =>
      let uv0 := apply_cd h xd yd in
      let uv := distort_with (d_name d) (d_a d) (d_b d) (fst uv0) (snd uv0) in
      let r := distort_with (d_name d) ap bp (fst uv) (snd uv) in
      apply_cdinv h (fst r - fst uv0) (snd r - snd uv0)
  | PSip =>
      let uv := distort_with (d_name d) (d_a d) (d_b d) xd yd in
      let r := distort_with (d_name d) ap bp (fst uv) (snd uv) in
      (fst r - xd, snd r - yd)
  end.

(* CD^-1 of a point, relative to the pixel offset (x, y) whose image under CD it is compared with *)
Lemma apply_cdinv_offset : forall h a b x y, cd_det h <> 0 ->
  let uv0 := apply_cd h x y in
  apply_cdinv h a b = (x + fst (apply_cdinv h (a - fst uv0) (b - snd uv0)), y + snd (apply_cdinv h (a - fst uv0) (b - snd uv0))).
Proof.
  intros h a b x y Hd. unfold apply_cdinv, apply_cd. cbn [fst snd]. unfold cd_det in *. f_equal; field; exact Hd.
Qed.

Lemma fit_roundtrip : forall fit fsolve h s x y xtol,
  has_dist (mk_wcs h) = true -> cd_det h <> 0 ->
  pix2inter (mk_wcs h) x y true <> (0, 0) ->
  let w := mk_wcs h in
  let ll := image2sky w x y true in
  let ab := inv_coeffs fit w s in
  snd (sky2image fit fsolve w s (fst ll) (snd ll) true false xtol) =
  (x + fst (fit_residual w (fst ab) (snd ab) x y), y + snd (fit_residual w (fst ab) (snd ab) x y)).
Proof.
  intros fit fsolve h s x y xtol Hdist Hd Hne. cbv zeta.
  unfold sky2image. cbn [andb]. unfold sky2image_direct, image2sky.
  set (w := mk_wcs h) in *.
  set (uv := pix2inter w x y true) in *.
  (* sph2image gives back the intermediate coordinates; what is left is the polynomial part *)
  rewrite (sph2image_image2sph w (fst uv) (snd uv) (mk_wcs_orthogonal h)).
  2:{ destruct uv; exact Hne. }
  rewrite Hdist. cbn [andb fst snd].
  unfold distort_inverse, inv_coeffs, fit_residual. cbn [fst snd].
  unfold uv, pix2inter. rewrite Hdist. cbn [andb].
  change (w_hdr w) with h.
  destruct (h_proj h) eqn:Ep; cbn [fst snd].
  1-2: rewrite (apply_cdinv_offset h _ _ (x - h_crpix1 h) (y - h_crpix2 h) Hd); cbn [fst snd]; f_equal; ring.
  rewrite (apply_cdinv_cd h _ _ Hd). cbn [fst snd]. f_equal; ring.
Qed.

(* root finding: what an exact root of the residual handed to fsolve is.  The residual (_lonlatdiff) is taken
   in the undistorted pixel frame; if it vanishes at xy then xy has the same intermediate world coordinates and hence
   the same sky position as the pixel the target came from, and where the distorted pixel -> intermediate map is
   injective it IS that pixel.  So the only thing the oracle fsolve has to deliver is a zero of the residual. *)

(* the undistorted inverse of the sky position of a pixel: CD^-1 (intermediate coordinates) + CRPIX *)
Lemma nodistort_of_image2sky : forall h x y,
  pix2inter (mk_wcs h) x y true <> (0, 0) ->
  let ll := image2sky (mk_wcs h) x y true in
  let i := pix2inter (mk_wcs h) x y true in
  sky2image_nodistort (mk_wcs h) (fst ll) (snd ll) =
  (fst (apply_cdinv h (fst i) (snd i)) + h_crpix1 h, snd (apply_cdinv h (fst i) (snd i)) + h_crpix2 h).
Proof.
  intros h x y Hne. cbv zeta. unfold image2sky, sky2image_nodistort.
  set (i := pix2inter (mk_wcs h) x y true) in *.
  rewrite (sph2image_image2sph (mk_wcs h) (fst i) (snd i) (mk_wcs_orthogonal h)).
  2:{ destruct i; exact Hne. }
  cbn [w_hdr mk_wcs fst snd]. destruct (h_proj h); reflexivity.
Qed.

Lemma root_has_same_intermediate : forall h px py x y,
  cd_det h <> 0 ->
  pix2inter (mk_wcs h) px py true <> (0, 0) -> pix2inter (mk_wcs h) x y true <> (0, 0) ->
  let w := mk_wcs h in
  let ll := image2sky w px py true in
  let target := sky2image_nodistort w (fst ll) (snd ll) in
  lonlatdiff w target (x, y) = (0, 0) ->
  pix2inter w x y true = pix2inter w px py true /\ image2sky w x y true = image2sky w px py true.
Proof.
  intros h px py x y Hd Hp Hx w ll target Hz.
  assert (E : pix2inter w x y true = pix2inter w px py true).
  { unfold lonlatdiff, target, ll, w in *. cbn [fst snd] in Hz.
    rewrite (nodistort_of_image2sky h x y Hx), (nodistort_of_image2sky h px py Hp) in Hz. cbn [fst snd] in Hz.
    (* the undistorted pixels agree, hence CD^-1 of the intermediate coordinates, hence these *)
    apply pair_equal_spec in Hz. destruct Hz as [H1 H2]. apply (apply_cdinv_inj h _ _ Hd), injective_projections; lra. }
  split; [exact E|]. unfold image2sky. rewrite E. reflexivity.
Qed.

(* non-vacuity of the root hypothesis: the pixel itself is a zero of its own residual *)
Lemma residual_zero_at_the_pixel : forall w px py,
  let ll := image2sky w px py true in
  lonlatdiff w (sky2image_nodistort w (fst ll) (snd ll)) (px, py) = (0, 0).
Proof. intros. unfold lonlatdiff. cbn [fst snd]. apply pair_equal_spec. split; apply Rminus_diag_eq; reflexivity. Qed.
