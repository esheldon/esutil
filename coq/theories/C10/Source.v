(* C10 — the hand-written model (Model.v) coincides with the straight-line arithmetic that
   harness/props/c10_translate.py translates from esutil/wcsutil.py on every run (Gen.v, the src_ definitions):
   CreateRotationMatrix, _rotate, ApplyCDMatrix, the formulas of image2sph and sph2image, get_jacobian, r2d/d2r,
   and decisions, thresholds and defaults.  A changed sign, index, operand or constant in
   one of those methods changes Gen.v and the tie theorems of Properties.v (C10_model_is_source, C10_control_flow_is_source,
   C10_fit_grid_is_image, C10_distort_is_source, C10_rootfinder_is_source, C10_decisions_are_source) no longer hold.
   This file holds what their statements need and the three ties that are not plain unfolding. *)
From Coq Require Import Reals List Lra.
From EsVerif.C10 Require Import Gen Model.
Import ListNotations.
Local Open Scope R_scope.

(* the model's matrix in the shape of the source's nested list (right-hand side of the tie of CreateRotationMatrix) *)
Definition mat3_rows (r : mat3) : list (list R) :=
  [[m00 r; m01 r; m02 r]; [m10 r; m11 r; m12 r]; [m20 r; m21 r; m22 r]].

(* control flow of image2sky and of sky2image(find=False): which of CD matrix and distortion is
   applied first per projection, and what happens when the distortion is switched off *)
Definition is_sip (p : proj) : bool := match p with PSip => true | _ => false end.

(* the rectangle over which the inverse polynomial is fitted is the image: pixel offsets
   [1 - CRPIX1, NAXIS1 - CRPIX1] x [1 - CRPIX2, NAXIS2 - CRPIX2] for TPV (InvertPVDistortion), pixels
   [1, NAXIS1] x [1, NAXIS2] for SIP (InvertSipDistortion): which naxis / crpix index feeds which axis *)
Definition image_rect (h : header) : (R * R) * (R * R) := ((1, h_naxis1 h), (1, h_naxis2 h)).
Definition image_rect_offsets (h : header) : (R * R) * (R * R) :=
  ((1 - h_crpix1 h, h_naxis1 h - h_crpix1 h), (1 - h_crpix2 h, h_naxis2 h - h_crpix2 h)).

(* the source writes the pole latitude as 0 + pi/2 *)
Lemma src_lat_pole : src_image2sph_lat_pole = PI / 2.
Proof. unfold src_image2sph_lat_pole. lra. Qed.

(* wrap_ra_diff: one pass of each of its two loops, with the source's thresholds and steps; the source tests the second
   threshold on the value the first step produced, the model on the argument *)
Lemma wrap_is_source : forall d, wrap_ra_diff d = src_wrap_once d.
Proof.
  intro d. unfold wrap_ra_diff, src_wrap_once. cbv zeta.
  (* the same first test, written -180 in the model and - (180) in the translation *)
  destruct (Rlt_dec d (-180)) as [H|H], (Rlt_dec d (- (180))) as [H'|H']; try lra; try reflexivity.
  (* after the first step d + 360 < 180, so the source's second test fails *)
  destruct (Rlt_dec 180 (d + 360)); [lra|reflexivity].
Qed.

(* ExtractDistortionModel: a header has a distortion model iff either axis has coefficients *)
Lemma has_distortion_is_source : forall h,
  (h_proj h <> PSip ->
     (d_name (extract_distortion h) = DNone <->
      src_has_distortion (pv_count (fun k => assoc_nat k (h_pv1 h))) (pv_count (fun k => assoc_nat k (h_pv2 h))) = false))
  /\ (h_proj h = PSip ->
     (d_name (extract_distortion h) = DNone <->
      src_has_distortion (sip_count (h_a_order h) (h_sipa h)) (sip_count (h_b_order h) (h_sipb h)) = false)).
Proof.
  (* both sides say "not both counts are zero"; the four cases of the two zero tests *)
  intro h. unfold extract_distortion, src_has_distortion. split; intro Hp.
  - destruct (h_proj h); try (exfalso; apply Hp; reflexivity);
      destruct (Nat.eqb (pv_count (fun k => assoc_nat k (h_pv1 h))) 0), (Nat.eqb (pv_count (fun k => assoc_nat k (h_pv2 h))) 0);
      cbn; split; intro E; try reflexivity; try discriminate.
  - rewrite Hp.
    destruct (Nat.eqb (sip_count (h_a_order h) (h_sipa h)) 0), (Nat.eqb (sip_count (h_b_order h) (h_sipb h)) 0);
      cbn; split; intro E; try reflexivity; try discriminate.
Qed.
