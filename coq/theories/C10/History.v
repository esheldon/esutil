(* C10 — the object's state machine: what an operation returns does not depend on the
   operations performed before it. *)
From Coq Require Import Reals List Bool.
From EsVerif.C10 Require Import Model.
Local Open Scope R_scope.

Section History.
  Variable fit : header -> coeffs * coeffs.
  Variable fsolve : (R * R -> R * R) -> R * R -> R -> R * R.

  (* the lazily fitted inverse, once computed, is the fit of the header *)
  Definition coherent (w : wcs) (s : state) : Prop :=
    s_inv_computed s = true -> s_ap s = fst (fit (w_hdr w)) /\ s_bp s = snd (fit (w_hdr w)).

  Lemma init_coherent : forall w, coherent w (init_state w).
  Proof. intros w H. discriminate H. Qed.

  Lemma ensure_inverse_coeffs : forall w s, coherent w s ->
    s_ap (ensure_inverse fit w s) = fst (fit (w_hdr w)) /\ s_bp (ensure_inverse fit w s) = snd (fit (w_hdr w)).
  Proof.
    intros w s Hc. unfold ensure_inverse. destruct (s_inv_computed s) eqn:E.
    - apply Hc. exact E.
    - split; reflexivity.
  Qed.

  Lemma ensure_inverse_coherent : forall w s, coherent w s -> coherent w (ensure_inverse fit w s).
  Proof. intros w s Hc _. apply ensure_inverse_coeffs. exact Hc. Qed.

  Lemma distort_inverse_out : forall w s1 s2 x y, coherent w s1 -> coherent w s2 ->
    snd (distort_inverse fit w s1 x y) = snd (distort_inverse fit w s2 x y).
  Proof.
    intros w s1 s2 x y H1 H2. unfold distort_inverse. cbn [snd].
    destruct (ensure_inverse_coeffs w s1 H1) as [A1 B1]. destruct (ensure_inverse_coeffs w s2 H2) as [A2 B2].
    rewrite A1, B1, A2, B2. reflexivity.
  Qed.

  Lemma sky2image_direct_out : forall w s1 s2 lon lat distort, coherent w s1 -> coherent w s2 ->
    snd (sky2image_direct fit w s1 lon lat distort) = snd (sky2image_direct fit w s2 lon lat distort).
  Proof.
    intros w s1 s2 lon lat distort H1 H2. unfold sky2image_direct.
    destruct (h_proj (w_hdr w)); destruct (distort && has_dist w); cbn [fst snd]; try reflexivity;
      rewrite (distort_inverse_out w s1 s2 _ _ H1 H2); reflexivity.
  Qed.

  (* the direct inverse touches the state only through the lazy fit *)
  Lemma sky2image_direct_state : forall w s lon lat distort,
    fst (sky2image_direct fit w s lon lat distort) = if distort && has_dist w then ensure_inverse fit w s else s.
  Proof.
    intros. unfold sky2image_direct. destruct (h_proj (w_hdr w)); destruct (distort && has_dist w); reflexivity.
  Qed.

  Lemma sky2image_direct_coherent : forall w s lon lat distort, coherent w s ->
    coherent w (fst (sky2image_direct fit w s lon lat distort)).
  Proof.
    intros w s lon lat distort H. rewrite sky2image_direct_state.
    destruct (distort && has_dist w); [apply ensure_inverse_coherent|]; exact H.
  Qed.

  (* the root finder reads only scratch values that it has just written *)
  Lemma findxy_one_out : forall w s1 s2 lon lat xtol,
    snd (findxy_one fsolve w s1 lon lat xtol) = snd (findxy_one fsolve w s2 lon lat xtol).
  Proof. intros. unfold findxy_one. cbn [snd s_xyguess s_xy_answer]. reflexivity. Qed.

  Lemma findxy_one_coherent : forall w s lon lat xtol, coherent w s ->
    coherent w (fst (findxy_one fsolve w s lon lat xtol)).
  Proof. intros w s lon lat xtol H. unfold findxy_one, coherent. cbn [fst s_inv_computed s_ap s_bp]. exact H. Qed.

  Lemma step_out : forall w s1 s2 o, coherent w s1 -> coherent w s2 ->
    snd (step fit fsolve w s1 o) = snd (step fit fsolve w s2 o).
  Proof.
    intros w s1 s2 o H1 H2. destruct o as [x y d|lon lat d f xtol|x y d stp]; cbn [step snd]; try reflexivity.
    f_equal. unfold sky2image. destruct (f && has_dist w).
    - apply findxy_one_out.
    - apply sky2image_direct_out; assumption.
  Qed.

  Lemma step_coherent : forall w s o, coherent w s -> coherent w (fst (step fit fsolve w s o)).
  Proof.
    intros w s o H. destruct o as [x y d|lon lat d f xtol|x y d stp]; cbn [step fst]; try exact H.
    unfold sky2image. destruct (f && has_dist w).
    - apply findxy_one_coherent. exact H.
    - apply sky2image_direct_coherent. exact H.
  Qed.

  Lemma run_coherent : forall w ops s, coherent w s -> coherent w (fst (run fit fsolve w s ops)).
  Proof.
    intros w ops. induction ops as [|o t IH]; intros s H; cbn [run fst]; [exact H|].
    apply IH. apply step_coherent. exact H.
  Qed.

  (* operations that do not use the inverse polynomial are pure *)
  Lemma forward_ops_pure : forall w s x y d stp,
    fst (step fit fsolve w s (OpImage2sky x y d)) = s /\ fst (step fit fsolve w s (OpJacobian x y d stp)) = s.
  Proof. intros. split; reflexivity. Qed.
End History.
