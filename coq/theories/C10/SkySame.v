(* C10 -- what the verified rational checker `sky_same_check` (scalar calls = array calls, input forms) means on the
   sky: an exact identity for the chord between two sky positions, the bound chord^2 <= dlat^2 + cos lat cos lat' dlon^2,
   and: if the checker accepts (and both positions pass range_check) the unit vectors are closer than
   sqrt (2 + PI) * tol (tol in degrees, as a chord), across the RA = 0 seam and at the poles. *)
From Coq Require Import Reals Qabs Qminmax Qreals Psatz.
From Interval Require Import Tactic.
From EsVerif.C10 Require Import Spec Trig Proofs.
Local Open Scope R_scope.

Lemma four_sin2_half : forall a, 4 * (sin (a / 2)) ^ 2 = 2 - 2 * cos a.
Proof.
  intro a. replace a with (2 * (a / 2)) at 2 by field. rewrite cos_2a_sin. ring.
Qed.

(* chord^2 between two sky positions (degrees): exact identity *)
Lemma sky_chord_identity : forall l t l' t',
  vdist2 (unitvec l t) (unitvec l' t') =
  4 * (sin (rad (t - t') / 2)) ^ 2 + 4 * cos (rad t) * cos (rad t') * (sin (rad (l - l') / 2)) ^ 2.
Proof.
  intros l t l' t'.
  replace (4 * cos (rad t) * cos (rad t') * sin (rad (l - l') / 2) ^ 2)
    with (cos (rad t) * cos (rad t') * (4 * sin (rad (l - l') / 2) ^ 2)) by ring.
  rewrite !four_sin2_half.
  replace (rad (t - t')) with (rad t - rad t') by (unfold rad; field).
  replace (rad (l - l')) with (rad l - rad l') by (unfold rad; field).
  rewrite !cos_minus. unfold vdist2, unitvec, vx, vy, vz. cbn [fst snd].
  (* a polynomial identity in the sines and cosines modulo sin^2 = 1 - cos^2 *)
  ring [(sin_sqr (rad l)) (sin_sqr (rad l')) (sin_sqr (rad t)) (sin_sqr (rad t'))].
Qed.

Lemma sin_sqr_le : forall x, (sin x) ^ 2 <= x ^ 2.
Proof.
  assert (P : forall x, 0 <= x -> sin x ^ 2 <= x ^ 2).
  { intros x H. destruct (Rle_dec x 1) as [H1|H1]; [|pose proof (SIN_bound x); nra].
    assert (0 <= sin x <= x); [|nra].
    split; [apply sin_ge_0; [lra|pose proof PI2_1; pose proof PI_RGT_0; lra]|].
    destruct (Req_dec x 0) as [->|Hn]; [rewrite sin_0; lra|left; apply sin_lt_x; lra]. }
  intro x. destruct (Rle_dec 0 x) as [H|H]; [apply P, H|].
  (* both sides are even *)
  replace (x ^ 2) with ((- x) ^ 2) by ring. replace (sin x ^ 2) with (sin (- x) ^ 2) by (rewrite sin_neg; ring).
  apply P. lra.
Qed.

(* hence: chord^2 <= dt^2 + cos t cos t' dl^2 (radians), for any dl that differs from l - l' by a multiple of 360 *)
Lemma sky_chord_bound : forall l t l' t' dl,
  0 <= cos (rad t) -> 0 <= cos (rad t') ->
  cos (rad dl) = cos (rad (l - l')) ->
  vdist2 (unitvec l t) (unitvec l' t') <= (rad (t - t')) ^ 2 + cos (rad t) * cos (rad t') * (rad dl) ^ 2.
Proof.
  intros l t l' t' dl Ht Ht' Hd. rewrite sky_chord_identity.
  assert (E : 4 * sin (rad (l - l') / 2) ^ 2 = 4 * sin (rad dl / 2) ^ 2).
  { rewrite !four_sin2_half. rewrite Hd. reflexivity. }
  pose proof (sin_sqr_le (rad (t - t') / 2)) as S1. pose proof (sin_sqr_le (rad dl / 2)) as S2.
  assert (P : 0 <= cos (rad t) * cos (rad t')) by (apply Rmult_le_pos; assumption).
  replace (4 * cos (rad t) * cos (rad t') * sin (rad (l - l') / 2) ^ 2)
    with (cos (rad t) * cos (rad t') * (4 * sin (rad (l - l') / 2) ^ 2)) by ring.
  rewrite E. nra.
Qed.

Lemma sin_abs_le : forall x, Rabs (sin x) <= Rabs x.
Proof.
  intro x. apply Rsqr_le_abs_0. unfold Rsqr. pose proof (sin_sqr_le x). lra.
Qed.

Lemma cos_lipschitz : forall a b, cos a <= cos b + Rabs (a - b).
Proof.
  intros a b. pose proof (form2 a b) as F.
  assert (H : Rabs (cos a - cos b) <= Rabs (a - b)).
  { rewrite F. rewrite !Rabs_mult. rewrite (Rabs_left (-2)) by lra.
    pose proof (sin_abs_le ((a - b) / 2)) as S1.
    pose proof (SIN_bound ((a + b) / 2)) as S2.
    assert (S3 : Rabs (sin ((a + b) / 2)) <= 1) by (apply Rabs_le; lra).
    assert (S4 : Rabs ((a - b) / 2) = Rabs (a - b) / 2).
    { unfold Rdiv. rewrite Rabs_mult. rewrite (Rabs_right (/ 2)) by lra. reflexivity. }
    pose proof (Rabs_pos (sin ((a - b) / 2))). pose proof (Rabs_pos (sin ((a + b) / 2))). pose proof (Rabs_pos (a - b)).
    rewrite S4 in S1. nra. }
  pose proof (Rle_abs (cos a - cos b)). lra.
Qed.

Lemma cos_le_PI2_minus : forall x, 0 <= x <= PI / 2 -> 0 <= cos x <= PI / 2 - x.
Proof.
  intros x [H0 H1]. rewrite <- (sin_shift x).
  assert (0 <= PI / 2 - x) by lra. pose proof PI_RGT_0.
  split.
  - apply sin_ge_0; lra.
  - pose proof (sin_abs_le (PI / 2 - x)) as S. rewrite (Rabs_right (PI / 2 - x)) in S by lra.
    pose proof (Rle_abs (sin (PI / 2 - x))). lra.
Qed.

Lemma rad_le : forall a b, a <= b -> rad a <= rad b.
Proof. intros a b H. unfold rad. pose proof PI_RGT_0. apply Rmult_le_compat_r; [lra|]. apply Rmult_le_compat_r; lra. Qed.

Lemma rad_abs : forall a, Rabs (rad a) = rad (Rabs a).
Proof.
  intro a. unfold rad, Rdiv. pose proof PI_RGT_0. rewrite !Rabs_mult, (Rabs_right PI), (Rabs_right (/ 180)) by lra. reflexivity.
Qed.

Lemma cos_rad_abs : forall d, cos (rad (Rabs d)) = cos (rad d).
Proof. intro d. rewrite <- rad_abs. unfold Rabs. destruct (Rcase_abs (rad d)); [apply cos_neg|reflexivity]. Qed.

Lemma cos_lat_bounds : forall t, Rabs t <= 90 -> 0 <= cos (rad t) <= rad (90 - Rabs t) /\ cos (rad t) <= 1.
Proof.
  intros t Ht. split; [|apply COS_bound]. rewrite <- cos_rad_abs.
  replace (rad (90 - Rabs t)) with (PI / 2 - rad (Rabs t)) by (unfold rad; field).
  apply cos_le_PI2_minus. replace (PI / 2) with (rad 90) by (unfold rad; field). replace 0 with (rad 0) by (unfold rad; field).
  split; apply rad_le; [apply Rabs_pos|exact Ht].
Qed.

(* the longitude difference folded across the seam *)
Lemma wrap_cos : forall d, Rabs d <= 360 ->
  let dw := Rmin (Rabs d) (Rabs (360 - Rabs d)) in
  0 <= dw <= 180 /\ cos (rad dw) = cos (rad d).
Proof.
  intros d Hd dw. pose proof (Rabs_pos d) as Hn.
  unfold dw. rewrite (Rabs_right (360 - Rabs d)) by lra.
  destruct (Rle_dec (Rabs d) 180) as [H|H].
  - rewrite Rmin_left by lra. split; [lra|apply cos_rad_abs].
  - rewrite Rmin_right by lra. split; [lra|].
    rewrite <- (cos_rad_abs d). replace (rad (360 - Rabs d)) with (2 * PI - rad (Rabs d)) by (unfold rad; field).
    rewrite cos_minus, cos_2PI, sin_2PI. ring.
Qed.

(* the real-arithmetic core: with cos lat <= w, cos lat' <= w + tol (Lipschitz) and w * dlon <= tol, the longitude
   term cos lat cos lat' dlon^2 of the chord is at most (w dlon)^2 + tol (w dlon) dlon <= tol^2 + PI tol^2 *)
Lemma lon_term_bound : forall c c' w X rt,
  0 <= c <= w -> 0 <= c' <= w + rt -> 0 <= X <= PI -> 0 <= rt -> w * X <= rt ->
  c * c' * X ^ 2 <= (1 + PI) * rt ^ 2.
Proof.
  intros c c' w X rt Hc Hc' HX Hrt HwX.
  assert (HwX0 : 0 <= w * X) by (apply Rmult_le_pos; lra).
  assert (H1 : c * c' <= w * (w + rt)) by (apply Rmult_le_compat; lra).
  assert (H2 : c * c' * X ^ 2 <= w * (w + rt) * X ^ 2) by (apply Rmult_le_compat_r; [apply pow2_ge_0|exact H1]).
  replace (w * (w + rt) * X ^ 2) with (w * X * (w * X) + rt * (w * X) * X) in H2 by ring.
  assert (H3 : w * X * (w * X) <= rt * rt) by (apply Rmult_le_compat; lra).
  assert (H4 : rt * (w * X) <= rt * rt) by (apply Rmult_le_compat_l; lra).
  assert (H5 : rt * (w * X) * X <= rt * rt * PI) by (apply Rmult_le_compat; try lra; apply Rmult_le_pos; lra).
  replace ((1 + PI) * rt ^ 2) with (rt * rt + rt * rt * PI) by ring. lra.
Qed.

(* what the scalar = array sky checker means: if (over the reals) |lat - lat'| <= tol and the folded longitude
   difference times the weight min 1 ((90 - |lat|) p), p >= PI/180, is <= tol, the two sky positions are closer
   than sqrt (2 + PI) * tol on the sky (chord of the unit vectors, tol in degrees) *)
Lemma sky_same_meaning : forall l t l' t' tol p,
  Rabs t <= 90 -> Rabs t' <= 90 -> Rabs (l - l') <= 360 -> 0 <= tol -> PI / 180 <= p ->
  Rabs (t - t') <= tol ->
  Rmin (Rabs (l - l')) (Rabs (360 - Rabs (l - l'))) * Rmin 1 ((90 - Rabs t) * p) <= tol ->
  vdist2 (unitvec l t) (unitvec l' t') <= (2 + PI) * (rad tol) ^ 2.
Proof.
  intros l t l' t' tol p Ht Ht' Hl Htol Hp Hdt Hdl.
  destruct (wrap_cos (l - l') Hl) as [[Hw0 Hw1] Hwc].
  set (dw := Rmin (Rabs (l - l')) (Rabs (360 - Rabs (l - l')))) in *.
  destruct (cos_lat_bounds t Ht) as [[C0 C1] C2]. destruct (cos_lat_bounds t' Ht') as [[C0' _] _].
  pose proof (sky_chord_bound l t l' t' dw C0 C0' Hwc) as B.
  assert (R0 : rad 0 = 0) by (unfold rad; field).
  assert (Hrt : 0 <= rad tol) by (rewrite <- R0; apply rad_le, Htol).
  (* the latitude term *)
  assert (Hlat : rad (t - t') ^ 2 <= rad tol ^ 2).
  { rewrite <- (pow2_abs (rad (t - t'))), rad_abs. apply pow_incr. split; [rewrite <- R0; apply rad_le, Rabs_pos|apply rad_le, Hdt]. }
  (* the longitude term *)
  assert (Hcw : cos (rad t) <= Rmin 1 ((90 - Rabs t) * p)).
  { apply Rmin_glb; [exact C2|]. apply Rle_trans with (1 := C1).
    replace (rad (90 - Rabs t)) with ((90 - Rabs t) * (PI / 180)) by (unfold rad; field).
    apply Rmult_le_compat_l; lra. }
  assert (Hlon : cos (rad t) * cos (rad t') * rad dw ^ 2 <= (1 + PI) * rad tol ^ 2).
  { apply lon_term_bound with (w := Rmin 1 ((90 - Rabs t) * p)).
    - split; assumption.
    - split; [exact C0'|]. pose proof (cos_lipschitz (rad t') (rad t)) as L.
      assert (Rabs (rad t' - rad t) <= rad tol); [|lra].
      replace (rad t' - rad t) with (rad (t' - t)) by (unfold rad; field).
      rewrite rad_abs, Rabs_minus_sym. apply rad_le, Hdt.
    - replace PI with (rad 180) by (unfold rad; field). rewrite <- R0 at 1. split; apply rad_le; assumption.
    - exact Hrt.
    - replace (Rmin 1 ((90 - Rabs t) * p) * rad dw) with (rad (dw * Rmin 1 ((90 - Rabs t) * p))) by (unfold rad; field).
      apply rad_le, Hdl. }
  lra.
Qed.

Lemma Q2R_abs : forall x : Q, Q2R (Qabs x) = Rabs (Q2R x).
Proof.
  intro x. destruct (Qlt_le_dec x 0) as [H|H].
  - assert (E : (Qabs x == - x)%Q) by (apply Qabs_neg; apply Qlt_le_weak; exact H).
    rewrite (Qeq_eqR _ _ E), Q2R_opp. apply Qlt_Rlt in H. rewrite RMicromega.Q2R_0 in H.
    rewrite Rabs_left; lra.
  - assert (E : (Qabs x == x)%Q) by (apply Qabs_pos; exact H).
    rewrite (Qeq_eqR _ _ E). apply Qle_Rle in H. rewrite RMicromega.Q2R_0 in H.
    rewrite Rabs_right; lra.
Qed.

Lemma Q2R_min : forall x y : Q, Q2R (Qmin x y) = Rmin (Q2R x) (Q2R y).
Proof.
  intros x y. destruct (Qlt_le_dec y x) as [H|H].
  - assert (E : (Qmin x y == y)%Q) by (apply Q.min_r; apply Qlt_le_weak; exact H).
    rewrite (Qeq_eqR _ _ E). apply Qlt_Rlt in H. rewrite Rmin_right; lra.
  - assert (E : (Qmin x y == x)%Q) by (apply Q.min_l; exact H).
    rewrite (Qeq_eqR _ _ E). apply Qle_Rle in H. rewrite Rmin_left; lra.
Qed.

Lemma pi180_hi_ok : PI / 180 <= Q2R pi180_hi.
Proof. unfold pi180_hi, Q2R. cbn [Qnum Qden]. interval. Qed.

Lemma Q2R_z : forall z : Z, Q2R (inject_Z z) = IZR z.
Proof. intro z. unfold Q2R, inject_Z. cbn [Qnum Qden]. field. Qed.

(* the verified rational checker, read over the reals *)
Lemma sky_same_check_meaning : forall lon lat lon' lat' tol : Q,
  range_check lon lat = true -> range_check lon' lat' = true ->
  sky_same_check lon lat lon' lat' tol = true ->
  vdist2 (unitvec (Q2R lon) (Q2R lat)) (unitvec (Q2R lon') (Q2R lat')) <= (2 + PI) * (rad (Q2R tol)) ^ 2.
Proof.
  intros lon lat lon' lat' tol R1 R2 H.
  apply range_check_iff in R1. destruct R1 as (A1 & A2 & A3 & A4).
  apply range_check_iff in R2. destruct R2 as (B1 & B2 & B3 & B4).
  apply sky_same_check_iff in H. destruct H as [Hlat Hlon].
  (* the inequalities over Q, read over R *)
  apply Qle_Rle in A1, A3, A4, B1, B3, B4, Hlat, Hlon. apply Qlt_Rlt in A2, B2.
  unfold lon_wrap_abs, lon_weight in Hlon.
  rewrite ?Q2R_mult, ?Q2R_min, ?Q2R_abs, ?Q2R_minus, ?Q2R_abs, ?Q2R_minus, ?Q2R_abs in *.
  change 0%Q with (inject_Z 0) in *. change 1%Q with (inject_Z 1) in *. change 90%Q with (inject_Z 90) in *.
  change 360%Q with (inject_Z 360) in *. change (-90)%Q with (inject_Z (-90)) in *.
  rewrite ?Q2R_z in *. rewrite ?Q2R_mult, ?Q2R_minus, ?Q2R_abs, ?Q2R_z in Hlon.
  assert (Htol : 0 <= Q2R tol) by (pose proof (Rabs_pos (Q2R lat - Q2R lat')); lra).
  apply (sky_same_meaning (Q2R lon) (Q2R lat) (Q2R lon') (Q2R lat') (Q2R tol) (Q2R pi180_hi)).
  - apply Rabs_le; lra.
  - apply Rabs_le; lra.
  - apply Rabs_le; lra.
  - exact Htol.
  - exact pi180_hi_ok.
  - exact Hlat.
  - exact Hlon.
Qed.
