(* C16 — proofs: chunking and the buffer-level byte swap (no dtype reasoning), then the modelled
   conversions meet the statement, and the checkers decide their propositions. *)
From Coq Require Import Arith String Wf_nat.
From Coq.Strings Require Import Byte.
From EsVerif.Common Require Import Base Bytes.
From EsVerif.C16 Require Import Model Spec Ext.
Local Open Scope nat_scope.
Local Open Scope list_scope.

Lemma firstn_app_len {A} (a r : list A) n : length a = n -> firstn n (a ++ r) = a.
Proof. intros <-. rewrite firstn_app, Nat.sub_diag, firstn_all. simpl. apply app_nil_r. Qed.

Lemma skipn_app_len {A} (a r : list A) n : length a = n -> skipn n (a ++ r) = r.
Proof. intros <-. rewrite skipn_app, Nat.sub_diag, skipn_all. reflexivity. Qed.

Lemma firstn_skipn_length {A} n (l : list A) : length (firstn n l) + length (skipn n l) = length l.
Proof. rewrite <- app_length, firstn_skipn. reflexivity. Qed.

(* any two fuels of at least the length give the same chunks *)
Lemma chunks_f_fuel n : 1 <= n -> forall f1 f2 l, length l <= f1 -> length l <= f2 ->
  chunks_f f1 n l = chunks_f f2 n l.
Proof.
  intros Hn f1. induction f1 as [|k IH]; intros f2 l H1 H2.
  - destruct l as [|b t]; simpl in H1; [|lia]. destruct f2; reflexivity.
  - destruct l as [|b t]. { destruct f2; reflexivity. }
    destruct f2 as [|k2]; [simpl in H2; lia|].
    cbn [chunks_f]. f_equal. cbn [List.length] in *. apply IH; rewrite skipn_length; cbn [List.length]; lia.
Qed.

Lemma chunks_nil n : chunks n [] = [].
Proof. reflexivity. Qed.

Lemma chunks_cons n l : 1 <= n -> l <> [] -> chunks n l = firstn n l :: chunks n (skipn n l).
Proof.
  intros Hn Hl. unfold chunks. destruct l as [|b t]; [congruence|].
  cbn [List.length chunks_f]. f_equal. apply chunks_f_fuel; auto; rewrite skipn_length; cbn [List.length]; lia.
Qed.

(* induction along the chunks of a list *)
Lemma chunk_ind n (Hn : 1 <= n) (P : list byte -> Prop) :
  P [] -> (forall l, l <> [] -> P (skipn n l) -> P l) -> forall l, P l.
Proof.
  intros H0 Hs l. remember (length l) as m eqn:E. revert l E.
  induction m as [m IH] using lt_wf_ind. intros l E. destruct l as [|b t]; [exact H0|].
  apply Hs; [discriminate|]. apply (IH (length (skipn n (b :: t)))); [|reflexivity].
  rewrite skipn_length. subst m. cbn [List.length]. lia.
Qed.

Lemma concat_chunks n l : 1 <= n -> concat (chunks n l) = l.
Proof.
  intro Hn. induction l as [|l Hl IH] using (chunk_ind n Hn); auto.
  rewrite chunks_cons by auto. simpl. rewrite IH. apply firstn_skipn.
Qed.

Lemma chunks_small n l : 1 <= n -> l <> [] -> length l <= n -> chunks n l = [l].
Proof.
  intros Hn Hl Hlen. rewrite chunks_cons by auto.
  rewrite firstn_all2, skipn_all2 by lia. reflexivity.
Qed.

Lemma chunks_app_full n a r : 1 <= n -> length a = n -> chunks n (a ++ r) = a :: chunks n r.
Proof.
  intros Hn Ha. rewrite chunks_cons; auto.
  - rewrite firstn_app_len, skipn_app_len by exact Ha. reflexivity.
  - destruct a; simpl in *; [lia|discriminate].
Qed.

Lemma chunks_len n l x : 1 <= n -> In x (chunks n l) -> length x <= n.
Proof.
  intro Hn. induction l as [|l Hl IH] using (chunk_ind n Hn); auto.
  - simpl. tauto.
  - rewrite chunks_cons by auto. intros [<-|Hin]; [apply firstn_le_length|auto].
Qed.

Lemma map_chunks_nil n g : map_chunks n g [] = [].
Proof. reflexivity. Qed.

Lemma map_chunks_cons n g l : 1 <= n -> l <> [] ->
  map_chunks n g l = g (firstn n l) ++ map_chunks n g (skipn n l).
Proof. intros Hn Hl. unfold map_chunks. rewrite chunks_cons by auto. reflexivity. Qed.

Section MapChunks.
  Variable n : nat.
  Variable g : list byte -> list byte.
  Hypothesis Hn : 1 <= n.
  Hypothesis Hg : forall x, length (g x) = length x.

  Lemma map_chunks_length l : length (map_chunks n g l) = length l.
  Proof.
    induction l as [|l Hl IH] using (chunk_ind n Hn); auto.
    rewrite map_chunks_cons by auto. rewrite app_length, Hg, IH. apply firstn_skipn_length.
  Qed.

  Lemma chunks_map_chunks l : chunks n (map_chunks n g l) = map g (chunks n l).
  Proof.
    induction l as [|l Hl IH] using (chunk_ind n Hn); auto.
    rewrite map_chunks_cons by auto. rewrite (chunks_cons n l) by auto. simpl map.
    destruct (le_lt_dec n (length l)) as [Hle|Hlt].
    - rewrite chunks_app_full; auto.
      + rewrite IH. reflexivity.
      + rewrite Hg. apply firstn_length_le. exact Hle.
    - assert (Hs : skipn n l = []) by (apply skipn_all2; lia).
      rewrite Hs. rewrite map_chunks_nil, chunks_nil, app_nil_r. simpl.
      apply chunks_small; auto.
      + intro E. apply (f_equal (@length byte)) in E. rewrite Hg, firstn_all2 in E by lia.
        destruct l; simpl in E; [congruence|discriminate].
      + rewrite Hg. apply firstn_le_length.
  Qed.

  Hypothesis Hgg : forall x, g (g x) = x.

  Lemma map_chunks_invol l : map_chunks n g (map_chunks n g l) = l.
  Proof.
    unfold map_chunks at 1. rewrite chunks_map_chunks, map_map.
    rewrite (map_ext _ (fun x => x)) by (intro; apply Hgg).
    rewrite map_id. apply concat_chunks. exact Hn.
  Qed.
End MapChunks.

Lemma map_chunks_id n g l : 1 <= n -> (forall x, length x <= n -> g x = x) -> map_chunks n g l = l.
Proof.
  intros Hn Hg. unfold map_chunks. rewrite (map_ext_in _ (fun x => x)).
  - rewrite map_id. apply concat_chunks. exact Hn.
  - intros x Hx. apply Hg. exact (chunks_len n l x Hn Hx).
Qed.

(* single-byte units (byte strings, bool, i1/u1) are untouched by the swap *)
Lemma map_chunks_1_rev l : map_chunks 1 (@rev byte) l = l.
Proof. apply map_chunks_id; [lia|]. intros [|b [|c t]] H; simpl in H; try reflexivity; lia. Qed.

Lemma rev_chunks_invol c l : 1 <= c -> map_chunks c (@rev byte) (map_chunks c (@rev byte) l) = l.
Proof. intro Hc. apply map_chunks_invol; auto using rev_length, rev_involutive. Qed.

Definition geom_ok (g : list (nat * nat)) : Prop := Forall (fun p => 1 <= snd p) g.

Lemma swap_row_nil g : swap_row g [] = [].
Proof.
  induction g as [|[len c] t IH]; simpl; auto.
  rewrite firstn_nil, skipn_nil, IH. reflexivity.
Qed.

Lemma swap_row_length g : geom_ok g -> forall row, length (swap_row g row) = length row.
Proof.
  induction 1 as [|[len c] t Hc Ht IH]; intro row; simpl; auto.
  rewrite app_length, IH, map_chunks_length by auto using rev_length.
  apply firstn_skipn_length.
Qed.

(* re-splitting a swapped row at the same field boundary *)
Lemma split_app len (A R row : list byte) :
  length A = length (firstn len row) -> (length row <= len -> R = []) ->
  firstn len (A ++ R) = A /\ skipn len (A ++ R) = R.
Proof.
  intros HA HR. destruct (le_lt_dec len (length row)) as [Hle|Hlt].
  - rewrite firstn_length_le in HA by exact Hle.
    split; [apply firstn_app_len | apply skipn_app_len]; exact HA.
  - rewrite HR by lia. rewrite app_nil_r.
    rewrite firstn_all2 in HA by lia.
    split; [apply firstn_all2 | apply skipn_all2]; lia.
Qed.

Lemma swap_row_split len c t row : 1 <= c -> geom_ok t ->
  let A := map_chunks c (@rev byte) (firstn len row) in
  let R := swap_row t (skipn len row) in
  firstn len (A ++ R) = A /\ skipn len (A ++ R) = R.
Proof.
  intros Hc Ht A R. apply split_app with (row := row).
  - unfold A. apply map_chunks_length; auto using rev_length.
  - intro Hlen. unfold R. rewrite skipn_all2 by exact Hlen. apply swap_row_nil.
Qed.

Lemma swap_row_invol g : geom_ok g -> forall row, swap_row g (swap_row g row) = row.
Proof.
  induction 1 as [|[len c] t Hc Ht IH]; intro row; auto.
  simpl in Hc. cbn [swap_row].
  destruct (swap_row_split len c t row Hc Ht) as [E1 E2]. cbv zeta in E1, E2.
  rewrite E1, E2, IH, rev_chunks_invol by exact Hc. apply firstn_skipn.
Qed.

Lemma swap_row_units g : Forall (fun p => snd p = 1) g -> forall row, swap_row g row = row.
Proof.
  induction 1 as [|[len c] t Hc Ht IH]; intro row; auto.
  simpl in Hc. subst c. cbn [swap_row]. rewrite map_chunks_1_rev, IH. apply firstn_skipn.
Qed.

Lemma swap_data_length g data : geom_ok g -> 1 <= rowsize g -> length (swap_data g data) = length data.
Proof. intros Hg Hr. apply map_chunks_length; auto using swap_row_length. Qed.

Lemma swap_data_invol g data : geom_ok g -> 1 <= rowsize g -> swap_data g (swap_data g data) = data.
Proof. intros Hg Hr. apply map_chunks_invol; auto using swap_row_length, swap_row_invol. Qed.

Lemma swap_data_units g data : Forall (fun p => snd p = 1) g -> 1 <= rowsize g -> swap_data g data = data.
Proof. intros Hg Hr. apply map_chunks_id; auto using swap_row_units. Qed.

Lemma chunks_swap_data g data : geom_ok g -> 1 <= rowsize g ->
  chunks (rowsize g) (swap_data g data) = map (swap_row g) (chunks (rowsize g) data).
Proof. intros Hg Hr. apply chunks_map_chunks; auto using swap_row_length. Qed.

Lemma is_big_iff ml o : is_big_endian ml o = true <-> endian_of ml o = Some true.
Proof. destruct ml, o; cbv; split; congruence. Qed.

Lemma is_little_iff ml o : is_little_endian ml o = true <-> endian_of ml o = Some false.
Proof. destruct ml, o; cbv; split; congruence. Qed.

Lemma predicates_agree ml o : predicates_ok ml o (is_big_endian ml o) (is_little_endian ml o).
Proof. split; [apply is_big_iff|apply is_little_iff]. Qed.

Lemma little_not_big ml o : o <> NA -> is_little_endian ml o = negb (is_big_endian ml o).
Proof. destruct ml, o; try reflexivity; congruence. Qed.

Lemma endian_swap ml o : endian_of ml (swap_order ml o) = option_map negb (endian_of ml o).
Proof. destruct ml, o; reflexivity. Qed.

Lemma endian_none ml o : endian_of ml o = None <-> o = NA.
Proof. destruct o; simpl; split; congruence. Qed.

Lemma swap_order_NA ml o : swap_order ml o = NA <-> o = NA.
Proof. destruct ml, o; simpl; split; congruence. Qed.

(* some order of the list means the endianness [w]; [p] is is_big_endian or is_little_endian *)
Lemma existsb_endian (p : order -> bool) ml w os : (forall o, p o = true <-> endian_of ml o = Some w) ->
  (existsb p os = true <-> exists o, In o os /\ endian_of ml o = Some w).
Proof.
  intro Hp. rewrite existsb_exists. split; intros (o & Ho & H); exists o; split; auto; apply Hp; exact H.
Qed.

Lemma Forall2_map2 {A B C} (R : B -> C -> Prop) (h : A -> B) (k : A -> C) l :
  (forall x, In x l -> R (h x) (k x)) -> Forall2 R (map h l) (map k l).
Proof.
  induction l as [|x t IH]; intro H; simpl; constructor.
  - apply H. left. reflexivity.
  - apply IH. intros y Hy. apply H. right. exact Hy.
Qed.

Lemma Forall2_map_r {A B} (R : A -> B -> Prop) (h : A -> B) l :
  (forall x, In x l -> R x (h x)) -> Forall2 R l (map h l).
Proof. intro H. rewrite <- (map_id l) at 1. apply Forall2_map2. exact H. Qed.

Lemma Forall2_right {A B} (R : A -> B -> Prop) (Q : B -> Prop) l l' :
  Forall2 R l l' -> (forall x y, R x y -> Q y) -> Forall Q l'.
Proof. induction 1 as [|x y l l' Rxy HF IH]; intro HQ; constructor; eauto. Qed.

(* a dtype with its order letters mapped through [h]; newbyteorder is the case h = swap_order *)
Definition reseg (h : order -> order) (s : seg) : seg := {| slen := slen s; sc := sc s; so := h (so s) |}.

Lemma layout_map_orders h d : layout (map_orders h d) = map (reseg h) (layout d).
Proof. destruct d as [s|fs]; simpl; [reflexivity|]. rewrite !map_map. reflexivity. Qed.

Lemma orders_map_orders h d : orders (map_orders h d) = map h (orders d).
Proof. unfold orders. rewrite layout_map_orders, !map_map. reflexivity. Qed.

Lemma erase_map_orders h d : erase (map_orders h d) = erase d.
Proof. destruct d as [s|fs]; simpl; [reflexivity|]. rewrite map_map. reflexivity. Qed.

Lemma newbyteorder_map_orders ml d : newbyteorder ml d = map_orders (swap_order ml) d.
Proof. destruct d; reflexivity. Qed.

Lemma erase_newbo ml d : erase (newbyteorder ml d) = erase d.
Proof. rewrite newbyteorder_map_orders. apply erase_map_orders. Qed.

Lemma valid_seg d s : valid_dtype d -> In s (layout d) -> seg_valid s.
Proof. intros [_ H] Hin. rewrite Forall_forall in H. auto. Qed.

Lemma segs_geom_ok ly : Forall (fun s => 1 <= sc s) ly -> geom_ok (geom ly).
Proof. induction 1; simpl; constructor; auto. Qed.

Lemma valid_units d : valid_dtype d -> Forall (fun s => 1 <= sc s) (layout d).
Proof.
  intros [_ H]. rewrite Forall_forall in *. intros s Hs. destruct (H s Hs) as (_ & Hc & _). exact Hc.
Qed.

Lemma valid_geom_ok d : valid_dtype d -> geom_ok (geom (layout d)).
Proof. intro H. apply segs_geom_ok, valid_units, H. Qed.

Lemma valid_rowsize d : valid_dtype d -> 1 <= rowsize (geom (layout d)).
Proof.
  intros [Hne H]. destruct (layout d) as [|s t]; [congruence|].
  inversion H as [|? ? (Hl & _) _]; subst. simpl. lia.
Qed.

Lemma valid_map_orders h d : (forall o, h o = NA <-> o = NA) -> valid_dtype d -> valid_dtype (map_orders h d).
Proof.
  intros Hh [Hne HF]. unfold valid_dtype. rewrite layout_map_orders. split.
  - destruct (layout d); [congruence|discriminate].
  - rewrite Forall_forall in *. intros s' Hs'. apply in_map_iff in Hs' as (s & <- & Hs).
    destruct (HF s Hs) as (Hl & Hc & Hna). unfold seg_valid. cbn [reseg slen sc so].
    split; [exact Hl|]. split; [exact Hc|]. rewrite Hh. exact Hna.
Qed.

Lemma valid_newbo ml d : valid_dtype d -> valid_dtype (newbyteorder ml d).
Proof. rewrite newbyteorder_map_orders. apply valid_map_orders. intro o. apply swap_order_NA. Qed.

Lemma uniform_newbo ml d : uniform ml d -> uniform ml (newbyteorder ml d).
Proof.
  intros U s1 s2 b1 b2 H1 H2 E1 E2. rewrite newbyteorder_map_orders, layout_map_orders in H1, H2.
  apply in_map_iff in H1 as (x1 & <- & Hx1). apply in_map_iff in H2 as (x2 & <- & Hx2).
  cbn [reseg so] in E1, E2. rewrite endian_swap in E1, E2.
  destruct (endian_of ml (so x1)) as [c1|] eqn:F1; [|discriminate].
  destruct (endian_of ml (so x2)) as [c2|] eqn:F2; [|discriminate].
  simpl in E1, E2. injection E1 as <-. injection E2 as <-.
  f_equal. exact (U x1 x2 c1 c2 Hx1 Hx2 F1 F2).
Qed.

Lemma uniform_of_newbo ml d : uniform ml (newbyteorder ml d) -> uniform ml d.
Proof.
  intros U s1 s2 b1 b2 H1 H2 E1 E2.
  (* the relabelled segments are in the new layout, with the opposite endianness *)
  assert (R : forall s b, In s (layout d) -> endian_of ml (so s) = Some b ->
                          In (reseg (swap_order ml) s) (layout (newbyteorder ml d))
                          /\ endian_of ml (so (reseg (swap_order ml) s)) = Some (negb b)).
  { intros s b Hs E. split.
    - rewrite newbyteorder_map_orders, layout_map_orders. apply in_map. exact Hs.
    - cbn [reseg so]. rewrite endian_swap, E. reflexivity. }
  destruct (R s1 b1 H1 E1) as [I1 F1]. destruct (R s2 b2 H2 E2) as [I2 F2].
  pose proof (U _ _ _ _ I1 I2 F1 F2) as N. destruct b1, b2; simpl in N; congruence.
Qed.

Lemma newbo_allNA ml d : (forall s, In s (layout d) -> so s = NA) -> newbyteorder ml d = d.
Proof.
  assert (S : forall s, sord s = NA -> newbo_scalar ml s = s) by (intros [k n o]; simpl; intros ->; reflexivity).
  destruct d as [s|fs]; simpl; intro H; f_equal.
  - apply S, (H (seg_of s 1)). left. reflexivity.
  - rewrite <- (map_id fs) at 2. apply map_ext_in. intros [nm s sub] Hf. cbn [fname fty fsub]. rewrite S; [reflexivity|].
    apply (H (seg_of s (prod sub))), (in_map (fun f => seg_of (fty f) (prod (fsub f))) fs _ Hf).
Qed.

Lemma single_byte_units_untouched d data :
  valid_dtype d -> (forall s, In s (layout d) -> sc s = 1) -> swap_data (geom (layout d)) data = data.
Proof.
  intros V H. apply swap_data_units; [|apply valid_rowsize; exact V].
  unfold geom. rewrite Forall_forall. intros p Hp. apply in_map_iff in Hp as (s & <- & Hs). simpl. auto.
Qed.

(* without a field that has a byte order, byteswap + newbyteorder changes nothing *)
Lemma byteswap_unordered ml a ip : valid_dtype (adt a) -> (forall s, In s (layout (adt a)) -> so s = NA) ->
  o_res (byteswap ml a ip false) = a.
Proof.
  intros V H. unfold byteswap. cbn [o_res]. rewrite (newbo_allNA ml _ H), single_byte_units_untouched.
  - destruct a; reflexivity.
  - exact V.
  - intros s Hs. destruct (valid_seg _ s V Hs) as (_ & _ & Hna). apply Hna, H, Hs.
Qed.

Lemma decb_short b b' x : List.length x <= 1 -> decb b' x = decb b x.
Proof.
  destruct x as [|y [|z t]]; simpl; intro H; try lia; destruct b, b'; reflexivity.
Qed.

Lemma decb_rev b x : decb (negb b) (rev x) = decb b x.
Proof. destruct b; simpl; rewrite ?rev_involutive; reflexivity. Qed.

(* reading the units of a field after reversing them (flip) or as they are: the same values when the
   endianness read is flipped likewise; single-byte units read the same either way *)
Lemma seg_values flip c X b b' : 1 <= c -> (c = 1 \/ b' = xorb flip b) ->
  map (decb b') (chunks c (if flip then map_chunks c (@rev byte) X else X)) = map (decb b) (chunks c X).
Proof.
  intros Hc H. destruct flip.
  - rewrite chunks_map_chunks by auto using rev_length. rewrite map_map. destruct H as [->| ->].
    + apply map_ext_in. intros x Hx. apply chunks_len in Hx; [|lia].
      rewrite <- (decb_rev b x). apply decb_short. rewrite rev_length. exact Hx.
    + apply map_ext. intro x. rewrite xorb_true_l. apply decb_rev.
  - destruct H as [->| ->]; [|rewrite xorb_false_l; reflexivity].
    apply map_ext_in. intros x Hx. apply chunks_len in Hx; [|lia]. apply decb_short. exact Hx.
Qed.

(* two layouts of the same geometry whose multi-byte units have equal (flip = false) or
   opposite (flip = true) endianness *)
Definition seg_rel (flip ml : bool) (s s' : seg) : Prop :=
  slen s' = slen s /\ sc s' = sc s /\ (sc s = 1 \/ seg_big ml s' = xorb flip (seg_big ml s)).

Lemma row_values_rel flip ml ly ly' :
  Forall2 (seg_rel flip ml) ly ly' -> Forall (fun s => 1 <= sc s) ly ->
  forall row, row_values ml ly' (if flip then swap_row (geom ly) row else row) = row_values ml ly row.
Proof.
  induction 1 as [|s s' t t' (E1 & E2 & E3) HR IH]; intros Hv row.
  - destruct flip; reflexivity.
  - inversion Hv as [|? ? Hc Hvt]; subst. cbn [row_values]. rewrite E1, E2.
    rewrite <- (IH Hvt (skipn (slen s) row)), <- (seg_values flip (sc s) (firstn (slen s) row) _ _ Hc E3).
    destruct flip; [|reflexivity].
    (* the swapped row splits at the same field boundary *)
    cbn [geom map swap_row]. fold (geom t).
    destruct (swap_row_split (slen s) (sc s) (geom t) row Hc (segs_geom_ok t Hvt)) as [F1 F2].
    cbv zeta in F1, F2. rewrite F1, F2. reflexivity.
Qed.

Lemma geom_rel flip ml ly ly' : Forall2 (seg_rel flip ml) ly ly' -> geom ly' = geom ly.
Proof. induction 1 as [|s s' t t' (E1 & E2 & _) HR IH]; simpl; [reflexivity|]. rewrite E1, E2, IH. reflexivity. Qed.

Lemma values_as_rel flip ml ly ly' data :
  Forall2 (seg_rel flip ml) ly ly' -> Forall (fun s => 1 <= sc s) ly -> 1 <= rowsize (geom ly) ->
  values_as ml ly' (if flip then swap_data (geom ly) data else data) = values_as ml ly data.
Proof.
  intros HR Hv Hr. unfold values_as. rewrite (geom_rel _ _ _ _ HR). destruct flip.
  - rewrite chunks_swap_data by auto using segs_geom_ok. rewrite map_map. apply map_ext.
    intro row. apply (row_values_rel true ml ly ly' HR Hv).
  - apply map_ext. intro row. apply (row_values_rel false ml ly ly' HR Hv).
Qed.

Lemma seg_big_of ml s b : endian_of ml (so s) = Some b -> seg_big ml s = b.
Proof. unfold seg_big. intros ->. destruct b; reflexivity. Qed.

Lemma newbo_rel ml d : valid_dtype d -> Forall2 (seg_rel true ml) (layout d) (layout (newbyteorder ml d)).
Proof.
  intro V. rewrite newbyteorder_map_orders, layout_map_orders. apply Forall2_map_r. intros s Hs.
  split; [reflexivity|]. split; [reflexivity|].
  unfold seg_big. cbn [so reseg]. rewrite endian_swap.
  destruct (endian_of ml (so s)) as [[|]|] eqn:E; simpl; [right; reflexivity|right; reflexivity|left].
  apply endian_none in E. destruct (valid_seg d s V Hs) as (_ & _ & Hna). apply Hna. exact E.
Qed.

(* values survive byteswap + newbyteorder for EVERY valid dtype (mixed orders included) *)
Lemma byteswap_values ml a ip : valid_dtype (adt a) ->
  arr_values ml (o_res (byteswap ml a ip false)) = arr_values ml a.
Proof.
  intro V. unfold arr_values. cbn [byteswap o_res adt adata].
  apply (values_as_rel true); auto using newbo_rel, valid_units, valid_rowsize.
Qed.

(* the test under which each converter swaps, read off Model.to_native / to_big_endian / to_little_endian
   ([apply_doswap]).  The same decision appears as [Ext.doswap_top] on the list of orders a field scan sees
   ([doswap_top_flat]) and as [Tie.swaps_g] in the regenerated text ([Tie.tie_swaps]). *)
Definition doswap (f : conv) (ml : bool) (d : dtype) : bool :=
  match f with
  | ToNative =>
      let dl := match d with DPlain s => is_little_endian ml (sord s) | DStruct fs => scan_little ml fs end in
      (ml && negb dl) || (negb ml && dl)
  | ToBig => match d with DPlain s => negb (is_big_endian ml (sord s)) | DStruct fs => scan_little ml fs end
  | ToLittle => match d with DPlain s => negb (is_little_endian ml (sord s)) | DStruct fs => scan_big ml fs end
  | Swap => true
  end.

Lemma apply_doswap f ml a ip k :
  apply f ml a ip k = if doswap f ml (adt a) then byteswap ml a ip k else noswap a ip.
Proof. destruct f; reflexivity. Qed.

(* on a record the field loops ask whether some field is little / big: the decision is that of the
   nested-record model on the record's own list of orders *)
Lemma scan_little_exists ml fs : scan_little ml fs = existsb (is_little_endian ml) (top_of fs).
Proof. induction fs as [|f t IH]; simpl; [reflexivity|]. destruct (is_little_endian _ _); simpl; auto. Qed.

Lemma scan_big_exists ml fs : scan_big ml fs = existsb (is_big_endian ml) (top_of fs).
Proof. induction fs as [|f t IH]; simpl; [reflexivity|]. destruct (is_big_endian _ _); simpl; auto. Qed.

Lemma scan_notbig_exists ml fs : scan_notbig ml fs = existsb (fun o => negb (is_big_endian ml o)) (top_of fs).
Proof. induction fs as [|f t IH]; simpl; [reflexivity|]. destruct (negb (is_big_endian _ _)); simpl; auto. Qed.

Lemma doswap_top_flat f ml fs : doswap_top f ml (top_of fs) = doswap f ml (DStruct fs).
Proof. destruct f; unfold doswap_top, doswap; rewrite ?scan_little_exists, ?scan_big_exists; reflexivity. Qed.

Lemma top_of_orders fs : top_of fs = orders (DStruct fs).
Proof. unfold top_of, orders. cbn [layout]. rewrite map_map. reflexivity. Qed.

(* in a uniformly ordered dtype that has a field of endianness [b], the endianness [w] occurs iff w = b *)
Lemma uniform_existsb (p : order -> bool) ml w d s b : (forall o, p o = true <-> endian_of ml o = Some w) ->
  uniform ml d -> In s (layout d) -> endian_of ml (so s) = Some b -> existsb p (orders d) = Bool.eqb w b.
Proof.
  intros Hp U Hs Hb. apply eq_true_iff_eq. rewrite (existsb_endian p ml w _ Hp), Bool.eqb_true_iff. split.
  - intros (o & Ho & E). apply in_map_iff in Ho as (s' & <- & Hs'). exact (U s' s w b Hs' Hs E Hb).
  - intros ->. exists (so s). split; [apply in_map; exact Hs|exact Hb].
Qed.

(* the swap happens exactly when a field with a byte order is not yet in the requested one *)
Lemma doswap_correct f ml d : uniform ml d ->
  forall s b, In s (layout d) -> endian_of ml (so s) = Some b ->
  want_big ml f b = xorb (doswap f ml d) b.
Proof.
  intros U s b Hs Hb.
  pose proof (uniform_existsb _ ml false _ s b (is_little_iff ml) U Hs Hb) as EL.
  pose proof (uniform_existsb _ ml true _ s b (is_big_iff ml) U Hs Hb) as EB.
  destruct d as [s0|fs].
  - cbn [orders layout map so seg_of existsb] in EL, EB. rewrite orb_false_r in EL, EB.
    destruct f; cbn [doswap]; rewrite ?EL, ?EB; destruct ml, b; reflexivity.
  - rewrite <- doswap_top_flat, top_of_orders. destruct f; cbn [doswap_top]; rewrite ?EL, ?EB; destruct ml, b; reflexivity.
Qed.

Lemma requested_rel f ml d : valid_dtype d -> uniform ml d ->
  Forall2 (seg_rel (doswap f ml d) ml) (layout d) (requested ml f (layout d)).
Proof.
  intros V U. unfold requested. apply Forall2_map_r. intros s Hs. unfold seg_rel.
  destruct (endian_of ml (so s)) as [b|] eqn:E.
  - split; [reflexivity|]. split; [reflexivity|]. right.
    rewrite (seg_big_of ml s b E), <- (doswap_correct f ml d U s b Hs E).
    unfold seg_big. simpl. destruct (want_big ml f b); reflexivity.
  - split; [reflexivity|]. split; [reflexivity|]. left.
    apply endian_none in E. destruct (valid_seg d s V Hs) as (_ & _ & Hna). apply Hna. exact E.
Qed.

Lemma self_rel ml ly : Forall2 (seg_rel false ml) ly ly.
Proof.
  induction ly as [|s t IH]; constructor; auto.
  split; [reflexivity|]. split; [reflexivity|]. right. destruct (seg_big ml s); reflexivity.
Qed.

(* every order a result declares as requested is a requested one *)
Lemma declared_orders ml f din dout : declares_requested ml f din dout ->
  forall s b, In s (layout dout) -> endian_of ml (so s) = Some b -> exists b0, b = want_big ml f b0.
Proof.
  intro D.
  assert (F : Forall (fun o => forall b, endian_of ml o = Some b -> exists b0, b = want_big ml f b0) (orders dout)).
  { apply (Forall2_right _ _ _ _ D). intros oin oout R b Eb. unfold order_requested in R.
    destruct (endian_of ml oin) as [b0|]; [exists b0; congruence|subst oout; discriminate]. }
  intros s b Hs. rewrite Forall_forall in F. apply F, in_map, Hs.
Qed.

(* an array whose ordered fields are all as requested is returned as it is: a swap can then be
   decided only when no field has a byte order, and changes nothing *)
Lemma already_requested ml f a ip : valid_dtype (adt a) -> uniform ml (adt a) ->
  (forall s b, In s (layout (adt a)) -> endian_of ml (so s) = Some b -> want_big ml f b = b) ->
  o_res (apply f ml a ip false) = a.
Proof.
  intros V U H. rewrite apply_doswap. destruct (doswap f ml (adt a)) eqn:E; [|reflexivity].
  apply byteswap_unordered; [exact V|]. intros s Hs. apply (endian_none ml).
  destruct (endian_of ml (so s)) as [b|] eqn:Eb; [exfalso|reflexivity].
  pose proof (doswap_correct f ml _ U s b Hs Eb) as D. rewrite E, (H s b Hs Eb) in D. destruct b; discriminate.
Qed.

(* [V] is used by the clauses about values and by idempotence, [U] by those about the requested order; structure,
   kept dtype, copy and in-place hold of any array *)
Section Conv.
  Variables (ml : bool) (f : conv) (a : arr) (ip keep : bool).
  Hypothesis V : valid_dtype (adt a).
  Hypothesis U : uniform ml (adt a).
  Let sw := doswap f ml (adt a).
  Let o1 := apply f ml a ip keep.

  Lemma res_data : adata (o_res o1) = if sw then swap_data (geom (layout (adt a))) (adata a) else adata a.
  Proof. unfold o1. rewrite apply_doswap. fold sw. destruct sw; reflexivity. Qed.

  Lemma res_dtype : adt (o_res o1) = if sw && negb keep then newbyteorder ml (adt a) else adt a.
  Proof. unfold o1. rewrite apply_doswap. fold sw. destruct sw, keep; reflexivity. Qed.

  Lemma res_shape : ashape (o_res o1) = ashape a.
  Proof. unfold o1. rewrite apply_doswap. destruct (doswap f ml (adt a)); reflexivity. Qed.

  Lemma structure_preserved : same_structure (adt (o_res o1)) (adt a) /\ ashape (o_res o1) = ashape a.
  Proof.
    split; [|exact res_shape]. unfold same_structure. rewrite res_dtype.
    destruct (sw && negb keep); [apply erase_newbo|reflexivity].
  Qed.

  Lemma converted : values_as ml (requested ml f (layout (adt a))) (adata (o_res o1)) = arr_values ml a.
  Proof.
    rewrite res_data. unfold arr_values, sw.
    apply values_as_rel; auto using requested_rel, valid_units, valid_rowsize.
  Qed.

  Lemma declares : keep = false -> declares_requested ml f (adt a) (adt (o_res o1)).
  Proof.
    intro Hk. unfold declares_requested. rewrite res_dtype, Hk, andb_true_r.
    (* the result's orders are the argument's, each swapped if [sw]: endianness b becomes xorb sw b *)
    assert (R : forall h, (forall o, endian_of ml (h o) = option_map (xorb sw) (endian_of ml o)) ->
                          (forall o, h o = NA <-> o = NA) ->
                          Forall2 (order_requested ml f) (orders (adt a)) (map h (orders (adt a)))).
    { intros h He Hna. unfold orders. rewrite map_map. apply Forall2_map2. intros s Hs.
      unfold order_requested. rewrite He. destruct (endian_of ml (so s)) as [b|] eqn:E; simpl.
      - rewrite (doswap_correct f ml (adt a) U s b Hs E). reflexivity.
      - apply Hna, (endian_none ml), E. }
    destruct sw eqn:Esw.
    - rewrite newbyteorder_map_orders, orders_map_orders. apply R; [|apply swap_order_NA].
      intro o. rewrite endian_swap. reflexivity.
    - rewrite <- (map_id (orders (adt a))) at 2. apply R; [|reflexivity].
      intro o. destruct (endian_of ml o) as [[|]|]; reflexivity.
  Qed.

  Lemma values_preserved : keep = false -> arr_values ml (o_res o1) = arr_values ml a.
  Proof.
    intro Hk. unfold arr_values at 1. rewrite res_dtype, res_data, Hk, andb_true_r.
    destruct sw.
    - apply (values_as_rel true); auto using newbo_rel, valid_units, valid_rowsize.
    - reflexivity.
  Qed.

  Lemma dtype_kept : keep = true -> adt (o_res o1) = adt a.
  Proof. intro Hk. rewrite res_dtype, Hk, andb_false_r. reflexivity. Qed.

  Lemma copy_independent : ip = false -> o_same o1 = false /\ o_shares o1 = false /\ o_inp o1 = a.
  Proof. intro Hi. unfold o1. rewrite apply_doswap, Hi. destruct (doswap f ml (adt a)); repeat split; reflexivity. Qed.

  Lemma inplace_same_object : ip = true -> o_same o1 = true /\ o_inp o1 = o_res o1.
  Proof. intro Hi. unfold o1. rewrite apply_doswap, Hi. destruct (doswap f ml (adt a)); split; reflexivity. Qed.

  Lemma res_valid : valid_dtype (adt (o_res o1)).
  Proof. rewrite res_dtype. destruct (sw && negb keep); auto using valid_newbo. Qed.

  Lemma res_uniform : uniform ml (adt (o_res o1)).
  Proof. rewrite res_dtype. destruct (sw && negb keep); auto using uniform_newbo. Qed.

  Lemma idempotent : keep = false -> f <> Swap -> o_res (apply f ml (o_res o1) ip keep) = o_res o1.
  Proof.
    intros Hk Hf. rewrite Hk. apply already_requested; [exact res_valid|exact res_uniform|].
    intros s b Hs Hb. destruct (declared_orders ml f _ _ (declares Hk) s b Hs Hb) as (b0 & ->).
    destruct f; try reflexivity. congruence.
  Qed.

  Lemma swap_twice : f = Swap -> adata (o_res (apply f ml (o_res o1) ip keep)) = adata a.
  Proof.
    intro Hf. assert (G : geom (layout (adt (o_res o1))) = geom (layout (adt a))).
    { rewrite res_dtype. destruct (sw && negb keep); [exact (geom_rel true ml _ _ (newbo_rel ml _ V))|reflexivity]. }
    assert (Hsw : sw = true) by (unfold sw; rewrite Hf; reflexivity).
    pose proof res_data as D. rewrite Hsw in D.
    rewrite Hf. cbn [apply byteswap o_res adata]. rewrite G, D. apply swap_data_invol; auto using valid_geom_ok, valid_rowsize.
  Qed.

  Theorem conv_correct : conv_ok ml f a ip keep o1 (apply f ml (o_res o1) ip keep).
  Proof.
    constructor.
    - exact structure_preserved.
    - exact converted.
    - intro Hk. split; [exact (declares Hk)|exact (values_preserved Hk)].
    - exact dtype_kept.
    - exact copy_independent.
    - exact inplace_same_object.
    - exact idempotent.
    - exact swap_twice.
  Qed.
End Conv.

(* a conjunction of checkers decides the conjunction of their propositions; a conditional checker decides one
   proposition per value of the condition *)
Lemma andb_iff (b c : bool) (P Q : Prop) : (b = true <-> P) -> (c = true <-> Q) -> (b && c = true <-> P /\ Q).
Proof. intros <- <-. apply andb_true_iff. Qed.

Lemma if_iff (c b b' : bool) (P Q : Prop) : (b = true <-> P) -> (b' = true <-> Q) ->
  ((if c then b else b') = true <-> (c = false -> Q) /\ (c = true -> P)).
Proof. intros <- <-. destruct c; intuition discriminate. Qed.

Lemma order_eqb_eq a b : order_eqb a b = true <-> a = b.
Proof. destruct a, b; simpl; split; congruence. Qed.

Lemma kind_eqb_eq a b : kind_eqb a b = true <-> a = b.
Proof. destruct a, b; simpl; split; congruence. Qed.

Lemma natlist_eqb_eq l l' : natlist_eqb l l' = true <-> l = l'.
Proof. apply list_eqb_spec. intros; apply Nat.eqb_eq. Qed.

Lemma scalar_eqb_eq a b : scalar_eqb a b = true <-> a = b.
Proof.
  destruct a as [k n o], b as [k' n' o']. unfold scalar_eqb. simpl.
  rewrite !andb_true_iff, kind_eqb_eq, Nat.eqb_eq, order_eqb_eq. split.
  - intros [[-> ->] ->]. reflexivity.
  - intro E. injection E as -> -> ->. auto.
Qed.

Lemma field_eqb_eq a b : field_eqb a b = true <-> a = b.
Proof.
  destruct a as [nm s sub], b as [nm' s' sub']. unfold field_eqb. simpl.
  rewrite !andb_true_iff, String.eqb_eq, scalar_eqb_eq, natlist_eqb_eq. split.
  - intros [[-> ->] ->]. reflexivity.
  - intro E. injection E as -> -> ->. auto.
Qed.

Lemma dtype_eqb_eq a b : dtype_eqb a b = true <-> a = b.
Proof.
  destruct a as [s|fs], b as [s'|fs']; simpl; try (split; [discriminate|congruence]).
  - rewrite scalar_eqb_eq. split; congruence.
  - rewrite (list_eqb_spec field_eqb field_eqb_eq). split; congruence.
Qed.

Lemma arr_eqb_eq a b : arr_eqb a b = true <-> a = b.
Proof.
  destruct a as [d sh dat], b as [d' sh' dat']. unfold arr_eqb. simpl.
  rewrite !andb_true_iff, dtype_eqb_eq, natlist_eqb_eq, bytes_eqb_eq. split.
  - intros [[-> ->] ->]. reflexivity.
  - intro E. injection E as -> -> ->. auto.
Qed.

Lemma outcome_eqb_eq a b : outcome_eqb a b = true <-> a = b.
Proof.
  destruct a as [r sm sh i], b as [r' sm' sh' i']. unfold outcome_eqb. simpl.
  rewrite !andb_true_iff, !arr_eqb_eq, !Bool.eqb_true_iff. split.
  - intros [[[-> ->] ->] ->]. reflexivity.
  - intro E. injection E as -> -> -> ->. auto.
Qed.

Lemma values_eqb_eq v v' : values_eqb v v' = true <-> v = v'.
Proof. apply list_eqb_spec. apply zlist_eqb_spec. Qed.

Lemma order_requested_b_iff ml f oin oout :
  order_requested_b ml f oin oout = true <-> order_requested ml f oin oout.
Proof.
  unfold order_requested_b, order_requested. destruct (endian_of ml oin) as [b|]; [|apply order_eqb_eq].
  destruct (endian_of ml oout) as [b'|]; [|split; discriminate].
  rewrite Bool.eqb_true_iff. split; congruence.
Qed.

Lemma forall2b_iff {A B} (p : A -> B -> bool) (P : A -> B -> Prop) :
  (forall x y, p x y = true <-> P x y) -> forall l l', forall2b p l l' = true <-> Forall2 P l l'.
Proof.
  intros H l. induction l as [|x t IH]; intros [|y t']; simpl.
  - split; [constructor|reflexivity].
  - split; [discriminate|intro E; inversion E].
  - split; [discriminate|intro E; inversion E].
  - rewrite andb_true_iff, H, IH. split; [intros [Hx Ht]; constructor; assumption|intro E; inversion E; auto].
Qed.

Lemma conv_check_iff ml f a ip keep o1 o2 :
  conv_check ml f a ip keep o1 o2 = true <-> conv_ok ml f a ip keep o1 o2.
Proof.
  (* first the four conjuncts that depend on keep, inplace and f *)
  assert (T : (if is_swap f then bytes_eqb (adata (o_res o2)) (adata a) else true) = true
              <-> (f = Swap -> adata (o_res o2) = adata a)).
  { destruct f; simpl; rewrite ?bytes_eqb_eq; intuition discriminate. }
  assert (D : (if negb keep && negb (is_swap f) then arr_eqb (o_res o2) (o_res o1) else true) = true
              <-> (keep = false -> f <> Swap -> o_res o2 = o_res o1)).
  { clear T. (* intuition would take T apart as well *) destruct keep, f; simpl; rewrite ?arr_eqb_eq; intuition congruence. }
  assert (K : (if keep then dtype_eqb (adt (o_res o1)) (adt a)
               else forall2b (order_requested_b ml f) (orders (adt a)) (orders (adt (o_res o1)))
                    && values_eqb (arr_values ml (o_res o1)) (arr_values ml a)) = true
              <-> (keep = false -> declares_requested ml f (adt a) (adt (o_res o1)) /\ arr_values ml (o_res o1) = arr_values ml a)
                  /\ (keep = true -> adt (o_res o1) = adt a)).
  { apply if_iff; [apply dtype_eqb_eq|]. apply andb_iff; [|apply values_eqb_eq].
    apply forall2b_iff, order_requested_b_iff. }
  assert (I : (if ip then o_same o1 && arr_eqb (o_inp o1) (o_res o1)
               else negb (o_same o1) && negb (o_shares o1) && arr_eqb (o_inp o1) a) = true
              <-> (ip = false -> o_same o1 = false /\ o_shares o1 = false /\ o_inp o1 = a)
                  /\ (ip = true -> o_same o1 = true /\ o_inp o1 = o_res o1)).
  { apply if_iff; [apply andb_iff; [reflexivity|apply arr_eqb_eq]|].
    rewrite !andb_true_iff, !negb_true_iff, arr_eqb_eq. apply and_assoc. }
  (* the conjuncts of conv_check in order: structure, shape, converted, K, I, D, T *)
  unfold conv_check. eapply iff_trans.
  { repeat apply andb_iff; [apply dtype_eqb_eq|apply natlist_eqb_eq|apply values_eqb_eq|exact K|exact I|exact D|exact T]. }
  clear. split.
  - intros ((((((H1 & H2) & H3) & H4 & H4') & H5 & H5') & H6) & H7). constructor; auto.
  - intros [[H1 H2] H3 H4 H4' H5 H5' H6 H7]. auto 10.
Qed.

Lemma conv_check_sound ml f a ip keep o1 o2 :
  conv_check ml f a ip keep o1 o2 = true -> conv_ok ml f a ip keep o1 o2.
Proof. apply conv_check_iff. Qed.

Lemma predicates_check_iff ml o big little :
  predicates_check ml o big little = true <-> predicates_ok ml o big little.
Proof.
  unfold predicates_check, predicates_ok.
  destruct (endian_of ml o) as [[|]|]; (apply andb_iff; [destruct big|destruct little]); simpl; intuition congruence.
Qed.

Lemma seg_valid_b_iff s : seg_valid_b s = true <-> seg_valid s.
Proof.
  unfold seg_valid_b, seg_valid. eapply iff_trans; [|apply and_assoc].
  repeat apply andb_iff; [apply Nat.leb_le|apply Nat.leb_le|].
  rewrite Bool.eqb_true_iff, eq_iff_eq_true, order_eqb_eq, Nat.eqb_eq. reflexivity.
Qed.

Lemma valid_dtype_b_iff d : valid_dtype_b d = true <-> valid_dtype d.
Proof.
  unfold valid_dtype_b, valid_dtype. rewrite Forall_forall.
  destruct (layout d) as [|s t]; [intuition congruence|]. rewrite forallb_forall.
  split; [intro H; split; [discriminate|]|intros [_ H]]; intros x Hx; apply seg_valid_b_iff, H, Hx.
Qed.

Lemma in_bigs ml d b : In b (bigs ml d) <-> exists s, In s (layout d) /\ endian_of ml (so s) = Some b.
Proof.
  unfold bigs. rewrite in_flat_map. split; intros (s & Hs & H); exists s; split; auto.
  - destruct (endian_of ml (so s)) as [c|]; [|destruct H]. destruct H as [<-|[]]. reflexivity.
  - rewrite H. left. reflexivity.
Qed.

Lemma uniform_b_iff ml d : uniform_b ml d = true <-> uniform ml d.
Proof.
  (* both sides say: any two members of [bigs ml d] are equal *)
  transitivity (forall b1 b2, In b1 (bigs ml d) -> In b2 (bigs ml d) -> b1 = b2).
  - unfold uniform_b. destruct (bigs ml d) as [|b t]; [split; [intros _ b1 b2 []|reflexivity]|].
    rewrite forallb_forall. split.
    + intros H b1 b2 I1 I2.
      assert (K : forall x, In x (b :: t) -> b = x) by (intros x [<-|Hx]; [reflexivity|apply Bool.eqb_prop, H, Hx]).
      rewrite <- (K b1 I1). exact (K b2 I2).
    + intros H x Hx. apply Bool.eqb_true_iff, H; [left; reflexivity|right; exact Hx].
  - unfold uniform. split.
    + intros H s1 s2 b1 b2 H1 H2 E1 E2. apply H; apply in_bigs; eauto.
    + intros H b1 b2 I1 I2. apply in_bigs in I1 as (s1 & H1 & E1). apply in_bigs in I2 as (s2 & H2 & E2). eauto.
Qed.

Lemma stripped_check_iff din dparsed : stripped_check din dparsed = true <-> stripped_ok din dparsed.
Proof.
  unfold stripped_check, stripped_ok, native_only. rewrite andb_true_iff, dtype_eqb_eq, forallb_forall, Forall_forall.
  apply and_iff_compat_l. split; intros H o Ho; specialize (H o Ho).
  - rewrite orb_true_iff, !order_eqb_eq in H. exact H.
  - rewrite orb_true_iff, !order_eqb_eq. exact H.
Qed.

(* the arrays of Properties.C16_unrepaired_scan_refuted:
   [('a','>i4'),('s','S3')] (resp. '<i4'), one row: a = 1, s = "ab" *)
Definition witness_dtype (o : order) : dtype :=
  DStruct [ {| fname := "a"; fty := {| skind := KInt; ssize := 4; sord := o |}; fsub := [] |};
            {| fname := "s"; fty := {| skind := KBytes; ssize := 3; sord := NA |}; fsub := [] |} ].
Definition witness (o : order) (hex : string) : arr :=
  {| adt := witness_dtype o; ashape := [1]; adata := unhex hex |}.
Definition witness_be := witness BE "00000001616200".
Definition witness_le := witness LE "01000000616200".

(* the array of Properties.C16_nonvacuous:
   [('s','S2'),('a','>i2',(2,)),('c','>c8')], one row: "ab", (1,2), 1+0j *)
Definition ex_dtype : dtype :=
  DStruct [ {| fname := "s"; fty := {| skind := KBytes; ssize := 2; sord := NA |}; fsub := [] |};
            {| fname := "a"; fty := {| skind := KInt; ssize := 2; sord := BE |}; fsub := [2] |};
            {| fname := "c"; fty := {| skind := KComplex; ssize := 8; sord := BE |}; fsub := [] |} ].
Definition ex_arr : arr := {| adt := ex_dtype; ashape := [1]; adata := unhex "6162000100023f80000000000000" |}.
