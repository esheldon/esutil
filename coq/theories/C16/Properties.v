(* C16 — the property theorems.  The longer proofs live in Proofs.v / ExtProofs.v / DeepProofs.v / Tie.v.
   [ml] is numpy.little_endian: every theorem holds on both kinds of machine.
   Inputs: [valid_dtype] = dtypes numpy can build (items >= 1 byte; exactly the single-byte units
   carry '|'); [uniform ml] = all fields that have a byte order have the same one ('<' and '=' are
   the same order on a little-endian machine).  Plain arrays are always uniform. *)
From Coq Require Import ZArith List Bool String.
From Coq.Strings Require Import Byte.
From EsVerif.Common Require Import Base Bytes.
From EsVerif.C16 Require Import Model Spec Ext Deep Proofs ExtProofs Gen Tie DeepProofs.
Local Open Scope list_scope.

(* The whole statement for one call o1 = f(a, inplace, keep_dtype) and the same call repeated on
   its result (Spec.conv_ok lists the clauses). *)
Theorem C16_statement : forall ml f a inplace keep,
  valid_dtype (adt a) -> uniform ml (adt a) ->
  conv_ok ml f a inplace keep (apply f ml a inplace keep)
          (apply f ml (o_res (apply f ml a inplace keep)) inplace keep).
Proof. exact conv_correct. Qed.

(* Every element keeps its value under the updated dtype ... *)
Theorem C16_value_preserved : forall ml f a inplace,
  valid_dtype (adt a) -> uniform ml (adt a) ->
  arr_values ml (o_res (apply f ml a inplace false)) = arr_values ml a.
Proof. intros ml f a inplace V _. exact (values_preserved ml f a inplace false V eq_refl). Qed.

(* ... names, kinds, item sizes, sub-array shapes and the array shape are unchanged. *)
Theorem C16_structure_preserved : forall ml f a inplace keep,
  same_structure (adt (o_res (apply f ml a inplace keep))) (adt a)
  /\ ashape (o_res (apply f ml a inplace keep)) = ashape a.
Proof. exact structure_preserved. Qed.

(* With or without the dtype update the buffer holds the old values in the requested order;
   with keep_dtype the dtype is the caller's. *)
Theorem C16_converted_to_requested_order : forall ml f a inplace keep,
  valid_dtype (adt a) -> uniform ml (adt a) ->
  values_as ml (requested ml f (layout (adt a))) (adata (o_res (apply f ml a inplace keep))) = arr_values ml a.
Proof. exact converted. Qed.

Theorem C16_keep_dtype : forall ml f a inplace, adt (o_res (apply f ml a inplace true)) = adt a.
Proof. intros ml f a inplace. exact (dtype_kept ml f a inplace true eq_refl). Qed.

Theorem C16_declares_requested_order : forall ml f a inplace,
  uniform ml (adt a) -> declares_requested ml f (adt a) (adt (o_res (apply f ml a inplace false))).
Proof. intros ml f a inplace U. exact (declares ml f a inplace false U eq_refl). Qed.

Theorem C16_idempotent : forall ml f a inplace,
  valid_dtype (adt a) -> uniform ml (adt a) -> f <> Swap ->
  o_res (apply f ml (o_res (apply f ml a inplace false)) inplace false) = o_res (apply f ml a inplace false).
Proof. intros ml f a inplace V U. exact (idempotent ml f a inplace false V U eq_refl). Qed.

Theorem C16_swap_twice_identity : forall ml a inplace keep,
  valid_dtype (adt a) ->
  adata (o_res (byteswap ml (o_res (byteswap ml a inplace keep)) inplace keep)) = adata a.
Proof. intros ml a inplace keep V. exact (swap_twice ml Swap a inplace keep V eq_refl). Qed.

Theorem C16_swap_twice_same_declared_order : forall ml a inplace,
  map (endian_of ml) (orders (adt (o_res (byteswap ml (o_res (byteswap ml a inplace false)) inplace false))))
  = map (endian_of ml) (orders (adt a)).
Proof.
  intros ml a inplace. cbn [byteswap o_res adt]. rewrite !newbyteorder_map_orders, !orders_map_orders, !map_map.
  apply map_ext. intro o. rewrite !endian_swap. destruct (endian_of ml o) as [[|]|]; reflexivity.
Qed.

Theorem C16_copy_is_independent : forall ml f a keep,
  let o := apply f ml a false keep in o_same o = false /\ o_shares o = false /\ o_inp o = a.
Proof. intros ml f a keep. exact (copy_independent ml f a false keep eq_refl). Qed.

Theorem C16_inplace_returns_same_object : forall ml f a keep,
  let o := apply f ml a true keep in o_same o = true /\ o_inp o = o_res o.
Proof. intros ml f a keep. exact (inplace_same_object ml f a true keep eq_refl). Qed.

(* byteswap + newbyteorder keeps the values of ANY valid dtype, mixed orders included *)
Theorem C16_byteswap_values_any_order : forall ml a inplace,
  valid_dtype (adt a) -> arr_values ml (o_res (byteswap ml a inplace false)) = arr_values ml a.
Proof. exact byteswap_values. Qed.

(* byte strings, bool, single-byte integers: the buffer is untouched by a swap *)
Theorem C16_single_byte_units_untouched : forall d data,
  valid_dtype d -> (forall s, In s (layout d) -> sc s = 1%nat) -> swap_data (geom (layout d)) data = data.
Proof. exact single_byte_units_untouched. Qed.

(* the fuel of the chunking functions suffices: the chunks concatenate back to the buffer *)
Theorem C16_chunks_cover : forall n l, (1 <= n)%nat -> concat (chunks n l) = l.
Proof. exact concat_chunks. Qed.

(* The predicates agree with what the declared order means, on '<' '>' '=' '|' and both machines. *)
Theorem C16_predicates_agree : forall ml o,
  predicates_ok ml o (is_big_endian ml o) (is_little_endian ml o).
Proof. exact predicates_agree. Qed.

(* Descriptor stripping removes exactly the order letter: the result does not depend on the orders. *)
Theorem C16_descr_to_native_strips : forall ml fs,
  descr_to_native (descr_of ml fs) = map (fun f => (fname f, body (fty f), fsub f)) fs.
Proof. intros ml fs. unfold descr_to_native, descr_of. rewrite map_map. apply map_ext. reflexivity. Qed.

Theorem C16_descr_to_native_order_independent : forall ml ml' fs fs',
  same_structure (DStruct fs) (DStruct fs') ->
  descr_to_native (descr_of ml fs) = descr_to_native (descr_of ml' fs').
Proof.
  intros ml ml' fs fs'. unfold same_structure. simpl. intro E. injection E as E. rewrite !C16_descr_to_native_strips.
  set (er := fun f => {| fname := fname f; fty := erase_scalar (fty f); fsub := fsub f |}) in E.
  transitivity (map (fun f => (fname f, body (fty f), fsub f)) (map er fs)).
  - rewrite map_map. apply map_ext. reflexivity.
  - rewrite E, map_map. apply map_ext. reflexivity.
Qed.

(* Checker soundness: what the correspondence run evaluates on the real code's outputs, and the
   guards by which it recognises the inputs of the quantifier. *)
Theorem C16_checkers_sound :
  (forall ml f a ip keep o1 o2, conv_check ml f a ip keep o1 o2 = true -> conv_ok ml f a ip keep o1 o2)
  /\ (forall ml o big little, predicates_check ml o big little = true -> predicates_ok ml o big little)
  /\ (forall din dparsed, stripped_check din dparsed = true -> stripped_ok din dparsed)
  /\ (forall d, valid_dtype_b d = true -> valid_dtype d)
  /\ (forall ml d, uniform_b ml d = true -> uniform ml d).
Proof.
  split; [intros *; apply conv_check_iff|]. split; [intros *; apply predicates_check_iff|].
  split; [intros *; apply stripped_check_iff|]. split; [intro d; apply valid_dtype_b_iff|intros ml d; apply uniform_b_iff].
Qed.

(* The loops of the unrepaired tree ("if not is_big_endian(array[fname])"): a field without byte
   order decides for a swap.  [('a','>i4'),('s','S3')] is already big-endian, yet the result
   declares '<' (likewise to_little_endian on '<i4'); with keep_dtype the values are destroyed. *)
Theorem C16_unrepaired_scan_refuted :
  valid_dtype (witness_dtype BE) /\ uniform true (witness_dtype BE)
  /\ ~ declares_requested true ToBig (adt witness_be) (adt (o_res (to_big_endian_unrepaired true witness_be false false)))
  /\ ~ declares_requested true ToLittle (adt witness_le) (adt (o_res (to_little_endian_unrepaired true witness_le false false)))
  /\ arr_values true (o_res (to_big_endian_unrepaired true witness_be false true)) <> arr_values true witness_be.
Proof.
  split; [apply valid_dtype_b_iff; reflexivity|].
  split; [apply uniform_b_iff; reflexivity|].
  split; [|split].
  - intro H. vm_compute in H. inversion H as [|? ? ? ? H1 _]; subst. vm_compute in H1. discriminate.
  - intro H. vm_compute in H. inversion H as [|? ? ? ? H1 _]; subst. vm_compute in H1. discriminate.
  - vm_compute. discriminate.
Qed.

(* ... and only such fields: without a '|' field the unrepaired loops decide like the repaired ones. *)
Theorem C16_unrepaired_agrees_without_NA_fields : forall ml fs sh data ip keep,
  (forall f, In f fs -> sord (fty f) <> NA) ->
  let a := {| adt := DStruct fs; ashape := sh; adata := data |} in
  to_big_endian_unrepaired ml a ip keep = to_big_endian ml a ip keep
  /\ to_little_endian_unrepaired ml a ip keep = to_little_endian ml a ip keep.
Proof.
  intros ml fs sh data ip keep H a.
  (* on a field that has an order, "not big" is "little" and "not little" is "big" *)
  assert (E : scan_notbig ml fs = scan_little ml fs /\ scan_notlittle ml fs = scan_big ml fs).
  { induction fs as [|g t IH]; [split; reflexivity|]. simpl.
    rewrite (little_not_big ml _ (H g (or_introl eq_refl))), negb_involutive.
    destruct IH as [-> ->]; [intros g' Hg; apply H; right; exact Hg|]. split; reflexivity. }
  unfold to_big_endian_unrepaired, to_little_endian_unrepaired, to_big_endian, to_little_endian. cbn [adt a].
  destruct E as [-> ->]. split; reflexivity.
Qed.

(* Non-vacuity: a structured array of the quantifier (string field, big-endian i2 sub-array field,
   complex field) meets the hypotheses and the conversions compute to concrete results. *)
Example C16_nonvacuous :
  valid_dtype ex_dtype /\ uniform true ex_dtype
  /\ arr_values true ex_arr = [[97; 98; 1; 2; 1065353216; 0]]%Z
  /\ adata (o_res (to_big_endian true ex_arr false false)) = adata ex_arr
  /\ adata (o_res (to_native true ex_arr false false)) = unhex "6162010002000000803f00000000"
  /\ orders (adt (o_res (to_native true ex_arr false false))) = [NA; LE; LE]
  /\ arr_values true (o_res (to_native true ex_arr false false)) = arr_values true ex_arr.
Proof.
  split; [apply valid_dtype_b_iff; reflexivity|].
  split; [apply uniform_b_iff; reflexivity|].
  repeat split; vm_compute; reflexivity.
Qed.

(* The source tie: the definitions regenerated from esutil/numpy_util.py and
   esutil/recfile/Util.py of the tree under check (Gen.v, rewritten on every run by
   harness/props/c16_translate.py) ARE the hand model the theorems above are about. *)
Theorem C16_source_tie :
  (forall ml o, nu_is_big_endian_g ml o = is_big_endian ml o)
  /\ (forall ml o, nu_is_little_endian_g ml o = is_little_endian ml o)
  /\ (forall ml o, ru_is_little_endian_g ml o = is_little_endian ml o)
  /\ (forall ml a ip k, nu_byteswap_g ml a ip k = byteswap ml a ip k)
  /\ (forall ml a ip k, nu_to_native_g ml a ip k = to_native ml a ip k)
  /\ (forall ml a ip k, nu_to_big_endian_g ml a ip k = to_big_endian ml a ip k)
  /\ (forall ml a ip k, nu_to_little_endian_g ml a ip k = to_little_endian ml a ip k)
  /\ (forall ml a, ru_to_native_inplace_g ml a = to_native_inplace ml a)
  /\ (forall ml a, ru_to_native_g ml a = rec_to_native ml a)
  /\ (forall d, nu_descr_to_native_g d = Some (descr_to_native d))
  /\ (forall d, ru_remove_dtype_byteorder_g d = Some (descr_to_native d))
  /\ nu_defaults = [(false, false); (false, false); (false, false); (false, false)].
Proof. exact source_tie. Qed.

(* hence the whole statement holds of the regenerated functions themselves *)
Theorem C16_statement_of_source : forall ml f a inplace keep,
  valid_dtype (adt a) -> uniform ml (adt a) ->
  let g := match f with
           | ToNative => nu_to_native_g | ToBig => nu_to_big_endian_g
           | ToLittle => nu_to_little_endian_g | Swap => nu_byteswap_g
           end in
  conv_ok ml f a inplace keep (g ml a inplace keep) (g ml (o_res (g ml a inplace keep)) inplace keep).
Proof. exact statement_of_source. Qed.

(* the regenerated scan of the as-found tree is the unrepaired model refuted above; a view in place of
   the assignment to .dtype returns a new object and leaves the caller's array mislabelled *)
Theorem C16_source_asfound_scan : forall ml a ip k,
  asfound_to_big_endian_g ml a ip k = to_big_endian_unrepaired ml a ip k.
Proof. exact asfound_scan_is_unrepaired. Qed.

Theorem C16_source_view_refuted : forall a,
  let o := prim_view (dt_newbyteorder NbSwap true) (prim_byteswap a true) in
  o_same o = false /\ adt (o_inp o) = adt a.
Proof. exact view_instead_of_setdtype_refuted. Qed.

(* recfile.Util.to_native (after fix 7fcb8b2) on EVERY valid array, fields of different orders
   included: values, native declared order, structure, argument untouched, the array itself exactly
   when it was native already *)
Theorem C16_rec_to_native_any_order : forall ml a,
  valid_dtype (adt a) -> rec_native_ok ml a (rec_to_native ml a).
Proof. exact rec_to_native_correct. Qed.

Theorem C16_rec_to_native_idempotent : forall ml a, valid_dtype (adt a) ->
  let r := o_res (rec_to_native ml a) in
  o_same (rec_to_native ml r) = true /\ o_res (rec_to_native ml r) = r.
Proof.
  intros ml a V r. pose proof (rn_native _ _ _ (rec_to_native_correct ml a V)) as Hn. fold r in Hn.
  unfold rec_to_native at 1 2. cbv zeta. rewrite equiv_native, Hn. split; reflexivity.
Qed.

(* astype between two layouts of the same geometry converts every field on its own *)
Theorem C16_astype_fieldwise_values : forall ml ly ly' data,
  Forall2 same_geom ly ly' -> Forall seg_valid ly -> Forall seg_valid ly' -> (1 <= rowsize (geom ly))%nat ->
  values_as ml ly' (swap_data (cast_geom ml ly ly') data) = values_as ml ly data.
Proof. exact values_as_cast. Qed.

(* one decision for the whole record cannot convert a table whose fields differ in order *)
Theorem C16_mixed_order_needs_fieldwise :
  valid_dtype (adt mixed_witness) /\ ~ uniform true (adt mixed_witness)
  /\ arr_values true mixed_witness = [[1; 2]]%Z
  /\ adata (o_res (rec_to_native true mixed_witness)) = unhex "01000200"
  /\ all_native true (adt (to_native_inplace true mixed_witness)) = false
  /\ all_native true (adt (o_res (byteswap true mixed_witness false false))) = false.
Proof.
  split; [|split; [|repeat split; vm_compute; reflexivity]].
  - apply valid_dtype_b_iff. vm_compute. reflexivity.
  - intro U. specialize (U (seg_of {| skind := KInt; ssize := 2; sord := LE |} 1)
                           (seg_of {| skind := KInt; ssize := 2; sord := BE |} 1) false true).
    assert (false = true); [|discriminate]. apply U; simpl; auto.
Qed.

(* the four numpy_util functions on ANY valid array (no premise on the orders): values under the
   updated dtype, structure, argument untouched with inplace off *)
Theorem C16_values_any_order : forall ml f a ip, valid_dtype (adt a) ->
  arr_values ml (o_res (apply f ml a ip false)) = arr_values ml a
  /\ same_structure (adt (o_res (apply f ml a ip false))) (adt a)
  /\ (ip = false -> o_inp (apply f ml a ip false) = a).
Proof.
  intros ml f a ip V. rewrite apply_doswap. destruct (doswap f ml (adt a)).
  - split; [apply byteswap_values; exact V|]. split; [apply erase_newbo|]. intros ->. reflexivity.
  - split; [reflexivity|]. split; [reflexivity|]. intros _. reflexivity.
Qed.

(* non-contiguous input: the call on a view of a larger buffer is the modelled conversion of the
   view's elements; elements outside the view are untouched; with inplace on the view shows the rows
   of the returned array, with inplace off the buffer is untouched *)
Theorem C16_view_conversion : forall f ml d sh base idx ip keep,
  valid_dtype d -> NoDup idx -> (forall i, In i idx -> (i < List.length base)%nat) ->
  (forall r, In r base -> List.length r = rowsize (geom (layout d))) ->
  let o := fst (apply_view f ml d sh base idx ip keep) in
  let base' := snd (apply_view f ml d sh base idx ip keep) in
  o = apply f ml (view_arr d sh base idx) ip keep
  /\ List.length base' = List.length base
  /\ (forall j, ~ In j idx -> nth j base' [] = nth j base [])
  /\ (ip = true -> gather [] idx base' = rows_of d (adata (o_res o)))
  /\ (ip = false -> base' = base).
Proof. exact view_correct. Qed.

Theorem C16_gather_scatter : forall (d : list byte) idx, NoDup idx -> forall rows base,
  (forall i, In i idx -> (i < List.length base)%nat) -> List.length rows = List.length idx ->
  gather d idx (scatter idx rows base) = rows.
Proof. exact (@gather_scatter (list byte)). Qed.

(* nested structured dtypes: the scan sees the top level only *)
Theorem C16_nested_top_level_scan : forall f ml top fs sh data ip keep,
  let a := {| adt := DStruct fs; ashape := sh; adata := data |} in
  (apply_top f ml (top_of fs) a ip keep = apply f ml a ip keep)
  /\ (doswap_top f ml top = leaf_decision f ml a -> apply_top f ml top a ip keep = apply f ml a ip keep).
Proof. intros f ml top fs sh data ip keep a. split; [apply apply_top_flat|apply apply_top_faithful]. Qed.

Theorem C16_nested_hidden_order_refuted :
  valid_dtype (adt nested_witness) /\ uniform true (adt nested_witness)
  /\ doswap_top ToBig true [NA] <> leaf_decision ToBig true nested_witness
  /\ ~ declares_requested true ToBig (adt nested_witness) (adt (o_res (apply_top ToBig true [NA] nested_witness false false))).
Proof.
  split; [apply valid_dtype_b_iff; vm_compute; reflexivity|].
  split; [apply uniform_b_iff; vm_compute; reflexivity|].
  split; [vm_compute; discriminate|].
  intro H. vm_compute in H. inversion H as [|? ? ? ? H1 _]; subst. vm_compute in H1. discriminate.
Qed.

Theorem C16_nested_only_not_idempotent :
  let o1 := apply_top ToNative true [NA] nested_witness_be false false in
  let o2 := apply_top ToNative true [NA] (o_res o1) false false in
  orders (adt (o_res o1)) = [LE] /\ o_res o2 <> o_res o1 /\ adata (o_res o2) = adata nested_witness_be.
Proof. split; [vm_compute; reflexivity|]. split; [vm_compute; discriminate|vm_compute; reflexivity]. Qed.

(* soundness of the checkers of recfile's to_native and of the view entry *)
Theorem C16_ext_checkers_sound :
  (forall ml a o, rec_native_check ml a o = true -> rec_native_ok ml a o)
  /\ (forall ml a o, rec_native_check_core ml a o = true ->
        arr_values ml (o_res o) = arr_values ml a /\ all_native ml (adt (o_res o)) = true
        /\ (same_structure (adt (o_res o)) (adt a) /\ ashape (o_res o) = ashape a) /\ o_inp o = a)
  /\ (forall d base idx, view_wf_b d base idx = true ->
        valid_dtype d /\ NoDup idx /\ (forall i, In i idx -> (i < List.length base)%nat)
        /\ (forall r, In r base -> List.length r = rowsize (geom (layout d))))
  /\ (forall d base idx ip o1 base1, view_check d base idx ip o1 base1 = true ->
        (ip = true -> gather [] idx base1 = rows_of d (adata (o_res o1))) /\ (ip = false -> base1 = base))
  /\ (forall ml d, all_native ml d = true -> uniform ml d).
Proof.
  split; [intros *; apply rec_native_check_iff|]. split; [intros *; apply rec_native_check_core_iff|].
  split; [exact view_wf_b_sound|]. split; [intros *; apply view_check_iff|].
  intros ml d. exact (all_order_uniform ml (negb ml) d).
Qed.

(* a 0-d big-endian complex array converted in place *)
Example C16_zero_d_complex :
  let a := {| adt := DPlain {| skind := KComplex; ssize := 8; sord := BE |}; ashape := []; adata := unhex "3f80000040000000" |} in
  adata (o_res (to_native true a true false)) = unhex "0000803f00000040"
  /\ ashape (o_res (to_native true a true false)) = []
  /\ arr_values true (o_res (to_native true a true false)) = arr_values true a.
Proof. repeat split; vm_compute; reflexivity. Qed.

(* Frame.  inplace off (all four functions, keep_dtype either way) and recfile's to_native: the argument keeps
   its bytes, dtype and shape and the result is another object sharing nothing -- for ANY array, no premise;
   inplace on: shape, field structure and buffer length are kept (only order letters / byte order inside items change) *)
Theorem C16_frame :
  (forall ml f a keep, let o := apply f ml a false keep in o_inp o = a /\ o_same o = false /\ o_shares o = false)
  /\ (forall ml a, o_inp (rec_to_native ml a) = a)
  /\ (forall ml f a keep, valid_dtype (adt a) ->
        let r := o_inp (apply f ml a true keep) in
        ashape r = ashape a /\ same_structure (adt r) (adt a) /\ List.length (adata r) = List.length (adata a)).
Proof.
  split; [|split].
  - intros ml f a keep o. destruct (copy_independent ml f a false keep eq_refl) as (H1 & H2 & H3). auto.
  - exact rec_input_untouched.
  - intros ml f a keep V r. unfold r. rewrite (proj2 (inplace_same_object ml f a true keep eq_refl)).
    destruct (structure_preserved ml f a true keep) as [S1 S2].
    split; [exact S2|]. split; [exact S1|]. apply res_data_length. exact V.
Qed.

(* The premise "all multi-byte fields share one order" is NECESSARY: to_native / to_big_endian / to_little_endian
   reach the requested order on a valid array if and only if the array is uniformly ordered *)
Theorem C16_reaches_requested_iff_uniform : forall ml f a ip, valid_dtype (adt a) -> f <> Swap ->
  (all_order_b ml (target ml f) (adt (o_res (apply f ml a ip false))) = true <-> uniform ml (adt a)).
Proof. exact reaches_iff_uniform. Qed.

(* Nested records, the statement itself: leaves share one order and some plain top-level field has a byte order
   (or no leaf has one) => the real scan, which sees the top level only, meets the whole statement at both calls *)
Theorem C16_nested_statement : forall ml f t sh data ip keep,
  let a := {| adt := DStruct (flatten1 t); ashape := sh; adata := data |} in
  valid_dtype (adt a) -> uniform ml (adt a) -> nested_ok t = true ->
  let o1 := apply_top f ml (top1 t) a ip keep in
  conv_ok ml f a ip keep o1 (apply_top f ml (top_after f ml (top1 t) keep) (o_res o1) ip keep).
Proof.
  intros ml f t sh data ip keep a V U OK o1.
  exact (proj2 (proj2 (faithful_statement ml f (top1 t) (flatten1 t) sh data ip keep V U (nested_ok_faithful ml t OK)))).
Qed.

(* ... for any scan list that represents the leaves; the representation survives the relabelling *)
Theorem C16_faithful_scan_statement : forall ml f top fs sh data ip keep,
  let a := {| adt := DStruct fs; ashape := sh; adata := data |} in
  valid_dtype (adt a) -> uniform ml (adt a) -> faithful ml top (adt a) ->
  let o1 := apply_top f ml top a ip keep in
  o1 = apply f ml a ip keep
  /\ apply_top f ml (top_after f ml top keep) (o_res o1) ip keep = apply f ml (o_res o1) ip keep
  /\ conv_ok ml f a ip keep o1 (apply_top f ml (top_after f ml top keep) (o_res o1) ip keep).
Proof. exact faithful_statement. Qed.

Theorem C16_nested_ok_is_faithful : forall ml t, nested_ok t = true -> faithful ml (top1 t) (DStruct (flatten1 t)).
Proof. exact nested_ok_faithful. Qed.

Example C16_nested_nonvacuous :
  nested_ok nest_example = true
  /\ top1 nest_example = [NA; BE]
  /\ map fname (flatten1 nest_example) = ["pos.x"; "pos.tag"; "pos.x"; "pos.tag"; "id"]%string
  /\ valid_dtype (DStruct (flatten1 nest_example)) /\ uniform true (DStruct (flatten1 nest_example))
  /\ adata (o_res (apply_top ToNative true (top1 nest_example)
                     {| adt := DStruct (flatten1 nest_example); ashape := []; adata := unhex "3f800000614000000062000a" |}
                     false false)) = unhex "0000803f6100000040620a00".
Proof.
  split; [reflexivity|]. split; [reflexivity|]. split; [reflexivity|].
  split; [apply valid_dtype_b_iff; vm_compute; reflexivity|].
  split; [apply uniform_b_iff; vm_compute; reflexivity|vm_compute; reflexivity].
Qed.

(* History.  The process as a heap of array objects: a call's answer and the new state of its object are a
   function of that object's state alone (whatever else the process holds, whatever happened before); other
   objects are untouched; inplace-off calls leave the whole heap as it was; calls on different objects commute *)
Theorem C16_history_independent :
  (forall ml h h' c, nth_error h (obj_of c) = nth_error h' (obj_of c) ->
     snd (step ml h c) = snd (step ml h' c)
     /\ nth_error (fst (step ml h c)) (obj_of c) = nth_error (fst (step ml h' c)) (obj_of c))
  /\ (forall ml h c a, nth_error h (obj_of c) = Some a ->
     snd (step ml h c) = snd (act ml c a) /\ nth_error (fst (step ml h c)) (obj_of c) = Some (fst (act ml c a)))
  /\ (forall ml h c j, j <> obj_of c -> nth_error (fst (step ml h c)) j = nth_error h j)
  /\ (forall ml h c, match c with CConv _ _ false _ => True | CRecNative _ => True | _ => False end ->
     fst (step ml h c) = h)
  /\ (forall ml h c1 c2, obj_of c1 <> obj_of c2 ->
     snd (step ml (fst (step ml h c1)) c2) = snd (step ml h c2)
     /\ snd (step ml (fst (step ml h c2)) c1) = snd (step ml h c1)).
Proof. exact history_independent. Qed.

Example C16_history_nonvacuous :
  map (fun a => match a with AConv o _ => adata (o_res o) | _ => [] end)
      (run true heap_example [CConv ToNative 0 true false; CConv ToNative 1 false false; CConv ToBig 0 true false])
  = [unhex "0100"; unhex "003c"; unhex "0001"].
Proof. vm_compute. reflexivity. Qed.

(* The checkers accept EXACTLY the property (with C16_checkers_sound: also complete, so the check can raise no
   false alarm on the clauses of the statement) *)
Theorem C16_checkers_exact :
  (forall ml f a ip keep o1 o2, conv_check ml f a ip keep o1 o2 = true <-> conv_ok ml f a ip keep o1 o2)
  /\ (forall ml o big little, predicates_check ml o big little = true <-> predicates_ok ml o big little).
Proof. split; intros; [apply conv_check_iff|apply predicates_check_iff]. Qed.

Theorem C16_heap_answers_sound : forall x y, answer_eqb x y = true -> x = y.
Proof.
  intros x y. destruct x, y; simpl; try discriminate; try reflexivity;
    rewrite andb_true_iff, ?outcome_eqb_eq, ?arr_eqb_eq; intros [-> ->]; reflexivity.
Qed.

(* Tie of the swap decisions and of the nested-record model: the regenerated decision of every converter (the lets of
   its body up to the `if` that binds the returned array, then its test) is the model's [doswap]; the hand model for
   nested records [apply_top] is assembled from regenerated parts only (the regenerated decision run on a record whose
   fields carry the top-level orders, the regenerated byteswap, the no-swap branch) *)
Theorem C16_source_tie_decisions :
  (forall f ml a ip k, swaps_g f ml a ip k = doswap f ml (adt a))
  /\ (forall ml a, ru_to_native_inplace_swaps_g ml a = doswap ToNative ml (adt a))
  /\ (forall f ml top a ip k,
        apply_top f ml top a ip k
        = if swaps_g f ml (pseudo top) ip k then nu_byteswap_g ml a ip k else (if ip then prim_self a else prim_copy a)).
Proof. exact source_tie_decisions. Qed.

(* The GUARDS by which a run recognises the inputs of the quantifier, and the remaining checkers, are exact
   (completeness means: the property check is demanded on EVERY valid, uniformly ordered input and can raise no
   false alarm) *)
Theorem C16_guards_exact :
  (forall d, valid_dtype_b d = true <-> valid_dtype d)
  /\ (forall ml d, uniform_b ml d = true <-> uniform ml d)
  /\ (forall din dparsed, stripped_check din dparsed = true <-> stripped_ok din dparsed)
  /\ (forall ml a o, rec_native_check_core ml a o = true <->
        arr_values ml (o_res o) = arr_values ml a /\ all_native ml (adt (o_res o)) = true
        /\ (same_structure (adt (o_res o)) (adt a) /\ ashape (o_res o) = ashape a) /\ o_inp o = a)
  /\ (forall d base idx ip o1 base1, view_check d base idx ip o1 base1 = true <->
        (ip = true -> gather [] idx base1 = rows_of d (adata (o_res o1))) /\ (ip = false -> base1 = base)).
Proof.
  split; [exact valid_dtype_b_iff|]. split; [exact uniform_b_iff|]. split; [exact stripped_check_iff|].
  split; [exact rec_native_check_core_iff|exact view_check_iff].
Qed.
