(* C16 — proofs about the model extension Ext.v: recfile.Util.to_native on arrays whose fields
   have DIFFERENT byte orders, conversions through non-contiguous views, nested dtypes. *)
From Coq Require Import Arith String.
From Coq.Strings Require Import Byte.
From EsVerif.Common Require Import Base Bytes.
From EsVerif.C16 Require Import Model Spec Ext Proofs.
Local Open Scope nat_scope.
Local Open Scope list_scope.

Lemma geom_map_orders h d : geom (layout (map_orders h d)) = geom (layout d).
Proof. rewrite layout_map_orders. unfold geom. rewrite map_map. reflexivity. Qed.

Lemma newbo_native_NA ml o : newbo_order NbNative ml o = NA <-> o = NA.
Proof. destruct o; simpl; split; congruence. Qed.

(* astype: every field is converted on its own *)
Lemma cast_geom_ok ml ly : Forall seg_valid ly -> forall ly', geom_ok (cast_geom ml ly ly').
Proof.
  induction 1 as [|s t (H1 & H2 & H3) Ht IH]; intros [|s' t']; unfold cast_geom; simpl; try constructor.
  - simpl. destruct (order_equiv ml (so s) (so s')); lia.
  - apply IH.
Qed.

Definition same_geom (s s' : seg) : Prop := slen s' = slen s /\ sc s' = sc s.

Lemma rowsize_cast ml ly ly' : Forall2 same_geom ly ly' -> rowsize (cast_geom ml ly ly') = rowsize (geom ly).
Proof.
  induction 1 as [|s s' t t' _ _ IH]; [reflexivity|]. unfold cast_geom in *. simpl. rewrite IH. reflexivity.
Qed.
Lemma rowsize_same_geom ly ly' : Forall2 same_geom ly ly' -> rowsize (geom ly') = rowsize (geom ly).
Proof. induction 1 as [|s s' t t' (E & _) _ IH]; simpl; [reflexivity|]. rewrite E, IH. reflexivity. Qed.

Lemma equiv_same_big ml s s' : order_equiv ml (so s) (so s') = true -> seg_big ml s' = seg_big ml s.
Proof.
  unfold order_equiv, seg_big. destruct (endian_of ml (so s)) as [b|], (endian_of ml (so s')) as [b'|]; try discriminate.
  - intro E. apply Bool.eqb_prop in E. subst. reflexivity.
  - reflexivity.
Qed.
Lemma nonequiv_flipped ml s s' : seg_valid s -> seg_valid s' -> sc s' = sc s ->
  order_equiv ml (so s) (so s') = false -> sc s = 1 \/ seg_big ml s' = negb (seg_big ml s).
Proof.
  intros (_ & _ & V) (_ & _ & V') Ec. unfold order_equiv, seg_big.
  destruct (endian_of ml (so s)) as [b|] eqn:E, (endian_of ml (so s')) as [b'|] eqn:E'; intro H; try discriminate.
  - right. destruct b, b'; try discriminate; reflexivity.
  - left. apply endian_none in E'. rewrite <- Ec. apply V'. exact E'.
  - left. apply endian_none in E. apply V. exact E.
Qed.

Lemma row_values_cast ml ly ly' :
  Forall2 same_geom ly ly' -> Forall seg_valid ly -> Forall seg_valid ly' ->
  forall row, row_values ml ly' (swap_row (cast_geom ml ly ly') row) = row_values ml ly row.
Proof.
  induction 1 as [|s s' t t' (E1 & E2) HR IH]; intros Hv Hv' row; [reflexivity|].
  inversion Hv as [|? ? Vs Vt]; subst. inversion Hv' as [|? ? Vs' Vt']; subst.
  assert (Hc : 1 <= sc s) by (destruct Vs as (_ & H & _); exact H).
  change (cast_geom ml (s :: t) (s' :: t'))
    with ((slen s, if order_equiv ml (so s) (so s') then 1 else sc s) :: cast_geom ml t t').
  cbn [row_values swap_row]. rewrite E1, E2.
  set (c := if order_equiv ml (so s) (so s') then 1 else sc s).
  assert (Hc' : 1 <= c) by (unfold c; destruct (order_equiv ml (so s) (so s')); lia).
  destruct (swap_row_split (slen s) c (cast_geom ml t t') row Hc' (cast_geom_ok ml t Vt t')) as [F1 F2].
  cbv zeta in F1, F2. rewrite F1, F2. f_equal; [|apply (IH Vt Vt')].
  unfold c. destruct (order_equiv ml (so s) (so s')) eqn:Eq.
  - rewrite map_chunks_1_rev. apply (seg_values false); auto. right. rewrite xorb_false_l. apply equiv_same_big. exact Eq.
  - apply (seg_values true); auto. rewrite xorb_true_l. apply nonequiv_flipped; auto.
Qed.

Lemma values_as_cast ml ly ly' data :
  Forall2 same_geom ly ly' -> Forall seg_valid ly -> Forall seg_valid ly' -> 1 <= rowsize (geom ly) ->
  values_as ml ly' (swap_data (cast_geom ml ly ly') data) = values_as ml ly data.
Proof.
  intros HR Hv Hv' Hr. unfold values_as. rewrite (rowsize_same_geom _ _ HR).
  rewrite <- (rowsize_cast ml ly ly' HR).
  rewrite chunks_swap_data by (auto using cast_geom_ok; rewrite rowsize_cast; auto).
  rewrite map_map. apply map_ext. intro row. apply row_values_cast; auto.
Qed.

Lemma same_geom_reseg h ly : Forall2 same_geom ly (map (reseg h) ly).
Proof. apply Forall2_map_r. intros s _. split; reflexivity. Qed.

Lemma native_pointwise ml o :
  order_equiv ml (newbo_order NbNative ml o) o
  = match endian_of ml o with Some b => Bool.eqb b (negb ml) | None => true end.
Proof. destruct ml, o; reflexivity. Qed.

Lemma forall2b_native ml ly :
  forall2b (order_equiv ml) (map (fun s => newbo_order NbNative ml (so s)) ly) (map so ly) = forallb (seg_native ml) ly.
Proof.
  induction ly as [|s t IH]; [reflexivity|]. cbn [map forall2b forallb]. rewrite IH, native_pointwise. reflexivity.
Qed.

Lemma dtype_eqb_refl d : dtype_eqb d d = true.
Proof. apply dtype_eqb_eq. reflexivity. Qed.

Lemma equiv_native ml d : dtype_equiv ml (dt_newbyteorder NbNative ml d) d = all_native ml d.
Proof.
  unfold dtype_equiv, dt_newbyteorder, all_native. rewrite erase_map_orders, dtype_eqb_refl, orders_map_orders.
  unfold orders. rewrite map_map. cbn [andb]. apply forall2b_native.
Qed.

Lemma native_after ml d : all_native ml (dt_newbyteorder NbNative ml d) = true.
Proof.
  unfold all_native, dt_newbyteorder. rewrite layout_map_orders, forallb_forall. intros s' Hs'.
  apply in_map_iff in Hs' as (s & <- & _). unfold seg_native, reseg. cbn [so].
  destruct ml, (so s); reflexivity.
Qed.

Theorem rec_to_native_correct ml a : valid_dtype (adt a) -> rec_native_ok ml a (rec_to_native ml a).
Proof.
  intro V. unfold rec_to_native. cbv zeta. rewrite equiv_native.
  destruct (all_native ml (adt a)) eqn:En.
  - (* native already: the array itself *)
    constructor; cbn [prim_self o_res o_same o_shares o_inp].
    + reflexivity.
    + exact En.
    + split; reflexivity.
    + reflexivity.
    + symmetry. exact En.
    + discriminate.
  - (* astype to the native relabelling: a fresh array *)
    assert (Vn : valid_dtype (dt_newbyteorder NbNative ml (adt a)))
      by (apply valid_map_orders; [intro; apply newbo_native_NA|exact V]).
    constructor; cbn [prim_astype o_res o_same o_shares o_inp adt ashape adata].
    + unfold arr_values. cbn [adt adata]. unfold dt_newbyteorder. rewrite layout_map_orders.
      apply values_as_cast; auto using same_geom_reseg, valid_rowsize; [apply V|].
      rewrite <- layout_map_orders. apply Vn.
    + apply native_after.
    + split; [|reflexivity]. unfold same_structure, dt_newbyteorder. apply erase_map_orders.
    + reflexivity.
    + symmetry. exact En.
    + reflexivity.
Qed.

Lemma rec_native_check_core_iff ml a o : rec_native_check_core ml a o = true <->
  arr_values ml (o_res o) = arr_values ml a /\ all_native ml (adt (o_res o)) = true
  /\ (same_structure (adt (o_res o)) (adt a) /\ ashape (o_res o) = ashape a) /\ o_inp o = a.
Proof.
  unfold rec_native_check_core, same_structure. eapply iff_trans.
  { apply andb_iff; [apply andb_iff; [apply andb_iff; [apply andb_iff|]|]|];
      [apply values_eqb_eq|apply iff_refl|apply dtype_eqb_eq|apply natlist_eqb_eq|apply arr_eqb_eq]. }
  tauto.
Qed.

Lemma rec_native_check_iff ml a o : rec_native_check ml a o = true <-> rec_native_ok ml a o.
Proof.
  unfold rec_native_check. rewrite !andb_true_iff, rec_native_check_core_iff, Bool.eqb_true_iff. split.
  - intros (((H1 & H2 & H3 & H4) & H5) & H6). constructor; auto.
    intro E. rewrite E in H6. destruct (o_shares o); [discriminate|reflexivity].
  - intros [H1 H2 H3 H4 H5 H6]. split; [split; [tauto|exact H5]|].
    destruct (o_same o); [reflexivity|]. rewrite (H6 eq_refl). reflexivity.
Qed.

(* [('a','<i2'),('b','>i2')], one row (1, 2): no single swap-or-not decision converts it
   (Properties.C16_mixed_order_needs_fieldwise) *)
Definition mixed_witness : arr :=
  {| adt := DStruct [ {| fname := "a"; fty := {| skind := KInt; ssize := 2; sord := LE |}; fsub := [] |};
                      {| fname := "b"; fty := {| skind := KInt; ssize := 2; sord := BE |}; fsub := [] |} ];
     ashape := [1]; adata := unhex "01000002" |}.

Lemma scatter_length {A} idx : forall (rows base : list A), List.length (scatter idx rows base) = List.length base.
Proof.
  induction idx as [|i it IH]; intros [|r rt] base; cbn [scatter]; auto. rewrite IH. apply set_nth_length.
Qed.

Lemma scatter_frame {A} (d : A) j idx : ~ In j idx -> forall rows base, nth j (scatter idx rows base) d = nth j base d.
Proof.
  induction idx as [|i it IH]; intros Hj [|r rt] base; cbn [scatter]; auto.
  rewrite IH by (intro H; apply Hj; right; exact H).
  apply nth_set_nth_neq. intro E. apply Hj. left. exact E.
Qed.

Lemma gather_scatter {A} (d : A) idx : NoDup idx -> forall rows base,
  (forall i, In i idx -> i < List.length base) -> List.length rows = List.length idx ->
  gather d idx (scatter idx rows base) = rows.
Proof.
  induction 1 as [|i it Hi Hnd IH]; intros [|r rt] base Hb Hl; try discriminate; [reflexivity|].
  cbn [scatter gather map]. f_equal.
  - rewrite (scatter_frame d i it Hi). apply nth_set_nth_eq. apply Hb. left. reflexivity.
  - apply IH.
    + intros k Hk. rewrite set_nth_length. apply Hb. right. exact Hk.
    + simpl in Hl. lia.
Qed.

Lemma chunks_concat n rows : 1 <= n -> Forall (fun r => List.length r = n) rows -> chunks n (concat rows) = rows.
Proof.
  intros Hn. induction 1 as [|r t Hr Ht IH]; [apply chunks_nil|].
  cbn [concat]. rewrite chunks_app_full by auto. rewrite IH. reflexivity.
Qed.

Lemma gather_rows n (base : list (list byte)) idx :
  (forall i, In i idx -> i < List.length base) -> (forall r, In r base -> List.length r = n) ->
  Forall (fun r => List.length r = n) (gather [] idx base).
Proof.
  intros Hb Hr. apply Forall_forall. intros r Hin. apply in_map_iff in Hin as (i & <- & Hi).
  apply Hr. apply nth_In. apply Hb. exact Hi.
Qed.

Lemma view_rows d sh base idx : valid_dtype d ->
  (forall i, In i idx -> i < List.length base) -> (forall r, In r base -> List.length r = rowsize (geom (layout d))) ->
  rows_of d (adata (view_arr d sh base idx)) = gather [] idx base.
Proof.
  intros V Hb Hr. unfold rows_of, view_arr. cbn [adata]. apply chunks_concat; [apply valid_rowsize; exact V|].
  apply gather_rows; auto.
Qed.

Lemma view_result_rows f ml d sh base idx ip keep : valid_dtype d ->
  (forall i, In i idx -> i < List.length base) -> (forall r, In r base -> List.length r = rowsize (geom (layout d))) ->
  List.length (rows_of d (adata (o_res (apply f ml (view_arr d sh base idx) ip keep)))) = List.length idx.
Proof.
  intros V Hb Hr. rewrite apply_doswap.
  destruct (doswap f ml (adt (view_arr d sh base idx))); cbn [byteswap noswap o_res adata].
  - unfold rows_of. change (adt (view_arr d sh base idx)) with d.
    rewrite chunks_swap_data by auto using valid_geom_ok, valid_rowsize.
    rewrite map_length. fold (rows_of d (adata (view_arr d sh base idx))). rewrite view_rows by auto. apply map_length.
  - rewrite view_rows by auto. apply map_length.
Qed.

(* the call is the modelled conversion of the view's elements (so every C16 theorem applies to it);
   the owning buffer keeps its size; elements outside the view are untouched; with inplace on the
   view shows exactly the rows of the returned array; with inplace off the buffer is untouched *)
Theorem view_correct f ml d sh base idx ip keep :
  valid_dtype d -> NoDup idx -> (forall i, In i idx -> i < List.length base) ->
  (forall r, In r base -> List.length r = rowsize (geom (layout d))) ->
  let o := fst (apply_view f ml d sh base idx ip keep) in
  let base' := snd (apply_view f ml d sh base idx ip keep) in
  o = apply f ml (view_arr d sh base idx) ip keep
  /\ List.length base' = List.length base
  /\ (forall j, ~ In j idx -> nth j base' [] = nth j base [])
  /\ (ip = true -> gather [] idx base' = rows_of d (adata (o_res o)))
  /\ (ip = false -> base' = base).
Proof.
  intros V ND Hb Hr. unfold apply_view. cbv zeta. cbn [fst snd].
  split; [reflexivity|]. destruct ip.
  - rewrite (proj2 (inplace_same_object ml f (view_arr d sh base idx) true keep eq_refl)).
    split; [apply scatter_length|]. split; [intros j Hj; apply scatter_frame; exact Hj|].
    split; [|discriminate]. intros _. apply gather_scatter; auto. apply view_result_rows; auto.
  - split; [reflexivity|]. split; [reflexivity|]. split; [discriminate|reflexivity].
Qed.

(* boolean guards of the view entry *)
Lemma nodup_b_sound l : nodup_b l = true -> NoDup l.
Proof.
  induction l as [|x t IH]; simpl; intro H; constructor.
  - apply andb_true_iff in H as [H _]. intro Hin. apply negb_true_iff in H.
    rewrite (proj2 (existsb_exists _ _)) in H; [discriminate|]. exists x. split; [exact Hin|apply Nat.eqb_refl].
  - apply IH. apply andb_true_iff in H as [_ H]. exact H.
Qed.

Lemma view_wf_b_sound d (base : list (list byte)) idx : view_wf_b d base idx = true ->
  valid_dtype d /\ NoDup idx /\ (forall i, In i idx -> i < List.length base)
  /\ (forall r, In r base -> List.length r = rowsize (geom (layout d))).
Proof.
  unfold view_wf_b. rewrite !andb_true_iff. intros (((H1 & H2) & H3) & H4).
  split; [apply valid_dtype_b_iff; exact H1|]. split; [apply nodup_b_sound; exact H2|]. split.
  - intros i Hi. rewrite forallb_forall in H3. apply Nat.ltb_lt. apply H3. exact Hi.
  - intros r Hin. rewrite forallb_forall in H4. apply Nat.eqb_eq. apply H4. exact Hin.
Qed.

Lemma view_check_iff d base idx ip o1 base1 : view_check d base idx ip o1 base1 = true <->
  (ip = true -> gather [] idx base1 = rows_of d (adata (o_res o1))) /\ (ip = false -> base1 = base).
Proof.
  unfold view_check. destruct ip; rewrite (list_eqb_spec bytes_eqb bytes_eqb_eq); intuition discriminate.
Qed.

(* nested: when the top level decides as the leaves would, the call is the modelled conversion of the
   leaf structure, hence meets the whole statement *)
Theorem apply_top_faithful f ml top fs sh data ip keep :
  let a := {| adt := DStruct fs; ashape := sh; adata := data |} in
  doswap_top f ml top = leaf_decision f ml a ->
  apply_top f ml top a ip keep = apply f ml a ip keep.
Proof.
  intros a H. unfold apply_top. rewrite H. unfold leaf_decision. cbn [adt a].
  rewrite apply_doswap, doswap_top_flat. reflexivity.
Qed.

(* on a structure without nesting the top level IS the list of fields: same function *)
Theorem apply_top_flat f ml fs sh data ip keep :
  let a := {| adt := DStruct fs; ashape := sh; adata := data |} in
  apply_top f ml (top_of fs) a ip keep = apply f ml a ip keep.
Proof. apply apply_top_faithful. reflexivity. Qed.

(* [('n', [('x', '<i4')])]: the nested field hides the only ordered leaf, the scan sees '|'
   (Properties.C16_nested_hidden_order_refuted) *)
Definition nested_witness : arr :=
  {| adt := DStruct [ {| fname := "n.x"; fty := {| skind := KInt; ssize := 4; sord := LE |}; fsub := [] |} ];
     ashape := [1]; adata := unhex "01000000" |}.

(* [('n', [('x', '>i4')])]: only nested fields, the scan sees no ordered field
   (Properties.C16_nested_only_not_idempotent) *)
Definition nested_witness_be : arr :=
  {| adt := DStruct [ {| fname := "n.x"; fty := {| skind := KInt; ssize := 4; sord := BE |}; fsub := [] |} ];
     ashape := [1]; adata := unhex "00000001" |}.
