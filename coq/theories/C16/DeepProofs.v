(* C16 — what a call must not change; the uniform-order premise is necessary; nested records whose scan
   list represents their leaves; the process as a heap of array objects. *)
From Coq Require Import String.
From Coq.Strings Require Import Byte.
From EsVerif.Common Require Import Base Bytes.
From EsVerif.C16 Require Import Model Spec Ext Deep Proofs ExtProofs.
Local Open Scope nat_scope.
Local Open Scope list_scope.

Lemma rec_input_untouched ml a : o_inp (rec_to_native ml a) = a.
Proof. unfold rec_to_native. cbv zeta. destruct (dtype_equiv _ _ _); reflexivity. Qed.

Lemma res_data_length ml f a ip keep : valid_dtype (adt a) ->
  List.length (adata (o_res (apply f ml a ip keep))) = List.length (adata a).
Proof.
  intro V. rewrite apply_doswap. destruct (doswap f ml (adt a)); cbn [byteswap noswap o_res adata]; [|reflexivity].
  apply swap_data_length; auto using valid_geom_ok, valid_rowsize.
Qed.

(* the converters reach the requested order EXACTLY on the uniformly ordered arrays (the premise of the
   statement is necessary, not only sufficient) *)
(* all ordered fields in ONE order; [all_native] is the case w = negb ml *)
Lemma all_order_uniform ml w d : all_order_b ml w d = true -> uniform ml d.
Proof.
  unfold all_order_b. rewrite forallb_forall. intros H s1 s2 b1 b2 H1 H2 E1 E2.
  pose proof (H s1 H1) as N1. pose proof (H s2 H2) as N2.
  rewrite E1 in N1. rewrite E2 in N2. apply Bool.eqb_prop in N1. apply Bool.eqb_prop in N2. congruence.
Qed.

Lemma reaches_iff_uniform ml f a ip : valid_dtype (adt a) -> f <> Swap ->
  (all_order_b ml (target ml f) (adt (o_res (apply f ml a ip false))) = true <-> uniform ml (adt a)).
Proof.
  intros V Hf. split.
  - intro H. apply all_order_uniform in H. rewrite res_dtype in H.
    destruct (doswap f ml (adt a) && negb false); [apply uniform_of_newbo; exact H|exact H].
  - intro U. unfold all_order_b. rewrite forallb_forall. intros s Hs.
    destruct (endian_of ml (so s)) as [b|] eqn:E; [|reflexivity].
    destruct (declared_orders ml f _ _ (declares ml f a ip false U eq_refl) s b Hs E) as (b0 & ->).
    destruct f; try apply Bool.eqb_reflx. congruence.
Qed.

Lemma all_native_is_all_order ml d : all_native ml d = all_order_b ml (negb ml) d.
Proof. reflexivity. Qed.

Lemma endian_ordered ml o : o <> NA -> exists b, endian_of ml o = Some b.
Proof. destruct o; intro H; try (eexists; reflexivity). congruence. Qed.

Lemma faithful_same_exists ml top d (w : bool) : uniform ml d -> faithful ml top d ->
  ((exists o, In o top /\ endian_of ml o = Some w) <-> (exists o, In o (orders d) /\ endian_of ml o = Some w)).
Proof.
  intros U [F1 F2]. split.
  - intros (o & Ho & E). destruct (F1 o w Ho E) as (s & Hs & Es). exists (so s). split; [apply in_map; exact Hs|exact Es].
  - intros (o' & Ho' & E). apply in_map_iff in Ho' as (s & <- & Hs). destruct F2 as (o & b & Ho & Eo); [exists s, w; auto|].
    destruct (F1 o b Ho Eo) as (s' & Hs' & Es'). rewrite (U s s' w b Hs Hs' E Es'). exists o. auto.
Qed.

(* the decision depends only on which endiannesses occur among the orders the scan sees *)
Lemma doswap_top_ext f ml top top' :
  (forall w, (exists o, In o top /\ endian_of ml o = Some w) <-> (exists o, In o top' /\ endian_of ml o = Some w)) ->
  doswap_top f ml top = doswap_top f ml top'.
Proof.
  intro H.
  assert (EL : existsb (is_little_endian ml) top = existsb (is_little_endian ml) top')
    by (apply eq_true_iff_eq; rewrite !(existsb_endian _ ml false _ (is_little_iff ml)); apply H).
  assert (EB : existsb (is_big_endian ml) top = existsb (is_big_endian ml) top')
    by (apply eq_true_iff_eq; rewrite !(existsb_endian _ ml true _ (is_big_iff ml)); apply H).
  destruct f; cbn [doswap_top]; rewrite ?EL, ?EB; reflexivity.
Qed.

Lemma top_decision_struct ml f top fs : uniform ml (DStruct fs) -> faithful ml top (DStruct fs) ->
  doswap_top f ml top = doswap f ml (DStruct fs).
Proof.
  intros U F. rewrite <- doswap_top_flat, top_of_orders. apply doswap_top_ext.
  intro w. apply faithful_same_exists; assumption.
Qed.

Lemma faithful_swapped ml top d : faithful ml top d -> faithful ml (map (swap_order ml) top) (newbyteorder ml d).
Proof.
  intros [F1 F2]. split.
  - intros o' b Ho' E. apply in_map_iff in Ho' as (o & <- & Ho). rewrite endian_swap in E.
    destruct (endian_of ml o) as [c|] eqn:Eo; [|discriminate]. simpl in E. injection E as <-.
    destruct (F1 o c Ho Eo) as (s & Hs & Es). exists (reseg (swap_order ml) s). split.
    + rewrite newbyteorder_map_orders, layout_map_orders. apply in_map. exact Hs.
    + cbn [so reseg]. rewrite endian_swap, Es. reflexivity.
  - intros (s' & b & Hs' & E). rewrite newbyteorder_map_orders, layout_map_orders in Hs'. apply in_map_iff in Hs' as (s & <- & Hs).
    cbn [so reseg] in E. rewrite endian_swap in E. destruct (endian_of ml (so s)) as [c|] eqn:Es; [|discriminate].
    destruct F2 as (o & c' & Ho & Eo); [exists s, c; auto|].
    exists (swap_order ml o), (negb c'). split; [apply in_map; exact Ho|]. rewrite endian_swap, Eo. reflexivity.
Qed.

(* the statement for an array whose scan list represents its leaves: both calls *)
Lemma faithful_statement ml f top fs sh data ip keep :
  let a := {| adt := DStruct fs; ashape := sh; adata := data |} in
  valid_dtype (adt a) -> uniform ml (adt a) -> faithful ml top (adt a) ->
  let o1 := apply_top f ml top a ip keep in
  o1 = apply f ml a ip keep
  /\ apply_top f ml (top_after f ml top keep) (o_res o1) ip keep = apply f ml (o_res o1) ip keep
  /\ conv_ok ml f a ip keep o1 (apply_top f ml (top_after f ml top keep) (o_res o1) ip keep).
Proof.
  intros a V U F o1.
  assert (E1 : o1 = apply f ml a ip keep).
  { unfold o1, apply_top. rewrite apply_doswap. cbn [adt a]. rewrite (top_decision_struct ml f top fs U F). reflexivity. }
  assert (E2 : apply_top f ml (top_after f ml top keep) (o_res o1) ip keep = apply f ml (o_res o1) ip keep).
  { rewrite E1. unfold apply_top. rewrite (apply_doswap f ml (o_res _)).
    pose proof (res_dtype ml f a ip keep) as RD. pose proof (res_uniform ml f a ip keep U) as RU.
    unfold top_after. cbn [adt a] in RD. rewrite (top_decision_struct ml f top fs U F).
    destruct (doswap f ml (DStruct fs) && negb keep) eqn:Esw.
    - rewrite RD in RU |- *. change (newbyteorder ml (DStruct fs)) with (DStruct (map (fun f0 => {| fname := fname f0; fty := newbo_scalar ml (fty f0); fsub := fsub f0 |}) fs)) in *.
      rewrite (top_decision_struct ml f _ _ RU); [reflexivity|].
      apply (faithful_swapped ml top (DStruct fs) F).
    - rewrite RD in RU |- *. rewrite (top_decision_struct ml f top fs RU F). reflexivity. }
  split; [exact E1|]. split; [exact E2|]. rewrite E2, E1. apply conv_correct; assumption.
Qed.

Lemma in_repeat_app {A} (x : A) l n : In x (repeat_app l n) -> In x l.
Proof. induction n as [|k IH]; simpl; [tauto|]. rewrite in_app_iff. tauto. Qed.

Lemma leaf_in_flatten t f : In (TLeaf f) t -> In f (flatten1 t).
Proof. intro H. unfold flatten1. apply in_flat_map. exists (TLeaf f). split; [exact H|left; reflexivity]. Qed.

Lemma nested_ok_faithful ml t : nested_ok t = true -> faithful ml (top1 t) (DStruct (flatten1 t)).
Proof.
  intro OK. split.
  - intros o b Ho E. unfold top1 in Ho. apply in_map_iff in Ho as (x & <- & Hx). destruct x as [f|n fs reps]; [|discriminate].
    exists (seg_of (fty f) (prod (fsub f))). split; [|exact E].
    cbn [layout]. apply (in_map (fun f0 => seg_of (fty f0) (prod (fsub f0)))). apply leaf_in_flatten. exact Hx.
  - intros (s & b & Hs & E). unfold nested_ok in OK. apply orb_true_iff in OK as [OK|OK].
    + unfold has_plain_ordered in OK. apply existsb_exists in OK as (x & Hx & Px). destruct x as [f|n fs reps]; [|discriminate].
      unfold ordered_b in Px. apply negb_true_iff in Px.
      destruct (endian_ordered ml (sord (fty f))) as (c & Ec).
      { intro N. rewrite N in Px. discriminate. }
      exists (sord (fty f)), c. split; [|exact Ec]. unfold top1.
      exact (in_map (fun x => match x with TLeaf f0 => sord (fty f0) | TNest _ _ _ => NA end) t (TLeaf f) Hx).
    + exfalso. unfold no_ordered_leaf in OK. rewrite forallb_forall in OK. cbn [layout] in Hs.
      apply in_map_iff in Hs as (f & <- & Hf). apply OK in Hf. apply order_eqb_eq in Hf.
      cbn [so seg_of] in E. rewrite Hf in E. discriminate.
Qed.

(* the record of Properties.C16_nested_nonvacuous: [('pos', [('x','>f4'),('tag','S1')], (2,)), ('id','>i2')] *)
Definition nest_example : list tfield :=
  [ TNest "pos" [ {| fname := "x"; fty := {| skind := KFloat; ssize := 4; sord := BE |}; fsub := [] |};
                  {| fname := "tag"; fty := {| skind := KBytes; ssize := 1; sord := NA |}; fsub := [] |} ] 2;
    TLeaf {| fname := "id"; fty := {| skind := KInt; ssize := 2; sord := BE |}; fsub := [] |} ].

Lemma nth_error_set_nth_eq {A} (l : list A) k v a : nth_error l k = Some a -> nth_error (set_nth l k v) k = Some v.
Proof. revert k. induction l as [|x t IH]; intros [|k] H; simpl in *; try discriminate; auto. Qed.

Lemma nth_error_set_nth_neq {A} (l : list A) k j v : k <> j -> nth_error (set_nth l k v) j = nth_error l j.
Proof. revert k j. induction l as [|x t IH]; intros [|k] [|j] H; simpl; auto; congruence. Qed.

Lemma set_nth_same {A} (l : list A) k a : nth_error l k = Some a -> set_nth l k a = l.
Proof. revert k. induction l as [|x t IH]; intros [|k] H; simpl in *; try discriminate; [congruence|f_equal; auto]. Qed.

(* other objects are untouched *)
Lemma step_frame ml h c j : j <> obj_of c -> nth_error (fst (step ml h c)) j = nth_error h j.
Proof.
  intro H. unfold step. destruct (nth_error h (obj_of c)); cbn [fst]; [|reflexivity].
  apply nth_error_set_nth_neq. auto.
Qed.

(* the answer, and the new state of the object, are functions of the object's own state: whatever else
   the process holds, whatever happened before *)
Lemma step_local ml h h' c : nth_error h (obj_of c) = nth_error h' (obj_of c) ->
  snd (step ml h c) = snd (step ml h' c)
  /\ nth_error (fst (step ml h c)) (obj_of c) = nth_error (fst (step ml h' c)) (obj_of c).
Proof.
  intro E. unfold step. rewrite <- E. destruct (nth_error h (obj_of c)) as [a|] eqn:Ea; cbn [fst snd].
  - split; [reflexivity|]. rewrite (nth_error_set_nth_eq h _ _ a Ea). symmetry. apply (nth_error_set_nth_eq h' _ _ a). congruence.
  - split; [reflexivity|]. congruence.
Qed.

(* the model has no hidden state: a step is [act] on the one object *)
Lemma step_is_act ml h c a : nth_error h (obj_of c) = Some a ->
  snd (step ml h c) = snd (act ml c a) /\ nth_error (fst (step ml h c)) (obj_of c) = Some (fst (act ml c a)).
Proof.
  intro E. unfold step. rewrite E. cbn [fst snd]. split; [reflexivity|]. apply (nth_error_set_nth_eq h _ _ a E).
Qed.

(* calls with inplace off and recfile's to_native leave the whole heap as it was *)
Lemma step_pure ml h c :
  match c with CConv _ _ false _ => True | CRecNative _ => True | _ => False end -> fst (step ml h c) = h.
Proof.
  intro P. unfold step. destruct (nth_error h (obj_of c)) as [a|] eqn:E; [|reflexivity]. cbn [fst].
  destruct c as [f k [|] keep|k|k|k d]; try contradiction; cbn [act fst]; apply set_nth_same; exact E.
Qed.

(* two calls on different objects (the twin-layout sequences): each answers as if the other had not happened *)
Lemma step_commute ml h c1 c2 : obj_of c1 <> obj_of c2 ->
  snd (step ml (fst (step ml h c1)) c2) = snd (step ml h c2)
  /\ snd (step ml (fst (step ml h c2)) c1) = snd (step ml h c1).
Proof.
  intro N. split; apply step_local; apply step_frame; auto.
Qed.

Lemma run_cons ml h c cs : run ml h (c :: cs) = snd (step ml h c) :: run ml (fst (step ml h c)) cs.
Proof. reflexivity. Qed.

(* the heap of Properties.C16_history_nonvacuous: a '>i2' and a '>f2' array of one element *)
Definition heap_example : heap :=
  [ {| adt := DPlain {| skind := KInt; ssize := 2; sord := BE |}; ashape := [1]; adata := unhex "0001" |};
    {| adt := DPlain {| skind := KFloat; ssize := 2; sord := BE |}; ashape := [1]; adata := unhex "3c00" |} ].
Lemma history_independent :
  (forall ml h h' c, nth_error h (obj_of c) = nth_error h' (obj_of c) ->
     snd (step ml h c) = snd (step ml h' c)
     /\ nth_error (fst (step ml h c)) (obj_of c) = nth_error (fst (step ml h' c)) (obj_of c))
  /\ (forall ml h c a, nth_error h (obj_of c) = Some a ->
     snd (step ml h c) = snd (act ml c a) /\ nth_error (fst (step ml h c)) (obj_of c) = Some (fst (act ml c a)))
  /\ (forall ml h c j, j <> obj_of c -> nth_error (fst (step ml h c)) j = nth_error h j)
  /\ (forall ml h c, match c with CConv _ _ false _ => True | CRecNative _ => True | _ => False end ->
     fst (step ml h c) = h)
  /\ (forall ml h c1 c2, obj_of c1 <> obj_of c2 ->
     snd (step ml (fst (step ml h c1)) c2) = snd (step ml h c2)
     /\ snd (step ml (fst (step ml h c2)) c1) = snd (step ml h c1)).
Proof.
  split; [exact step_local|]. split; [exact step_is_act|]. split; [exact step_frame|].
  split; [exact step_pure|exact step_commute].
Qed.
