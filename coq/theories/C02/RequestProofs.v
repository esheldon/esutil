(* C02/RequestProofs.v -- the property statement as ONE theorem about the model: for every request that
   run_request covers (keyword read, bracket, chained column-then-row, SFile.read with split / reduce)
   the result is what indexing the full read gives.  Proved once over two facts about the file
   (data_ok: the cursor loops return the requested cells; slice_ok: the binary slice reader returns the
   rows of the Python slice) and instantiated for well-formed binary files and for text files written
   by the writer (RequestInst.v). *)
From Coq.Strings Require Import Byte.
From EsVerif.Common Require Import Base Bytes.
From EsVerif.C02 Require Import Arange Gen Model Spec SliceProofs RowsProofs CursorProofs.

(* ------------------------------------------------------------------ Python slices are ascending in-range row lists *)
Lemma asc_map_affine a s : 0 < s -> forall l, asc l -> asc (map (fun k => a + k * s) l).
Proof.
  intros Hs l A. induction A as [|x u A' IH F]; simpl; constructor; [exact IH|].
  rewrite Forall_forall in *. intros y Hy. apply in_map_iff in Hy as [k [<- Hk]]. specialize (F _ Hk). nia.
Qed.

Lemma py_slice_rows_asc n a b c : step_ok c -> asc (py_slice_rows n a b c).
Proof.
  intro Hc. unfold py_slice_rows, py_range. apply asc_map_affine; [apply step_val_pos, Hc|apply zseq_asc].
Qed.

Lemma py_slice_rows_range n a b c : 0 <= n -> step_ok c -> Forall (fun r => 0 <= r < n) (py_slice_rows n a b c).
Proof.
  intros Hn Hc. rewrite Forall_forall. intros x Hx. apply py_range_spec in Hx; [|apply step_val_pos, Hc].
  pose proof (py_clip_range n a 0 Hn ltac:(lia)). pose proof (py_clip_range n b n Hn ltac:(lia)). lia.
Qed.

Lemma members_in_order_asc_id n l : 0 <= n -> asc l -> Forall (fun r => 0 <= r < n) l -> members_in_order n l = l.
Proof.
  intros Hn A R. apply asc_unique; [apply members_in_order_asc|exact A|].
  intro x. rewrite members_in_order_In by exact Hn. rewrite Forall_forall in R. split; [tauto|]. intro H. split; auto.
Qed.

Lemma forallb_range n l : Forall (fun r => 0 <= r < n) l <-> forallb (fun x => (0 <=? x) && (x <? n)) l = true.
Proof.
  rewrite forallb_forall, Forall_forall. split; intros H x Hx; specialize (H x Hx); lia.
Qed.

(* ------------------------------------------------------------------ the bracket styles with a slice *)
(* the `step == 0` test of the unpacking styles passes for the steps the property speaks of *)
Lemma step_ok_nonzero {A} c (x y : A) : step_ok c -> match c with Some 0 => x | _ => y end = y.
Proof. destruct c as [[|p|p]|]; simpl; intro H; try lia; reflexivity. Qed.

Section Slices.
  Variable P : nat -> list byte -> list byte.

  (* Recfile[start:stop:step] / SFile[start:stop:step] on a binary file *)
  Theorem binary_getitem_slice f t tail a b c :
    wf_bin f t tail -> t <> [] -> step_ok c ->
    recfile_getitem_rows P f (RSlice a b c)
    = Ok (VTable (zseq 0 (length (rf_names f))) (map (row_at t) (py_slice_rows (rf_nrows f) a b c))).
  Proof.
    intros W Hne Hc. assert (Hn : 0 <= rf_nrows f) by (rewrite (wf_n _ _ _ W); lia).
    pose proof (py_clip_range (rf_nrows f) a 0 Hn ltac:(lia)).
    pose proof (py_clip_range (rf_nrows f) b (rf_nrows f) Hn ltac:(lia)).
    unfold recfile_getitem_rows. rewrite (wf_binary _ _ _ W), (process_slice_clip _ a b c Hn). cbn [bind].
    rewrite (read_binary_slice_rows f t tail) by (try assumption; try lia; apply step_val_pos, Hc).
    cbn [bind]. rewrite py_range_max. reflexivity.
  Qed.

  (* Recfile[cols][start:stop:step]: the slice is expanded to the rows of the Python slice and handed
     to read(rows=, columns=) -- on binary and text files alike *)
  Theorem chain_slice_is_row_list f cols a b c :
    0 <= rf_nrows f -> step_ok c ->
    colsubset_getitem P f cols (RSlice a b c)
    = recfile_read P f (RList (py_slice_rows (rf_nrows f) a b c)) CNone cols false.
  Proof.
    intros Hn Hc. unfold colsubset_getitem. rewrite (slice2rows_python _ a b c Hn Hc). cbn [bind].
    apply step_ok_nonzero, Hc.
  Qed.

  (* text files: Recfile[start:stop:step] takes the same route *)
  Theorem text_getitem_slice_is_row_list f a b c :
    rf_ascii f = true -> 0 <= rf_nrows f -> step_ok c ->
    recfile_getitem_rows P f (RSlice a b c)
    = recfile_read P f (RList (py_slice_rows (rf_nrows f) a b c)) CNone CNone false.
  Proof.
    intros Ha Hn Hc. unfold recfile_getitem_rows. rewrite Ha, (slice2rows_python _ a b c Hn Hc). cbn [bind].
    apply step_ok_nonzero, Hc.
  Qed.
End Slices.

(* ------------------------------------------------------------------ small facts about the shapes *)
Lemma column_of_sel_single t rows i : column_of (sel_table t rows [i]) 0 = sel_column t rows i.
Proof. unfold column_of, sel_table, sel_column. rewrite map_map. reflexivity. Qed.

Lemma columns_of_sel t rows cols :
  map (column_of (sel_table t rows cols)) (seq 0 (length cols)) = map (sel_column t rows) cols.
Proof.
  rewrite <- (seq_nth_all cols 0) at 3. rewrite map_map.
  apply map_ext_in. intros k Hk. apply in_seq in Hk. unfold column_of, sel_table, sel_column. rewrite map_map.
  apply map_ext. intro r. rewrite (nth_indep _ [] (cell_at t r 0)) by (rewrite map_length; lia). apply map_nth.
Qed.

Lemma sel_table_allcols (t : list (list cell)) m rows :
  Forall (fun r => length r = m) t -> Forall (fun r => 0 <= r < Z.of_nat (length t)) rows ->
  sel_table t rows (zseq 0 m) = map (row_at t) rows.
Proof.
  intros F R. unfold sel_table. apply map_ext_in. intros r Hr. rewrite Forall_forall in R. specialize (R _ Hr).
  unfold row_at, cell_at.
  assert (L : length (nth (Z.to_nat r) t []) = m) by (rewrite Forall_forall in F; apply F, nth_In; lia).
  rewrite <- L. apply nth_zseq_id.
Qed.

(* the data step of Recfile.read, after rows and columns have been normalised *)
Definition data_step (P : nat -> list byte -> list byte) (f : rfile) (colnums : list Z) (rows2 : option (list Z))
  : result (list (list cell)) :=
  let all_rows := match rows2 with None => true | Some l => Z.of_nat (length l) =? rf_nrows f end in
  let all_cols := Z.of_nat (length colnums) =? rf_ncols f in
  if rf_ascii f then read_columns P f colnums rows2
  else if all_cols && all_rows then read_binary_slice f (0, rf_nrows f, 1)
       else read_columns P f colnums rows2.

Definition rows_ok (n : Z) (rows2 : option (list Z)) : Prop :=
  match rows2 with None => True | Some l => asc l /\ Forall (fun r => 0 <= r < n) l end.
Definition rows_of (len : nat) (rows2 : option (list Z)) : list Z :=
  match rows2 with None => zseq 0 len | Some l => l end.

Lemma members_rows_ok n l : 0 <= n -> rows_ok n (Some (members_in_order n l)).
Proof.
  intro Hn. split; [apply members_in_order_asc|]. rewrite Forall_forall. intros y Hy.
  apply members_in_order_In in Hy; tauto.
Qed.

Lemma single_rows_ok n x : 0 <= x < n -> rows_ok n (Some [x]).
Proof. intro H. split; [constructor; constructor|constructor; [exact H|constructor]]. Qed.

Definition nonslice (r : rowsel) : Prop := match r with RSlice _ _ _ => False | _ => True end.

(* the styles with a rows= keyword do not take a slice *)
Lemma keyword_nonslice s r : has_split s = true -> rows_arg_ok s r = true -> nonslice r.
Proof. destruct s, r; simpl; intros; try discriminate; exact I. Qed.

(* ------------------------------------------------------------------ what Spec.expectation asks for *)
Lemma expectation_inv n names full q :
  match expectation n names full q with
  | XAny => True
  | XReject => rows_arg_ok (q_style q) (q_rows q) = true /\ spec_rows n (q_rows q) = RXReject
  | XOneOf vs => exists rows cols scalar,
      rows_arg_ok (q_style q) (q_rows q) = true
      /\ (has_cols (q_style q) = false -> q_cols q = CNone)
      /\ (has_split (q_style q) = false -> q_split q = false)
      /\ (has_reduce (q_style q) = false -> q_reduce q = false)
      /\ spec_cols names (q_cols q) = CXCols cols scalar
      /\ spec_rows n (q_rows q) = RXRows rows
      /\ vs = shapes full rows cols scalar (q_split q) (q_reduce q)
  end.
Proof.
  unfold expectation.
  destruct (rows_arg_ok (q_style q) (q_rows q)) eqn:E1; [|exact I]. cbn [negb].
  destruct (negb (has_cols (q_style q)) && negb match q_cols q with CNone => true | _ => false end) eqn:E2; [exact I|].
  destruct ((negb (has_split (q_style q)) && q_split q) || (negb (has_reduce (q_style q)) && q_reduce q)) eqn:E3; [exact I|].
  destruct (spec_cols names (q_cols q)) as [cols scalar|]; [|exact I].
  destruct (spec_rows n (q_rows q)) as [rows| |]; [|split; reflexivity|exact I].
  exists rows, cols, scalar. repeat split.
  - intro H. rewrite H in E2. simpl in E2. destruct (q_cols q); [reflexivity|discriminate|discriminate].
  - intro H. rewrite H in E3. simpl in E3. destruct (q_split q); [discriminate|reflexivity].
  - intro H. rewrite H in E3. simpl in E3. destruct (q_reduce q); [|reflexivity].
    rewrite orb_true_r in E3. discriminate.
Qed.

Section Request.
  Variable P : nat -> list byte -> list byte.
  Variable f : rfile.
  Variable t : list (list cell).       (* the full read: row by row, the cells of every column *)
  Let n := rf_nrows f.
  Let names := rf_names f.
  Hypothesis Hn : n = Z.of_nat (length t).

  Lemma n_nonneg : 0 <= n. Proof. rewrite Hn. apply Nat2Z.is_nonneg. Qed.

  (* ---------------------------------------------------------------- rows *)
  Lemma rows_normalised r rows :
    nonslice r -> spec_rows n r = RXRows rows ->
    exists rows2, rows2read_of n r = Ok rows2 /\ rows_ok n rows2 /\ rows_of (length t) rows2 = rows.
  Proof.
    intros Hr Hs. destruct r as [|x|l|a b c]; [| | |contradiction]; simpl in Hs.
    - inversion Hs; subst. exists None. split; [reflexivity|]. split; [exact I|]. simpl. rewrite Hn, Nat2Z.id. reflexivity.
    - destruct ((- n <=? x) && (x <? n)) eqn:E; [|discriminate]. inversion Hs; subst.
      exists (Some [x mod n]). split; [|split].
      + unfold rows2read_of, rows_atleast_1d. apply rows_scalar_spec. lia.
      + apply single_rows_ok, Z.mod_pos_bound. lia.
      + reflexivity.
    - destruct (forallb (fun x => (0 <=? x) && (x <? n)) l) eqn:E.
      + inversion Hs; subst. apply forallb_range in E.
        exists (Some (members_in_order n l)). split; [|split].
        * unfold rows2read_of, rows_atleast_1d. apply rows_list_spec; [exact n_nonneg|exact E].
        * apply members_rows_ok, n_nonneg.
        * reflexivity.
      + destruct (existsb (fun x => (x <? - n) || (n <=? x)) l); discriminate.
  Qed.

  Lemma rows_rejected r : spec_rows n r = RXReject -> rows2read_of n r = Err EValue.
  Proof.
    intro Hs. destruct r as [|x|l|a b c]; simpl in Hs; try discriminate.
    - destruct ((- n <=? x) && (x <? n)); discriminate.
    - destruct (forallb (fun x => (0 <=? x) && (x <? n)) l); [discriminate|].
      destruct (existsb (fun x => (x <? - n) || (n <=? x)) l) eqn:E; [|discriminate].
      apply existsb_exists in E as [x [Hx Hb]]. unfold rows2read_of, rows_atleast_1d.
      apply rows_list_rejected. exists x. split; [exact Hx|lia].
    - destruct c as [s|]; [destruct (s <=? 0)|]; discriminate.
  Qed.

  (* a slice handed on as the row list of the Python slice *)
  Lemma slice_as_list a b c : step_ok c ->
    spec_rows n (RList (py_slice_rows n a b c)) = RXRows (py_slice_rows n a b c).
  Proof.
    intro Hc. simpl. pose proof (py_slice_rows_range n a b c n_nonneg Hc) as R.
    rewrite (proj1 (forallb_range n _) R). f_equal.
    apply members_in_order_asc_id; [exact n_nonneg|apply py_slice_rows_asc; exact Hc|exact R].
  Qed.

  Lemma spec_rows_slice a b c rows : spec_rows n (RSlice a b c) = RXRows rows -> step_ok c /\ rows = py_slice_rows n a b c.
  Proof.
    simpl. destruct c as [s|].
    - destruct (s <=? 0) eqn:E; [discriminate|]. intro H; inversion H. split; [simpl; lia|reflexivity].
    - intro H; inversion H. split; [exact I|reflexivity].
  Qed.

  (* ---------------------------------------------------------------- columns *)
  (* this hypothesis and the three further down are declared where they are first needed: lia generalises over
     every hypothesis that mentions the let-bound n, so a lemma proved with all of them in sight depends on all *)
  Hypothesis ND : NoDup names.

  Lemma cols_normalised c cols scalar :
    spec_cols names c = CXCols cols scalar ->
    get_colnums_to_read names CNone c = Ok (cols, scalar)
    /\ asc cols /\ Forall (fun k => 0 <= k < Z.of_nat (length names)) cols
    /\ (scalar = true -> exists i, cols = [i]).
  Proof.
    intro Hs. destruct c as [|x|l]; [simpl in Hs|simpl in Hs|unfold spec_cols in Hs].
    - inversion Hs; subst. split; [reflexivity|]. split; [apply zseq_asc|]. split; [apply zseq0_range|discriminate].
    - destruct (pos_of names x 0) as [i|] eqn:E; [|discriminate]. inversion Hs; subst.
      rewrite pos_of_index_of in E. split; [|split; [|split]].
      + unfold get_colnums_to_read, get_colnums. simpl. rewrite E. reflexivity.
      + constructor; constructor.
      + apply index_of_range in E. constructor; [lia|constructor].
      + intros _. exists i; reflexivity.
    - destruct l as [|c0 l0]; [discriminate|]. remember (c0 :: l0) as l eqn:El. clear El.
      destruct (forallb (known names) l && nodup_b l) eqn:E; [|discriminate]. inversion Hs; subst.
      apply andb_true_iff in E as [E _].
      assert (Fin : Forall (fun c => In c names) l).
      { rewrite forallb_forall in E. rewrite Forall_forall. intros c Hc. specialize (E c Hc). unfold known in E.
        destruct (pos_of names c 0) eqn:E2; [|discriminate]. rewrite pos_of_index_of in E2. eapply index_of_In. exact E2. }
      split; [|split; [|split]].
      + unfold get_colnums_to_read. rewrite (columns_file_order names l ND Fin). reflexivity.
      + apply map_snd_filter_asc.
      + apply file_order_cols_range.
      + discriminate.
  Qed.

  (* ---------------------------------------------------------------- Recfile.read *)
  Hypothesis Hrowlen : Forall (fun r => length r = length names) t.
  Hypothesis data_ok : forall colnums rows2,
    asc colnums -> Forall (fun c => 0 <= c < Z.of_nat (length names)) colnums -> rows_ok n rows2 ->
    data_step P f colnums rows2 = Ok (sel_table t (rows_of (length t) rows2) colnums).
  Hypothesis slice_ok : rf_ascii f = false -> forall a b c, step_ok c ->
    recfile_getitem_rows P f (RSlice a b c)
    = Ok (VTable (zseq 0 (length names)) (map (row_at t) (py_slice_rows n a b c))).

  Definition shape_rf (rows cols : list Z) (scalar split : bool) : value :=
    if scalar then VPlain (hd 0 cols) (sel_column t rows (hd 0 cols))
    else if split then VTuple cols (map (sel_column t rows) cols)
    else VTable cols (sel_table t rows cols).

  Lemma recfile_read_unfold r fields columns split :
    recfile_read P f r fields columns split =
    (do rows2 <- rows2read_of (rf_nrows f) r;
     do cs <- get_colnums_to_read (rf_names f) fields columns;
     do data <- data_step P f (fst cs) rows2;
     if snd cs then Ok (VPlain (hd 0 (fst cs)) (column_of data 0))
     else if split then Ok (split_fields (fst cs) data) else Ok (VTable (fst cs) data)).
  Proof.
    unfold recfile_read, data_step. destruct (rows2read_of (rf_nrows f) r); [|reflexivity]. cbn [bind].
    destruct (get_colnums_to_read (rf_names f) fields columns) as [[cs sc]|]; reflexivity.
  Qed.

  (* once the row argument is accepted nothing fails any more: the result is the full read indexed by the
     normalised rows and columns, in the shape the column argument and split ask for *)
  Lemma recfile_read_core r fields columns split rows2 cols scalar :
    rows2read_of n r = Ok rows2 -> rows_ok n rows2 ->
    get_colnums_to_read names fields columns = Ok (cols, scalar) ->
    asc cols -> Forall (fun k => 0 <= k < Z.of_nat (length names)) cols -> (scalar = true -> exists i, cols = [i]) ->
    recfile_read P f r fields columns split = Ok (shape_rf (rows_of (length t) rows2) cols scalar split).
  Proof using data_ok.
    intros E1 Rok E2 Ac Rc Sc.
    rewrite recfile_read_unfold. fold n names. rewrite E1. cbn [bind]. rewrite E2. cbn [bind fst snd].
    rewrite (data_ok cols rows2 Ac Rc Rok). cbn [bind]. unfold shape_rf.
    destruct scalar.
    - destruct (Sc eq_refl) as [i ->]. simpl hd. rewrite column_of_sel_single. reflexivity.
    - destruct split; [|reflexivity]. unfold split_fields. rewrite columns_of_sel. reflexivity.
  Qed.

  Lemma recfile_read_normalised r fields columns split rows2 cols scalar :
    rows2read_of n r = Ok rows2 -> rows_ok n rows2 ->
    spec_cols names (match fields with CNone => columns | _ => fields end) = CXCols cols scalar ->
    recfile_read P f r fields columns split = Ok (shape_rf (rows_of (length t) rows2) cols scalar split).
  Proof using ND data_ok.
    intros E1 Rok Hcols. destruct (cols_normalised _ cols scalar Hcols) as [E2 [Ac [Rc Sc]]].
    apply recfile_read_core; assumption.
  Qed.

  Lemma recfile_read_spec r fields columns split rows cols scalar :
    nonslice r -> spec_rows n r = RXRows rows ->
    spec_cols names (match fields with CNone => columns | _ => fields end) = CXCols cols scalar ->
    recfile_read P f r fields columns split = Ok (shape_rf rows cols scalar split).
  Proof.
    intros Hr Hrows Hcols. destruct (rows_normalised r rows Hr Hrows) as [rows2 [E1 [Rok <-]]].
    apply recfile_read_normalised; assumption.
  Qed.

  Lemma recfile_read_rejects r fields columns split :
    spec_rows n r = RXReject -> recfile_read P f r fields columns split = Err EValue.
  Proof. intro H. rewrite recfile_read_unfold. fold n. rewrite (rows_rejected r H). reflexivity. Qed.

  (* ---------------------------------------------------------------- what the property allows *)
  Lemma recfile_read_allowed r fields columns split rows cols scalar :
    nonslice r -> spec_rows n r = RXRows rows ->
    spec_cols names (match fields with CNone => columns | _ => fields end) = CXCols cols scalar ->
    exists v, recfile_read P f r fields columns split = Ok v /\ In v (shapes t rows cols scalar split false).
  Proof.
    intros Hr Hrows Hcols. eexists. split; [apply recfile_read_spec; eassumption|].
    destruct (cols_normalised _ cols scalar Hcols) as [_ [_ [_ Sc]]]. unfold shape_rf, shapes.
    destruct scalar; [destruct (Sc eq_refl) as [i ->]|]; destruct split; left; reflexivity.
  Qed.

  (* SFile.read: split before reduce, on the table Recfile.read returns *)
  Lemma sfile_read_allowed r fields columns sp rd rows cols scalar :
    nonslice r -> spec_rows n r = RXRows rows ->
    spec_cols names (match columns with CNone => fields | _ => columns end) = CXCols cols scalar ->
    exists v, sfile_read P f r fields columns sp rd = Ok v /\ In v (shapes t rows cols scalar sp rd).
  Proof.
    intros Hr Hrows Hcols. unfold sfile_read.
    rewrite (recfile_read_spec r CNone _ false rows cols scalar Hr Hrows Hcols). cbn [bind].
    eexists; split; [reflexivity|].
    destruct (cols_normalised _ cols scalar Hcols) as [_ [_ [_ Sc]]]. unfold shape_rf, shapes.
    destruct scalar.
    - destruct (Sc eq_refl) as [i ->]. simpl. destruct sp; [right; left; reflexivity|]. destruct rd; left; reflexivity.
    - destruct sp.
      + simpl. unfold split_fields. rewrite columns_of_sel. destruct rd; left; reflexivity.
      + destruct rd; [|left; reflexivity]. simpl. destruct cols as [|c1 [|c2 cs]]; try (left; reflexivity).
        left. rewrite column_of_sel_single. reflexivity.
  Qed.

  (* ---------------------------------------------------------------- the statement *)
  Theorem request_spec q rows cols scalar :
    rows_arg_ok (q_style q) (q_rows q) = true ->
    (has_cols (q_style q) = false -> q_cols q = CNone) ->
    (has_split (q_style q) = false -> q_split q = false) ->
    (has_reduce (q_style q) = false -> q_reduce q = false) ->
    spec_cols names (q_cols q) = CXCols cols scalar ->
    spec_rows n (q_rows q) = RXRows rows ->
    exists v, run_request P f q = Ok v /\ In v (shapes t rows cols scalar (q_split q) (q_reduce q)).
  Proof using Hn ND Hrowlen data_ok slice_ok.
    destruct q as [s r c sp rd]. cbn [q_style q_rows q_cols q_split q_reduce].
    intros Hra Hhc Hhs Hhr Hcols Hrows.
    assert (Hfc : spec_cols names (match c with CNone => CNone | _ => c end) = CXCols cols scalar)
      by (destruct c; exact Hcols).
    (* a bracket style hands a slice on as the row list of the Python slice *)
    assert (BR : forall a b st, r = RSlice a b st ->
                 exists v, recfile_read P f (RList (py_slice_rows n a b st)) CNone c false = Ok v
                           /\ In v (shapes t rows cols scalar false false)).
    { intros a b st ->. destruct (spec_rows_slice a b st rows Hrows) as [Hst ->].
      apply recfile_read_allowed; [exact I|apply slice_as_list, Hst|exact Hcols]. }
    unfold run_request. cbn [q_style q_rows q_cols q_split q_reduce].
    destruct s; simpl in Hhc, Hhs, Hhr;
      try rewrite (Hhs eq_refl); try rewrite (Hhr eq_refl); try rewrite (Hhc eq_refl) in *.
    - (* SRead *) apply recfile_read_allowed; [eapply keyword_nonslice, Hra; reflexivity|exact Hrows|exact Hcols].
    - (* SReadFields *) apply recfile_read_allowed; [eapply keyword_nonslice, Hra; reflexivity|exact Hrows|exact Hfc].
    - (* SGetitem *) destruct r as [|x|l|a b st]; [discriminate| | |].
      1-2: apply recfile_read_allowed; [exact I|exact Hrows|exact Hcols].
      destruct (spec_rows_slice a b st rows Hrows) as [Hst Er]. destruct (rf_ascii f) eqn:Ea.
      + rewrite (text_getitem_slice_is_row_list P f a b st Ea n_nonneg Hst). apply (BR a b st eq_refl).
      + rewrite (slice_ok eq_refl a b st Hst). simpl in Hcols. inversion Hcols; subst cols scalar rows.
        eexists; split; [reflexivity|]. left. f_equal. fold names.
        apply sel_table_allcols; [exact Hrowlen|]. rewrite <- Hn. apply py_slice_rows_range; [exact n_nonneg|exact Hst].
    - (* SChain *) destruct r as [|x|l|a b st]; [discriminate| | |].
      1-2: apply recfile_read_allowed; [exact I|exact Hrows|exact Hcols].
      destruct (spec_rows_slice a b st rows Hrows) as [Hst _].
      rewrite (chain_slice_is_row_list P f c a b st n_nonneg Hst). apply (BR a b st eq_refl).
    - (* SChainRead *) apply recfile_read_allowed; [eapply keyword_nonslice, Hra; reflexivity|exact Hrows|exact Hcols].
    - (* SSfRead *) apply sfile_read_allowed; [eapply keyword_nonslice, Hra; reflexivity|exact Hrows|exact Hfc].
    - (* SSfReadFields *) apply sfile_read_allowed; [eapply keyword_nonslice, Hra; reflexivity|exact Hrows|exact Hcols].
  Qed.

  (* out-of-range row lists are rejected, whatever the style *)
  Theorem request_rejected q :
    rows_arg_ok (q_style q) (q_rows q) = true ->
    spec_rows n (q_rows q) = RXReject ->
    exists e, run_request P f q = Err e.
  Proof using Hn.
    destruct q as [s r c sp rd]. cbn [q_style q_rows q_cols q_split q_reduce]. intros Hra Hrej.
    assert (Hl : exists l, r = RList l).
    { destruct r as [|x|l|a b st]; simpl in Hrej; try discriminate; eauto.
      - destruct ((- n <=? x) && (x <? n)); discriminate.
      - destruct st as [s0|]; [destruct (s0 <=? 0)|]; discriminate. }
    destruct Hl as [l ->].
    unfold run_request. cbn [q_style q_rows q_cols q_split q_reduce].
    destruct s; unfold recfile_getitem_rows, colsubset_getitem, colsubset_read, sfile_read;
      rewrite (recfile_read_rejects _ _ _ _ Hrej); eexists; reflexivity.
  Qed.

  (* the property of Spec.v holds of the model for every request *)
  Corollary request_holds q : holds n names t q (run_request P f q).
  Proof using Hn ND Hrowlen data_ok slice_ok.
    unfold holds. pose proof (expectation_inv n names t q) as X.
    destruct (expectation n names t q) as [| |vs].
    - exact I.
    - destruct X as [Ha Hr]. apply request_rejected; assumption.
    - destruct X as (rows & cols & scalar & Ha & Hc & Hs & Hr & Ecols & Erows & ->). apply request_spec; assumption.
  Qed.
End Request.
