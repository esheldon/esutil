(* C02/RejectProofs.v -- beyond the quantifier of the property: what the model (hence, by the correspondence
   run, the code) does with every row argument, which requests raise which error class, and what the slice
   readers do with a step <= 0. *)
From Coq.Strings Require Import Byte.
From EsVerif.Common Require Import Base Bytes.
From EsVerif.C02 Require Import Arange Gen Model Spec SliceProofs RowsProofs RequestProofs.

(* ------------------------------------------------------------------ every row argument, exactly
   rows_outcome agrees with Spec.spec_rows wherever that is not RXAny (RXRows l ~ Ok, RXReject ~ Err EValue) and
   decides the arguments spec_rows leaves open *)
Definition in_range_b (n x : Z) : bool := (0 <=? x) && (x <? n).
Definition rows_outcome (n : Z) (r : rowsel) : result (option (list Z)) :=
  match r with
  | RNone => Ok None
  | RSlice _ _ _ => Err EType                          (* a slice object as rows=: TypeError *)
  | RScalar x => if (- n <=? x) && (x <? n) then Ok (Some [x mod n]) else Err EValue
  | RList [] => Ok (Some [])
  | RList [x] => if (- n <=? x) && (x <? n) then Ok (Some [x mod n]) else Err EValue
  | RList l => if forallb (in_range_b n) l then Ok (Some (members_in_order n l)) else Err EValue
  end.

Lemma single_exact n x :
  get_rows2read n (Some [x]) = if (- n <=? x) && (x <? n) then Ok (Some [x mod n]) else Err EValue.
Proof.
  destruct ((- n <=? x) && (x <? n)) eqn:E.
  - apply rows_scalar_spec. lia.
  - apply rows_list_rejected. exists x. split; [left; reflexivity|lia].
Qed.

Theorem rows2read_exact n r : 0 <= n -> rows2read_of n r = rows_outcome n r.
Proof.
  intro Hn. destruct r as [|x|l|a b c]; try reflexivity.
  - apply single_exact.
  - destruct l as [|x [|y t]]; [reflexivity|apply single_exact|].
    unfold rows2read_of, rows_atleast_1d, rows_outcome.
    destruct (forallb (in_range_b n) (x :: y :: t)) eqn:E.
    + apply rows_list_spec; [exact Hn|]. rewrite forallb_forall in E. apply Forall_forall.
      intros z Hz. specialize (E z Hz). unfold in_range_b in E. lia.
    + assert (H : exists z, In z (x :: y :: t) /\ in_range_b n z = false).
      { clear - E. induction (x :: y :: t) as [|a u IH]; simpl in E; [discriminate|].
        destruct (in_range_b n a) eqn:Ea; [destruct (IH E) as [z [Hz Hb]]; exists z; split; [right; exact Hz|exact Hb]|].
        exists a. split; [left; reflexivity|exact Ea]. }
      destruct H as [z [Hz Hb]]. apply (rows_rejected_after_fix n (x :: y :: t) z Hz). unfold in_range_b in Hb. lia.
Qed.

Lemma rows_outcome_ok n r rows2 : 0 <= n -> rows_outcome n r = Ok rows2 -> rows_ok n rows2.
Proof.
  intros Hn H. assert (S1 : forall x, (- n <=? x) && (x <? n) = true -> rows_ok n (Some [x mod n])).
  { intros x E. apply single_rows_ok, Z.mod_pos_bound. lia. }
  destruct r as [|x|l|a b c]; simpl in H.
  - inversion H; exact I.
  - destruct ((- n <=? x) && (x <? n)) eqn:E; inversion H; subst. apply S1; exact E.
  - destruct l as [|x [|y t]].
    + inversion H; subst. split; constructor.
    + destruct ((- n <=? x) && (x <? n)) eqn:E; inversion H; subst. apply S1; exact E.
    + destruct (forallb (in_range_b n) (x :: y :: t)); inversion H; subst.
      apply members_rows_ok, Hn.
  - discriminate.
Qed.

(* the only error classes of a row argument: TypeError for a slice object as rows=, ValueError otherwise *)
Corollary rows2read_error_classes n r e : 0 <= n -> rows2read_of n r = Err e ->
  (e = EType /\ exists a b c, r = RSlice a b c) \/ (e = EValue /\ match r with RScalar _ | RList _ => True | _ => False end).
Proof.
  intros Hn H. rewrite rows2read_exact in H by exact Hn. destruct r as [|x|l|a b c]; simpl in H.
  - discriminate.
  - destruct ((- n <=? x) && (x <? n)); inversion H. right; auto.
  - right. split; [|exact I]. destruct l as [|x [|y t]]; [discriminate| |].
    + destruct ((- n <=? x) && (x <? n)); inversion H; reflexivity.
    + destruct (forallb (in_range_b n) (x :: y :: t)); inversion H; reflexivity.
  - inversion H. left. split; [reflexivity|eauto].
Qed.

(* ------------------------------------------------------------------ unknown column names *)
Lemma index_of_None names c : ~ In c names -> forall i, index_of names c i = None.
Proof.
  intros H i. destruct (index_of names c i) eqn:E; [|reflexivity]. exfalso. apply H. eapply index_of_In. exact E.
Qed.

(* ------------------------------------------------------------------ slices with a step <= 0 *)
Lemma process_slice_total n a b c : exists s0 s1, process_slice n a b c = Ok (s0, s1, step_val c).
Proof. unfold process_slice. destruct c; simpl; do 2 eexists; reflexivity. Qed.

(* a negative step: the unpacked path (text files, column subsets) selects nothing *)
Lemma slice2rows_negative n a b s : s < 0 -> slice2rows n a b (Some s) = Ok [].
Proof.
  intro Hs. unfold slice2rows. cbv zeta. rewrite if_ltb_max. f_equal. unfold arange, arange_len.
  destruct (Z.gtb_spec s 0); [lia|]. destruct (Z.ltb_spec s 0); [|lia].
  match goal with |- context[?x <=? ?y] => destruct (Z.leb_spec x y) end; [reflexivity|lia].
Qed.
