(* C02/RowsProofs.v -- row lists and column lists: numpy.unique gives the distinct members in ascending
   (file) order; out-of-range row lists are rejected; scalar rows count from the end. *)
From Coq Require Import ZifyBool Sorted.
From EsVerif.Common Require Import Base.
From EsVerif.C02 Require Import Arange Gen Model Spec SliceProofs.

Definition asc (l : list Z) : Prop := StronglySorted Z.lt l.

(* a cursor that has consumed the head a of an ascending list inside [lo, hi) faces an ascending list inside
   [a + 1, hi): the step of every induction over the rows or columns a loop visits *)
Lemma asc_cons_inv lo hi a u : asc (a :: u) -> Forall (fun x => lo <= x < hi) (a :: u) ->
  lo <= a < hi /\ asc u /\ Forall (fun x => a + 1 <= x < hi) u.
Proof.
  intros A R. inversion A as [|? ? A' F]; subst. inversion R as [|? ? Ra R']; subst.
  split; [exact Ra|]. split; [exact A'|].
  rewrite Forall_forall in *. intros y Hy. specialize (F _ Hy). specialize (R' _ Hy). lia.
Qed.

(* ------------------------------------------------------------------ indexing a list by every position gives it back *)
Lemma seq_nth_gen {A} (d : A) : forall (l : list A) s, map (fun j => nth (j - s) l d) (seq s (length l)) = l.
Proof.
  induction l as [|a u IH]; intro s; simpl; [reflexivity|]. f_equal.
  - rewrite Nat.sub_diag. reflexivity.
  - etransitivity; [|apply (IH (S s))]. apply map_ext_in. intros j Hj. apply in_seq in Hj.
    replace (j - s)%nat with (S (j - S s)) by lia. reflexivity.
Qed.

Lemma seq_nth_all {A} (l : list A) (d : A) : map (fun j => nth j l d) (seq 0 (length l)) = l.
Proof. etransitivity; [|apply (seq_nth_gen d l 0)]. apply map_ext. intro j. rewrite Nat.sub_0_r. reflexivity. Qed.

(* in range, the default plays no part *)
Lemma nth_map_in {A B} (g : A -> B) l j d d' : (j < length l)%nat -> nth j (map g l) d' = g (nth j l d).
Proof. intro H. rewrite (nth_indep _ d' (g d)) by (rewrite map_length; exact H). apply map_nth. Qed.

Lemma zseq_of_seq n : forall s, zseq (Z.of_nat s) n = map Z.of_nat (seq s n).
Proof. induction n as [|n IH]; intro s; simpl; [reflexivity|]. rewrite <- IH. do 2 f_equal. lia. Qed.

Lemma nth_zseq_id {A} (d : A) (l : list A) : map (fun i => nth (Z.to_nat i) l d) (zseq 0 (length l)) = l.
Proof.
  change 0 with (Z.of_nat 0). rewrite zseq_of_seq, map_map. etransitivity; [|apply (seq_nth_all l d)].
  apply map_ext. intro j. rewrite Nat2Z.id. reflexivity.
Qed.

(* ------------------------------------------------------------------ sorted duplicate-free lists *)
Lemma asc_unique l1 : forall l2, asc l1 -> asc l2 -> (forall x, In x l1 <-> In x l2) -> l1 = l2.
Proof.
  induction l1 as [|a t IH]; intros [|b u] H1 H2 E.
  - reflexivity.
  - exfalso. apply (proj2 (E b)). left; reflexivity.
  - exfalso. apply (proj1 (E a)). left; reflexivity.
  - inversion H1 as [|? ? S1 F1]; inversion H2 as [|? ? S2 F2]; subst.
    rewrite Forall_forall in F1, F2.
    assert (a = b).
    { destruct (proj1 (E a) (or_introl eq_refl)) as [->|Ha]; [reflexivity|].
      destruct (proj2 (E b) (or_introl eq_refl)) as [<-|Hb]; [reflexivity|].
      specialize (F1 _ Hb). specialize (F2 _ Ha). lia. }
    subst b. f_equal. apply IH; auto. intro x. split; intro Hx.
    + destruct (proj1 (E x) (or_intror Hx)) as [<-|]; [specialize (F1 _ Hx); lia|assumption].
    + destruct (proj2 (E x) (or_intror Hx)) as [<-|]; [specialize (F2 _ Hx); lia|assumption].
Qed.

Lemma insert_u_In x l y : In y (insert_u x l) <-> x = y \/ In y l.
Proof.
  induction l as [|a t IH]; simpl; [tauto|].
  destruct (x <? a); simpl; [tauto|].
  destruct (Z.eqb_spec x a) as [->|_]; simpl; [tauto|]. rewrite IH. tauto.
Qed.

Lemma insert_u_asc x l : asc l -> asc (insert_u x l).
Proof.
  unfold asc. induction l as [|a t IH]; intro H; simpl.
  - constructor; constructor.
  - inversion H as [|? ? S F]; subst.
    destruct (x <? a) eqn:E1.
    + constructor; [assumption|]. constructor; [lia|]. rewrite Forall_forall in *. intros y Hy. specialize (F _ Hy). lia.
    + destruct (x =? a) eqn:E2; [assumption|].
      constructor; [apply IH; assumption|]. rewrite Forall_forall in *. intros y Hy.
      apply insert_u_In in Hy as [<-|Hy]; [lia|auto].
Qed.

Lemma sort_uniq_asc l : asc (sort_uniq l).
Proof. induction l; simpl; [constructor|apply insert_u_asc; assumption]. Qed.

Lemma sort_uniq_In l y : In y (sort_uniq l) <-> In y l.
Proof. induction l as [|a t IH]; simpl; [tauto|]. rewrite insert_u_In, IH. tauto. Qed.

Lemma zseq_asc m : forall s, asc (zseq s m).
Proof.
  induction m as [|m IH]; intro s; simpl; constructor; [apply IH|].
  rewrite Forall_forall. intros y Hy. apply zseq_In in Hy. lia.
Qed.

Lemma filter_asc (p : Z -> bool) l : asc l -> asc (filter p l).
Proof.
  unfold asc. induction 1 as [|a t S IH F]; simpl; [constructor|].
  destruct (p a); [|assumption]. constructor; [assumption|].
  rewrite Forall_forall in *. intros y Hy. apply filter_In in Hy as [Hy _]. auto.
Qed.

Lemma zmem_In l x : zmem l x = true <-> In x l.
Proof.
  unfold zmem. rewrite existsb_exists. split.
  - intros [y [Hy E]]. apply Z.eqb_eq in E. subst; assumption.
  - intro H. exists x. split; [assumption|apply Z.eqb_refl].
Qed.

Lemma members_in_order_asc m l : asc (members_in_order m l).
Proof. apply filter_asc, zseq_asc. Qed.

Lemma members_in_order_In m l y : 0 <= m -> In y (members_in_order m l) <-> 0 <= y < m /\ In y l.
Proof.
  intro Hm. unfold members_in_order. rewrite filter_In, zseq_In, zmem_In. rewrite Z2Nat.id by lia. intuition lia.
Qed.

Lemma sort_uniq_members m l : 0 <= m -> Forall (fun x => 0 <= x < m) l -> sort_uniq l = members_in_order m l.
Proof.
  intros Hm F. apply asc_unique; [apply sort_uniq_asc|apply members_in_order_asc|].
  intro x. rewrite sort_uniq_In, members_in_order_In by assumption. rewrite Forall_forall in F.
  split; [intro H; split; auto|tauto].
Qed.

Lemma asc_head_min a t x : asc (a :: t) -> In x (a :: t) -> a <= x.
Proof. intros H [->|Hx]; [lia|]. inversion H as [|? ? _ F]; subst. rewrite Forall_forall in F. specialize (F _ Hx). lia. Qed.

Lemma asc_last_max l : forall x, asc l -> In x l -> x <= last l 0.
Proof.
  induction l as [|a t IH]; intros x H Hx; [destruct Hx|].
  inversion H as [|? ? S F]; subst. destruct t as [|b u].
  - destruct Hx as [->|[]]. simpl; lia.
  - change (last (a :: b :: u) 0) with (last (b :: u) 0).
    destruct Hx as [<-|Hx]; [|apply IH; assumption].
    rewrite Forall_forall in F. assert (a < b) by (apply F; left; reflexivity).
    assert (b <= last (b :: u) 0) by (apply IH; [assumption|left; reflexivity]). lia.
Qed.

Lemma last_In (l : list Z) d : l <> [] -> In (last l d) l.
Proof.
  induction l as [|a t IH]; [congruence|]. intros _. destruct t as [|b u]; [left; reflexivity|].
  right. apply IH. discriminate.
Qed.

(* an ascending list inside [lo, hi) has at most hi - lo members; with exactly that many it is lo..hi-1 *)
Lemma asc_length_bound l : forall lo hi, asc l -> Forall (fun r => lo <= r < hi) l -> Z.of_nat (length l) <= Z.max 0 (hi - lo).
Proof.
  induction l as [|a u IH]; intros lo hi A R; simpl; [lia|].
  destruct (asc_cons_inv lo hi a u A R) as (Ra & A1 & R1).
  specialize (IH (a + 1) hi A1 R1). lia.
Qed.

Lemma asc_full m : forall (l : list Z) s, asc l -> Forall (fun r => s <= r < s + Z.of_nat m) l -> length l = m -> l = zseq s m.
Proof.
  induction m as [|m IH]; intros l s A R L; destruct l as [|a u]; simpl in L; try lia; [reflexivity|].
  destruct (asc_cons_inv _ _ a u A R) as (Ra & A1 & R1).
  pose proof (asc_length_bound u _ _ A1 R1) as B.
  assert (a = s) by lia. subst a. simpl. f_equal. apply IH; [exact A1| |lia].
  eapply Forall_impl; [|exact R1]. simpl. intros; lia.
Qed.

(* ------------------------------------------------------------------ Recfile._get_rows2read *)
(* its three steps: a single row goes through _fix_range, numpy.unique, then the empty selection or a test of the
   first and the last member *)
Definition fix_single (n : Z) (l : list Z) : list Z := match l with [x] => [fix_range_v n x false] | _ => l end.

Definition accept_rows (n : Z) (u : list Z) : result (option (list Z)) :=
  match u with
  | [] => Ok (Some [])
  | rmin :: _ => if (rmin <? 0) || (last u 0 >=? n) then Err EValue else Ok (Some u)
  end.

Lemma get_rows2read_steps n l : get_rows2read n (Some l) = accept_rows n (sort_uniq (fix_single n l)).
Proof. reflexivity. Qed.

Lemma fix_single_in_range n l : Forall (fun x => 0 <= x < n) l -> fix_single n l = l.
Proof.
  intro F. destruct l as [|x [|y t]]; try reflexivity. inversion F; subst. simpl. rewrite fix_range_v_scalar.
  replace (x <? 0) with false by lia. reflexivity.
Qed.

(* _fix_range only moves a negative row up by n: what lies outside [-n, n) stays outside [0, n) *)
Lemma fix_single_out_of_range n l x : In x l -> x < - n \/ n <= x ->
  exists y, In y (fix_single n l) /\ (y < 0 \/ n <= y).
Proof.
  intros Hx Hr. destruct l as [|y [|z t]]; [destruct Hx| |exists x; split; [exact Hx|lia]].
  destruct Hx as [->|[]]. exists (fix_range_v n x false). split; [left; reflexivity|].
  rewrite fix_range_v_scalar. destruct (x <? 0) eqn:E; lia.
Qed.

Lemma accept_rows_ok n u : (forall x, In x u -> 0 <= x < n) -> accept_rows n u = Ok (Some u).
Proof.
  intros R. destruct u as [|a t]; [reflexivity|]. unfold accept_rows.
  assert (0 <= a < n) by (apply R; left; reflexivity).
  assert (0 <= last (a :: t) 0 < n) by (apply R, last_In; discriminate).
  replace (a <? 0) with false by lia. replace (last (a :: t) 0 >=? n) with false by lia. reflexivity.
Qed.

(* on an ascending list the first and the last member bound all the others, so testing them is enough *)
Lemma accept_rows_rejects n u y : asc u -> In y u -> y < 0 \/ n <= y -> accept_rows n u = Err EValue.
Proof.
  intros A Hy Hr. destruct u as [|a t]; [destruct Hy|]. unfold accept_rows.
  pose proof (asc_head_min a t y A Hy). pose proof (asc_last_max (a :: t) y A Hy).
  destruct ((a <? 0) || (last (a :: t) 0 >=? n)) eqn:E; [reflexivity|lia].
Qed.

(* a row outside [0, n) that survives _fix_range is rejected *)
Lemma rows_rejected_after_fix n l y : In y (fix_single n l) -> y < 0 \/ n <= y -> get_rows2read n (Some l) = Err EValue.
Proof.
  intros Hy Hr. rewrite get_rows2read_steps.
  apply (accept_rows_rejects n _ y); [apply sort_uniq_asc|apply sort_uniq_In, Hy|exact Hr].
Qed.

Theorem rows_list_spec n l :
  0 <= n -> Forall (fun x => 0 <= x < n) l ->
  get_rows2read n (Some l) = Ok (Some (members_in_order n l)).
Proof.
  intros Hn F. rewrite get_rows2read_steps, (fix_single_in_range n l F), (sort_uniq_members n l Hn F).
  apply accept_rows_ok. intros x Hx. apply members_in_order_In in Hx; tauto.
Qed.

Theorem rows_scalar_spec n r :
  - n <= r < n -> get_rows2read n (Some [r]) = Ok (Some [r mod n]).
Proof.
  intro H. unfold get_rows2read. rewrite fix_range_v_scalar. simpl.
  assert (E : (if r <? 0 then n + r else r) = r mod n).
  { destruct (r <? 0) eqn:E1.
    - apply (Z.mod_unique_pos r n (-1) (n + r)); lia.
    - symmetry. apply Z.mod_small; lia. }
  rewrite E. assert (0 <= r mod n < n) by (apply Z.mod_pos_bound; lia).
  replace (r mod n <? 0) with false by lia. replace (r mod n >=? n) with false by lia. reflexivity.
Qed.

Theorem rows_list_rejected n l :
  (exists x, In x l /\ (x < - n \/ n <= x)) -> get_rows2read n (Some l) = Err EValue.
Proof.
  intros [x [Hx Hr]]. destruct (fix_single_out_of_range n l x Hx Hr) as [y [Hy Hyr]].
  exact (rows_rejected_after_fix n l y Hy Hyr).
Qed.

Theorem rows_empty_spec n : get_rows2read n (Some []) = Ok (Some []).
Proof. reflexivity. Qed.

(* ------------------------------------------------------------------ get_colnums *)
Lemma index_of_range names : forall c i k, index_of names c i = Some k -> i <= k < i + Z.of_nat (length names).
Proof.
  induction names as [|a t IH]; intros c i k H; simpl in *; [discriminate|].
  destruct (a =? c); [injection H as <-; lia|]. apply IH in H. lia.
Qed.

Lemma index_of_In names : forall c i k, index_of names c i = Some k -> In c names.
Proof.
  induction names as [|a u IH]; intros c i k H; simpl in H; [discriminate|].
  destruct (a =? c) eqn:E; [left; lia|right; eapply IH; exact H].
Qed.

Lemma index_of_complete names : forall c i, In c names -> exists k, index_of names c i = Some k.
Proof.
  induction names as [|a t IH]; intros c i H; [destruct H|]. simpl.
  destruct (a =? c) eqn:E; [eexists; reflexivity|]. destruct H as [->|H]; [lia|]. apply IH; assumption.
Qed.

(* with distinct names, get_colnum finds the position combine pairs the name with *)
Lemma index_of_combine names : NoDup names -> forall c i k,
  index_of names c i = Some k <-> In (c, k) (combine names (zseq i (length names))).
Proof.
  induction 1 as [|a t Hnin ND IH]; intros c i k; simpl; [split; [discriminate|tauto]|].
  destruct (Z.eqb_spec a c) as [->|Hne].
  - split; [intros [= ->]; left; reflexivity|]. intros [[= ->]|H]; [reflexivity|].
    apply in_combine_l in H. contradiction.
  - rewrite IH. split; [tauto|]. intros [[= E _]|H]; [contradiction|exact H].
Qed.

Lemma colnums_of_In names cs : forall l, colnums_of names cs = Ok l ->
  forall k, In k l <-> exists c, In c cs /\ index_of names c 0 = Some k.
Proof.
  induction cs as [|c t IH]; intros l H k; simpl in H.
  - inversion H; subst. simpl. split; [tauto|intros [c [[] _]]].
  - destruct (index_of names c 0) as [i|] eqn:E; [|discriminate].
    destruct (colnums_of names t) as [r|] eqn:E2; simpl in H; [|discriminate]. inversion H; subst.
    simpl. rewrite (IH r eq_refl k). split.
    + intros [<-|[c' [Hc' E']]]; [exists c; auto|exists c'; auto].
    + intros [c' [[<-|Hc'] E']]; [left; congruence|right; eauto].
Qed.

Lemma colnums_of_ok names cs : Forall (fun c => In c names) cs -> exists l, colnums_of names cs = Ok l.
Proof.
  induction 1 as [|c t Hc F [r IH]]; simpl; [eexists; reflexivity|].
  destruct (index_of_complete names c 0 Hc) as [k ->]. rewrite IH. simpl. eexists; reflexivity.
Qed.

(* Spec.pos_of was written independently of Model.index_of: here the two meet *)
Lemma pos_of_index_of names : forall c i, pos_of names c i = index_of names c i.
Proof. induction names as [|a t IH]; intros; simpl; [reflexivity|]. rewrite IH. reflexivity. Qed.

(* whatever the test p keeps, the positions kept are positions of the file *)
Lemma file_order_range (p : Z * Z -> bool) (names : list Z) s :
  Forall (fun k => s <= k < s + Z.of_nat (length names)) (map snd (filter p (combine names (zseq s (length names))))).
Proof.
  rewrite Forall_forall. intros k Hk. apply in_map_iff in Hk as [[c k'] [E H]]. simpl in E; subst k'.
  apply filter_In in H as [H _]. apply in_combine_r, zseq_In in H. exact H.
Qed.

Lemma map_snd_filter_asc (p : Z * Z -> bool) (names : list Z) s :
  asc (map snd (filter p (combine names (zseq s (length names))))).
Proof.
  revert s. induction names as [|a t IH]; intro s; simpl; [constructor|].
  destruct (p (a, s)); simpl; [|apply IH]. constructor; [apply IH|].
  eapply Forall_impl; [|apply (file_order_range p t (s + 1))]. simpl. intros; lia.
Qed.

Lemma file_order_cols_range (p : Z * Z -> bool) (names : list Z) :
  Forall (fun c => 0 <= c < Z.of_nat (length names)) (map snd (filter p (combine names (zseq 0 (length names))))).
Proof. exact (file_order_range p names 0). Qed.

Theorem columns_file_order names cs :
  NoDup names -> Forall (fun c => In c names) cs ->
  get_colnums names cs =
  Ok (map snd (filter (fun p => zmem cs (fst p)) (combine names (zseq 0 (length names))))).
Proof.
  intros ND F. unfold get_colnums. destruct (colnums_of_ok names cs F) as [l El]. rewrite El. simpl. f_equal.
  apply asc_unique; [apply sort_uniq_asc|apply map_snd_filter_asc|].
  intro k. rewrite sort_uniq_In, (colnums_of_In names cs l El k), in_map_iff. split.
  - intros [c [Hc E]]. exists (c, k). split; [reflexivity|]. apply filter_In.
    split; [apply index_of_combine; assumption|apply zmem_In, Hc].
  - intros [[c k'] [E H]]. simpl in E; subst k'. apply filter_In in H as [H1 H2]. exists c.
    split; [apply zmem_In, H2|apply index_of_combine; assumption].
Qed.
