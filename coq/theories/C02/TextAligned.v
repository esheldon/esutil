(* C02/TextAligned.v -- the alignment premise of TextProofs.v discharged for files written by esutil:
   the text that the model writer (C04/TextModel.v write_text) produces for a table_ok table outside
   C04's known class kf_leading_ws_after_numeric, whose strings contain no end-of-line character, is
   line-aligned: reading row j leaves the stream at the start of line j+1, and so does skipping one
   line.  Hence the text cursor loop returns exactly the selected rows / columns of the full read. *)
From Coq Require Import Sorted.
From Coq.Strings Require Import Byte.
From EsVerif.Common Require Import Base Bytes.
From EsVerif.C04 Require Import TextModel Spec DecProofs ScanProofs RoundTrip.
From EsVerif.C02 Require Import RowsProofs TextProofs.

Definition noff (l : list byte) : Prop := Forall (fun b => byte_eqb b xff = false) l.

Lemma numchar_noff b : numchar b = true -> byte_eqb b xff = false.
Proof.
  intro H. destruct (byte_eqb b xff) eqn:E; [|reflexivity].
  apply byte_eqb_eq in E. subst b. discriminate H.
Qed.

Lemma tok_ok_noff k tok : tok_ok k tok = true -> noff tok.
Proof.
  intro H. destruct (tok_ok_run k tok H) as [s [R _]]. apply run_numchars in R.
  unfold noff. eapply Forall_impl; [|exact R]. intros b Hb. apply numchar_noff. exact Hb.
Qed.

(* one line is skipped by skip_text_rows exactly when it contains no newline and no 0xff before its end *)
Lemma skip_one : forall l rest, noff l -> noeol l -> skip_lines 1 (l ++ nl :: rest) = Ok rest.
Proof.
  induction l as [|b l IH]; intros rest H1 H2.
  - reflexivity.
  - inversion H1 as [|? ? Hb H1']; subst. inversion H2 as [|? ? Hn H2']; subst.
    unfold is_eol in Hn. apply orb_false_iff in Hn. destruct Hn as [Hn _].
    change (skip_lines 1 ((b :: l) ++ nl :: rest)) with
      (if byte_eqb b xff then Err ERuntime else if byte_eqb b nl then skip_lines 0 (l ++ nl :: rest) else skip_lines 1 (l ++ nl :: rest)).
    rewrite Hb, Hn. apply IH; assumption.
Qed.

Lemma write_rows_cons F d fs r rows :
  write_rows F d fs (r :: rows) = write_fields F d fs r ++ nl :: write_rows F d fs rows.
Proof. unfold write_rows. cbn [map concat]. unfold write_row at 1. rewrite <- app_assoc. reflexivity. Qed.

Section Aligned.
  Variable F P : nat -> list byte -> list byte.
  Variable d : byte.
  Hypothesis Hd : delim_ok d.
  Hypothesis Hdff : byte_eqb d xff = false.

  Lemma join_els_noff : forall ts, Forall noff ts -> noff (join_els d ts).
  Proof.
    induction ts as [|t ts IH]; intro H; [constructor|].
    destruct ts as [|t2 ts]; [exact (Forall_inv H)|].
    rewrite (join_els_2 d). apply Forall_app. split; [exact (Forall_inv H)|].
    constructor; [exact Hdff|]. apply IH. exact (Forall_inv_tail H).
  Qed.

  Lemma cell_noff k e : cell_good F P k e -> noff (cell_text F k e).
  Proof.
    intros Hg. destruct (is_str k) eqn:Es.
    - destruct k; try discriminate. destruct Hg as [_ Hg]. exact Hg.
    - destruct (num_cell F P k e Es Hg) as [Htok _]. eapply tok_ok_noff. exact Htok.
  Qed.

  Lemma write_fields_noff : forall fs r,
    row_ok_b fs r = true -> row_contract_b F P fs r = true -> noff (write_fields F d fs r).
  Proof.
    induction fs as [|f fs IH]; intros r Hr Hc; [constructor|].
    destruct r as [|els r]; [constructor|].
    destruct (row_facts F P d f fs els r Hr Hc) as [_ [Hg [Hr' Hc']]].
    cbn [write_fields]. apply Forall_app. split; [|apply Forall_app; split].
    - apply join_els_noff. rewrite Forall_forall in *.
      intros x Hx. apply in_map_iff in Hx. destruct Hx as [e [<- Hin]]. apply cell_noff. apply Hg. exact Hin.
    - destruct fs; [constructor|]. constructor; [exact Hdff|constructor].
    - apply IH; assumption.
  Qed.

  (* ---------------------------------------------------------------- every line of the written text *)
  Variable fs : list fld.
  Hypothesis Hne : fs <> [].
  Hypothesis Hf : forallb fld_ok_b fs = true.

  Lemma lines_aligned : forall rows,
    forallb (row_ok_b fs) rows = true -> forallb (row_contract_b F P fs) rows = true ->
    forallb (row_noeol_b fs) rows = true ->
    (byte_eqb d space = false -> kf_rows d fs rows = false) ->
    forall j, (j < length rows)%nat ->
      read_row P d fs (repeat true (length fs)) (write_rows F d fs (skipn j rows))
      = Ok (rt_row F P fs (nth j rows []), write_rows F d fs (skipn (S j) rows))
      /\ skip_lines 1 (write_rows F d fs (skipn j rows)) = Ok (write_rows F d fs (skipn (S j) rows)).
  Proof using Hd Hdff Hne Hf.
    induction rows as [|r rows IH]; intros Hr Hc Hn Hkf j Hj; [destruct (Nat.nlt_0_r j Hj)|].
    cbn [forallb] in Hr, Hc, Hn. apply andb_true_iff in Hr, Hc, Hn.
    destruct Hr as [Hr Hrs], Hc as [Hc Hcs], Hn as [Hn Hns].
    (* outside the known class: neither this row followed by the next, nor any later pair *)
    eassert (Hkf' : byte_eqb d space = false -> _ /\ kf_rows d fs rows = false)
      by (intro Esp; apply orb_false_iff; exact (Hkf Esp)).
    destruct j as [|j].
    - cbn [skipn nth]. rewrite write_rows_cons. split.
      + apply (read_row_ok F P d Hd fs r (write_rows F d fs rows)
                 (match rows with r2 :: _ => row_head_unsafe d fs r2 | [] => false end) Hne Hf Hr Hc).
        * intro Hu. destruct rows as [|r2 rows]; [exact I|].
          cbn [forallb] in Hrs, Hcs. apply andb_true_iff in Hrs. apply andb_true_iff in Hcs.
          rewrite write_rows_cons.
          apply (write_fields_head F P d Hd); try assumption; [apply Hrs|apply Hcs].
        * intro Esp. apply (Hkf' Esp).
      + apply skip_one; [apply write_fields_noff; assumption|apply (write_fields_noeol F P d Hd); assumption].
    - cbn [skipn nth]. apply IH; try assumption.
      + intro Esp. apply (Hkf' Esp).
      + apply Nat.succ_lt_mono. exact Hj.
  Qed.
End Aligned.

Section Correct.
  Variable F P : nat -> list byte -> list byte.
  Variable d : byte.
  Variable t : table.
  Hypothesis Hd : delim_ok d.
  Hypothesis Hdff : byte_eqb d xff = false.
  Hypothesis Ht : table_ok t.
  Hypothesis Hc : fcontract F P t.
  Hypothesis Hn : strings_noeol t.
  Hypothesis Hk : kf_leading_ws_after_numeric d t = false.

  Let fs := tdt t.
  Let nrows := map (to_native_row fs) (trows t).

  (* the stream at the start of line j, the row the full read returns there (kept columns only) *)
  Definition st_of (j : nat) : list byte := write_rows F d fs (skipn j nrows).
  Definition rw_of (keep : list bool) (j : nat) : row := select keep (rt_row F P fs (nth j nrows [])).

  Lemma written_text_aligned keep : length keep = length fs ->
    aligned P d fs keep st_of (rw_of keep) (length (trows t)).
  Proof using Hd Hdff Ht Hc Hn Hk.
    intro Hkeep. unfold table_ok, table_ok_b in Ht.
    apply andb_true_iff in Ht. destruct Ht as [Hok Hrows]. apply andb_true_iff in Hok. destruct Hok as [Hok _].
    apply andb_true_iff in Hok. destruct Hok as [Hf Hf1].
    assert (Hne : fs <> []) by (subst fs; destruct (tdt t); [discriminate Hf1|discriminate]).
    assert (R1 : forallb (row_ok_b fs) nrows = true).
    { subst nrows. apply forallb_Forall. apply forallb_Forall in Hrows.
      rewrite Forall_forall in *. intros x Hx. apply in_map_iff in Hx. destruct Hx as [r [<- Hin]].
      apply row_ok_native. apply Hrows. exact Hin. }
    assert (R2 : forallb (row_contract_b F P fs) nrows = true).
    { subst nrows. rewrite forallb_map'. exact Hc. }
    assert (R3 : forallb (row_noeol_b fs) nrows = true).
    { subst nrows. rewrite forallb_map'. apply forallb_Forall. unfold strings_noeol, strings_noeol_b in Hn.
      apply forallb_Forall in Hn. eapply Forall_impl; [|exact Hn]. intros r Hr. apply row_noeol_native. exact Hr. }
    assert (R4 : byte_eqb d space = false -> kf_rows d fs nrows = false).
    { intro Esp. subst nrows. rewrite kf_rows_native. unfold kf_leading_ws_after_numeric in Hk.
      rewrite Esp in Hk. simpl in Hk. exact Hk. }
    intros j Hj.
    assert (Hj' : (j < length nrows)%nat) by (subst nrows; rewrite map_length; exact Hj).
    destruct (lines_aligned F P d Hd Hdff fs Hne Hf nrows R1 R2 R3 R4 j Hj') as [A1 A2].
    split; [|exact A2]. unfold st_of, rw_of. apply read_row_keep; [exact Hkeep|exact A1].
  Qed.

  (* the skip-and-read loop of read_text_columns on the written text: the selected rows of the full read,
     each projected on the kept columns *)
  Theorem cursor_text_correct keep rows :
    length keep = length fs ->
    StronglySorted Z.lt rows -> Forall (fun r => 0 <= r < Z.of_nat (length (trows t))) rows ->
    read_rows_all P d fs keep (length (trows t)) (write_text F d t)
    = Ok (map (select keep) (trows (expected F P t)))
    /\ read_rows_sel P d fs keep rows 0 (write_text F d t)
    = Ok (map (fun r => select keep (nth (Z.to_nat r) (trows (expected F P t)) [])) rows).
  Proof using Hd Hdff Ht Hc Hn Hk.
    intros Hkeep As R.
    destruct (cursor_text_partial P d fs keep st_of (rw_of keep) (length (trows t)) rows
                (written_text_aligned keep Hkeep) As R) as [E1 E2].
    assert (S0 : st_of 0 = write_text F d t) by reflexivity.
    rewrite S0 in E1, E2.
    assert (RW : forall j, (j < length (trows t))%nat ->
                 rw_of keep j = select keep (nth j (trows (expected F P t)) [])).
    { intros j Hj. unfold rw_of, expected. cbn [trows]. unfold nrows, fs.
      rewrite (nth_map_in (to_native_row (tdt t)) (trows t) j [] [] Hj).
      rewrite (nth_map_in (fun r => rt_row F P (tdt t) (to_native_row (tdt t) r)) (trows t) j [] [] Hj). reflexivity. }
    split.
    - rewrite E1. f_equal.
      assert (L : length (trows (expected F P t)) = length (trows t)) by (unfold expected; cbn [trows]; apply map_length).
      transitivity (map (fun j => select keep (nth j (trows (expected F P t)) [])) (seq 0 (length (trows t)))).
      + apply map_ext_in. intros j Hj. apply in_seq in Hj. apply RW. lia.
      + rewrite <- L. rewrite <- (map_map (fun j => nth j (trows (expected F P t)) []) (select keep)).
        rewrite seq_nth_all. reflexivity.
    - rewrite E2. f_equal. apply map_ext_in. intros r Hr. rewrite Forall_forall in R. specialize (R _ Hr). apply RW. lia.
  Qed.
End Correct.
