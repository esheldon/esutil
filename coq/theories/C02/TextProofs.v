(* C02/TextProofs.v -- the text cursor loop (C04/TextModel.v read_text_columns) for a row/column subset,
   PARTIAL: proved relative to the alignment premise [aligned] (the stream is at the start of line j
   after j lines have been read or skipped), which is what C04's scanner lemmas establish for files
   written by the text writer; it is not re-proved here. *)
From Coq Require Import Sorted.
From Coq.Strings Require Import Byte.
From EsVerif.Common Require Import Base Bytes.
From EsVerif.C04 Require Import TextModel.
From EsVerif.C02 Require Import Arange Model Spec RowsProofs.

Section Text.
  Variable P : nat -> list byte -> list byte.
  Variable d : byte.

  (* the columns marked in keep, in file order *)
  Fixpoint select (keep : list bool) (r : row) : row :=
    match keep, r with
    | k :: keep', x :: r' => if k then x :: select keep' r' else select keep' r'
    | _, _ => []
    end.

  (* skipping a column moves the stream exactly as reading it: a column subset of a row is the
     projection of the full row, and the stream ends at the same place *)
  Lemma read_row_keep fs : forall keep l rfull l',
    length keep = length fs ->
    read_row P d fs (repeat true (length fs)) l = Ok (rfull, l') ->
    read_row P d fs keep l = Ok (select keep rfull, l').
  Proof.
    induction fs as [|f fs IH]; intros keep l rfull l' Hk H; simpl in *.
    - inversion H; subst. destruct keep; reflexivity.
    - destruct keep as [|k keep]; [discriminate|]. simpl in *.
      destruct (read_field P d f l) as [[els r]|e]; simpl in *; [|discriminate].
      destruct (read_row P d fs (repeat true (length fs)) r) as [[rest r2]|e] eqn:E; simpl in *; [|discriminate].
      inversion H; subst. rewrite (IH keep r rest l' ltac:(lia) E). simpl. destruct k; reflexivity.
  Qed.

  Lemma skip_lines_S n : forall l, skip_lines (S n) l = bind (skip_lines 1 l) (skip_lines n).
  Proof.
    induction l as [|b r IH]; [reflexivity|].
    change (skip_lines (S n) (b :: r)) with
      (if byte_eqb b xff then Err ERuntime else if byte_eqb b TextModel.nl then skip_lines n r else skip_lines (S n) r).
    change (skip_lines 1 (b :: r)) with
      (if byte_eqb b xff then Err ERuntime else if byte_eqb b TextModel.nl then skip_lines 0 r else skip_lines 1 r).
    destruct (byte_eqb b xff); [reflexivity|]. destruct (byte_eqb b TextModel.nl); [reflexivity|]. exact IH.
  Qed.

  (* the cursor only moves forward, and skipping no line is no skip *)
  Lemma read_rows_sel_step fs keep r rs cur l : cur <= r ->
    read_rows_sel P d fs keep (r :: rs) cur l =
    (do l1 <- skip_lines (Z.to_nat (r - cur)) l;
     do (x, l2) <- read_row P d fs keep l1;
     do xs <- read_rows_sel P d fs keep rs (r + 1) l2;
     Ok (x :: xs)).
  Proof.
    intro H. cbn [read_rows_sel]. destruct (Z.ltb_spec cur r); [reflexivity|].
    replace cur with r by lia. rewrite Z.sub_diag. reflexivity.
  Qed.

  Variables (fs : list fld) (keep : list bool).
  (* st j = the stream at the start of line j; rw j = the (projected) row read there *)
  Variables (st : nat -> list byte) (rw : nat -> row) (n : nat).
  Definition aligned : Prop :=
    forall j, (j < n)%nat ->
      read_row P d fs keep (st j) = Ok (rw j, st (S j)) /\ skip_lines 1 (st j) = Ok (st (S j)).
  Hypothesis A : aligned.

  Lemma skip_many k : forall j, (j + k <= n)%nat -> skip_lines k (st j) = Ok (st (j + k)%nat).
  Proof using A.
    induction k as [|k IH]; intros j H.
    - simpl. rewrite Nat.add_0_r. reflexivity.
    - rewrite skip_lines_S. destruct (A j ltac:(lia)) as [_ ->]. simpl bind.
      rewrite IH by lia. f_equal. f_equal. lia.
  Qed.

  Lemma read_all k : forall j, (j + k <= n)%nat ->
    read_rows_all P d fs keep k (st j) = Ok (map rw (seq j k)).
  Proof using A.
    induction k as [|k IH]; intros j H; [reflexivity|]. simpl.
    destruct (A j ltac:(lia)) as [-> _]. simpl. rewrite IH by lia. reflexivity.
  Qed.

  (* the skip-and-read loop over explicit ascending in-range row numbers returns exactly those rows *)
  Lemma read_sel : forall rows cur, (cur <= n)%nat ->
    asc rows -> Forall (fun r => Z.of_nat cur <= r < Z.of_nat n) rows ->
    read_rows_sel P d fs keep rows (Z.of_nat cur) (st cur) = Ok (map (fun r => rw (Z.to_nat r)) rows).
  Proof using A.
    induction rows as [|r rs IH]; intros cur Hc As R; [reflexivity|].
    destruct (asc_cons_inv _ _ r rs As R) as (Rr & As' & R').
    rewrite read_rows_sel_step, skip_many by lia. cbn [bind].
    replace (cur + Z.to_nat (r - Z.of_nat cur))%nat with (Z.to_nat r) by lia.
    destruct (A (Z.to_nat r) ltac:(lia)) as [-> _]. cbn [bind map].
    replace (r + 1) with (Z.of_nat (S (Z.to_nat r))) by lia.
    rewrite (IH (S (Z.to_nat r))); [reflexivity|lia|assumption|].
    eapply Forall_impl; [|exact R']. simpl. intros; lia.
  Qed.
End Text.

(* Records::read_text_columns for sorted duplicate-free in-range rows: the selected rows of the full read,
   each projected on the kept columns -- relative to the alignment premise *)
Theorem cursor_text_partial P d fs keep st rw n rows :
  aligned P d fs keep st rw n ->
  StronglySorted Z.lt rows -> Forall (fun r => 0 <= r < Z.of_nat n) rows ->
  read_rows_all P d fs keep n (st O) = Ok (map rw (seq 0 n)) /\
  read_rows_sel P d fs keep rows 0 (st O) = Ok (map (fun r => rw (Z.to_nat r)) rows).
Proof.
  intros A As R. split.
  - apply (read_all P d fs keep st rw n A n 0). lia.
  - apply (read_sel P d fs keep st rw n A rows 0 ltac:(lia) As). exact R.
Qed.
