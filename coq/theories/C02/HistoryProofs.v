(* C02/HistoryProofs.v -- sequences of calls.  The model has no state: run_history answers each call of a
   sequence as if it were made alone; the or-ed verdict of a sequence is clean exactly when every call's verdict is. *)
From Coq.Strings Require Import Byte.
From EsVerif.Common Require Import Base Bytes.
From EsVerif.C02 Require Import Model Spec Exec.

Definition run_history (P : nat -> list byte -> list byte) (calls : list (rfile * request)) : list (result value) :=
  map (fun c => run_request P (fst c) (snd c)) calls.

Theorem model_history_free P pre c post :
  run_history P (pre ++ c :: post) = run_history P pre ++ run_request P (fst c) (snd c) :: run_history P post.
Proof. unfold run_history. rewrite map_app. reflexivity. Qed.

Definition is_verdict (v : Z) : Prop := v = 0 \/ v = 1 \/ v = 2 \/ v = 3.

Lemma v_seq_verdict l : Forall is_verdict l -> is_verdict (v_seq l).
Proof.
  induction 1 as [|v l Hv _ IH]; [left; reflexivity|]. simpl.
  destruct Hv as [-> | [-> | [-> | ->]]], IH as [-> | [-> | [-> | ->]]]; unfold is_verdict; cbn; auto.
Qed.

(* no call of the sequence is a failing input (verdict >= 2) iff the or-ed verdict is < 2 *)
Theorem v_seq_clean l : Forall is_verdict l -> (v_seq l < 2 <-> Forall (fun v => v < 2) l).
Proof.
  induction 1 as [|v l Hv Hl IH]; [simpl; split; [constructor|lia]|].
  pose proof (v_seq_verdict l Hl) as Hs. simpl. split.
  - intro H. assert (v < 2 /\ v_seq l < 2).
    { destruct Hv as [-> | [-> | [-> | ->]]], Hs as [E|[E|[E|E]]]; rewrite E in *; cbn in H; lia. }
    constructor; [tauto|apply IH; tauto].
  - intro H. inversion H as [|? ? H1 H2]; subst. apply IH in H2.
    destruct Hv as [-> | [-> | [-> | ->]]], Hs as [E|[E|[E|E]]]; rewrite E in *; cbn; lia.
Qed.
