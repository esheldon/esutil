(* C02/RequestInst.v -- the two kinds of files for which the request-level theorem is instantiated:
   well-formed binary files (CursorProofs.wf_bin) and text files written by the writer (wf_text). *)
From Coq.Strings Require Import Byte.
From EsVerif.Common Require Import Base Bytes.
From EsVerif.C04 Require TextModel Spec RoundTrip.
From EsVerif.C02 Require Import Arange Gen Model Spec SliceProofs RowsProofs CursorProofs TextProofs TextAligned RequestProofs.

(* ------------------------------------------------------------------ binary *)
Lemma wf_bin_row_length f t tail : wf_bin f t tail -> Forall (fun r => length r = length (rf_names f)) t.
Proof.
  intros [_ _ Wr _ Wcn]. eapply Forall_impl; [|exact Wr]. unfold row_ok. intros r Hr.
  rewrite Wcn, <- Hr, map_length. reflexivity.
Qed.

Lemma binary_data_ok P f t tail : wf_bin f t tail -> t <> [] ->
  forall colnums rows2,
    asc colnums -> Forall (fun c => 0 <= c < Z.of_nat (length (rf_names f))) colnums -> rows_ok (rf_nrows f) rows2 ->
    data_step P f colnums rows2 = Ok (sel_table t (rows_of (length t) rows2) colnums).
Proof.
  intros W Hne cols rows2 Ac Rc Rok. pose proof W as [Wb Wd Wr Wn Wcn].
  unfold data_step. rewrite Wb.
  destruct ((Z.of_nat (length cols) =? rf_ncols f) &&
            match rows2 with None => true | Some l => Z.of_nat (length l) =? rf_nrows f end) eqn:E.
  - (* as many distinct in-range columns and rows as the file has: all of them, read as slice(0, nrows, 1) *)
    apply andb_true_iff in E as [E1 E2]. unfold rf_ncols in E1.
    assert (Ec : cols = zseq 0 (length (rf_names f))) by (apply asc_full; [assumption|exact Rc|lia]).
    assert (Er : rows_of (length t) rows2 = zseq 0 (length t)).
    { destruct rows2 as [l|]; [|reflexivity]. destruct Rok as [Al Rl]. rewrite Wn in Rl. simpl in E2 |- *.
      apply asc_full; [assumption|exact Rl|lia]. }
    rewrite (read_binary_slice_rows f t tail) by (try assumption; lia).
    rewrite py_range_all, Wn, Nat2Z.id, Ec, Er by lia. f_equal. symmetry.
    apply sel_table_allcols; [apply (wf_bin_row_length f t tail W)|apply zseq0_range].
  - unfold read_columns. rewrite Wb.
    rewrite (cursor_binary_columns_correct f t tail cols rows2 W Hne Ac); [reflexivity|rewrite <- Wcn; exact Rc|].
    destruct rows2; [exact Rok|exact I].
Qed.

(* ------------------------------------------------------------------ text *)
Import TextModel.

(* the kept columns of a full row, for the flags read_text_columns derives from ascending column numbers *)
Lemma select_all_true : forall (r : row), select (repeat true (length r)) r = r.
Proof. induction r as [|x r IH]; simpl; [reflexivity|]. f_equal. exact IH. Qed.

(* the cells kept by a mask computed from the positions are the cells at the positions that pass the test *)
Lemma select_filter (p : Z -> bool) : forall (r : row) s,
  select (map p (zseq s (length r))) r
  = map (fun i => nth (Z.to_nat (i - s)) r []) (filter p (zseq s (length r))).
Proof.
  induction r as [|x r IH]; intro s; [reflexivity|]. cbn [length zseq map select filter].
  assert (Sh : map (fun i => nth (Z.to_nat (i - s)) (x :: r) []) (filter p (zseq (s + 1) (length r)))
               = map (fun i => nth (Z.to_nat (i - (s + 1))) r []) (filter p (zseq (s + 1) (length r)))).
  { apply map_ext_in. intros i Hi. apply filter_In in Hi as [Hi _]. apply zseq_In in Hi.
    replace (Z.to_nat (i - s)) with (S (Z.to_nat (i - (s + 1)))) by lia. reflexivity. }
  destruct (p s); cbn [map]; rewrite Sh, <- IH; [rewrite Z.sub_diag|]; reflexivity.
Qed.

(* read_text_columns keeps the positions that occur in cols: for ascending in-range cols, cols themselves *)
Lemma select_keep_flags (r : row) cols :
  asc cols -> Forall (fun c => 0 <= c < Z.of_nat (length r)) cols ->
  select (keep_flags (length r) (Some cols)) r = map (fun c => nth (Z.to_nat c) r []) cols.
Proof.
  intros A R. unfold keep_flags. destruct (length cols =? length r)%nat eqn:E.
  - apply Nat.eqb_eq in E. rewrite select_all_true, (asc_full (length r) cols 0 A R E). symmetry. apply nth_zseq_id.
  - change (fun i => existsb (Z.eqb i) cols) with (zmem cols). rewrite (select_filter (zmem cols) r 0).
    replace (filter (zmem cols) (zseq 0 (length r))) with (members_in_order (Z.of_nat (length r)) cols)
      by (unfold members_in_order; rewrite Nat2Z.id; reflexivity).
    rewrite members_in_order_asc_id by (try assumption; lia).
    apply map_ext. intro c. rewrite Z.sub_0_r. reflexivity.
Qed.

Lemma rt_row_length F P : forall fs r, Spec.row_ok_b fs r = true -> length (Spec.rt_row F P fs r) = length fs.
Proof.
  induction fs as [|f fs IH]; intros r H; destruct r as [|els r]; simpl in *; try discriminate; [reflexivity|].
  apply andb_true_iff in H as [_ H]. rewrite (IH r H). reflexivity.
Qed.

Lemma nth_map_default {A B} (g : A -> B) l n d d' : g d = d' -> nth n (map g l) d' = g (nth n l d).
Proof. intros <-. apply map_nth. Qed.

Lemma cell_of_full (X : list row) i j :
  nth j (nth i (map (map (@concat byte)) X) []) [] = concat (nth j (nth i X []) []).
Proof.
  rewrite (nth_map_default (map (@concat byte)) X i [] [] eq_refl).
  apply (nth_map_default (@concat byte) (nth i X []) j [] [] eq_refl).
Qed.

Record wf_text (F P : nat -> list byte -> list byte) (f : rfile) (tb : table) : Prop := {
  wt_ascii : rf_ascii f = true;
  wt_flds : rf_flds f = tdt tb;
  wt_data : rf_data f = write_text F (rf_delim f) tb;
  wt_n : rf_nrows f = Z.of_nat (length (trows tb));
  wt_names : length (rf_names f) = length (tdt tb);
  wt_ok : Spec.table_ok tb;
  wt_contract : Spec.fcontract F P tb;
  wt_noeol : Spec.strings_noeol tb;
  wt_kf : Spec.kf_leading_ws_after_numeric (rf_delim f) tb = false;
  wt_delim : Spec.delim_ok (rf_delim f);
  wt_dff : byte_eqb (rf_delim f) xff = false
}.

(* the full read of such a file, cell by cell (C04: the native image with floats through P o F) *)
Definition full_text (F P : nat -> list byte -> list byte) (tb : table) : list (list cell) :=
  map (map (@concat byte)) (trows (Spec.expected F P tb)).

Lemma expected_row_length F P tb : Spec.table_ok tb ->
  Forall (fun r => length r = length (tdt tb)) (trows (Spec.expected F P tb)).
Proof.
  intro Ht. unfold Spec.table_ok, Spec.table_ok_b in Ht. apply andb_true_iff in Ht as [_ Hrows].
  unfold Spec.expected. cbn [trows]. rewrite Forall_forall. intros x Hx. apply in_map_iff in Hx as [r [<- Hin]].
  apply rt_row_length. apply RoundTrip.row_ok_native. rewrite forallb_forall in Hrows. apply Hrows. exact Hin.
Qed.

Lemma text_data_ok F P f tb : wf_text F P f tb ->
  forall colnums rows2,
    asc colnums -> Forall (fun c => 0 <= c < Z.of_nat (length (rf_names f))) colnums -> rows_ok (rf_nrows f) rows2 ->
    data_step P f colnums rows2 = Ok (sel_table (full_text F P tb) (rows_of (length (full_text F P tb)) rows2) colnums).
Proof.
  intros W cols rows2 Ac Rc Rok. destruct W as [Wa Wf Wd Wn Wnm Wok Wc Wne Wkf Wdl Wff].
  set (X := trows (Spec.expected F P tb)).
  assert (LX : length X = length (trows tb)) by (unfold X, Spec.expected; cbn [trows]; apply map_length).
  assert (Lfull : length (full_text F P tb) = length X) by (unfold full_text; apply map_length).
  set (keep := keep_flags (length (tdt tb)) (Some cols)).
  assert (Hkeep : length keep = length (tdt tb)).
  { unfold keep, keep_flags. destruct (length cols =? length (tdt tb))%nat; [apply repeat_length|].
    rewrite map_length. apply zseq_length. }
  assert (Rr : Forall (fun r => 0 <= r < Z.of_nat (length X)) (rows_of (length X) rows2)).
  { destruct rows2 as [l|]; [|apply zseq0_range]. destruct Rok as [_ Rl]. rewrite Wn, <- LX in Rl. exact Rl. }
  (* both branches of read_text_columns return the rows it was asked for, projected on the kept columns *)
  assert (READ : read_text_columns P (rf_delim f) (tdt tb) (rf_nrows f) rows2 (Some cols) (write_text F (rf_delim f) tb)
                 = Ok (map (fun r => select keep (nth (Z.to_nat r) X [])) (rows_of (length X) rows2))).
  { destruct (cursor_text_correct F P (rf_delim f) tb Wdl Wff Wok Wc Wne Wkf keep
                (match rows2 with Some l => l | None => [] end) Hkeep) as [EA ES].
    - destruct rows2 as [l|]; [apply Rok|constructor].
    - rewrite <- LX. destruct rows2 as [l|]; [exact Rr|constructor].
    - fold X in EA, ES. rewrite <- (nth_zseq_id ([] : row) X), map_map in EA.
      unfold read_text_columns. fold keep. rewrite Wn, Nat2Z.id.
      destruct rows2 as [l|]; simpl rows_of; [|exact EA].
      destruct (Z.of_nat (length l) =? Z.of_nat (length (trows tb))) eqn:E; [|exact ES].
      rewrite EA. do 2 f_equal. symmetry. apply asc_full; [apply Rok|exact Rr|lia]. }
  unfold data_step. rewrite Wa. unfold read_columns. rewrite Wa. unfold read_text_cols. rewrite Wf, Wd, READ. cbn [bind].
  rewrite Lfull. f_equal. rewrite map_map. apply map_ext_in. intros r Hr.
  rewrite Forall_forall in Rr. specialize (Rr r Hr).
  (* one row of the result: the kept cells are the requested columns *)
  assert (Lr : length (nth (Z.to_nat r) X []) = length (tdt tb)).
  { pose proof (expected_row_length F P tb Wok) as RL. rewrite Forall_forall in RL. apply RL, nth_In. fold X. lia. }
  unfold keep. rewrite <- Lr, select_keep_flags by (try assumption; rewrite Lr, <- Wnm; exact Rc).
  rewrite map_map. apply map_ext. intro c. symmetry. apply cell_of_full.
Qed.

(* ------------------------------------------------------------------ both kinds of file, one statement *)
Definition file_ok (P : nat -> list byte -> list byte) (f : rfile) (t : list (list cell)) : Prop :=
  (exists tail, wf_bin f t tail /\ t <> []) \/
  (exists F tb, wf_text F P f tb /\ t = full_text F P tb).

Lemma file_ok_facts P f t : file_ok P f t ->
  rf_nrows f = Z.of_nat (length t)
  /\ Forall (fun r => length r = length (rf_names f)) t
  /\ (forall colnums rows2, asc colnums -> Forall (fun c => 0 <= c < Z.of_nat (length (rf_names f))) colnums ->
        rows_ok (rf_nrows f) rows2 -> data_step P f colnums rows2 = Ok (sel_table t (rows_of (length t) rows2) colnums))
  /\ (rf_ascii f = false -> forall a b c, step_ok c ->
        recfile_getitem_rows P f (RSlice a b c)
        = Ok (VTable (zseq 0 (length (rf_names f))) (map (row_at t) (py_slice_rows (rf_nrows f) a b c)))).
Proof.
  intros [[tail [W Hne]]|[F [tb [W ->]]]].
  - pose proof W as [Wb Wd Wr Wn Wcn]. split; [exact Wn|]. split; [|split].
    + apply (wf_bin_row_length f t tail W).
    + apply (binary_data_ok P f t tail W Hne).
    + intros _ a b c Hc. apply (binary_getitem_slice P f t tail a b c W Hne Hc).
  - pose proof W as [Wa Wf Wd Wn Wnm Wok Wc Wne Wkf Wdl Wff]. split; [|split; [|split]].
    + unfold full_text. rewrite map_length. unfold Spec.expected. cbn [trows]. rewrite map_length. exact Wn.
    + pose proof (expected_row_length F P tb Wok) as RL. unfold full_text.
      rewrite Forall_forall in *. intros r Hr. apply in_map_iff in Hr as [x [<- Hx]]. rewrite map_length, Wnm. apply RL, Hx.
    + apply (text_data_ok F P f tb W).
    + intro H. rewrite Wa in H. discriminate.
Qed.

Theorem request_holds_any P f t q :
  file_ok P f t -> NoDup (rf_names f) -> holds (rf_nrows f) (rf_names f) t q (run_request P f q).
Proof.
  intros Hf ND. destruct (file_ok_facts P f t Hf) as [Hn [Hl [Hd Hs]]].
  apply (request_holds P f t Hn ND Hl Hd Hs).
Qed.

Theorem request_spec_binary P f t tail q :
  wf_bin f t tail -> t <> [] -> NoDup (rf_names f) ->
  holds (rf_nrows f) (rf_names f) t q (run_request P f q).
Proof. intros W Hne ND. apply request_holds_any; [left; exists tail; split; assumption|exact ND]. Qed.

Theorem request_spec_text F P f tb q :
  wf_text F P f tb -> NoDup (rf_names f) ->
  holds (rf_nrows f) (rf_names f) (full_text F P tb) q (run_request P f q).
Proof. intros W ND. apply request_holds_any; [right; exists F, tb; split; [exact W|reflexivity]|exact ND]. Qed.
