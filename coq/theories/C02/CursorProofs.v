(* C02/CursorProofs.v -- the binary cursor loops of records.cpp return the requested cells.
   A well-formed binary file: the data section is the concatenation of the memory images of its rows
   (possibly followed by other bytes), every row consisting of cells of the declared sizes. *)
From Coq.Strings Require Import Byte.
From EsVerif.Common Require Import Base Bytes.
From EsVerif.C02 Require Import Arange Gen Model Spec SliceProofs RowsProofs.

Definition cellsize (c : cell) : Z := Z.of_nat (length c).
Definition row_ok (sizes : list Z) (r : list cell) : Prop := map cellsize r = sizes.
Definition table_bytes (t : list (list cell)) : list byte := concat (map (@concat byte) t).

Record wf_bin (f : rfile) (t : list (list cell)) (tail : list byte) : Prop := {
  wf_binary : rf_ascii f = false;
  wf_data : rf_data f = table_bytes t ++ tail;
  wf_rows : Forall (row_ok (rf_sizes f)) t;
  wf_n : rf_nrows f = Z.of_nat (length t);
  wf_ncols : length (rf_names f) = length (rf_sizes f)
}.

Lemma seek_skipn d (s : list byte) : seek d s = skipn (Z.to_nat d) s.
Proof. unfold seek. destruct (d >? 0) eqn:E; [reflexivity|]. replace (Z.to_nat d) with O by lia. reflexivity. Qed.

Lemma seek_nonpos d (s : list byte) : d <= 0 -> seek d s = s.
Proof. intro H. unfold seek. destruct (Z.gtb_spec d 0); [lia|reflexivity]. Qed.

Lemma skipn_add {A} (a b : nat) (l : list A) : skipn (a + b) l = skipn b (skipn a l).
Proof. revert l; induction a as [|a IH]; intro l; [reflexivity|]. destruct l; simpl; [destruct b; reflexivity|apply IH]. Qed.

Lemma zsum_sizes_length (r : list cell) : zsum (map cellsize r) = Z.of_nat (length (concat r)).
Proof. unfold zsum. induction r as [|c t IH]; simpl; [reflexivity|]. rewrite app_length, IH. unfold cellsize. lia. Qed.

Lemma row_length sizes r : row_ok sizes r -> Z.of_nat (length (concat r)) = rowsize sizes.
Proof. intro H. unfold rowsize. rewrite <- H. symmetry. apply zsum_sizes_length. Qed.

Lemma firstn_app_exact {A} (a b : list A) : firstn (length a) (a ++ b) = a.
Proof. induction a; simpl; [destruct b; reflexivity|f_equal; assumption]. Qed.
Lemma skipn_app_exact {A} (a b : list A) : skipn (length a) (a ++ b) = b.
Proof. induction a; simpl; auto. Qed.

Lemma split_row_ok sizes : forall r, row_ok sizes r -> split_row sizes (concat r) = r.
Proof.
  unfold row_ok. induction sizes as [|sz t IH]; intros r H; destruct r as [|c u]; simpl in *; try discriminate; [reflexivity|].
  inversion H; subst. unfold cellsize. rewrite Nat2Z.id, firstn_app_exact, skipn_app_exact. f_equal. apply IH. reflexivity.
Qed.

Lemma fread1_app (x rest : list byte) : fread1 (Z.of_nat (length x)) (x ++ rest) = Ok (x, rest).
Proof.
  unfold fread1. rewrite app_length. replace (Z.of_nat (length x + length rest) <? Z.of_nat (length x)) with false by lia.
  rewrite Nat2Z.id, firstn_app_exact, skipn_app_exact. reflexivity.
Qed.

(* ------------------------------------------------------------------ a stream made of blocks
   The file is a stream of rows and a row is a stream of cells: in both the cursor stands where the first j
   blocks have been consumed.  at_block is what is left of the stream there. *)
Definition at_block (bs : list cell) (rest : list byte) (j : nat) : list byte := concat (skipn j bs) ++ rest.

Lemma at_block_skipn (bs : list cell) rest j :
  at_block bs rest j = skipn (length (concat (firstn j bs))) (concat bs ++ rest).
Proof.
  unfold at_block. rewrite <- (firstn_skipn j bs) at 3. rewrite concat_app, <- app_assoc.
  symmetry. apply skipn_app_exact.
Qed.

Lemma concat_firstn_mono (l : list cell) : forall i j, (i <= j)%nat ->
  (length (concat (firstn i l)) <= length (concat (firstn j l)))%nat.
Proof.
  induction l as [|x l IH]; intros [|i] [|j] H; simpl; try lia. rewrite !app_length. specialize (IH i j). lia.
Qed.

Lemma skipn_nth_cons {A} (d : A) : forall j (l : list A), (j < length l)%nat -> skipn j l = nth j l d :: skipn (S j) l.
Proof. induction j as [|j IH]; intros [|x l] H; simpl in H; try lia; [reflexivity|]. apply IH. lia. Qed.

Lemma firstn_S_nth {A} (d : A) : forall j (l : list A), (j < length l)%nat -> firstn (S j) l = firstn j l ++ [nth j l d].
Proof.
  induction j as [|j IH]; intros [|x l] H; simpl in H; try lia; [reflexivity|]. simpl. f_equal. apply IH. lia.
Qed.

(* seeking forward over the blocks i .. j-1; reading block j *)
Lemma seek_blocks (bs : list cell) rest i j : (i <= j)%nat ->
  seek (Z.of_nat (length (concat (firstn j bs))) - Z.of_nat (length (concat (firstn i bs)))) (at_block bs rest i)
  = at_block bs rest j.
Proof.
  intro H. pose proof (concat_firstn_mono bs i j H). rewrite !at_block_skipn, seek_skipn, <- skipn_add. f_equal. lia.
Qed.

Lemma fread1_block (bs : list cell) rest j : (j < length bs)%nat ->
  fread1 (Z.of_nat (length (nth j bs []))) (at_block bs rest j) = Ok (nth j bs [], at_block bs rest (S j)).
Proof.
  intro H. unfold at_block. rewrite (skipn_nth_cons ([] : cell) j bs H). cbn [concat]. rewrite <- app_assoc. apply fread1_app.
Qed.

(* ------------------------------------------------------------------ the file as a stream of rows *)
Lemma rows_prefix_length sizes : forall t j, Forall (row_ok sizes) t -> (j <= length t)%nat ->
  length (concat (firstn j (map (@concat byte) t))) = (Z.to_nat (rowsize sizes) * j)%nat.
Proof.
  induction t as [|r t IH]; intros [|j] F Hj; simpl in Hj |- *; try lia.
  inversion F as [|? ? Hr Ft]; subst. pose proof (row_length sizes r Hr).
  rewrite app_length, (IH j Ft) by lia. lia.
Qed.

(* the stream at row j of a well-formed file *)
Lemma at_row sizes t tail j : Forall (row_ok sizes) t -> (j < length t)%nat ->
  skipn (Z.to_nat (rowsize sizes) * j) (table_bytes t ++ tail)
  = concat (nth j t []) ++ skipn (Z.to_nat (rowsize sizes) * S j) (table_bytes t ++ tail).
Proof.
  intros F Hj. rewrite <- !(rows_prefix_length sizes t) by (try assumption; lia).
  unfold table_bytes. rewrite <- !at_block_skipn. unfold at_block.
  rewrite (skipn_nth_cons ([] : cell) j (map (@concat byte) t)) by (rewrite map_length; exact Hj).
  cbn [concat]. rewrite <- app_assoc. f_equal. apply (map_nth (@concat byte) t [] j).
Qed.

Lemma nth_row_ok sizes (t : list (list cell)) j : Forall (row_ok sizes) t -> (j < length t)%nat -> row_ok sizes (nth j t []).
Proof. intros F Hj. rewrite Forall_forall in F. apply F, nth_In, Hj. Qed.

Definition row_at (t : list (list cell)) (r : Z) : list cell := nth (Z.to_nat r) t [].

(* ------------------------------------------------------------------ read_binary_slice *)
(* the step = 1 branch (one fread for all rows) reads what the loop reads with step 1 *)
Lemma fread_rows_slice_loop rs k : forall s, fread_rows rs k s = slice_loop rs 1 k s.
Proof.
  induction k as [|k IH]; intro s; [reflexivity|]. cbn [fread_rows slice_loop].
  destruct (fread1 rs s) as [[r s1]|e]; [|reflexivity]. cbn [bind].
  rewrite seek_nonpos by lia. rewrite IH. reflexivity.
Qed.

Section Slice.
  Variables (sizes : list Z) (t : list (list cell)) (tail : list byte).
  Hypothesis F : Forall (row_ok sizes) t.
  Let rs := rowsize sizes.
  Let data := table_bytes t ++ tail.

  Lemma fread1_row j : 0 <= j < Z.of_nat (length t) -> 0 <= rs ->
    fread1 rs (skipn (Z.to_nat (rs * j)) data) = Ok (concat (row_at t j), skipn (Z.to_nat (rs * (j + 1))) data).
  Proof using F.
    intros Hj Hrs. unfold rs, data in *.
    rewrite Z2Nat.inj_mul, (at_row sizes t tail (Z.to_nat j) F) by lia.
    replace (Z.to_nat (rowsize sizes * (j + 1))) with (Z.to_nat (rowsize sizes) * S (Z.to_nat j))%nat
      by (rewrite Z2Nat.inj_mul by lia; f_equal; lia).
    unfold row_at. rewrite <- (row_length sizes (nth (Z.to_nat j) t [])) by (apply nth_row_ok; [assumption|lia]).
    apply fread1_app.
  Qed.

  (* the loop of read_binary_slice, entered at row j + s st, reads the rows j + i st for i = s .. s+k-1 *)
  Lemma slice_loop_correct st j : 0 < st -> 0 <= rs -> forall k s,
    Forall (fun r => 0 <= r < Z.of_nat (length t)) (map (fun i => j + i * st) (zseq s k)) ->
    slice_loop rs st k (skipn (Z.to_nat (rs * (j + s * st))) data)
    = Ok (map (fun r => concat (row_at t r)) (map (fun i => j + i * st) (zseq s k))).
  Proof using F.
    intros Hst Hrs. induction k as [|k IH]; intros s R; [reflexivity|].
    cbn [zseq map] in R |- *. inversion R as [|? ? Hj R']; subst.
    cbn [slice_loop]. rewrite fread1_row by lia. cbn [bind].
    rewrite seek_skipn, <- skipn_add.
    replace (Z.to_nat (rs * (j + s * st + 1)) + Z.to_nat (rs * (st - 1)))%nat
      with (Z.to_nat (rs * (j + (s + 1) * st))) by nia.
    rewrite IH by exact R'. reflexivity.
  Qed.

End Slice.

(* the one use of t <> []: a row witnesses that the declared sizes are lengths *)
Lemma rowsize_nonneg sizes (t : list (list cell)) : Forall (row_ok sizes) t -> t <> [] -> 0 <= rowsize sizes.
Proof.
  intros F Hne. destruct t as [|r u]; [congruence|]. inversion F as [|? ? Hr _]; subst.
  rewrite <- (row_length sizes r Hr). lia.
Qed.

(* Recfile._read_binary_slice on a well-formed file: the rows of range(s0, s1, st) as they are in the file *)
Theorem read_binary_slice_rows f t tail s0 s1 st :
  wf_bin f t tail -> t <> [] ->
  0 <= s0 <= s1 -> s1 <= rf_nrows f -> 0 < st ->
  read_binary_slice f (s0, s1, st) = Ok (map (row_at t) (py_range s0 s1 st)).
Proof.
  intros W Hne H01 H1n Hst. destruct W as [Wb Wd Wr Wn Wc].
  pose proof (rowsize_nonneg (rf_sizes f) t Wr Hne) as Hrs.
  pose proof (range_len_nonneg s0 s1 st Hst) as Hk.
  assert (IR : Forall (fun r => 0 <= r < Z.of_nat (length t)) (py_range s0 s1 st)).
  { rewrite Forall_forall. intros x Hx. apply py_range_spec in Hx; lia. }
  unfold read_binary_slice. replace (st =? 0) with false by lia.
  rewrite get_slice_nrows_len by lia. cbn [bind]. replace (range_len s0 s1 st <? 0) with false by lia.
  unfold cpp_read_binary_slice. rewrite cpp_process_slice_len by lia. cbn [bind]. rewrite seek_skipn, Wd.
  replace (if st =? 1 then _ else _)
    with (slice_loop (rowsize (rf_sizes f)) st (Z.to_nat (range_len s0 s1 st))
            (skipn (Z.to_nat (rowsize (rf_sizes f) * s0)) (table_bytes t ++ tail)))
    by (destruct (Z.eqb_spec st 1) as [->|_]; [symmetry; apply fread_rows_slice_loop|reflexivity]).
  replace (rowsize (rf_sizes f) * s0) with (rowsize (rf_sizes f) * (s0 + 0 * st)) by ring.
  rewrite (slice_loop_correct (rf_sizes f) t tail Wr st s0 Hst Hrs _ 0) by exact IR.
  change (map (fun i => s0 + i * st) (zseq 0 (Z.to_nat (range_len s0 s1 st)))) with (py_range s0 s1 st).
  cbn [bind]. rewrite map_length, py_range_length.
  replace (Z.of_nat (Z.to_nat (range_len s0 s1 st)) =? range_len s0 s1 st) with true by lia.
  f_equal. rewrite map_map. apply map_ext_in. intros r Hr. rewrite Forall_forall in IR.
  apply split_row_ok, nth_row_ok; [assumption|]. specialize (IR r Hr). lia.
Qed.

(* ------------------------------------------------------------------ read_binary_columns *)
Section Row.
  Variables (sizes : list Z) (r : list cell) (rest : list byte).
  Hypothesis Hr : row_ok sizes r.

  (* mOffsets and mSizes in terms of the cells of the row *)
  Lemma zsum_to_length c : zsum_to sizes c = Z.of_nat (length (concat (firstn (Z.to_nat c) r))).
  Proof. unfold zsum_to. rewrite <- Hr, firstn_map. apply zsum_sizes_length. Qed.

  Lemma zget_size c : zget sizes c = Z.of_nat (length (nth (Z.to_nat c) r [])).
  Proof. unfold zget. rewrite <- Hr. change 0 with (cellsize []). apply map_nth. Qed.

  Lemma zsum_to_succ c : 0 <= c < Z.of_nat (length r) -> zsum_to sizes (c + 1) = zsum_to sizes c + zget sizes c.
  Proof.
    intro Hc. rewrite !zsum_to_length, zget_size. replace (Z.to_nat (c + 1)) with (S (Z.to_nat c)) by lia.
    rewrite (firstn_S_nth ([] : cell) (Z.to_nat c) r) by lia. rewrite concat_app, app_length. simpl. rewrite app_nil_r. lia.
  Qed.

  (* the stream at column c of the row *)
  Definition at_col (c : Z) : list byte := at_block r rest (Z.to_nat c).

  Lemma seek_col cur c : 0 <= cur <= c -> seek (zsum_to sizes c - zsum_to sizes cur) (at_col cur) = at_col c.
  Proof. intro H. rewrite !zsum_to_length. apply seek_blocks. lia. Qed.

  Lemma fread1_col c : 0 <= c < Z.of_nat (length r) ->
    fread1 (zget sizes c) (at_col c) = Ok (nth (Z.to_nat c) r [], at_col (c + 1)).
  Proof.
    intro Hc. rewrite zget_size. unfold at_col. replace (Z.to_nat (c + 1)) with (S (Z.to_nat c)) by lia.
    apply fread1_block. lia.
  Qed.

  Lemma seek_row_end cur : 0 <= cur <= Z.of_nat (length r) ->
    seek (rowsize sizes - zsum_to sizes cur) (at_col cur) = rest.
  Proof.
    intro H. replace (rowsize sizes) with (zsum_to sizes (Z.of_nat (length r))).
    - rewrite seek_col by lia. unfold at_col, at_block. rewrite Nat2Z.id, skipn_all. reflexivity.
    - rewrite zsum_to_length, Nat2Z.id, firstn_all. apply (row_length sizes r Hr).
  Qed.

  (* the cursor only moves forward, and a seek by nothing is no seek *)
  Lemma bin_row_cols_step c cs cur s : cur <= c ->
    bin_row_cols sizes (c :: cs) cur (zsum_to sizes cur) s =
    (do (x, s2) <- fread1 (zget sizes c) (seek (zsum_to sizes c - zsum_to sizes cur) s);
     do (xs, s3) <- bin_row_cols sizes cs (c + 1) (zsum_to sizes c + zget sizes c) s2;
     Ok (x :: xs, s3)).
  Proof.
    intro H. cbn [bin_row_cols]. destruct (Z.gtb_spec c cur).
    - replace (zsum_to sizes cur + (zsum_to sizes c - zsum_to sizes cur)) with (zsum_to sizes c) by lia. reflexivity.
    - replace cur with c by lia. rewrite Z.sub_diag. reflexivity.
  Qed.

  (* the inner loop at column cur, with the offset the C++ code keeps: the requested cells, and the stream
     is left at the end of the row *)
  Lemma bin_row_cols_correct : forall cols cur, 0 <= cur <= Z.of_nat (length r) ->
    asc cols -> Forall (fun c => cur <= c < Z.of_nat (length r)) cols ->
    bin_row_cols sizes cols cur (zsum_to sizes cur) (at_col cur)
    = Ok (map (fun c => nth (Z.to_nat c) r []) cols, rest).
  Proof using Hr.
    induction cols as [|c cs IH]; intros cur Hcur A R.
    - cbn [bin_row_cols map]. do 2 f_equal. destruct (Z.ltb_spec (zsum_to sizes cur) (rowsize sizes)).
      + apply seek_row_end, Hcur.
      + rewrite <- (seek_nonpos (rowsize sizes - zsum_to sizes cur) (at_col cur)) by lia. apply seek_row_end, Hcur.
    - destruct (asc_cons_inv _ _ c cs A R) as (Rc & A' & R').
      rewrite bin_row_cols_step, seek_col, fread1_col by lia. cbn [bind]. rewrite <- zsum_to_succ by lia.
      rewrite IH by (try assumption; lia). reflexivity.
  Qed.
End Row.

Lemma bin_row_cols_whole sizes r rest cols : row_ok sizes r ->
  asc cols -> Forall (fun c => 0 <= c < Z.of_nat (length r)) cols ->
  bin_row_cols sizes cols 0 0 (concat r ++ rest) = Ok (map (fun c => nth (Z.to_nat c) r []) cols, rest).
Proof. intros Hr A R. apply (bin_row_cols_correct sizes r rest Hr cols 0); [lia|exact A|exact R]. Qed.

Lemma bin_rows_step sizes cols r rs cur s : cur <= r ->
  bin_rows sizes cols (r :: rs) cur s =
  (do (x, s2) <- bin_row_cols sizes cols 0 0 (seek (rowsize sizes * (r - cur)) s);
   do t <- bin_rows sizes cols rs (r + 1) s2; Ok (x :: t)).
Proof.
  intro H. cbn [bin_rows]. destruct (Z.gtb_spec r cur); [reflexivity|].
  replace cur with r by lia. rewrite Z.sub_diag, Z.mul_0_r. reflexivity.
Qed.

Lemma bin_rows_correct sizes t tail cols : Forall (row_ok sizes) t -> t <> [] ->
  asc cols -> Forall (fun c => 0 <= c < Z.of_nat (length sizes)) cols ->
  forall rows cur, 0 <= cur -> asc rows -> Forall (fun r => cur <= r < Z.of_nat (length t)) rows ->
    bin_rows sizes cols rows cur (skipn (Z.to_nat (rowsize sizes * cur)) (table_bytes t ++ tail))
    = Ok (sel_table t rows cols).
Proof.
  intros F Hne Ac Rc.
  pose proof (rowsize_nonneg sizes t F Hne) as Hrs.
  induction rows as [|r rs IH]; intros cur Hcur A R; [reflexivity|].
  destruct (asc_cons_inv _ _ r rs A R) as (Rr & A' & R').
  rewrite bin_rows_step, seek_skipn, <- skipn_add by lia.
  replace (Z.to_nat (rowsize sizes * cur) + Z.to_nat (rowsize sizes * (r - cur)))%nat
    with (Z.to_nat (rowsize sizes) * Z.to_nat r)%nat by nia.
  rewrite (at_row sizes t tail (Z.to_nat r) F) by lia.
  pose proof (nth_row_ok sizes t (Z.to_nat r) F ltac:(lia)) as Hrow.
  assert (Hlen : length (nth (Z.to_nat r) t []) = length sizes) by (rewrite <- Hrow, map_length; reflexivity).
  rewrite (bin_row_cols_whole sizes _ _ cols Hrow Ac) by (rewrite Hlen; exact Rc). cbn [bind].
  replace (Z.to_nat (rowsize sizes) * S (Z.to_nat r))%nat with (Z.to_nat (rowsize sizes * (r + 1))) by nia.
  rewrite (IH (r + 1)) by (try assumption; lia). reflexivity.
Qed.

(* Records::read_binary_columns on a well-formed file, for sorted duplicate-free in-range rows and
   columns (what _get_rows2read and get_colnums hand over): the requested cells of the requested rows *)
Theorem cursor_binary_columns_correct f t tail cols rows :
  wf_bin f t tail -> t <> [] ->
  asc cols -> Forall (fun c => 0 <= c < Z.of_nat (length (rf_sizes f))) cols ->
  match rows with
  | None => True
  | Some l => asc l /\ Forall (fun r => 0 <= r < rf_nrows f) l
  end ->
  read_binary_columns f cols rows
  = Ok (sel_table t (match rows with None => zseq 0 (length t) | Some l => l end) cols).
Proof.
  intros W Hne Ac Rc Hrows. destruct W as [Wb Wd Wr Wn Wcn].
  unfold read_binary_columns. rewrite Wd.
  (* the rows visited: as many distinct in-range rows as the file has are every row *)
  assert (V : rows_to_visit (rf_nrows f) rows = match rows with None => zseq 0 (length t) | Some l => l end).
  { unfold rows_to_visit. rewrite Wn, Nat2Z.id. destruct rows as [l|]; [|reflexivity]. destruct Hrows as [Al Rl].
    destruct (Z.of_nat (length l) =? Z.of_nat (length t)) eqn:E; [|reflexivity].
    symmetry. rewrite Wn in Rl. apply (asc_full (length t) l 0); [assumption|exact Rl|lia]. }
  rewrite V.
  pose proof (fun rows => bin_rows_correct (rf_sizes f) t tail cols Wr Hne Ac Rc rows 0 (Z.le_refl 0)) as B.
  rewrite Z.mul_0_r in B. destruct rows as [l|]; apply B.
  - apply Hrows.
  - rewrite <- Wn. apply Hrows.
  - apply zseq_asc.
  - apply zseq0_range.
Qed.
