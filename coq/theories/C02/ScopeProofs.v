(* C02/ScopeProofs.v -- the boolean side of the property: the checker run on the implementation's output decides
   the property of Spec.v; the hypotheses of the request-level theorem as DECIDABLE predicates evaluated per case
   on the real file bytes (the scope monitor of harness/props/C02.py), their soundness, and what follows for
   the two bits of a verdict: inside the scope, a model that agrees with the implementation implies that the
   property checker accepts the implementation's output. *)
From Coq.Strings Require Import Byte.
From EsVerif.Common Require Import Base Bytes.
From EsVerif.C04 Require TextModel Spec RoundTrip.
From EsVerif.C02 Require Import Arange Gen Model Spec RowsProofs CursorProofs RequestProofs RequestInst.

(* ------------------------------------------------------------------ the checker *)
Lemma cells_eqb_eq a b : cells_eqb a b = true <-> a = b.
Proof. apply list_eqb_spec. intros; apply bytes_eqb_eq. Qed.

Lemma grid_eqb_eq a b : list_eqb cells_eqb a b = true <-> a = b.
Proof. apply list_eqb_spec. intros; apply cells_eqb_eq. Qed.

Lemma value_eqb_eq a b : value_eqb a b = true <-> a = b.
Proof.
  destruct a as [c1 r1|c1 d1|c1 d1|], b as [c2 r2|c2 d2|c2 d2|]; simpl; try (split; discriminate).
  - rewrite andb_true_iff, zlist_eqb_spec, grid_eqb_eq. split; [intros [-> ->]; reflexivity|intros [= -> ->]; auto].
  - rewrite andb_true_iff, Z.eqb_eq, cells_eqb_eq. split; [intros [-> ->]; reflexivity|intros [= -> ->]; auto].
  - rewrite andb_true_iff, zlist_eqb_spec, grid_eqb_eq. split; [intros [-> ->]; reflexivity|intros [= -> ->]; auto].
  - split; reflexivity.
Qed.

Lemma check_sound n names full q out : check n names full q out = true <-> holds n names full q out.
Proof.
  unfold check, holds. destruct (expectation n names full q) as [| |vs].
  - tauto.
  - destruct out as [v|e]; simpl; split; intro H; try discriminate.
    + destruct H as [e H]; discriminate.
    + exists e; reflexivity.
    + reflexivity.
  - destruct out as [v|e]; split; intro H.
    + apply existsb_exists in H as [x [Hin Hx]]. apply value_eqb_eq in Hx. subst. eauto.
    + destruct H as [v' [E Hin]]. inversion E; subst. apply existsb_exists. exists v'. split; auto.
      apply value_eqb_eq; reflexivity.
    + discriminate.
    + destruct H as [v' [E _]]; discriminate.
Qed.

(* ------------------------------------------------------------------ binary *)
Definition row_ok_b (sizes : list Z) (r : list cell) : bool := zlist_eqb (map cellsize r) sizes.

Definition wf_bin_b (f : rfile) (t : list (list cell)) (tail : list byte) : bool :=
  negb (rf_ascii f)
  && bytes_eqb (rf_data f) (table_bytes t ++ tail)
  && forallb (row_ok_b (rf_sizes f)) t
  && (rf_nrows f =? Z.of_nat (length t))
  && (length (rf_names f) =? length (rf_sizes f))%nat
  && match t with [] => false | _ => true end.

Lemma wf_bin_b_sound f t tail : wf_bin_b f t tail = true -> wf_bin f t tail /\ t <> [].
Proof.
  unfold wf_bin_b. intro H. repeat (apply andb_true_iff in H; destruct H as [H ?]).
  split; [split|].
  - destruct (rf_ascii f); [discriminate|reflexivity].
  - apply bytes_eqb_eq. assumption.
  - rewrite forallb_forall in *. apply Forall_forall. intros r Hr. unfold row_ok. apply zlist_eqb_spec.
    match goal with Hf : forall x, In x t -> row_ok_b _ x = true |- _ => apply (Hf r Hr) end.
  - lia.
  - apply Nat.eqb_eq. assumption.
  - destruct t; [discriminate|discriminate].
Qed.

Lemma nodup_b_sound l : nodup_b l = true -> NoDup l.
Proof.
  induction l as [|x t IH]; simpl; intro H; [constructor|].
  apply andb_true_iff in H as [H1 H2]. constructor; [|apply IH; exact H2].
  intro Hin. apply zmem_In in Hin. rewrite Hin in H1. discriminate.
Qed.

Lemma result_value_eqb_eq (a b : result value) : result_eqb value_eqb a b = true -> a = b.
Proof.
  destruct a as [x|e], b as [y|e']; simpl; intro H; try discriminate.
  - apply value_eqb_eq in H. congruence.
  - destruct e, e'; simpl in H; try discriminate; reflexivity.
Qed.

(* ------------------------------------------------------------------ text *)
Import TextModel.

(* the handle of a text file written from tb with delimiter d, holding the bytes [data] *)
Definition text_file (d : byte) (names : list Z) (tb : table) (data : list byte) : rfile :=
  {| rf_ascii := true; rf_delim := d; rf_nrows := Z.of_nat (length (trows tb)); rf_names := names;
     rf_sizes := []; rf_flds := tdt tb; rf_data := data |}.

Definition wf_text_b (F P : nat -> list byte -> list byte) (d : byte) (names : list Z) (tb : table) (data : list byte) : bool :=
  bytes_eqb data (write_text F d tb)
  && (length names =? length (tdt tb))%nat
  && Spec.table_ok_b tb
  && Spec.fcontract_b F P tb
  && Spec.strings_noeol_b tb
  && negb (Spec.kf_leading_ws_after_numeric d tb)
  && Spec.delim_ok_b d
  && negb (byte_eqb d xff).

Lemma wf_text_b_sound F P d names tb data :
  wf_text_b F P d names tb data = true -> wf_text F P (text_file d names tb data) tb.
Proof.
  unfold wf_text_b. intro H. repeat (apply andb_true_iff in H; destruct H as [H ?]).
  split; simpl; try reflexivity; try assumption.
  - apply bytes_eqb_eq. assumption.
  - apply Nat.eqb_eq. assumption.
  - match goal with Hk : negb (Spec.kf_leading_ws_after_numeric _ _) = true |- _ => apply negb_true_iff in Hk; exact Hk end.
  - match goal with Hk : negb (byte_eqb d xff) = true |- _ => apply negb_true_iff in Hk; exact Hk end.
Qed.

(* ------------------------------------------------------------------ what a verdict means inside the scope *)
Theorem scope_bin_holds P f t q :
  wf_bin_b f t [] = true -> nodup_b (rf_names f) = true ->
  holds (rf_nrows f) (rf_names f) t q (run_request P f q).
Proof.
  intros Hw Hn. destruct (wf_bin_b_sound f t [] Hw) as [W Hne].
  apply request_holds_any; [left; exists []; split; assumption|apply nodup_b_sound; exact Hn].
Qed.

Theorem scope_text_holds F P d names tb data q :
  wf_text_b F P d names tb data = true -> nodup_b names = true ->
  holds (Z.of_nat (length (trows tb))) names (full_text F P tb) q (run_request P (text_file d names tb data) q).
Proof.
  intros Hw Hn. pose proof (wf_text_b_sound F P d names tb data Hw) as W.
  apply (request_holds_any P (text_file d names tb data) (full_text F P tb) q).
  - right. exists F, tb. split; [exact W|reflexivity].
  - apply nodup_b_sound. exact Hn.
Qed.
