(* C02/SliceProofs.v -- the regenerated slice arithmetic (Gen.v) follows Python slice semantics.
   Two ideas: the if-chains of _fix_range / _process_slice are clamps (py_clip, Z.max), and numpy.arange,
   Records::process_slice and _get_slice_nrows all count the members of range(a, b, s) (range_len). *)
From EsVerif.Common Require Import Base.
From EsVerif.C02 Require Import Arange Gen Model Spec.

Lemma zseq_In m : forall s i, In i (zseq s m) <-> s <= i < s + Z.of_nat m.
Proof. induction m as [|m IH]; intros s i; simpl; [lia|]. rewrite IH. lia. Qed.

Lemma zseq0_range m : Forall (fun i => 0 <= i < Z.of_nat m) (zseq 0 m).
Proof. rewrite Forall_forall. intros i Hi. apply zseq_In in Hi. lia. Qed.

Lemma zseq_length m : forall s, length (zseq s m) = m.
Proof. induction m as [|m IH]; intro s; simpl; [reflexivity|]. rewrite IH. reflexivity. Qed.

(* ------------------------------------------------------------------ clamps *)
Lemma if_ltb_max x y : (if y <? x then x else y) = Z.max x y.
Proof. destruct (Z.ltb_spec y x); lia. Qed.

Lemma if_gtb_min x y : (if x >? y then y else x) = Z.min x y.
Proof. destruct (Z.gtb_spec x y); lia. Qed.

(* the shape _fix_range(isslice=True) and the start of _process_slice share *)
Lemma clip_if n x :
  (if x <? 0 then if n + x <? 0 then 0 else n + x else if x >? n then n else x) = py_clip n (Some x) 0.
Proof. unfold py_clip. rewrite if_ltb_max, if_gtb_min, (Z.add_comm n x). reflexivity. Qed.

(* a missing bound may be replaced by its default before clipping *)
Lemma clip_default n x d d' : 0 <= d <= n ->
  py_clip n (Some (match x with None => d | Some v => v end)) d' = py_clip n x d.
Proof. intro Hd. destruct x; [reflexivity|]. simpl. destruct (Z.ltb_spec d 0); lia. Qed.

Lemma py_clip_range n x d : 0 <= n -> 0 <= d <= n -> 0 <= py_clip n x d <= n.
Proof. intros Hn Hd. destruct x as [v|]; simpl; [destruct (Z.ltb_spec v 0)|]; lia. Qed.

(* _fix_range has no raise statement *)
Lemma fix_range_total n x b : exists v, fix_range n x b = Ok v.
Proof. unfold fix_range. eexists; reflexivity. Qed.

Lemma fix_range_v_slice n x : fix_range_v n x true = py_clip n (Some x) 0.
Proof. exact (clip_if n x). Qed.

(* scalar rows: negative counts from the end, everything else is left alone *)
Lemma fix_range_v_scalar n x : fix_range_v n x false = if x <? 0 then n + x else x.
Proof. reflexivity. Qed.

Definition step_ok (c : option Z) : Prop := match c with None => True | Some s => 0 < s end.
Definition step_val (c : option Z) : Z := match c with None => 1 | Some s => s end.

Lemma step_val_pos c : step_ok c -> 0 < step_val c.
Proof. destruct c; simpl; lia. Qed.

(* ------------------------------------------------------------------ how many members range(a, b, s) has *)
Definition range_len (a b s : Z) : Z := if a <? b then (b - a - 1) / s + 1 else 0.

(* the k-th member exists iff it lies below b *)
Lemma range_len_spec a b s k : 0 < s -> 0 <= k -> k < range_len a b s <-> a + k * s < b.
Proof.
  intros Hs Hk. unfold range_len. destruct (Z.ltb_spec a b) as [Hab|Hab]; [|nia].
  pose proof (Z.mul_div_le (b - a - 1) s Hs) as M. split; intro H.
  - assert (s * k <= s * ((b - a - 1) / s)) by (apply Z.mul_le_mono_nonneg_l; lia). lia.
  - assert (k <= (b - a - 1) / s) by (apply Z.div_le_lower_bound; lia). lia.
Qed.

Lemma range_len_nonneg a b s : 0 < s -> 0 <= range_len a b s.
Proof.
  intro Hs. unfold range_len. destruct (Z.ltb_spec a b); [|lia].
  pose proof (Z.div_pos (b - a - 1) s). lia.
Qed.

(* a stop below the start counts as the start *)
Lemma range_len_max a b s : range_len a (Z.max a b) s = range_len a b s.
Proof.
  destruct (Z.max_spec a b) as [[H ->]|[H ->]]; [reflexivity|].
  unfold range_len. rewrite Z.ltb_irrefl. destruct (Z.ltb_spec a b); [lia|reflexivity].
Qed.

(* quotient rounded up: the way Records::process_slice and _get_slice_nrows count *)
Lemma range_len_ceil a b s : a <= b -> 0 < s ->
  range_len a b s = (b - a) / s + (if (b - a) mod s =? 0 then 0 else 1).
Proof.
  intros Hab Hs. unfold range_len. destruct (Z.ltb_spec a b) as [H|H].
  - pose proof (Z.div_mod (b - a) s ltac:(lia)) as DM. pose proof (Z.mod_pos_bound (b - a) s Hs) as MB.
    destruct (Z.eqb_spec ((b - a) mod s) 0) as [E|E].
    + rewrite <- (Z.div_unique_pos (b - a - 1) s ((b - a) / s - 1) (s - 1)); lia.
    + rewrite <- (Z.div_unique_pos (b - a - 1) s ((b - a) / s) ((b - a) mod s - 1)); lia.
  - replace (b - a) with 0 by lia. reflexivity.
Qed.

Lemma arange_len_pos a b s : 0 < s -> arange_len a b s = range_len a b s.
Proof.
  intro Hs. unfold arange_len, range_len. destruct (Z.gtb_spec s 0); [|lia].
  destruct (Z.leb_spec b a), (Z.ltb_spec a b); try lia.
  replace (b - a + s - 1) with (b - a - 1 + 1 * s) by lia. apply Z.div_add. lia.
Qed.

Lemma cpp_process_slice_len n a b s : 0 <= a <= b -> b <= n -> 0 < s ->
  cpp_process_slice n a b s = Ok (range_len a b s).
Proof.
  intros Hab Hb Hs. unfold cpp_process_slice.
  destruct (Z.ltb_spec a 0); [lia|]. destruct (Z.gtb_spec b n); [lia|]. destruct (Z.leb_spec s 0); [lia|].
  rewrite Z.quot_div_nonneg, Z.rem_mod_nonneg, range_len_ceil by lia. reflexivity.
Qed.

Lemma get_slice_nrows_len a b s : a <= b -> 0 < s -> get_slice_nrows a b s = Ok (range_len a b s).
Proof.
  intros Hab Hs. unfold get_slice_nrows. rewrite range_len_ceil by lia.
  destruct ((b - a) mod s =? 0); reflexivity.
Qed.

(* ------------------------------------------------------------------ Python's range *)
Lemma py_range_len a b s : py_range a b s = map (fun k => a + k * s) (zseq 0 (Z.to_nat (range_len a b s))).
Proof. reflexivity. Qed.

Lemma py_range_length a b s : length (py_range a b s) = Z.to_nat (range_len a b s).
Proof. rewrite py_range_len, map_length. apply zseq_length. Qed.

(* slice(0, n, 1): the whole-file shortcut of Recfile.read *)
Lemma py_range_all n : 0 <= n -> py_range 0 n 1 = zseq 0 (Z.to_nat n).
Proof.
  intro Hn. rewrite py_range_len. replace (range_len 0 n 1) with n.
  - etransitivity; [|apply map_id]. apply map_ext. intro; lia.
  - unfold range_len. destruct (Z.ltb_spec 0 n); [rewrite Z.div_1_r|]; lia.
Qed.

Lemma py_range_max a b s : py_range a (Z.max a b) s = py_range a b s.
Proof. rewrite !py_range_len, range_len_max. reflexivity. Qed.

(* numpy.arange and range() agree for positive steps *)
Lemma arange_py_range a b s : 0 < s -> arange a b s = py_range a b s.
Proof. intro Hs. unfold arange. rewrite arange_len_pos by exact Hs. reflexivity. Qed.

(* what the rows of a Python slice are: start, start+step, ... below stop *)
Lemma py_range_spec a b s x : 0 < s ->
  In x (py_range a b s) <-> a <= x < b /\ (x - a) mod s = 0.
Proof.
  intro Hs. pose proof (range_len_nonneg a b s Hs) as Hl.
  rewrite py_range_len, in_map_iff. split.
  - intros [k [<- Hk]]. apply zseq_In in Hk. rewrite Z2Nat.id in Hk by exact Hl.
    split; [split; [nia|apply range_len_spec; lia]|].
    replace (a + k * s - a) with (k * s) by lia. apply Z.mod_mul. lia.
  - intros [[H1 H2] H3]. exists ((x - a) / s).
    pose proof (Z.div_mod (x - a) s ltac:(lia)) as DM. pose proof (Z.div_pos (x - a) s ltac:(lia) Hs) as Hq.
    split; [lia|]. apply zseq_In. rewrite Z2Nat.id by exact Hl.
    split; [exact Hq|]. apply range_len_spec; lia.
Qed.

(* ------------------------------------------------------------------ text files and column subsets: _slice2rows *)
Lemma slice2rows_python n a b c :
  0 <= n -> step_ok c -> slice2rows n a b c = Ok (py_slice_rows n a b c).
Proof.
  intros Hn Hc. unfold slice2rows, py_slice_rows. cbv zeta.
  rewrite !fix_range_v_slice, !clip_default, if_ltb_max by lia.
  rewrite arange_py_range by (apply step_val_pos, Hc). apply f_equal, py_range_max.
Qed.

(* ------------------------------------------------------------------ binary files: _process_slice *)
(* the slice it hands to read_binary_slice, in closed form *)
Lemma process_slice_clip n a b c : 0 <= n ->
  process_slice n a b c = Ok (py_clip n a 0, Z.max (py_clip n a 0) (py_clip n b n), step_val c).
Proof.
  intro Hn. unfold process_slice. cbv zeta.
  rewrite clip_if, clip_default, if_ltb_max by lia.
  pose proof (py_clip_range n a 0 Hn ltac:(lia)) as R0. set (s0 := py_clip n a 0) in *.
  (* the stop: clipped at n first, a negative one counted from the end, raised to the start *)
  destruct b as [v|]; simpl py_clip.
  - rewrite if_gtb_min.
    assert (E : Z.max s0 (if Z.min v n <? 0 then n + Z.min v n else Z.min v n)
                = Z.max s0 (if v <? 0 then Z.max 0 (v + n) else Z.min v n))
      by (destruct (Z.ltb_spec (Z.min v n) 0), (Z.ltb_spec v 0); lia).
    rewrite E. reflexivity.
  - destruct (Z.ltb_spec n 0); [lia|reflexivity].
Qed.

(* the rows start, start+step, ... that read_binary_slice visits when told to read k of them *)
Definition slice_rows (sl : Z * Z * Z) (k : Z) : list Z :=
  let '(s0, _, st) := sl in map (fun i => s0 + i * st) (zseq 0 (Z.to_nat k)).

Lemma slice_rows_len a b s : slice_rows (a, b, s) (range_len a b s) = py_range a b s.
Proof. reflexivity. Qed.
