(* C09 — what holds of any row whose tabulated (sin theta, cos theta) is on the unit circle to 1e-10, and
   the obligations about the constants of the build under test (Gen.v), re-proved whenever the constants
   change: every tabulated row is such a row, inverse selectors share their constants (hence give the
   transposed matrix, so that selectors 1, 3, 5 carry the numeric checks), the J2000 rows agree with the
   rotation defined by the documented pole/node constants, chained conversions agree with the direct one. *)
From Coq Require Import Reals Lra.
From Interval Require Import Tactic.
From EsVerif.Common Require Import Base.
From EsVerif.C09 Require Import Gen Model Spec Geometry Proofs.
Open Scope R_scope.

Definition eps_of (r : row) : R := r_st r * r_st r + r_ct r * r_ct r - 1.
Definition eps_max : R := 1 / 10000000000.          (* 1e-10 *)
Definition mat_tol2 : R := 1 / 100000000000000.     (* (1e-7)^2 *)

Definition valid_sel (s : nat) : Prop := (1 <= s <= 6)%nat.

Lemma eps_of_inv r : eps_of (row_inv r) = eps_of r.
Proof. unfold eps_of, row_inv, r_st, r_ct; simpl. ring. Qed.

Section NearRotation.
Variable r : row.
Hypothesis Heps : Rabs (eps_of r) <= eps_max.

(* converting there and back moves no point of the sphere by more than 1e-10 (chord) *)
Lemma near_roundtrip u : is_unit u -> chord2 (euler_lin (row_inv r) (euler_lin r u)) u <= eps_max * eps_max.
Proof. intro Hu. pose proof (euler_inverse_chord r eps_max Heps u) as H. rewrite Hu in H. lra. Qed.

(* lengths change by at most 1e-10 (in the square): the computed vector is never zero, so the extracted
   angles always represent its direction *)
Lemma near_norm u : is_unit u -> Rabs (norm2 (euler_lin r u) - 1) <= eps_max.
Proof. intro Hu. pose proof (euler_norm2_bound r eps_max Heps u) as H. rewrite Hu, Rmult_1_r in H. exact H. Qed.

Lemma near_nonzero a d : 0 < norm2 (euler_xyz r a d).
Proof.
  rewrite <- (norm2_Rz (r_psi r)), <- euler_vec_xyz.
  pose proof (near_norm _ (unit_deg_unit a d)) as H. apply Rabs_le_inv in H. unfold eps_max in H.
  unfold euler_vec. lra.
Qed.

Lemma near_position a d :
  unit_deg (fst (euler_R r a d)) (snd (euler_R r a d)) = normalize (euler_lin r (unit_deg a d)).
Proof. exact (euler_extract _ a d (near_nonzero a d)). Qed.
End NearRotation.

(* (chord_of tol5)^2 is 3.046e-14: the one number every tolerance below is compared with *)
Lemma chord_tol5_lower : 3 / 100000000000000 <= (chord_of tol5)².
Proof. unfold chord_of, tol5, D2R, Rsqr. interval. Qed.

(* a conversion followed by the one with the inverse row returns every point of the sphere (poles included)
   to within 1e-5 degree -- for the formulas as coded, over the reals *)
Lemma near_invertible r a d : Rabs (eps_of r) <= eps_max ->
  let p := euler_R r a d in
  let q := euler_R (row_inv r) (fst p) (snd p) in
  within_sky tol5 (unit_deg (fst q) (snd q)) (unit_deg a d).
Proof.
  intros He p q. unfold within_sky, q, p.
  rewrite (near_position (row_inv r)) by (rewrite eps_of_inv; exact He). rewrite (near_position r He).
  unfold normalize at 2. rewrite euler_lin_scale.
  set (u := unit_deg a d). assert (is_unit u) as Hu by apply unit_deg_unit.
  assert (0 < norm2 (euler_lin r u)) as Hn
    by (pose proof (near_norm r He u Hu) as N; apply Rabs_le_inv in N; unfold eps_max in N; lra).
  assert (0 <= eps_max <= 1 / 2) as Hm by (unfold eps_max; lra).
  destruct (direction_close _ u eps_max Hu Hm (near_roundtrip r He u Hu)) as [Hn' Hc].
  rewrite normalize_scale; [| apply Rinv_0_lt_compat, norm_pos, Hn | exact Hn'].
  pose proof chord_tol5_lower. unfold eps_max in Hc. lra.
Qed.

(* it suffices to treat selectors 1, 3, 5 and to pass from a selector to its inverse *)
Lemma sel_ind (P : nat -> Prop) :
  P 1%nat -> P 3%nat -> P 5%nat -> (forall t, valid_sel t -> P t -> P (inv_select t)) -> forall s, valid_sel s -> P s.
Proof.
  intros P1 P3 P5 Pinv s Hs.
  assert (s = 1 \/ s = 2 \/ s = 3 \/ s = 4 \/ s = 5 \/ s = 6)%nat as C by (unfold valid_sel in Hs; lia).
  destruct C as [->|[->|[->|[->|[->| ->]]]]]; auto;
    [apply (Pinv 1%nat) | apply (Pinv 3%nat) | apply (Pinv 5%nat)]; auto; unfold valid_sel; lia.
Qed.

Lemma inv_select_valid s : valid_sel s -> valid_sel (inv_select s) /\ inv_select (inv_select s) = s.
Proof.
  revert s. apply sel_ind.
  1-3: unfold valid_sel; simpl; lia.
  intros t Ht [_ E]. rewrite E. split; [exact Ht | reflexivity].
Qed.

(* a table of rows whose even entries are the inverses of the odd ones *)
Lemma inverse_rows (f : nat -> row) :
  f 2%nat = row_inv (f 1%nat) -> f 4%nat = row_inv (f 3%nat) -> f 6%nat = row_inv (f 5%nat) ->
  forall s, valid_sel s -> f (inv_select s) = row_inv (f s).
Proof.
  intros F1 F3 F5. apply sel_ind; try assumption.
  intros t Ht E. rewrite E, row_inv_inv. f_equal. apply inv_select_valid, Ht.
Qed.

(* ONE reduction step (a chain of cbv steps makes the kernel's conversion check at Qed very slow) *)
Ltac expand := lazy [euler_row nth Nat.sub rows_J2000 rows_B1950 inv_select
  row_J2000_1 row_J2000_2 row_J2000_3 row_J2000_4 row_J2000_5 row_J2000_6
  row_B1950_1 row_B1950_2 row_B1950_3 row_B1950_4 row_B1950_5 row_B1950_6
  row_inv r_psi r_st r_ct r_phi eps_of fst snd
  frob2 msub mmul mcol euler_mat doc_row vsub norm2 dot mrow1 mrow2 mrow3 vx vy vz
  doc_eps doc_alphaG doc_deltaG doc_lomega doc_alphaE doc_deltaE doc_Eomega D2R mat_tol2 eps_max].

(* selector pairs (1,2), (3,4), (5,6) use each other's constants: (psi, s, c, phi) <-> (phi, -s, c, psi) *)
Lemma rows_inverse_pairs b s : valid_sel s -> euler_row b (inv_select s) = row_inv (euler_row b s).
Proof. revert s. apply (inverse_rows (euler_row b)); destruct b; expand; repeat f_equal; lra. Qed.

Lemma rows_orthonormal b s : valid_sel s -> Rabs (eps_of (euler_row b s)) <= eps_max.
Proof.
  revert s. apply sel_ind.
  1-3: destruct b; expand; interval.
  intros t Ht H. rewrite (rows_inverse_pairs b t Ht), eps_of_inv. exact H.
Qed.

(* the inverse row has the same s^2 + c^2 *)
Lemma row_inv_sc r : r_st (row_inv r) * r_st (row_inv r) + r_ct (row_inv r) * r_ct (row_inv r)
                     = r_st r * r_st r + r_ct r * r_ct r.
Proof. unfold row_inv, r_st, r_ct; simpl. ring. Qed.

(* the galactic rows tabulate (cos, sin) of a pole latitude, the ecliptic row (sin, cos) of the obliquity *)
Lemma doc_row_rotation s : r_st (doc_row s) * r_st (doc_row s) + r_ct (doc_row s) * r_ct (doc_row s) = 1.
Proof.
  unfold doc_row. destruct s as [|[|[|[|[|[|s]]]]]]; rewrite ?row_inv_sc; unfold r_st, r_ct; simpl fst; simpl snd.
  4-5: apply sc1.
  all: rewrite Rplus_comm; apply sc1.
Qed.

Lemma doc_row_inv s : valid_sel s -> doc_row (inv_select s) = row_inv (doc_row s).
Proof. revert s. apply (inverse_rows doc_row); reflexivity. Qed.

(* with the present constants: 1.1e-21, 7e-24 and 5.4e-15 for selectors 1, 3, 5 *)
Lemma rows_documented_mat s : valid_sel s ->
  frob2 (msub (euler_mat (euler_row false s)) (euler_mat (doc_row s))) <= mat_tol2.
Proof.
  revert s. apply sel_ind.
  1-3: expand; interval.
  intros t Ht H. rewrite (rows_inverse_pairs false t Ht), (doc_row_inv t Ht), !euler_mat_inv, <- mtrans_msub, frob2_mtrans.
  exact H.
Qed.

(* every J2000 conversion agrees, at every point of the sphere, with the exact rotation defined by
   the documented pole and node constants to 1e-7 rad (chord) < 1e-5 degree *)
Lemma rows_documented s u : valid_sel s -> is_unit u ->
  chord2 (euler_lin (euler_row false s) u) (euler_lin (doc_row s) u) <= mat_tol2.
Proof.
  intros Hs Hu. rewrite !euler_lin_mat. apply mat_close; [exact Hu | apply rows_documented_mat, Hs].
Qed.

Lemma mat_tol_below_tol5 : mat_tol2 <= (chord_of tol5)².
Proof. pose proof chord_tol5_lower. unfold mat_tol2. lra. Qed.

(* ecliptic -> galactic directly (5) versus via equatorial (1 after 4); galactic -> ecliptic (6)
   versus (3 after 2) *)
(* with the present constants the two distances are 1.34e-15 (J2000) and 4.2e-19 (B1950) *)
Definition chain_tol2 : R := 2 / 1000000000000000.     (* 2e-15 *)

(* the second chain is the first one transposed *)
Lemma rows_chain_mat_tight b :
  frob2 (msub (euler_mat (euler_row b 5)) (mmul (euler_mat (euler_row b 1)) (euler_mat (euler_row b 4)))) <= chain_tol2
  /\ frob2 (msub (euler_mat (euler_row b 6)) (mmul (euler_mat (euler_row b 3)) (euler_mat (euler_row b 2)))) <= chain_tol2.
Proof.
  assert (frob2 (msub (euler_mat (euler_row b 5)) (mmul (euler_mat (euler_row b 1)) (euler_mat (euler_row b 4)))) <= chain_tol2) as H.
  { rewrite (euler_mat_x (euler_row b 4)) by (destruct b; expand; lra).
    unfold chain_tol2; destruct b; expand; interval. }
  split; [exact H|].
  change (euler_row b 6) with (euler_row b (inv_select 5)). change (euler_row b 3) with (euler_row b (inv_select 4)).
  change (euler_row b 2) with (euler_row b (inv_select 1)). rewrite !rows_inverse_pairs by (unfold valid_sel; lia).
  rewrite !euler_mat_inv, <- mtrans_mmul, <- mtrans_msub, frob2_mtrans. exact H.
Qed.

Lemma rows_chain b u : is_unit u ->
  chord2 (euler_lin (euler_row b 5) u) (euler_lin (euler_row b 1) (euler_lin (euler_row b 4) u)) <= mat_tol2
  /\ chord2 (euler_lin (euler_row b 6) u) (euler_lin (euler_row b 3) (euler_lin (euler_row b 2) u)) <= mat_tol2.
Proof.
  intro Hu. destruct (rows_chain_mat_tight b) as [H1 H2]. unfold chain_tol2 in *.
  rewrite !euler_lin_mat, <- !mapply_mmul. split; apply mat_close; try assumption; unfold mat_tol2; lra.
Qed.

Lemma represents_unit p v : 0 < norm2 v -> represents_deg p v -> unit_deg (fst p) (snd p) = normalize v.
Proof. intros _ H. exact H. Qed.

Lemma rows_invertible b s a d : valid_sel s ->
  let p := euler_R (euler_row b s) a d in
  let q := euler_R (euler_row b (inv_select s)) (fst p) (snd p) in
  within_sky tol5 (unit_deg (fst q) (snd q)) (unit_deg a d).
Proof. intro Hs. rewrite (rows_inverse_pairs b s Hs). apply near_invertible, rows_orthonormal, Hs. Qed.

(* every J2000 conversion agrees with the rotation defined by the documented pole and node
   constants to within 1e-5 degree at every point of the sphere *)
Lemma rows_agree_documented s a d : valid_sel s ->
  let p := euler_R (euler_row false s) a d in
  within_sky tol5 (unit_deg (fst p) (snd p)) (euler_lin (doc_row s) (unit_deg a d)).
Proof.
  intros Hs p. unfold within_sky, p. rewrite (near_position _ (rows_orthonormal false s Hs)).
  set (u := unit_deg a d). assert (is_unit u) as Hu by apply unit_deg_unit.
  assert (is_unit (euler_lin (doc_row s) u)) as HD.
  { unfold is_unit, norm2. rewrite (euler_isometry (doc_row s) (doc_row_rotation s)). exact Hu. }
  pose proof (rows_documented s u Hs Hu) as H.
  assert (0 <= 1 / 10000000 <= 1 / 2) as He by lra.
  assert (mat_tol2 = 1 / 10000000 * (1 / 10000000)) as Em by (unfold mat_tol2; lra).
  rewrite Em in H.
  destruct (direction_close _ _ _ HD He H) as [_ Hc]. rewrite <- Em in Hc.
  pose proof chord_tol5_lower. unfold mat_tol2 in Hc. lra.
Qed.

Lemma near_dirs a b t e : chord2 a b <= t -> Rabs (norm2 b - 1) <= e -> 0 <= e <= 1 / 2 ->
  2 * t + 2 * (e * e) <= 1 / 4 ->
  0 < norm2 a /\ 0 < norm2 b /\ chord2 (normalize a) (normalize b) <= 2 * (2 * t + 2 * (e * e)).
Proof.
  intros Hab Hb He Hsmall.
  assert (0 < norm2 b) as Hnb by (apply Rabs_le_inv in Hb; lra).
  pose proof (normalize_is_unit b Hnb) as Hub.
  pose proof (norm_near_one b e He Hb) as Hbb.
  pose proof (chord2_triangle2 a b (normalize b)) as Htri.
  pose proof (chord2_nonneg a b) as Hab0. pose proof (chord2_nonneg b (normalize b)) as Hbb0.
  set (D := 2 * t + 2 * (e * e)) in *.
  assert (0 <= D) as HD0 by (unfold D; nra).
  assert (chord2 a (normalize b) <= sqrt D * sqrt D) as Hd by (rewrite sqrt_sqrt by exact HD0; unfold D; lra).
  assert (0 <= sqrt D <= 1 / 2) as Hsd.
  { split; [apply sqrt_pos|]. rewrite <- (sqrt_square (1 / 2)) by lra. apply sqrt_le_1_alt. lra. }
  destruct (direction_close a (normalize b) (sqrt D) Hub Hsd Hd) as [Hna Hc].
  rewrite sqrt_sqrt in Hc by exact HD0. split; [exact Hna|]. split; [exact Hnb|exact Hc].
Qed.

(* a direct conversion (row rd) versus first r1 then r2, when the matrices agree to chain_tol2 *)
Lemma chain_angles rd r1 r2 a d :
  Rabs (eps_of rd) <= eps_max -> Rabs (eps_of r1) <= eps_max -> Rabs (eps_of r2) <= eps_max ->
  frob2 (msub (euler_mat rd) (mmul (euler_mat r2) (euler_mat r1))) <= chain_tol2 ->
  let p1 := euler_R r1 a d in
  let p2 := euler_R r2 (fst p1) (snd p1) in
  let pd := euler_R rd a d in
  within_sky tol5 (unit_deg (fst pd) (snd pd)) (unit_deg (fst p2) (snd p2)).
Proof.
  intros Hd H1 H2 Hm p1 p2 pd. unfold within_sky, pd, p2, p1.
  rewrite (near_position rd Hd), (near_position r2 H2), (near_position r1 H1).
  set (u := unit_deg a d). assert (is_unit u) as Hu by apply unit_deg_unit.
  set (F1 := euler_lin r1). set (F2 := euler_lin r2). set (Fd := euler_lin rd).
  (* the intermediate vector and its norm *)
  pose proof (near_norm r1 H1 u Hu) as N1. fold F1 in N1. unfold eps_max in *.
  pose proof N1 as N1b. apply Rabs_le_inv in N1b.
  assert (0 < norm2 (F1 u)) as P1 by lra.
  pose proof (euler_norm2_bound r2 _ H2 (F1 u)) as N2. fold F2 in N2.
  assert (Rabs (norm2 (F2 (F1 u)) - 1) <= 3 / 10000000000) as N2'.
  { apply Rabs_le. apply Rabs_le_inv in N2. set (n1 := norm2 (F1 u)) in *. split; nra. }
  (* normalisation of the intermediate point does not matter *)
  replace (F2 (normalize (F1 u))) with (scale (/ norm (F1 u)) (F2 (F1 u)))
    by (unfold normalize, F2; rewrite euler_lin_scale; reflexivity).
  assert (0 < norm2 (F2 (F1 u))) as P2 by (apply Rabs_le_inv in N2'; lra).
  rewrite (normalize_scale _ _ (Rinv_0_lt_compat _ (norm_pos _ P1)) P2).
  (* direct vs chained vectors *)
  assert (chord2 (Fd u) (F2 (F1 u)) <= chain_tol2) as Hc.
  { unfold Fd, F2, F1. rewrite !euler_lin_mat, <- mapply_mmul. apply mat_close; assumption. }
  assert (0 <= 3 / 10000000000 <= 1 / 2) as He by lra.
  destruct (near_dirs (Fd u) (F2 (F1 u)) chain_tol2 (3 / 10000000000) Hc N2' He) as [_ [_ Hfin]];
    [unfold chain_tol2; lra|].
  pose proof chord_tol5_lower. unfold chain_tol2 in Hfin. lra.
Qed.

(* for a row with s^2 + c^2 = 1 the returned position is the rotated vector itself *)
Lemma exact_position r a d : r_st r * r_st r + r_ct r * r_ct r = 1 ->
  let p := euler_R_gen true r a d in
  unit_deg (fst p) (snd p) = euler_vec r a d.
Proof.
  intros Hsc p. unfold p.
  assert (is_unit (euler_vec r a d)) as Hu
    by (unfold is_unit, euler_vec, norm2; rewrite (euler_isometry r Hsc); apply unit_deg_unit).
  pose proof (euler_gen_extract r a d) as H. unfold represents_deg in H.
  rewrite H, (normalize_unit_id _ Hu); [reflexivity|].
  rewrite <- (norm2_Rz (r_psi r)), <- euler_vec_xyz, Hu. lra.
Qed.

Lemma rotate_represents phi theta psi ra dec :
  let p := rotate_R phi theta psi ra dec in
  unit_deg (fst p) (snd p) = rotate_vec phi theta psi ra dec.
Proof. exact (exact_position _ ra dec (rotate_row_sc phi theta psi)). Qed.

(* separations are preserved exactly *)
Lemma rotate_isometry phi theta psi ra1 dec1 ra2 dec2 :
  let p := rotate_R phi theta psi ra1 dec1 in
  let q := rotate_R phi theta psi ra2 dec2 in
  dot (unit_deg (fst p) (snd p)) (unit_deg (fst q) (snd q)) = dot (unit_deg ra1 dec1) (unit_deg ra2 dec2).
Proof.
  intros p q. unfold p, q. rewrite !rotate_represents. unfold rotate_vec, euler_vec.
  apply (euler_isometry _ (rotate_row_sc phi theta psi)).
Qed.

