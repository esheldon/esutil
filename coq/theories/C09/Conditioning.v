(* C09 -- conditioning of the repaired (arctan2) extraction, uniformly over the sphere, poles included: if the three
   computed components are within chord d of the true direction and the two arctan2 evaluations (with the final
   conversion to degrees) err by e1, e2 radians, the returned position is within sqrt(4 d^2 + 4 e1^2 + 4 e2^2) of the
   true position.  No factor 1/cos(lat) appears -- that is what the arcsin form could not offer (AsFound.v).  This is
   the conditional rounding statement: whatever bounds libm/numpy give for d, e1, e2, they carry over to the sky. *)
From Coq Require Import Reals Lra Psatz.
From EsVerif.C09 Require Import Gen Model Spec Geometry Proofs.
Open Scope R_scope.

(* spherical law of cosines *)
Lemma dot_unit_rad l1 b1 l2 b2 :
  dot (unit_rad l1 b1) (unit_rad l2 b2) = cos b1 * cos b2 * cos (l1 - l2) + sin b1 * sin b2.
Proof. unfold dot, unit_rad, vx, vy, vz; simpl. rewrite cos_minus. ring. Qed.

(* changing the latitude by e2 and the longitude by e1 moves the point by at most sqrt(2 e1^2 + 2 e2^2) (chord):
   first along the meridian (chord^2 = 2 - 2 cos e2), then along the parallel (cos^2 b (2 - 2 cos e1)) *)
Lemma unit_rad_lipschitz l b e1 e2 :
  chord2 (unit_rad (l + e1) (b + e2)) (unit_rad l b) <= 2 * (e1 * e1) + 2 * (e2 * e2).
Proof.
  pose proof (chord2_triangle2 (unit_rad (l + e1) (b + e2)) (unit_rad (l + e1) b) (unit_rad l b)) as T.
  assert (chord2 (unit_rad (l + e1) (b + e2)) (unit_rad (l + e1) b) = 2 - 2 * cos e2) as E2.
  { rewrite chord2_unit, dot_unit_rad by apply unit_rad_unit.
    replace (l + e1 - (l + e1)) with 0 by ring. rewrite cos_0, Rmult_1_r, <- cos_minus.
    replace (b + e2 - b) with e2 by ring. reflexivity. }
  assert (chord2 (unit_rad (l + e1) b) (unit_rad l b) = cos b * cos b * (2 - 2 * cos e1)) as E1.
  { rewrite chord2_unit, dot_unit_rad by apply unit_rad_unit.
    replace (l + e1 - l) with e1 by ring. pose proof (sc1 b).
    replace (sin b * sin b) with (1 - cos b * cos b) by lra. ring. }
  pose proof (one_minus_cos e1) as C1. pose proof (one_minus_cos e2) as C2.
  pose proof (COS_bound b) as [B1 B2].
  assert (0 <= 2 - 2 * cos e1) as P1 by (pose proof (COS_bound e1); lra).
  assert (cos b * cos b <= 1) as Cb by nra.
  assert (cos b * cos b * (2 - 2 * cos e1) <= e1 * e1) as F1 by nra.
  rewrite E1, E2 in T. lra.
Qed.

(* extraction from a perturbed vector with perturbed arctan2 values *)
Lemma extract_conditioning v u d e1 e2 : is_unit u -> 0 <= d <= 1 / 2 -> chord2 v u <= d * d ->
  chord2 (unit_rad (lon_of v + e1) (lat_of v + e2)) u <= 4 * (e1 * e1) + 4 * (e2 * e2) + 4 * (d * d).
Proof.
  intros Hu Hd Hv. destruct (direction_close v u d Hu Hd Hv) as [Hn Hc].
  pose proof (lonlat_extract v Hn) as E. pose proof (unit_rad_lipschitz (lon_of v) (lat_of v) e1 e2) as L.
  rewrite E in L.
  pose proof (chord2_triangle2 (unit_rad (lon_of v + e1) (lat_of v + e2)) (normalize v) u) as T. lra.
Qed.

(* the same for what euler returns (degrees, psi added, wrapped to [0, 2 pi)): v' are the computed components *)
Lemma euler_conditioning r a b v' d e1 e2 : 0 < norm2 (euler_xyz r a b) -> 0 <= d <= 1 / 2 ->
  chord2 v' (normalize (euler_xyz r a b)) <= d * d ->
  let lon' := Rmod (lon_of v' + e1 + r_psi r + fourpi) twopi * R2D in
  let lat' := (lat_of v' + e2) * R2D in
  chord2 (unit_deg lon' lat') (normalize (euler_vec r a b)) <= 4 * (e1 * e1) + 4 * (e2 * e2) + 4 * (d * d).
Proof.
  intros Hn Hd Hv lon' lat'. unfold lon', lat', unit_deg. rewrite !D2R_R2D.
  replace (lon_of v' + e1 + r_psi r + fourpi) with ((lon_of v' + e1 + r_psi r) + fourpi) by ring.
  rewrite Rmod_twopi_unit. rewrite <- Rz_unit.
  rewrite euler_vec_xyz, normalize_Rz, chord2_Rz.
  apply extract_conditioning; [apply normalize_is_unit; exact Hn | exact Hd | exact Hv].
Qed.

