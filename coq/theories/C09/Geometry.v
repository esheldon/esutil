(* C09 — the unit sphere: everything that does not mention a routine of the model except atan2, Rmod and atbound.
   The facts the rest leans on are lonlat_extract (the longitude and latitude every routine extracts are coordinates of
   the direction of the vector), direction_close (normalising a nearby vector) and atbound_spec. *)
From Coq Require Import Reals Lra Lia Psatz.
From EsVerif.C09 Require Import Gen Model Spec.
Open Scope R_scope.

Lemma sc1 a : sin a * sin a + cos a * cos a = 1.
Proof. pose proof (sin2_cos2 a) as H. unfold Rsqr in H. exact H. Qed.

Lemma vec_eq (a b c a' b' c' : R) : a = a' -> b = b' -> c = c' -> (a, b, c) = (a', b', c').
Proof. intros; subst; reflexivity. Qed.

Lemma vec_eta (v : vec) : v = (vx v, vy v, vz v).
Proof. destruct v as [[x y] z]; reflexivity. Qed.

Lemma PI_neq0' : PI <> 0.
Proof. apply PI_neq0. Qed.

Lemma D2R_pos : 0 < D2R.
Proof. unfold D2R. pose proof PI_RGT_0. apply Rdiv_lt_0_compat; lra. Qed.

Lemma D2R_R2D x : x * R2D * D2R = x.
Proof. unfold R2D. pose proof D2R_pos. field. lra. Qed.

Lemma R2D_D2R x : x * D2R * R2D = x.
Proof. unfold R2D. pose proof D2R_pos. field. lra. Qed.

Lemma R2D_pos : 0 < R2D.
Proof. unfold R2D. pose proof D2R_pos. apply Rdiv_lt_0_compat; lra. Qed.

Lemma to_deg x : x * R2D * PI = x * 180.
Proof. unfold R2D, D2R. pose proof PI_RGT_0. field. lra. Qed.

Lemma deg_of_rad_bounds x lo hi : lo * PI <= x * 180 <= hi * PI -> lo <= x * R2D <= hi.
Proof. intro H. pose proof PI_RGT_0. pose proof (to_deg x). nra. Qed.

Lemma Rabs_le_inv x y : Rabs x <= y -> - y <= x <= y.
Proof. unfold Rabs. destruct (Rcase_abs x); lra. Qed.

Lemma sin_sq_le x : sin x * sin x <= x * x.
Proof.
  assert (forall y, 0 < y -> sin y * sin y <= y * y) as Hpos.
  { intros y Hy. pose proof (sin_lt_x y Hy) as H1. pose proof (SIN_bound y) as [B1 B2].
    destruct (Rle_dec y PI) as [Hp|Hp].
    - assert (0 <= sin y) by (apply sin_ge_0; lra). apply Rmult_le_compat; lra.
    - assert (3 < PI) as H3 by (pose proof PI2_3_2; lra).
      assert (sin y * sin y <= 1) as S1 by nra. assert (1 <= y * y) by nra. lra. }
  destruct (Rtotal_order x 0) as [H|[->|H]].
  - specialize (Hpos (- x) ltac:(lra)). rewrite sin_neg in Hpos. nra.
  - rewrite sin_0. lra.
  - apply Hpos, H.
Qed.

Lemma one_minus_cos e : 2 - 2 * cos e <= e * e.
Proof.
  replace e with (2 * (e / 2)) at 1 by field. rewrite cos_2a_sin.
  pose proof (sin_sq_le (e / 2)). nra.
Qed.

Lemma dot_sym u v : dot u v = dot v u.
Proof. unfold dot; ring. Qed.

Lemma dot_Rz a u v : dot (Rz a u) (Rz a v) = dot u v.
Proof.
  unfold dot, Rz, vx, vy, vz; simpl.
  transitivity ((sin a * sin a + cos a * cos a) * (fst (fst u) * fst (fst v) + snd (fst u) * snd (fst v)) + snd u * snd v);
    [ring | rewrite sc1; ring].
Qed.

Lemma Rz_add a b v : Rz a (Rz b v) = Rz (a + b) v.
Proof.
  unfold Rz, vx, vy, vz; simpl. rewrite cos_plus, sin_plus. apply vec_eq; ring.
Qed.

Lemma Rz_0 v : Rz 0 v = v.
Proof. destruct v as [[x y] z]. unfold Rz, vx, vy, vz; simpl. rewrite cos_0, sin_0. apply vec_eq; ring. Qed.

Lemma Rz_inv_r a v : Rz a (Rz (- a) v) = v.
Proof. rewrite Rz_add. replace (a + - a) with 0 by ring. apply Rz_0. Qed.

Lemma Rz_inv_l a v : Rz (- a) (Rz a v) = v.
Proof. rewrite <- (Ropp_involutive a) at 2. apply Rz_inv_r. Qed.

Lemma Rz_scale a k v : Rz a (scale k v) = scale k (Rz a v).
Proof. unfold Rz, scale, vx, vy, vz; simpl. apply vec_eq; ring. Qed.

Lemma Rz_unit a lon lat : Rz a (unit_rad lon lat) = unit_rad (lon + a) lat.
Proof. unfold Rz, unit_rad, vx, vy, vz; simpl. rewrite cos_plus, sin_plus. apply vec_eq; ring. Qed.

Lemma norm2_Rz a v : norm2 (Rz a v) = norm2 v.
Proof. apply dot_Rz. Qed.

Lemma Rx_sc_inv s c v :
  Rx_sc (- s) c (Rx_sc s c v) = (vx v, (s * s + c * c) * vy v, (s * s + c * c) * vz v).
Proof. unfold Rx_sc, vx, vy, vz; simpl. apply vec_eq; ring. Qed.

Lemma dot_Rx_sc s c u v :
  dot (Rx_sc s c u) (Rx_sc s c v) = vx u * vx v + (s * s + c * c) * (vy u * vy v + vz u * vz v).
Proof. unfold dot, Rx_sc, vx, vy, vz; simpl. ring. Qed.

(* Rx_sc is linear in (s, c) *)
Lemma chord2_Rx_sc s c s' c' v :
  chord2 (Rx_sc s c v) (Rx_sc s' c' v) = ((s - s')² + (c - c')²) * ((vy v)² + (vz v)²).
Proof. unfold chord2, Rx_sc, vx, vy, vz, Rsqr; simpl. ring. Qed.

Lemma Rx_sc_scale s c k v : Rx_sc s c (scale k v) = scale k (Rx_sc s c v).
Proof. unfold Rx_sc, scale, vx, vy, vz; simpl. apply vec_eq; ring. Qed.

Lemma unit_rad_unit lon lat : is_unit (unit_rad lon lat).
Proof.
  unfold is_unit, norm2, dot, unit_rad, vx, vy, vz; simpl.
  transitivity (cos lat * cos lat * (sin lon * sin lon + cos lon * cos lon) + sin lat * sin lat);
    [ring | rewrite sc1, Rmult_1_r, Rplus_comm; apply sc1].
Qed.

Lemma unit_deg_unit lon lat : is_unit (unit_deg lon lat).
Proof. apply unit_rad_unit. Qed.

Lemma norm2_nonneg v : 0 <= norm2 v.
Proof. unfold norm2, dot. nra. Qed.

Lemma norm_nonneg v : 0 <= norm v.
Proof. apply sqrt_pos. Qed.

Lemma norm_sq v : norm v * norm v = norm2 v.
Proof. apply sqrt_sqrt, norm2_nonneg. Qed.

Lemma norm_pos v : 0 < norm2 v -> 0 < norm v.
Proof. intro H. apply sqrt_lt_R0; exact H. Qed.

Lemma norm_unit v : is_unit v -> norm v = 1.
Proof. unfold is_unit, norm. intros ->. apply sqrt_1. Qed.

Lemma normalize_unit_id v : is_unit v -> normalize v = v.
Proof.
  intro H. unfold normalize. rewrite (norm_unit v H). destruct v as [[x y] z].
  unfold scale, vx, vy, vz; simpl. apply vec_eq; field.
Qed.

Lemma norm2_scale k v : norm2 (scale k v) = k * k * norm2 v.
Proof. unfold norm2, dot, scale, vx, vy, vz; simpl; ring. Qed.

Lemma norm_scale k v : 0 <= k -> norm (scale k v) = k * norm v.
Proof.
  intro Hk. unfold norm. rewrite norm2_scale. rewrite sqrt_mult; [| nra | apply norm2_nonneg].
  rewrite sqrt_square; auto.
Qed.

Lemma scale_scale a b v : scale a (scale b v) = scale (a * b) v.
Proof. unfold scale, vx, vy, vz; simpl. apply vec_eq; ring. Qed.

Lemma scale_1 v : scale 1 v = v.
Proof. destruct v as [[x y] z]. unfold scale, vx, vy, vz; simpl. apply vec_eq; ring. Qed.

Lemma normalize_is_unit v : 0 < norm2 v -> is_unit (normalize v).
Proof.
  intro H. unfold is_unit, normalize. rewrite norm2_scale. pose proof (norm_pos v H) as Hn.
  rewrite <- (norm_sq v). field. lra.
Qed.

(* normalisation ignores positive factors *)
Lemma normalize_scale k v : 0 < k -> 0 < norm2 v -> normalize (scale k v) = normalize v.
Proof.
  intros Hk Hv. unfold normalize. rewrite norm_scale by lra. rewrite scale_scale.
  pose proof (norm_pos v Hv). f_equal. field. lra.
Qed.

Lemma normalize_Rz a v : normalize (Rz a v) = Rz a (normalize v).
Proof.
  unfold normalize. rewrite Rz_scale. unfold norm. rewrite norm2_Rz. reflexivity.
Qed.

Lemma sqrt_sumsq_factor x y : x <> 0 -> sqrt (x * x + y * y) = Rabs x * sqrt (1 + (y / x)²).
Proof.
  intro Hx. replace (x * x + y * y) with (x² * (1 + (y / x)²)) by (unfold Rsqr; field; exact Hx).
  rewrite sqrt_mult; [| apply Rle_0_sqr | pose proof (Rle_0_sqr (y / x)); lra].
  rewrite sqrt_Rsqr_abs. reflexivity.
Qed.

Lemma sqrt_1p_pos t : 0 < sqrt (1 + t²).
Proof. apply sqrt_lt_R0. pose proof (Rle_0_sqr t). lra. Qed.

(* with r = sqrt(x^2+y^2):  x = r cos(atan2 y x)  and  y = r sin(atan2 y x) *)
Lemma atan2_spec y x :
  x = sqrt (x * x + y * y) * cos (atan2 y x) /\ y = sqrt (x * x + y * y) * sin (atan2 y x).
Proof.
  unfold atan2.
  destruct (Rlt_dec 0 x) as [Hx|Hx].
  - assert (x <> 0) as Hx0 by lra. rewrite (sqrt_sumsq_factor x y Hx0), cos_atan, sin_atan.
    rewrite Rabs_pos_eq by lra. pose proof (sqrt_1p_pos (y / x)). split; field; lra.
  - destruct (Rlt_dec x 0) as [Hx'|Hx'].
    + assert (x <> 0) as Hx0 by lra. rewrite (sqrt_sumsq_factor x y Hx0).
      rewrite Rabs_left by lra. pose proof (sqrt_1p_pos (y / x)).
      destruct (Rle_dec 0 y).
      * rewrite neg_cos, neg_sin, cos_atan, sin_atan. split; field; lra.
      * rewrite cos_minus, sin_minus, cos_PI, sin_PI, cos_atan, sin_atan. split; field; lra.
    + assert (x = 0) by lra. subst x.
      replace (0 * 0 + y * y) with (y²) by (unfold Rsqr; ring). rewrite sqrt_Rsqr_abs.
      destruct (Rlt_dec 0 y).
      * rewrite cos_PI2, sin_PI2, Rabs_pos_eq by lra. lra.
      * destruct (Rlt_dec y 0).
        -- rewrite cos_neg, sin_neg, cos_PI2, sin_PI2, Rabs_left by lra. lra.
        -- assert (y = 0) by lra. subst y. rewrite Rabs_R0. lra.
Qed.

Lemma atan_pos t : 0 < t -> 0 < atan t.
Proof. intro H. rewrite <- atan_0. apply atan_increasing; exact H. Qed.

Lemma atan_neg t : t < 0 -> atan t < 0.
Proof. intro H. rewrite <- atan_0. apply atan_increasing; exact H. Qed.

Lemma atan2_bound y x : - PI < atan2 y x <= PI.
Proof.
  unfold atan2. pose proof PI_RGT_0 as Hpi.
  destruct (Rlt_dec 0 x) as [Hx|Hx].
  - pose proof (atan_bound (y / x)). lra.
  - destruct (Rlt_dec x 0) as [Hx'|Hx'].
    + pose proof (atan_bound (y / x)) as Hb. destruct (Rle_dec 0 y) as [Hy|Hy].
      * assert (atan (y / x) <= 0).
        { destruct (Req_dec y 0) as [->|Hy0].
          - unfold Rdiv. rewrite Rmult_0_l, atan_0. lra.
          - left. apply atan_neg. assert (/ x < 0) by (apply Rinv_lt_0_compat; lra). unfold Rdiv. nra. }
        lra.
      * assert (0 < atan (y / x)).
        { apply atan_pos. assert (/ x < 0) by (apply Rinv_lt_0_compat; lra). unfold Rdiv. nra. }
        lra.
    + destruct (Rlt_dec 0 y); [lra|]. destruct (Rlt_dec y 0); lra.
Qed.

(* with a non-negative second argument (a latitude): [-pi/2, pi/2] *)
Lemma atan2_bound_lat y x : 0 <= x -> - (PI / 2) <= atan2 y x <= PI / 2.
Proof.
  intro H. unfold atan2. pose proof PI_RGT_0 as Hpi.
  destruct (Rlt_dec 0 x) as [Hx|Hx].
  - pose proof (atan_bound (y / x)). lra.
  - destruct (Rlt_dec x 0); [lra|]. destruct (Rlt_dec 0 y); [lra|]. destruct (Rlt_dec y 0); lra.
Qed.

(* extraction: the longitude and latitude every routine computes are coordinates of the
   direction of the vector *)
Lemma lonlat_extract v : 0 < norm2 v -> unit_rad (lon_of v) (lat_of v) = normalize v.
Proof.
  intro Hv. destruct v as [[x y] z]. unfold lon_of, lat_of, vx, vy, vz; simpl fst; simpl snd.
  set (rho := sqrt (x * x + y * y)).
  destruct (atan2_spec y x) as [Hx Hy]. fold rho in Hx, Hy.
  destruct (atan2_spec z rho) as [Hr Hz].
  assert (rho * rho = x * x + y * y) as Hrho by (apply sqrt_sqrt; nra).
  assert (sqrt (rho * rho + z * z) = norm (x, y, z)) as HN.
  { unfold norm, norm2, dot, vx, vy, vz; simpl. rewrite Hrho. reflexivity. }
  rewrite HN in Hr, Hz. pose proof (norm_pos _ Hv) as Hn.
  set (N := norm (x, y, z)) in *.
  unfold unit_rad, normalize, scale, vx, vy, vz; simpl fst; simpl snd. fold N.
  set (lat := atan2 z rho) in *. set (lon := atan2 y x) in *.
  assert (cos lat = rho / N) as Hc by (rewrite Hr at 1; field; lra).
  assert (sin lat = z / N) as Hs by (rewrite Hz at 1; field; lra).
  apply vec_eq.
  - rewrite Hc. transitivity (/ N * (rho * cos lon)); [field; lra | rewrite <- Hx; reflexivity].
  - rewrite Hc. transitivity (/ N * (rho * sin lon)); [field; lra | rewrite <- Hy; reflexivity].
  - rewrite Hs. field; lra.
Qed.

Lemma chord2_dot u v : chord2 u v = norm2 u - 2 * dot u v + norm2 v.
Proof. unfold chord2, norm2, dot, Rsqr. ring. Qed.

Lemma chord2_unit u v : is_unit u -> is_unit v -> chord2 u v = 2 - 2 * dot u v.
Proof. unfold is_unit. intros Hu Hv. rewrite chord2_dot, Hu, Hv. ring. Qed.

Lemma chord2_nonneg u v : 0 <= chord2 u v.
Proof. unfold chord2. pose proof (Rle_0_sqr (vx u - vx v)). pose proof (Rle_0_sqr (vy u - vy v)).
  pose proof (Rle_0_sqr (vz u - vz v)). lra. Qed.

Lemma chord2_sym u v : chord2 u v = chord2 v u.
Proof. unfold chord2, Rsqr. ring. Qed.

Lemma chord2_vsub u v : chord2 u v = norm2 (vsub u v).
Proof. unfold chord2, norm2, dot, vsub, vx, vy, vz, Rsqr; simpl. ring. Qed.

Lemma chord2_Rz a u v : chord2 (Rz a u) (Rz a v) = chord2 u v.
Proof. rewrite !chord2_dot, !norm2_Rz, dot_Rz. reflexivity. Qed.

Lemma chord2_Rz_l a x u : chord2 (Rz a x) u = chord2 x (Rz (- a) u).
Proof. rewrite <- (chord2_Rz (- a) (Rz a x) u), Rz_inv_l. reflexivity. Qed.

(* Cauchy-Schwarz (Lagrange's identity) *)
Lemma cauchy_schwarz u v : (dot u v)² <= norm2 u * norm2 v.
Proof.
  destruct u as [[a b] c]; destruct v as [[x y] z]. unfold norm2, dot, vx, vy, vz, Rsqr; simpl.
  assert ((a * a + b * b + c * c) * (x * x + y * y + z * z) - (a * x + b * y + c * z) * (a * x + b * y + c * z)
          = (a * y - b * x)² + (a * z - c * x)² + (b * z - c * y)²) as H by (unfold Rsqr; ring).
  pose proof (Rle_0_sqr (a * y - b * x)). pose proof (Rle_0_sqr (a * z - c * x)).
  pose proof (Rle_0_sqr (b * z - c * y)). lra.
Qed.

Lemma dot_unit_bound u v : is_unit u -> is_unit v -> -1 <= dot u v <= 1.
Proof.
  unfold is_unit. intros Hu Hv. pose proof (cauchy_schwarz u v) as H. rewrite Hu, Hv in H.
  unfold Rsqr in H. nra.
Qed.

Lemma chord_of_sq t : (chord_of t)² = 2 - 2 * cos t.
Proof.
  unfold chord_of, Rsqr. replace t with (2 * (t / 2)) at 3 by field.
  rewrite cos_2a_sin. ring.
Qed.

(* within_sky t is "the great-circle angle is at most t" *)
Lemma within_sky_angle t u v : is_unit u -> is_unit v -> 0 <= t <= PI ->
  (within_sky t u v <-> angle u v <= t).
Proof.
  intros Hu Hv Ht. unfold within_sky, angle. rewrite chord_of_sq, (chord2_unit u v Hu Hv).
  pose proof (dot_unit_bound u v Hu Hv) as Hd.
  pose proof (acos_bound (dot u v)) as Hb. pose proof (cos_acos (dot u v) Hd) as Hc.
  split; intro H.
  - destruct (Rle_dec (acos (dot u v)) t) as [|Hn]; [assumption|exfalso].
    assert (cos (acos (dot u v)) < cos t) by (apply cos_decreasing_1; lra). lra.
  - assert (cos t <= cos (acos (dot u v))) by (apply cos_decr_1; lra). lra.
Qed.

(* the atan form of the angle *)
Lemma sep_is_angle u v : is_unit u -> is_unit v -> 0 < chord2 u (vopp v) -> sep u v = angle u v.
Proof.
  intros Hu Hv Hne. unfold sep, angle.
  assert (is_unit (vopp v)) as Hv'.
  { unfold is_unit, norm2, dot, vopp, vx, vy, vz in *; simpl. rewrite <- Hv. ring. }
  assert (dot u (vopp v) = - dot u v) as Hdo by (unfold dot, vopp, vx, vy, vz; simpl; ring).
  rewrite (chord2_unit u v Hu Hv). rewrite (chord2_unit u _ Hu Hv') in *. rewrite Hdo in *.
  pose proof (dot_unit_bound u v Hu Hv) as Hd.
  set (p := dot u v) in *.
  set (t := sqrt (2 - 2 * p) / sqrt (2 - 2 * - p)).
  assert (0 < sqrt (2 - 2 * - p)) as Hs by (apply sqrt_lt_R0; lra).
  assert (0 <= sqrt (2 - 2 * p)) as Hs0 by apply sqrt_pos.
  assert (0 <= t) as Ht by (unfold t; apply Rmult_le_pos; [assumption | left; apply Rinv_0_lt_compat; assumption]).
  assert (t² = (2 - 2 * p) / (2 + 2 * p)) as Ht2.
  { unfold t, Rsqr. replace (sqrt (2 - 2 * p) / sqrt (2 - 2 * - p) * (sqrt (2 - 2 * p) / sqrt (2 - 2 * - p)))
      with ((sqrt (2 - 2 * p) * sqrt (2 - 2 * p)) / (sqrt (2 - 2 * - p) * sqrt (2 - 2 * - p))) by (field; lra).
    rewrite !sqrt_sqrt by lra. f_equal. ring. }
  assert (0 <= atan t < PI / 2) as Ha.
  { split; [| apply atan_bound]. destruct (Req_dec t 0) as [->|]; [rewrite atan_0; lra|].
    left; apply atan_pos; lra. }
  symmetry. rewrite <- (acos_cos (2 * atan t)) by lra. f_equal.
  rewrite cos_2a_cos, cos_atan.
  pose proof (sqrt_1p_pos t) as Hsp.
  assert (sqrt (1 + t²) * sqrt (1 + t²) = 1 + t²) as Hss by (apply sqrt_sqrt; pose proof (Rle_0_sqr t); lra).
  set (s := sqrt (1 + t²)) in *.
  replace (2 * (1 / s) * (1 / s) - 1) with (2 / (s * s) - 1) by (field; lra).
  rewrite Hss, Ht2. field. lra.
Qed.

(* a vector within chord d < 1 of a unit vector u makes an angle of at most asin d with it:
   dot u v >= sqrt(1 - d^2) |v|, stated on squares *)
Lemma chord_bounds_angle u v d : is_unit u -> 0 <= d < 1 -> chord2 u v <= d * d ->
  0 < dot u v /\ (1 - d * d) * norm2 v <= (dot u v)².
Proof.
  unfold is_unit. intros Hu Hd H. rewrite chord2_dot, Hu in H.
  pose proof (norm2_nonneg v) as Hn. set (p := dot u v) in *. set (N := norm2 v) in *.
  assert (d * d < 1) as Hdd by nra. assert (0 <= d * d) as Hdd0 by nra.
  set (e := d * d) in *. clearbody e p N. clear Hd.
  split; [lra|]. unfold Rsqr.
  pose proof (Rle_0_sqr (p - (1 - e))) as H1. unfold Rsqr in H1.
  assert (0 <= (1 - e) * (e - 1 + 2 * p - N)) as H2 by (apply Rmult_le_pos; lra).
  nra.
Qed.

(* the transpose: Model.v has mmul and mcol only *)
Definition mtrans (m : mat) : mat := (mcol m 0, mcol m 1, mcol m 2).

Lemma mapply_msub a b u : mapply (msub a b) u = vsub (mapply a u) (mapply b u).
Proof.
  destruct a as [[[[a1 a2] a3] [[a4 a5] a6]] [[a7 a8] a9]].
  destruct b as [[[[b1 b2] b3] [[b4 b5] b6]] [[b7 b8] b9]].
  unfold mapply, msub, vsub, dot, mrow1, mrow2, mrow3, vx, vy, vz; simpl. apply vec_eq; ring.
Qed.

Lemma frob_bound m u : norm2 (mapply m u) <= frob2 m * norm2 u.
Proof.
  unfold frob2, mapply. unfold norm2 at 1. unfold dot at 1. unfold vx, vy, vz; simpl fst; simpl snd.
  pose proof (cauchy_schwarz (mrow1 m) u) as H1. pose proof (cauchy_schwarz (mrow2 m) u) as H2.
  pose proof (cauchy_schwarz (mrow3 m) u) as H3. unfold Rsqr in *. lra.
Qed.

Lemma mat_close a b u e : is_unit u -> frob2 (msub a b) <= e -> chord2 (mapply a u) (mapply b u) <= e.
Proof.
  intros Hu H. rewrite chord2_vsub, <- mapply_msub. pose proof (frob_bound (msub a b) u) as Hb.
  rewrite Hu in Hb. lra.
Qed.

Lemma mapply_mmul a b u : mapply (mmul a b) u = mapply a (mapply b u).
Proof.
  destruct a as [[[[a1 a2] a3] [[a4 a5] a6]] [[a7 a8] a9]].
  destruct b as [[[[b1 b2] b3] [[b4 b5] b6]] [[b7 b8] b9]].
  destruct u as [[x y] z].
  unfold mapply, mmul, mcol, dot, mrow1, mrow2, mrow3, vx, vy, vz; simpl. apply vec_eq; ring.
Qed.

Lemma mtrans_msub a b : mtrans (msub a b) = msub (mtrans a) (mtrans b).
Proof. reflexivity. Qed.

Lemma frob2_mtrans m : frob2 (mtrans m) = frob2 m.
Proof. unfold frob2, mtrans, mcol, norm2, dot, mrow1, mrow2, mrow3, vx, vy, vz; simpl. ring. Qed.

Lemma mtrans_mmul a b : mtrans (mmul a b) = mmul (mtrans b) (mtrans a).
Proof.
  destruct a as [[[[a1 a2] a3] [[a4 a5] a6]] [[a7 a8] a9]], b as [[[[b1 b2] b3] [[b4 b5] b6]] [[b7 b8] b9]].
  unfold mtrans, mmul, mcol, mrow1, mrow2, mrow3, vx, vy, vz; cbn [fst snd].
  f_equal; [f_equal|]; apply vec_eq; apply dot_sym.
Qed.

Lemma Rmod_spec x m : 0 < m -> (exists k : Z, Rmod x m = x - IZR k * m) /\ 0 <= Rmod x m < m.
Proof.
  intro Hm. unfold Rmod. split; [eexists; reflexivity|].
  destruct (base_Int_part (x / m)) as [H1 H2].
  assert (x = x / m * m) as Hx by (field; lra).
  set (k := IZR (Int_part (x / m))) in *. set (q := x / m) in *. nra.
Qed.

Lemma cos_period_Z x (k : Z) : cos (x + 2 * IZR k * PI) = cos x.
Proof.
  destruct (Z_le_gt_dec 0 k) as [H|H].
  - rewrite <- (Z2Nat.id k H), <- INR_IZR_INZ. apply cos_period.
  - rewrite <- (cos_period (x + 2 * IZR k * PI) (Z.to_nat (- k))).
    rewrite INR_IZR_INZ, Z2Nat.id by lia. rewrite opp_IZR. f_equal. ring.
Qed.

Lemma sin_period_Z x (k : Z) : sin (x + 2 * IZR k * PI) = sin x.
Proof.
  destruct (Z_le_gt_dec 0 k) as [H|H].
  - rewrite <- (Z2Nat.id k H), <- INR_IZR_INZ. apply sin_period.
  - rewrite <- (sin_period (x + 2 * IZR k * PI) (Z.to_nat (- k))).
    rewrite INR_IZR_INZ, Z2Nat.id by lia. rewrite opp_IZR. f_equal. ring.
Qed.

Lemma unit_rad_period lon lat (k : Z) : unit_rad (lon + 2 * IZR k * PI) lat = unit_rad lon lat.
Proof. unfold unit_rad. rewrite cos_period_Z, sin_period_Z. reflexivity. Qed.

(* a longitude in degrees may be changed by whole turns *)
Lemma unit_deg_period lon lat (k : Z) : unit_deg (lon + 360 * IZR k) lat = unit_deg lon lat.
Proof.
  unfold unit_deg. replace ((lon + 360 * IZR k) * D2R) with (lon * D2R + 2 * IZR k * PI)
    by (unfold D2R; field).
  apply unit_rad_period.
Qed.

Lemma atbound_period_val : atbound_period = 360.
Proof. unfold atbound_period. lra. Qed.

Lemma atb_up_spec fuel x lo :
  exists n : nat, atb_up fuel x lo = x + 360 * INR n /\
    (lo - 360 * INR fuel <= x -> lo <= atb_up fuel x lo /\ (atb_up fuel x lo = x \/ atb_up fuel x lo < lo + 360)).
Proof.
  revert x. induction fuel as [|f IH]; intro x.
  - exists 0%nat. simpl. split; [lra|]. intro H. lra.
  - cbn [atb_up]. destruct (Rlt_dec x lo) as [Hlt|Hge].
    + destruct (IH (x + atbound_period)) as [n [E R]]. exists (S n). rewrite E, atbound_period_val, S_INR.
      split; [lra|]. intro H. rewrite S_INR in H. rewrite atbound_period_val in *.
      destruct R as [R1 R2]; [lra|]. rewrite E in *. split; [lra|]. right.
      destruct R2 as [R2|R2]; lra.
    + exists 0%nat. simpl. split; [lra|]. intros _. lra.
Qed.

(* the second loop is the first one seen in a mirror *)
Lemma atb_down_up fuel x hi : atb_down fuel x hi = - atb_up fuel (- x) (- hi).
Proof.
  revert x. induction fuel as [|f IH]; intro x; simpl; [ring|].
  destruct (Rlt_dec hi x), (Rlt_dec (- x) (- hi)); try lra.
  rewrite IH. replace (- (x - atbound_period)) with (- x + atbound_period) by ring. reflexivity.
Qed.

Lemma atb_down_spec fuel x hi :
  exists n : nat, atb_down fuel x hi = x - 360 * INR n /\
    (x <= hi + 360 * INR fuel -> atb_down fuel x hi <= hi /\ (atb_down fuel x hi = x \/ hi - 360 < atb_down fuel x hi)).
Proof.
  destruct (atb_up_spec fuel (- x) (- hi)) as [n [E R]]. exists n. rewrite atb_down_up.
  split; [lra|]. intro H. destruct R as [R1 [R2|R2]]; lra.
Qed.

(* for a window [lo, lo+360]: the result is the input moved by whole turns and lies in the
   window, provided the input is within [fuel] turns of it (then both loops have terminated) *)
Lemma atbound_spec fuel x lo :
  lo - 360 * INR fuel <= x <= lo + 360 + 360 * INR fuel ->
  (exists k : Z, atbound fuel x (lo, lo + 360) = x + 360 * IZR k) /\
  lo <= atbound fuel x (lo, lo + 360) <= lo + 360.
Proof.
  intros [H1 H2]. unfold atbound; simpl fst; simpl snd.
  destruct (atb_up_spec fuel x lo) as [n [E R]]. specialize (R H1). destruct R as [R1 R2].
  set (y := atb_up fuel x lo) in *.
  destruct (atb_down_spec fuel y (lo + 360)) as [m [E' R']].
  assert (y <= lo + 360 + 360 * INR fuel) as Hy by (destruct R2 as [->|]; [lra | pose proof (pos_INR fuel); lra]).
  specialize (R' Hy). destruct R' as [R1' R2'].
  split.
  - exists (Z.of_nat n - Z.of_nat m)%Z. rewrite E', E, minus_IZR, <- !INR_IZR_INZ. ring.
  - split; [|lra]. destruct R2' as [->|]; lra.
Qed.

Lemma dot_scale_l k w u : dot (scale k w) u = k * dot w u.
Proof. unfold dot, scale, vx, vy, vz; simpl. ring. Qed.

(* if w is within chord d <= 1/2 of the unit vector u then w is not zero and its direction is
   within chord sqrt(2) d of u *)
Lemma direction_close w u d : is_unit u -> 0 <= d <= 1 / 2 -> chord2 w u <= d * d ->
  0 < norm2 w /\ chord2 (normalize w) u <= 2 * (d * d).
Proof.
  intros Hu Hd H. rewrite chord2_dot in H. unfold is_unit in Hu. rewrite Hu in H.
  pose proof (cauchy_schwarz w u) as CS. rewrite Hu, Rmult_1_r in CS. unfold Rsqr in CS.
  pose proof (norm_sq w) as Hr. pose proof (norm_nonneg w) as Hr0.
  set (r := norm w) in *. set (p := dot w u) in *. rewrite <- Hr in H, CS.
  assert (p <= r) as Hpr by nra.
  assert (d * d <= 1 / 4) as Hdd by nra.
  assert ((r - 1) * (r - 1) <= d * d) as Hr1 by nra.
  assert (1 / 2 <= r) as Hrl by nra.
  assert (0 < norm2 w) as Hn by (rewrite <- Hr; nra).
  split; [exact Hn|].
  rewrite chord2_dot, (normalize_is_unit w Hn), Hu. unfold normalize. rewrite dot_scale_l. fold r p.
  assert (/ r * p = p / r) as -> by (field; lra).
  apply Rmult_le_reg_r with r; [lra|].
  replace ((1 - 2 * (p / r) + 1) * r) with (2 * r - 2 * p) by (field; lra).
  assert (0 <= d * d * (2 * r - 1)) as Hprod by (apply Rmult_le_pos; nra).
  pose proof (Rle_0_sqr (r - 1)) as Hsq. unfold Rsqr in Hsq. clearbody r p. nra.
Qed.

Lemma chord2_triangle2 a b c : chord2 a c <= 2 * chord2 a b + 2 * chord2 b c.
Proof.
  unfold chord2, Rsqr.
  assert (forall p q r : R, (p - r) * (p - r) <= 2 * ((p - q) * (p - q)) + 2 * ((q - r) * (q - r))) as H.
  { intros p q r. pose proof (Rle_0_sqr ((p - q) - (q - r))) as S. unfold Rsqr in S. nra. }
  pose proof (H (vx a) (vx b) (vx c)). pose proof (H (vy a) (vy b) (vy c)). pose proof (H (vz a) (vz b) (vz c)). lra.
Qed.

(* a vector whose squared length is within e of 1 is within chord e of its direction *)
Lemma norm_near_one x e : 0 <= e <= 1 / 2 -> Rabs (norm2 x - 1) <= e -> chord2 x (normalize x) <= e * e.
Proof.
  intros He H. apply Rabs_le_inv in H.
  assert (0 < norm2 x) as Hn by lra. pose proof (norm_pos x Hn) as Hr. pose proof (norm_sq x) as Hs.
  assert (chord2 x (normalize x) = (norm x - 1) * (norm x - 1)) as ->.
  { destruct x as [[p q] t]. unfold chord2, normalize, scale, Rsqr, vx, vy, vz; simpl fst; simpl snd.
    set (r := norm (p, q, t)) in *.
    assert (norm2 (p, q, t) = p * p + q * q + t * t) as En by (unfold norm2, dot, vx, vy, vz; simpl; ring).
    rewrite En in Hs.
    replace ((p - / r * p) * (p - / r * p) + (q - / r * q) * (q - / r * q) + (t - / r * t) * (t - / r * t))
      with ((p * p + q * q + t * t) * ((1 - / r) * (1 - / r))) by ring.
    rewrite <- Hs. field. lra. }
  set (r := norm x) in *. clearbody r.
  assert (Rabs (r - 1) <= e) as Hb.
  { apply Rabs_le. rewrite <- Hs in H. split; nra. }
  apply Rabs_le_inv in Hb. nra.
Qed.
