(* C09 -- celestial coordinate conversions are invertible isometries with correct poles.
   The model (Model.v) is over the reals; its constants AND shape flags come from Gen.v, regenerated
   from esutil/coords.py on every run, so the theorems below are re-proved for the constants and the
   formulas' shape of the tree under test.  Tolerances: tol5 = 1e-5 degree, tol9 = 1e-9 degree
   (radians); within_sky t u v  <->  great-circle angle(u, v) <= t  (C09_within_sky_is_angle). *)
From Coq Require Import Reals QArith Qabs Lqa Lra.
From EsVerif.Common Require Import Base.
From EsVerif.C09 Require Import Gen Model Spec Geometry Proofs Rows Isometry AsFound Exec ExecProofs.
Open Scope R_scope.

Theorem C09_within_sky_is_angle : forall t u v, is_unit u -> is_unit v -> 0 <= t <= PI ->
  (within_sky t u v <-> angle u v <= t).
Proof. exact within_sky_angle. Qed.

Theorem C09_sep_is_angle : forall u v, is_unit u -> is_unit v -> 0 < chord2 u (vopp v) -> sep u v = angle u v.
Proof. exact sep_is_angle. Qed.

(* the computed vector is Rz(psi) Rx(theta) Rz(-phi) applied to the input direction *)
Theorem C09_euler_is_linear : forall r a b, euler_vec r a b = Rz (r_psi r) (euler_xyz r a b).
Proof. exact euler_vec_xyz. Qed.

(* an exact rotation -- isometry with the inverse (psi,s,c,phi) -> (phi,-s,c,psi) -- when s^2+c^2 = 1 *)
Theorem C09_euler_is_rotation : forall r, r_st r * r_st r + r_ct r * r_ct r = 1 ->
  forall u v, dot (euler_lin r u) (euler_lin r v) = dot u v.
Proof. exact euler_isometry. Qed.

Theorem C09_euler_rotation_inverse : forall r, r_st r * r_st r + r_ct r * r_ct r = 1 ->
  forall u, euler_lin (row_inv r) (euler_lin r u) = u.
Proof. exact euler_inverse_l. Qed.

(* the returned angles are coordinates of the direction of the computed vector, in range *)
Theorem C09_euler_extract : forall r a b, 0 < norm2 (euler_xyz r a b) ->
  represents_deg (euler_R r a b) (euler_vec r a b).
Proof. exact euler_extract. Qed.

Theorem C09_euler_range : forall r a b,
  0 <= fst (euler_R r a b) < 360 /\ -90 <= snd (euler_R r a b) <= 90.
Proof.
  intros r a b. rewrite euler_R_is. apply euler_gen_range.
Qed.

(* |sin^2 + cos^2 - 1| <= 1e-10 for each tabulated row, and the computed vector is never zero *)
Theorem C09_rows_orthonormal : forall b s, valid_sel s ->
  Rabs (eps_of (euler_row b s)) <= eps_max /\ forall a d, 0 < norm2 (euler_xyz (euler_row b s) a d).
Proof.
  intros b s H. split; [|intros a d; apply near_nonzero]; apply rows_orthonormal, H.
Qed.

Theorem C09_rows_inverse_pairs : forall b s, valid_sel s -> euler_row b (inv_select s) = row_inv (euler_row b s).
Proof. exact rows_inverse_pairs. Qed.

(* every conversion followed by its inverse returns every point (poles included) to within 1e-5 deg *)
Theorem C09_conversions_invertible : forall b s a d, valid_sel s ->
  let p := euler_R (euler_row b s) a d in
  let q := euler_R (euler_row b (inv_select s)) (fst p) (snd p) in
  within_sky tol5 (unit_deg (fst q) (snd q)) (unit_deg a d).
Proof. exact rows_invertible. Qed.

(* every conversion preserves the great-circle angle between any two points to 1e-5 degree,
   measured between the returned positions (poles, antipodes and coincident points included) *)
Theorem C09_conversions_preserve_separation : forall b s a1 d1 a2 d2, valid_sel s ->
  let p := euler_R (euler_row b s) a1 d1 in
  let q := euler_R (euler_row b s) a2 d2 in
  Rabs (angle (unit_deg (fst p) (snd p)) (unit_deg (fst q) (snd q)) - angle (unit_deg a1 d1) (unit_deg a2 d2)) <= tol5.
Proof. exact rows_preserve_angles. Qed.

(* the great-circle angle is a metric on the unit sphere *)
Theorem C09_angle_triangle : forall a b c, is_unit a -> is_unit b -> is_unit c -> angle a c <= angle a b + angle b c.
Proof. exact angle_triangle. Qed.

(* on the rotated vectors: cosines change by at most 1e-10, squared chords by a factor within 1 +- 1e-10 *)
Theorem C09_conversions_near_isometry : forall b s, valid_sel s ->
  isometry_to eps_max (euler_lin (euler_row b s)) /\
  forall u v, Rabs (chord2 (euler_lin (euler_row b s) u) (euler_lin (euler_row b s) v) - chord2 u v) <= eps_max * chord2 u v.
Proof.
  intros b s H. split; [apply euler_near_isometry | intros u v; apply euler_chord]; apply rows_orthonormal, H.
Qed.

(* J2000: agreement with the exact rotation defined by the documented pole and node constants *)
Theorem C09_documented_rows_are_rotations : forall s,
  r_st (doc_row s) * r_st (doc_row s) + r_ct (doc_row s) * r_ct (doc_row s) = 1.
Proof. exact doc_row_rotation. Qed.

Theorem C09_agree_with_documented_constants : forall s a d, valid_sel s ->
  let p := euler_R (euler_row false s) a d in
  within_sky tol5 (unit_deg (fst p) (snd p)) (euler_lin (doc_row s) (unit_deg a d)).
Proof. exact rows_agree_documented. Qed.

(* chained conversions agree with the direct one (both epochs), on the returned positions *)
Theorem C09_chain_equals_direct : forall b a d,
  (let p1 := euler_R (euler_row b 4) a d in
   let p2 := euler_R (euler_row b 1) (fst p1) (snd p1) in
   let pd := euler_R (euler_row b 5) a d in
   within_sky tol5 (unit_deg (fst pd) (snd pd)) (unit_deg (fst p2) (snd p2)))
  /\
  (let p1 := euler_R (euler_row b 2) a d in
   let p2 := euler_R (euler_row b 3) (fst p1) (snd p1) in
   let pd := euler_R (euler_row b 6) a d in
   within_sky tol5 (unit_deg (fst pd) (snd pd)) (unit_deg (fst p2) (snd p2))).
Proof.
  intros b a d.
  destruct (rows_chain_mat_tight b) as [M5 M6].
  split; apply chain_angles; try assumption; apply rows_orthonormal; unfold valid_sel; lia.
Qed.

(* the as-found latitude formula (arcsin of the third component; shape flag false) fails the statement
   at the documented galactic pole: eq2gal(192.85948, 27.12825) is returned more than 1e-5 degree away
   from the direction of the rotated vector -- a property of the formula over the reals, not of rounding.
   With the flag true (arctan2) C09_agree_with_documented_constants holds at every point. *)
Theorem C09_asfound_arcsin_pole_refuted :
  let p := euler_R_gen false pole_row doc_alphaG doc_deltaG in
  ~ within_sky tol5 (unit_deg (fst p) (snd p)) (euler_dir pole_row doc_alphaG doc_deltaG).
Proof. exact asfound_pole_refuted. Qed.

Theorem C09_rotate_range : forall phi theta psi ra dec,
  0 <= fst (rotate_R phi theta psi ra dec) < 360 /\ -90 <= snd (rotate_R phi theta psi ra dec) <= 90.
Proof.
  intros phi theta psi ra dec. rewrite rotate_R_is. apply euler_gen_range.
Qed.

Theorem C09_rotate_isometry : forall phi theta psi ra1 dec1 ra2 dec2,
  let p := rotate_R phi theta psi ra1 dec1 in
  let q := rotate_R phi theta psi ra2 dec2 in
  dot (unit_deg (fst p) (snd p)) (unit_deg (fst q) (snd q)) = dot (unit_deg ra1 dec1) (unit_deg ra2 dec2).
Proof. exact rotate_isometry. Qed.

Theorem C09_rotate_preserves_separation : forall phi theta psi ra1 dec1 ra2 dec2,
  let p := rotate_R phi theta psi ra1 dec1 in
  let q := rotate_R phi theta psi ra2 dec2 in
  angle (unit_deg (fst p) (snd p)) (unit_deg (fst q) (snd q)) = angle (unit_deg ra1 dec1) (unit_deg ra2 dec2).
Proof.
  intros phi theta psi ra1 dec1 ra2 dec2 p q. unfold angle, p, q. rewrite rotate_isometry. reflexivity.
Qed.

Theorem C09_rotate_inverse : forall phi theta psi ra dec,
  let p := rotate_R phi theta psi ra dec in
  let q := rotate_R psi (- theta) phi (fst p) (snd p) in
  unit_deg (fst q) (snd q) = unit_deg ra dec.
Proof.
  intros phi theta psi ra dec.
  intros p q. unfold q. rewrite rotate_represents. unfold rotate_vec, euler_vec.
  pose proof (rotate_represents phi theta psi ra dec) as Hp. fold p in Hp. cbv zeta in Hp. rewrite Hp.
  unfold rotate_vec, euler_vec. rewrite <- rotate_row_inv.
  apply (euler_inverse_l _ (rotate_row_sc phi theta psi)).
Qed.

Theorem C09_xyz_unit_length : forall deg stomp ra dec, is_unit (eq2xyz_R deg stomp ra dec).
Proof. exact xyz_unit_length. Qed.

(* eq2xyz is a rotation about z of the direction of (ra, dec): separations are preserved *)
Theorem C09_xyz_is_rotated_direction : forall deg stomp ra dec,
  eq2xyz_R deg stomp ra dec = Rz (- (if stomp then sdss_node else 0)) (unit_rad (ang_in deg ra) (ang_in deg dec)).
Proof. exact eq2xyz_unit. Qed.

Theorem C09_xyz_preserves_separation : forall deg stomp ra1 dec1 ra2 dec2,
  angle (eq2xyz_R deg stomp ra1 dec1) (eq2xyz_R deg stomp ra2 dec2)
  = angle (unit_rad (ang_in deg ra1) (ang_in deg dec1)) (unit_rad (ang_in deg ra2) (ang_in deg dec2)).
Proof.
  intros deg stomp ra1 dec1 ra2 dec2. unfold angle. rewrite !eq2xyz_unit, dot_Rz. reflexivity.
Qed.

Theorem C09_xyz_inverse : forall deg stomp v, 0 < norm2 v ->
  eq2xyz_R deg stomp (fst (xyz2eq_R deg stomp v)) (snd (xyz2eq_R deg stomp v)) = normalize v.
Proof. exact xyz_inverse. Qed.

Theorem C09_xyz_roundtrip : forall deg stomp ra dec,
  let p := xyz2eq_R deg stomp (eq2xyz_R deg stomp ra dec) in
  eq2xyz_R deg stomp (fst p) (snd p) = eq2xyz_R deg stomp ra dec.
Proof.
  intros deg stomp ra dec p. unfold p. pose proof (xyz_unit_length deg stomp ra dec) as Hu.
  rewrite xyz_inverse by (rewrite Hu; lra). apply normalize_unit_id, Hu.
Qed.

Theorem C09_xyz2eq_range : forall stomp v,
  0 <= fst (xyz2eq_R true stomp v) <= 360 /\ -90 <= snd (xyz2eq_R true stomp v) <= 90.
Proof.
  intros stomp v.
  unfold xyz2eq_R. change xyz2eq_lat_atan2 with true. unfold xyz2eq_R_gen, lat_by; simpl fst; simpl snd.
  split; [apply xyz2eq_lon|].
  apply deg_of_rad_bounds. unfold lat_of. pose proof PI_RGT_0.
  pose proof (atan2_bound_lat (vz v) (sqrt (vx v * vx v + vy v * vy v)) (sqrt_pos _)). lra.
Qed.

Theorem C09_eq2sdss_correct : forall ra dec,
  in_range ra eq2sdss_range1 = true -> in_range dec eq2sdss_range2 = true ->
  exists cl ce, eq2sdss_R ra dec = Ok (cl, ce) /\
    sdss_unit (cl * D2R) (ce * D2R) = Rz (- sdss_node) (unit_deg ra dec) /\
    -90 <= cl <= 90 /\ -180 <= ce <= 180.
Proof. exact eq2sdss_correct. Qed.

Theorem C09_sdss2eq_correct : forall cl ce,
  in_range cl sdss2eq_range1 = true -> in_range ce sdss2eq_range2 = true ->
  exists ra dec, sdss2eq_R cl ce = Ok (ra, dec) /\
    unit_deg ra dec = Rz sdss_node (sdss_unit (cl * D2R) (ce * D2R)) /\
    0 <= ra <= 360 /\ -90 <= dec <= 90.
Proof. exact sdss2eq_correct. Qed.

Theorem C09_sdss_inverse_eq : forall ra dec, 0 <= ra <= 360 -> -90 <= dec <= 90 ->
  exists cl ce ra' dec', eq2sdss_R ra dec = Ok (cl, ce) /\ sdss2eq_R cl ce = Ok (ra', dec') /\
    unit_deg ra' dec' = unit_deg ra dec.
Proof. exact sdss_inverse_eq. Qed.

Theorem C09_sdss_inverse_sdss : forall cl ce, -90 <= cl <= 90 -> -180 <= ce <= 180 ->
  exists ra dec cl' ce', sdss2eq_R cl ce = Ok (ra, dec) /\ eq2sdss_R ra dec = Ok (cl', ce') /\
    sdss_unit (cl' * D2R) (ce' * D2R) = sdss_unit (cl * D2R) (ce * D2R).
Proof. exact sdss_inverse_sdss. Qed.

Theorem C09_sdss_preserves_separation : forall ra1 dec1 ra2 dec2 cl1 ce1 cl2 ce2,
  eq2sdss_R ra1 dec1 = Ok (cl1, ce1) -> eq2sdss_R ra2 dec2 = Ok (cl2, ce2) ->
  angle (sdss_unit (cl1 * D2R) (ce1 * D2R)) (sdss_unit (cl2 * D2R) (ce2 * D2R))
  = angle (unit_deg ra1 dec1) (unit_deg ra2 dec2).
Proof. exact sdss_preserves_angles. Qed.

Theorem C09_sdss_rejects_out_of_range : forall ra dec,
  (ra < 0 \/ 360 < ra \/ dec < -90 \/ 90 < dec) -> eq2sdss_R ra dec = Err EValue.
Proof. exact sdss_rejects. Qed.

(* rotations about z preserve separations (used with the two theorems above and C09_xyz_is_rotated_direction) *)
Theorem C09_Rz_isometry : forall a u v, dot (Rz a u) (Rz a v) = dot u v.
Proof. exact dot_Rz. Qed.

(* Gen.v carries the three vector components of each routine translated expression by expression
   from the esutil/coords.py under test (harness/translate/c09_consts.py, straightline) *)
Theorem C09_source_formula_euler : forall r a b,
  euler_xyz_src (r_psi r) (r_st r) (r_ct r) (r_phi r) a b = Some (euler_xyz r a b).
Proof.
  intros r a b. unfold euler_xyz_src, euler_xyz. f_equal; try (apply vec_eq; ring).
Qed.

Theorem C09_source_formula_rotate : forall phi theta psi ra dec,
  rotate_xyz_src phi theta psi ra dec = Some (euler_xyz (rotate_row phi theta psi) ra dec).
Proof.
  intros phi theta psi ra dec.
  unfold rotate_xyz_src, euler_xyz, rotate_row, r_phi, r_st, r_ct; simpl fst; simpl snd.
  f_equal; try (apply vec_eq; ring).
Qed.

Theorem C09_source_formula_eq2xyz : forall (deg stomp : bool) (ra dec : R),
  thetaphi2xyz_xyz_src (ang_in deg ra - (if stomp then sdss_node else 0)) (ang_in deg dec)
  = Some (eq2xyz_R deg stomp ra dec).
Proof.
  intros deg stomp ra dec. unfold thetaphi2xyz_xyz_src, eq2xyz_R. f_equal; try (apply vec_eq; ring).
Qed.

Theorem C09_source_formula_sdss2eq : forall cl ce, sdss2eq_xyz_src cl ce = Some (sdss_unit (cl * D2R) (ce * D2R)).
Proof.
  intros cl ce. unfold sdss2eq_xyz_src, sdss_unit. f_equal; try (apply vec_eq; ring).
Qed.

Theorem C09_source_formula_eq2sdss : forall ra dec, eq2sdss_xyz_src ra dec = Some (eq2sdss_xyz ra dec).
Proof.
  intros ra dec. unfold eq2sdss_xyz_src, eq2sdss_xyz. f_equal; try (apply vec_eq; ring).
Qed.

(* the output stage (longitude and latitude extracted from x, y, z) translated from the source, with numpy's
   arctan2 and float % instantiated by Model.atan2 and Model.Rmod, is the model's *)
Theorem C09_source_output_stage_euler : forall r a b,
  let v := euler_xyz r a b in
  euler_out_src atan2 Rmod (r_psi r) (vx v) (vy v) (vz v) = Some (euler_R_gen true r a b).
Proof.
  intros r a b v. unfold euler_out_src, euler_R_gen, lat_by, lat_of, lon_of, fourpi, twopi. fold v.
  f_equal. repeat (try reflexivity; try lra; f_equal).
Qed.

Theorem C09_source_output_stage_xyz2eq : forall v,
  xyz2thetaphi_out_src atan2 Rmod (vx v) (vy v) (vz v) = Some (lon_of v, lat_of v).
Proof.
  reflexivity.
Qed.

Theorem C09_shiftlon_spec : forall lon shift wrap, lon_valid lon ->
  shiftlon_ok lon shift wrap (shiftlon lon shift wrap).
Proof. exact shiftlon_spec. Qed.

Theorem C09_shiftlon_check_sound : forall lon shift wrap out,
  shiftlon_check lon shift wrap out = true -> shiftlon_ok lon shift wrap out.
Proof. intros lon shift wrap out. apply shiftlon_check_iff. Qed.

Theorem C09_shiftlon_check_tol_sound : forall tol lon shift wrap out,
  shiftlon_check_tol tol lon shift wrap out = true -> shiftlon_ok_tol tol lon shift wrap out.
Proof.
  intros tol lon shift wrap out.
  unfold shiftlon_check_tol, shiftlon_ok_tol. destruct shift as [s|].
  - intro H. apply andb_true_iff in H as [H1 H2]. split; [apply circ_dist_witness; exact H1 | apply q_in_ho_iff; exact H2].
  - destruct wrap.
    + intro H. apply andb_true_iff in H as [H1 H2]. split; [apply circ_dist_witness; exact H1 | apply q_in_iff; exact H2].
    + intro H. apply Qeq_bool_iff in H. exact H.
Qed.

Theorem C09_shiftlon_ok_tol_0 : forall lon shift wrap out,
  shiftlon_ok_tol 0 lon shift wrap out -> shiftlon_ok lon shift wrap out.
Proof.
  intros lon shift wrap out.
  unfold shiftlon_ok_tol, shiftlon_ok. destruct shift as [s|].
  - intros [[k Hk] Hr]. split; [|exact Hr]. exists k.
    apply Qabs_Qle_condition in Hk. destruct Hk as [Hk1 Hk2]. Lqa.lra.
  - destruct wrap; [|auto]. intros [[k Hk] Hr]. split; [|exact Hr]. exists k.
    apply Qabs_Qle_condition in Hk. destruct Hk as [Hk1 Hk2]. Lqa.lra.
Qed.

Theorem C09_unit_len_check_sound : forall x y z, unit_len_check x y z = true ->
  ((1 - unit_tol) * (1 - unit_tol) <= x * x + y * y + z * z <= (1 + unit_tol) * (1 + unit_tol))%Q.
Proof.
  unfold unit_len_check. intros x y z H. apply andb_true_iff in H as [H1 H2].
  split; apply Qle_bool_iff; assumption.
Qed.

Theorem C09_lonlat_ok_sound : forall lon lat, lonlat_ok (Some lon, Some lat) = true ->
  (0 <= lon <= 360 /\ -90 <= lat <= 90)%Q.
Proof.
  unfold lonlat_ok, both, lonlat_range_check; simpl. intros lon lat H. apply andb_true_iff in H as [H1 H2].
  apply q_in_iff in H1, H2. tauto.
Qed.

Theorem C09_sdss_ok_sound : forall cl ce, sdss_ok (Some cl, Some ce) = true ->
  (-90 <= cl <= 90 /\ -180 <= ce <= 180)%Q.
Proof.
  unfold sdss_ok, both, sdss_range_check; simpl. intros cl ce H. apply andb_true_iff in H as [H1 H2].
  apply q_in_iff in H1, H2. tauto.
Qed.

Example C09_nonvacuous_selectors : valid_sel 1 /\ valid_sel 6 /\ lon_valid (350 # 1).
Proof. unfold valid_sel, lon_valid, Qle, Qlt. simpl. lia. Qed.

(* the boundary input of the repaired defect: shiftlon(350, shift=-10) is 0, not 360 *)
Example C09_shiftlon_boundary : (shiftlon (350 # 1) (Some (- 10 # 1)%Q) true == 0)%Q.
Proof. vm_compute. reflexivity. Qed.

Example C09_checker_rejects_360 : shiftlon_check (350 # 1) (Some (- 10 # 1)%Q) true (360 # 1) = false.
Proof. vm_compute. reflexivity. Qed.
