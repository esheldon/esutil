(* C09 -- separations at the level of the returned positions: the great-circle angle is a metric on
   the unit sphere (triangle inequality), every tabulated conversion is within 1e-10 (chord) of an
   exact rotation, hence the angle between two returned positions differs from the angle between
   the two inputs by less than 1e-5 degree (in fact < 1e-9). *)
From Coq Require Import Reals Lra Psatz.
From Interval Require Import Tactic.
From EsVerif.Common Require Import Base.
From EsVerif.C09 Require Import Gen Model Spec Geometry Proofs Rows.
Open Scope R_scope.

Lemma angle_sym u v : angle u v = angle v u.
Proof. unfold angle. rewrite dot_sym. reflexivity. Qed.

Lemma angle_bound u v : 0 <= angle u v <= PI.
Proof. apply acos_bound. Qed.

(* Cauchy-Schwarz for the parts of a and c orthogonal to b *)
Lemma proj_cs a b c : is_unit a -> is_unit b -> is_unit c ->
  (dot a c - dot a b * dot b c)² <= (1 - (dot a b)²) * (1 - (dot b c)²).
Proof.
  unfold is_unit, norm2. intros Ha Hb Hc.
  set (p := dot a b). set (q := dot b c).
  set (a' := vsub a (scale p b)). set (c' := vsub c (scale q b)).
  pose proof (cauchy_schwarz a' c') as CS.
  assert (forall (k m : R) (x y : vec), dot (vsub x (scale k b)) (vsub y (scale m b))
            = dot x y - m * dot x b - k * dot b y + k * m * dot b b) as G.
  { intros k m x y. destruct x as [[x1 x2] x3]; destruct y as [[y1 y2] y3]; destruct b as [[b1 b2] b3].
    unfold dot, vsub, scale, vx, vy, vz; simpl. ring. }
  assert (dot a' c' = dot a c - p * q) as E1.
  { unfold a', c'. rewrite G, Hb. fold p q. ring. }
  assert (norm2 a' = 1 - p²) as E2.
  { unfold a', norm2. rewrite G, Hb, Ha. rewrite (dot_sym b a). fold p. unfold Rsqr. ring. }
  assert (norm2 c' = 1 - q²) as E3.
  { unfold c', norm2. rewrite G, Hb, Hc. rewrite (dot_sym c b). fold q. unfold Rsqr. ring. }
  rewrite E1, E2, E3 in CS. exact CS.
Qed.

Lemma angle_triangle a b c : is_unit a -> is_unit b -> is_unit c -> angle a c <= angle a b + angle b c.
Proof.
  intros Ha Hb Hc. unfold angle.
  pose proof (dot_unit_bound a b Ha Hb) as Bab. pose proof (dot_unit_bound b c Hb Hc) as Bbc.
  pose proof (dot_unit_bound a c Ha Hc) as Bac.
  set (al := acos (dot a b)). set (be := acos (dot b c)).
  pose proof (acos_bound (dot a b)) as Hal. pose proof (acos_bound (dot b c)) as Hbe.
  pose proof (acos_bound (dot a c)) as Hac. fold al in Hal. fold be in Hbe.
  destruct (Rle_dec PI (al + be)) as [Hbig|Hsmall]; [lra|].
  assert (al + be < PI) as Hs by lra. clear Hsmall.
  assert (cos (al + be) <= dot a c) as Hcos.
  { rewrite cos_plus. unfold al, be. rewrite !cos_acos by assumption. rewrite !sin_acos by assumption.
    pose proof (proj_cs a b c Ha Hb Hc) as P.
    set (p := dot a b) in *. set (q := dot b c) in *. set (x := dot a c) in *.
    assert (0 <= 1 - p²) as Ap by (unfold Rsqr; nra). assert (0 <= 1 - q²) as Aq by (unfold Rsqr; nra).
    rewrite <- sqrt_mult by assumption.
    assert (Rabs (x - p * q) <= sqrt ((1 - p²) * (1 - q²))) as Habs.
    { rewrite <- sqrt_Rsqr_abs. apply sqrt_le_1_alt. exact P. }
    apply Rabs_le_inv in Habs. lra. }
  destruct (Rle_dec (acos (dot a c)) (al + be)) as [|Hn]; [assumption|exfalso].
  assert (cos (acos (dot a c)) < cos (al + be)) as Hlt by (apply cos_decreasing_1; lra).
  rewrite cos_acos in Hlt by assumption. lra.
Qed.

(* moving both points by at most t changes their angle by at most 2t *)
Lemma angle_perturb U V U' V' t : is_unit U -> is_unit V -> is_unit U' -> is_unit V' ->
  angle U U' <= t -> angle V V' <= t -> Rabs (angle U V - angle U' V') <= 2 * t.
Proof.
  intros HU HV HU' HV' H1 H2.
  pose proof (angle_triangle U U' V HU HU' HV) as T1. pose proof (angle_triangle U' V' V HU' HV' HV) as T2.
  pose proof (angle_triangle U' U V' HU' HU HV') as T3. pose proof (angle_triangle U V V' HU HV HV') as T4.
  rewrite (angle_sym V' V) in T2. rewrite (angle_sym U' U) in T3.
  apply Rabs_le. lra.
Qed.

Definition rho (r : row) : R := sqrt (r_st r * r_st r + r_ct r * r_ct r).
Definition row_hat (r : row) : row := (r_psi r, r_st r / rho r, r_ct r / rho r, r_phi r).

Section Hat.
Variable r : row.
Hypothesis Heps : Rabs (eps_of r) <= eps_max.

Lemma rho_sq : rho r * rho r = r_st r * r_st r + r_ct r * r_ct r.
Proof. unfold rho. apply sqrt_sqrt. nra. Qed.

Lemma rho_bounds : 0 < rho r /\ Rabs (rho r - 1) <= eps_max.
Proof.
  pose proof rho_sq as Hs. pose proof Heps as He. unfold eps_of, eps_max in *. apply Rabs_le_inv in He.
  assert (0 <= rho r) as H0 by (unfold rho; apply sqrt_pos).
  assert (0 < rho r) as Hp by nra.
  split; [exact Hp|]. apply Rabs_le. split; nra.
Qed.

Lemma row_hat_rotation : r_st (row_hat r) * r_st (row_hat r) + r_ct (row_hat r) * r_ct (row_hat r) = 1.
Proof.
  destruct rho_bounds as [Hp _]. pose proof rho_sq as Hs.
  unfold row_hat, r_st, r_ct; simpl fst; simpl snd. fold (r_st r) (r_ct r).
  replace (r_st r / rho r * (r_st r / rho r) + r_ct r / rho r * (r_ct r / rho r))
    with ((r_st r * r_st r + r_ct r * r_ct r) / (rho r * rho r)) by (field; lra).
  rewrite <- Hs. field. lra.
Qed.

(* the conversion is within chord eps_max of that rotation at every point of the sphere *)
Lemma hat_close u : is_unit u -> chord2 (euler_lin r u) (euler_lin (row_hat r) u) <= eps_max * eps_max.
Proof.
  intro Hu. destruct rho_bounds as [Hp Hb]. pose proof rho_sq as Hs.
  unfold euler_lin.
  change (r_psi (row_hat r)) with (r_psi r). change (r_phi (row_hat r)) with (r_phi r).
  change (r_st (row_hat r)) with (r_st r / rho r). change (r_ct (row_hat r)) with (r_ct r / rho r).
  rewrite chord2_Rz, chord2_Rx_sc.
  set (w := Rz (- r_phi r) u). assert (is_unit w) as Hw by (apply is_unit_Rz; exact Hu).
  unfold is_unit, norm2, dot in Hw. set (p := rho r) in *.
  (* (s - s/p)^2 + (c - c/p)^2 = (1 - 1/p)^2 p^2 = (p - 1)^2 *)
  replace ((r_st r - r_st r / p)² + (r_ct r - r_ct r / p)²) with ((1 - / p)² * (p * p)) by (rewrite Hs; unfold Rsqr; field; lra).
  replace ((1 - / p)² * (p * p)) with ((p - 1) * (p - 1)) by (unfold Rsqr; field; lra).
  apply Rabs_le_inv in Hb. assert (0 <= eps_max) as He by (unfold eps_max; lra).
  assert ((p - 1) * (p - 1) <= eps_max * eps_max) as H1 by nra.
  pose proof (Rle_0_sqr (vx w)) as Qx. pose proof (Rle_0_sqr (vy w)) as Qy. pose proof (Rle_0_sqr (vz w)) as Qz. unfold Rsqr in *.
  assert (0 <= vy w * vy w + vz w * vz w <= 1) as H2 by lra.
  pose proof (Rle_0_sqr (p - 1)) as H3. unfold Rsqr in H3.
  set (A := (p - 1) * (p - 1)) in *. set (B := vy w * vy w + vz w * vz w) in *. clearbody A B. nra.
Qed.
End Hat.

Lemma half_tol5_ok : 0 <= tol5 / 2 <= PI /\ 2 * (eps_max * eps_max) <= (chord_of (tol5 / 2))².
Proof.
  split.
  - unfold tol5, D2R. split; interval.
  - unfold eps_max, chord_of, tol5, D2R, Rsqr. interval.
Qed.

(* a conversion by such a row preserves the angular separation of any two points to 1e-5 degree, measured
   between the returned positions *)
Lemma near_preserve_angles r a1 d1 a2 d2 : Rabs (eps_of r) <= eps_max ->
  let p := euler_R r a1 d1 in
  let q := euler_R r a2 d2 in
  Rabs (angle (unit_deg (fst p) (snd p)) (unit_deg (fst q) (snd q)) - angle (unit_deg a1 d1) (unit_deg a2 d2)) <= tol5.
Proof.
  intros He p q. unfold p, q. rewrite !near_position by exact He.
  set (u := unit_deg a1 d1). set (v := unit_deg a2 d2).
  assert (is_unit u) as Hu by apply unit_deg_unit. assert (is_unit v) as Hv by apply unit_deg_unit.
  pose proof (row_hat_rotation r He) as Hrot.
  set (F := euler_lin (row_hat r)).
  assert (forall w, is_unit w -> is_unit (F w)) as HF.
  { intros w Hw. unfold is_unit, norm2, F. rewrite (euler_isometry _ Hrot). exact Hw. }
  assert (angle (F u) (F v) = angle u v) as Hiso by (unfold angle, F; rewrite (euler_isometry _ Hrot); reflexivity).
  rewrite <- Hiso.
  destruct half_tol5_ok as [Ht Hc].
  assert (0 <= eps_max <= 1 / 2) as Hem by (unfold eps_max; lra).
  assert (forall w, is_unit w -> is_unit (normalize (euler_lin r w)) /\ angle (normalize (euler_lin r w)) (F w) <= tol5 / 2) as Hnear.
  { intros w Hw. pose proof (hat_close r He w Hw) as Hcl. fold F in Hcl.
    destruct (direction_close _ _ _ (HF w Hw) Hem Hcl) as [Hn Hd].
    pose proof (normalize_is_unit _ Hn) as Hnu. split; [exact Hnu|].
    apply (within_sky_angle (tol5 / 2) _ _ Hnu (HF w Hw) Ht). unfold within_sky. lra. }
  destruct (Hnear u Hu) as [HU1 HU2]. destruct (Hnear v Hv) as [HV1 HV2].
  replace tol5 with (2 * (tol5 / 2)) by field.
  apply angle_perturb; auto.
Qed.

Lemma rows_preserve_angles b s a1 d1 a2 d2 : valid_sel s ->
  let p := euler_R (euler_row b s) a1 d1 in
  let q := euler_R (euler_row b s) a2 d2 in
  Rabs (angle (unit_deg (fst p) (snd p)) (unit_deg (fst q) (snd q)) - angle (unit_deg a1 d1) (unit_deg a2 d2)) <= tol5.
Proof. intro Hs. apply near_preserve_angles, rows_orthonormal, Hs. Qed.

Lemma eq2sdss_ok_inv ra dec cl ce : eq2sdss_R ra dec = Ok (cl, ce) ->
  in_range ra eq2sdss_range1 = true /\ in_range dec eq2sdss_range2 = true.
Proof.
  unfold eq2sdss_R, eq2sdss_R_gen.
  destruct (in_range ra eq2sdss_range1); destruct (in_range dec eq2sdss_range2); simpl; intro H; try discriminate; auto.
Qed.

Lemma sdss_preserves_angles ra1 dec1 ra2 dec2 cl1 ce1 cl2 ce2 :
  eq2sdss_R ra1 dec1 = Ok (cl1, ce1) -> eq2sdss_R ra2 dec2 = Ok (cl2, ce2) ->
  angle (sdss_unit (cl1 * D2R) (ce1 * D2R)) (sdss_unit (cl2 * D2R) (ce2 * D2R))
  = angle (unit_deg ra1 dec1) (unit_deg ra2 dec2).
Proof.
  intros H1 H2.
  destruct (eq2sdss_ok_inv _ _ _ _ H1) as [A1 B1]. destruct (eq2sdss_ok_inv _ _ _ _ H2) as [A2 B2].
  destruct (eq2sdss_correct ra1 dec1 A1 B1) as [c1 [e1 [E1 [V1 _]]]].
  destruct (eq2sdss_correct ra2 dec2 A2 B2) as [c2 [e2 [E2 [V2 _]]]].
  rewrite H1 in E1. rewrite H2 in E2. injection E1 as -> ->. injection E2 as -> ->.
  unfold angle. rewrite V1, V2, dot_Rz. reflexivity.
Qed.
