(* C09 -- the two `while` loops of atbound terminate for EVERY real input and give the value in the window (the model
   unrolls them with fuel; here: some number of iterations suffices, more fuel changes nothing, and the result is the
   closed form "x moved by whole turns into [lo, lo+360]"); and the model keeps no state: the answer to a call does not
   depend on the calls made before it. *)
From Coq Require Import Reals Lra Lia List QArith.
From EsVerif.Common Require Import Base.
From EsVerif.C09 Require Import Gen Model Spec Geometry.
Import ListNotations.
Open Scope R_scope.

Lemma atb_up_fuel_indep n x lo m : lo <= atb_up n x lo -> atb_up (n + m) x lo = atb_up n x lo.
Proof.
  revert x. induction n as [|f IH]; intros x H.
  - simpl in *. destruct m; simpl; [reflexivity|]. destruct (Rlt_dec x lo); [lra | reflexivity].
  - simpl in *. destruct (Rlt_dec x lo) as [Hlt|Hge]; [apply IH; exact H | reflexivity].
Qed.

Lemma nat_above (y : R) : exists n : nat, y <= INR n.
Proof.
  destruct (archimed y) as [H _]. set (z := up y) in *.
  exists (Z.to_nat z). destruct (Z_le_gt_dec 0 z) as [Hz|Hz].
  - rewrite INR_IZR_INZ, Z2Nat.id by exact Hz. lra.
  - assert (IZR z <= 0) by (apply IZR_le; lia). replace (Z.to_nat z) with 0%nat by lia. simpl. lra.
Qed.

(* the first loop: after some number n of iterations the exit condition holds; more fuel changes nothing *)
Lemma atb_up_total x lo : exists n : nat,
  (forall m, atb_up (n + m) x lo = atb_up n x lo) /\ lo <= atb_up n x lo /\
  (atb_up n x lo = x \/ atb_up n x lo < lo + 360) /\ exists k : nat, atb_up n x lo = x + 360 * INR k.
Proof.
  destruct (nat_above ((lo - x) / 360)) as [n Hn].
  assert (lo - 360 * INR n <= x) as Hx by (apply Rmult_le_compat_r with (r := 360) in Hn; [|lra]; unfold Rdiv in Hn; rewrite Rmult_assoc, Rinv_l, Rmult_1_r in Hn; lra).
  destruct (atb_up_spec n x lo) as [k [E R]]. destruct (R Hx) as [R1 R2].
  exists n. split; [intro m; apply atb_up_fuel_indep; exact R1|]. split; [exact R1|]. split; [exact R2|]. exists k; exact E.
Qed.

Lemma atb_down_total x hi : exists n : nat,
  (forall m, atb_down (n + m) x hi = atb_down n x hi) /\ atb_down n x hi <= hi /\
  (atb_down n x hi = x \/ hi - 360 < atb_down n x hi) /\ exists k : nat, atb_down n x hi = x - 360 * INR k.
Proof.
  destruct (atb_up_total (- x) (- hi)) as [n [S [L [W [k E]]]]]. exists n.
  split; [intro m; rewrite !atb_down_up, S; reflexivity|]. rewrite atb_down_up.
  split; [lra|]. split; [destruct W; [left|right]; lra | exists k; lra].
Qed.

(* atbound on a window of one turn, for every real input: enough fuel exists, the result does not depend on the fuel
   beyond that, lies in the window and differs from the input by whole turns *)
Lemma atbound_total x lo : exists n : nat, forall m,
  atbound (n + m) x (lo, lo + 360) = atbound n x (lo, lo + 360) /\
  lo <= atbound n x (lo, lo + 360) <= lo + 360 /\
  exists k : Z, atbound n x (lo, lo + 360) = x + 360 * IZR k.
Proof.
  destruct (atb_up_total x lo) as [n1 [S1 [L1 [W1 [k1 E1]]]]].
  remember (atb_up n1 x lo) as y eqn:Ey.
  destruct (atb_down_total y (lo + 360)) as [n2 [S2 [L2 [W2 [k2 E2]]]]].
  exists (n1 + n2)%nat. intro m.
  assert (forall j, atb_up (n1 + j) x lo = y) as U by (intro j; rewrite S1; reflexivity).
  assert (forall j, atb_down (n2 + j) y (lo + 360) = atb_down n2 y (lo + 360)) as D by (intro j; apply S2).
  assert (forall f, (n1 + n2 <= f)%nat -> atbound f x (lo, lo + 360) = atb_down n2 y (lo + 360)) as A.
  { intros f Hf. unfold atbound; simpl fst; simpl snd.
    replace f with (n1 + (f - n1))%nat at 2 by lia. rewrite U.
    replace f with (n2 + (f - n2))%nat by lia. apply D. }
  rewrite (A (n1 + n2 + m)%nat) by lia. rewrite (A (n1 + n2)%nat) by lia.
  split; [reflexivity|]. split.
  - split; [|exact L2]. destruct W2 as [W2|W2]; [rewrite W2; exact L1 | lra].
  - exists (Z.of_nat k1 - Z.of_nat k2)%Z. rewrite E2, E1, minus_IZR, <- !INR_IZR_INZ. ring.
Qed.

Inductive call :=
| CEuler (b1950 : bool) (select : nat) (a d : R)
| CRotate (phi theta psi ra dec : R)
| CEq2xyz (deg stomp : bool) (ra dec : R)
| CXyz2eq (deg stomp : bool) (v : vec)
| CEq2sdss (ra dec : R)
| CSdss2eq (cl ce : R)
| CShiftlon (lon : Q) (shift : option Q) (wrap : bool).

Inductive answer_t :=
| APair (p : R * R) | AVec (v : vec) | ARes (r : result (R * R)) | AQ (q : Q).

Definition answer (c : call) : answer_t :=
  match c with
  | CEuler b s a d => APair (euler_R (euler_row b s) a d)
  | CRotate phi theta psi ra dec => APair (rotate_R phi theta psi ra dec)
  | CEq2xyz deg stomp ra dec => AVec (eq2xyz_R deg stomp ra dec)
  | CXyz2eq deg stomp v => APair (xyz2eq_R deg stomp v)
  | CEq2sdss ra dec => ARes (eq2sdss_R ra dec)
  | CSdss2eq cl ce => ARes (sdss2eq_R cl ce)
  | CShiftlon lon s w => AQ (shiftlon lon s w)
  end.

(* a session: the module as a state machine whose state is the list of calls made so far (the model keeps none) *)
Definition step (history : list call) (c : call) : list call * answer_t := (history ++ [c], answer c).

Fixpoint session (history : list call) (cs : list call) : list answer_t :=
  match cs with
  | [] => []
  | c :: t => let '(h, a) := step history c in a :: session h t
  end.

Lemma session_map h cs : session h cs = map answer cs.
Proof. revert h. induction cs as [|c t IH]; intro h; simpl; [reflexivity | rewrite IH; reflexivity]. Qed.

(* whatever was called before (and after), the answer to a call is the answer it gets as the only call of a session *)
Lemma history_independent pre c post h0 :
  nth (length pre) (session h0 (pre ++ c :: post)) (AQ 0%Q) = answer c /\ session [] [c] = [answer c].
Proof.
  split; [|reflexivity]. rewrite session_map, map_app. rewrite app_nth2; rewrite map_length; [|lia].
  rewrite Nat.sub_diag. reflexivity.
Qed.
