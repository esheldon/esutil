(* C09 -- shiftlon / shiftra on binary64 numbers: the additions and subtractions of the code are modelled as
   rounded-to-nearest-even operations (Flocq's generic model of IEEE-754 binary64: FLT_exp (-1074) 53; no overflow
   can occur below 1024), comparisons are exact.  The range [0,360) -- and [-180,180] when wrapping -- is proved for
   the FLOATING-POINT results, including the cases where a sum rounds up to exactly 360 (caught by the second wrap) and
   lands exactly on 360 (caught by the comparison >=).  The comparison operators, thresholds and the second wrap are
   the ones regenerated from the source (Gen.v). *)
From Coq Require Import Reals Lra Lia ZArith QArith Qreals.
From Flocq Require Import Core.
From EsVerif.Common Require Import Base.
From EsVerif.C09 Require Import Gen Model Spec.
Open Scope R_scope.

Definition fexp64 : Z -> Z := FLT_exp (-1074) 53.
Definition fmt (x : R) : Prop := generic_format radix2 fexp64 x.
Definition rnd (x : R) : R := round radix2 fexp64 ZnearestE x.

Lemma fexp64_valid : Valid_exp fexp64.
Proof. unfold fexp64. apply FLT_exp_valid. unfold Prec_gt_0. lia. Qed.

Global Instance fexp64_valid_inst : Valid_exp fexp64 := fexp64_valid.

Lemma rnd_le x y : x <= y -> rnd x <= rnd y.
Proof. apply round_le; [apply fexp64_valid | apply valid_rnd_N]. Qed.

Lemma rnd_id x : fmt x -> rnd x = x.
Proof. apply round_generic. apply valid_rnd_N. Qed.

Lemma rnd_fmt x : fmt (rnd x).
Proof. apply generic_format_round; [apply fexp64_valid | apply valid_rnd_N]. Qed.

Lemma rnd_ub x y : fmt y -> x <= y -> rnd x <= y.
Proof. intros Hy H. rewrite <- (rnd_id y Hy). apply rnd_le, H. Qed.

Lemma rnd_lb x y : fmt x -> x <= y -> x <= rnd y.
Proof. intros Hx H. rewrite <- (rnd_id x Hx). apply rnd_le, H. Qed.

(* m * 2^e is a binary64 number when |m| < 2^53 and e >= -1074 *)
Lemma fmt_dyadic (m e : Z) : (Z.abs m < 2 ^ 53)%Z -> (-1074 <= e)%Z -> fmt (IZR m * bpow radix2 e).
Proof.
  intros Hm He. unfold fmt, fexp64. apply generic_format_FLT.
  exists (Float radix2 m e); [reflexivity | exact Hm | exact He].
Qed.

Lemma bpow_m44 : bpow radix2 (-44) = / 17592186044416.
Proof. simpl. reflexivity. Qed.
Lemma bpow_m43 : bpow radix2 (-43) = / 8796093022208.
Proof. simpl. reflexivity. Qed.

Lemma fmt_0 : fmt 0.
Proof. apply generic_format_0. Qed.

Lemma fmt_int (n : Z) : (Z.abs n < 2 ^ 53)%Z -> fmt (IZR n).
Proof.
  intro H. replace (IZR n) with (IZR n * bpow radix2 0) by (simpl; ring). apply fmt_dyadic; [exact H | lia].
Qed.

Lemma fmt_360 : fmt 360.
Proof. apply (fmt_int 360). lia. Qed.
Lemma fmt_m360 : fmt (-360).
Proof. apply (fmt_int (-360)). lia. Qed.
Lemma fmt_180 : fmt 180.
Proof. apply (fmt_int 180). lia. Qed.
Lemma fmt_m180 : fmt (-180).
Proof. apply (fmt_int (-180)). lia. Qed.

(* the largest binary64 number below 360, and the numbers 360 - 2^-43, 720 - 2^-43 *)
Definition p360 : R := 360 - / 17592186044416.
Lemma fmt_p360 : fmt p360.
Proof.
  unfold p360. replace (360 - / 17592186044416) with (IZR (360 * 17592186044416 - 1) * bpow radix2 (-44)).
  - apply fmt_dyadic; lia.
  - rewrite bpow_m44, minus_IZR, mult_IZR. field.
Qed.
Definition q360 : R := 360 - / 8796093022208.
Lemma fmt_q360 : fmt q360.
Proof.
  unfold q360. replace (360 - / 8796093022208) with (IZR (360 * 8796093022208 - 1) * bpow radix2 (-43)).
  - apply fmt_dyadic; lia.
  - rewrite bpow_m43, minus_IZR, mult_IZR. field.
Qed.
Definition q720 : R := 720 - / 8796093022208.
Lemma fmt_q720 : fmt q720.
Proof.
  unfold q720. replace (720 - / 8796093022208) with (IZR (720 * 8796093022208 - 1) * bpow radix2 (-43)).
  - apply fmt_dyadic; lia.
  - rewrite bpow_m43, minus_IZR, mult_IZR. field.
Qed.

(* the successor of a positive number of the binade [2^(e-1), 2^e) is one unit of that binade further *)
Lemma succ_in_binade p (e : Z) : bpow radix2 (e - 1) <= p < bpow radix2 e ->
  succ radix2 fexp64 p = p + bpow radix2 (fexp64 e).
Proof.
  intros [H1 H2]. assert (0 < p) by (pose proof (bpow_gt_0 radix2 (e - 1)); lra).
  rewrite succ_eq_pos, ulp_neq_0 by lra. unfold cexp. rewrite (mag_unique_pos radix2 p e); [reflexivity | split; assumption].
Qed.

(* p is the largest binary64 number below its successor *)
Lemma below_succ p x : fmt p -> fmt x -> x < succ radix2 fexp64 p -> x <= p.
Proof.
  intros Hp Hx H. rewrite <- (pred_succ radix2 fexp64 p Hp).
  apply pred_ge_gt; [apply fexp64_valid | exact Hx | apply generic_format_succ; [apply fexp64_valid | exact Hp] | exact H].
Qed.

Lemma succ_p360 : succ radix2 fexp64 p360 = 360.
Proof.
  rewrite (succ_in_binade p360 9) by (unfold p360; simpl; lra).
  change (fexp64 9) with (-44)%Z. rewrite bpow_m44. unfold p360. lra.
Qed.

Lemma below_360 x : fmt x -> x < 360 -> x <= p360.
Proof. intros Hx H. apply below_succ; [apply fmt_p360 | exact Hx | rewrite succ_p360; exact H]. Qed.

Definition rcmp (c : cmp) (x t : R) : bool :=
  match c with
  | CGt => if Rlt_dec t x then true else false
  | CGe => if Rle_dec t x then true else false
  | CLt => if Rlt_dec x t then true else false
  | CLe => if Rle_dec x t then true else false
  | CEq => if Req_EM_T x t then true else false
  end.

(* lon: the longitude; a: abs(shift) % 360.0 (for a non-negative first argument python's float % is C fmod: the exact
   remainder, a binary64 number in [0, 360)); neg: shift < 0 *)
(* the program with the rounding operation as a parameter: rd = rnd gives binary64, rd = identity the exact model *)
Definition shiftlon_g (rd : R -> R) (lon a : R) (neg : bool) : R :=
  if neg then
    let l := rd (lon + a) in
    if rcmp shift_neg_cmp l (Q2R shift_neg_thr) then rd (l - Q2R shift_neg_period) else l
  else
    let l := rd (lon - a) in
    if rcmp shift_pos_cmp l (Q2R shift_pos_thr) then
      let l := rd (l + Q2R shift_pos_period) in
      match shift_pos_rewrap with
      | Some (c, t, p) => if rcmp c l (Q2R t) then rd (l - Q2R p) else l
      | None => l
      end
    else l.
Definition shiftlon_f : R -> R -> bool -> R := shiftlon_g rnd.

Definition wraplon_f (lon : R) : R :=
  if rcmp wrap_cmp lon (Q2R wrap_thr) then rnd (lon - Q2R wrap_period) else lon.

Lemma q2r_360 : Q2R (360 # 1) = 360.
Proof. unfold Q2R; simpl. lra. Qed.
Lemma q2r_0 : Q2R (0 # 1) = 0.
Proof. unfold Q2R; simpl. lra. Qed.
Lemma q2r_180 : Q2R (180 # 1) = 180.
Proof. unfold Q2R; simpl. lra. Qed.

Definition eps43 : R := / 8796093022208.

Lemma rnd_err x : Rabs x <= 1024 -> Rabs (rnd x - x) <= eps43.
Proof.
  intro H. unfold rnd.
  pose proof (error_le_half_ulp radix2 fexp64 (fun z => negb (Z.even z)) x) as E.
  assert (ulp radix2 fexp64 x <= ulp radix2 fexp64 1024) as U.
  { rewrite <- (ulp_abs radix2 fexp64 x). apply ulp_le_pos; [apply fexp64_valid | unfold fexp64; apply FLT_exp_monotone | apply Rabs_pos | exact H]. }
  assert (ulp radix2 fexp64 1024 = bpow radix2 (-42)) as U2.
  { rewrite ulp_neq_0 by lra. unfold cexp.
    replace (mag radix2 1024 : Z) with 11%Z; [reflexivity|].
    symmetry. apply mag_unique. rewrite Rabs_pos_eq by lra. simpl. lra. }
  rewrite U2 in U. simpl bpow in U. unfold eps43. unfold ZnearestE in *. lra.
Qed.

(* the result of shiftlon on binary64 numbers is a binary64 number in [0, 360), and differs from lon -/+ a by a multiple
   of 360 up to three roundings *)
Lemma shiftlon_float_spec lon a neg : fmt lon -> fmt a -> 0 <= lon < 360 -> 0 <= a < 360 ->
  fmt (shiftlon_f lon a neg) /\ 0 <= shiftlon_f lon a neg < 360 /\
  exists k : Z, Rabs (shiftlon_f lon a neg - ((if neg then lon + a else lon - a) + 360 * IZR k)) <= 3 * eps43.
Proof.
  intros Fl Fa [L0 L1] [A0 A1].
  pose proof (below_360 lon Fl L1) as Lp. pose proof (below_360 a Fa A1) as Ap.
  assert (p360 < 360) as P1 by (unfold p360; lra).
  assert (q360 < 360) as P2 by (unfold q360; lra).
  assert (p360 + p360 = q720) as P3 by (unfold p360, q720; field).
  assert (q720 < 1024) as P4 by (unfold q720; lra).
  assert (0 < eps43 <= 1) as He by (unfold eps43; lra).
  assert (forall x, -1024 <= x <= 1024 -> - eps43 <= rnd x - x <= eps43) as Err
    by (intros x Hx; apply Rabs_le_inv, rnd_err, Rabs_le; lra).
  unfold shiftlon_f, shiftlon_g, shift_neg_cmp, shift_neg_thr, shift_neg_period, shift_pos_cmp, shift_pos_thr, shift_pos_period,
    shift_pos_rewrap, rcmp. rewrite ?q2r_360, ?q2r_0.
  destruct neg.
  - pose proof (Err (lon + a) ltac:(lra)) as E1. set (l := rnd (lon + a)) in *.
    assert (0 <= l) as l0 by (apply rnd_lb; [apply fmt_0 | lra]).
    assert (l <= q720) as l1 by (apply rnd_ub; [apply fmt_q720 | lra]).
    destruct (Rle_dec 360 l) as [H|H].
    + pose proof (Err (l - 360) ltac:(lra)) as E2.
      assert (0 <= rnd (l - 360)) by (apply rnd_lb; [apply fmt_0 | lra]).
      assert (rnd (l - 360) <= q360) by (apply rnd_ub; [apply fmt_q360 | unfold q360, q720 in *; lra]).
      split; [apply rnd_fmt|]. split; [lra|]. exists (-1)%Z. apply Rabs_le. lra.
    + split; [apply rnd_fmt|]. split; [lra|]. exists 0%Z. apply Rabs_le. lra.
  - pose proof (Err (lon - a) ltac:(lra)) as E1. set (l := rnd (lon - a)) in *.
    assert (-360 <= l) as l0 by (apply rnd_lb; [apply fmt_m360 | lra]).
    assert (l <= p360) as l1 by (apply rnd_ub; [apply fmt_p360 | lra]).
    destruct (Rlt_dec l 0) as [H|H].
    + pose proof (Err (l + 360) ltac:(lra)) as E2. set (l2 := rnd (l + 360)) in *.
      assert (0 <= l2) as m0 by (apply rnd_lb; [apply fmt_0 | lra]).
      assert (l2 <= 360) as m1 by (apply rnd_ub; [apply fmt_360 | lra]).
      destruct (Rle_dec 360 l2) as [G|G].
      * assert (l2 = 360) as E360 by lra. rewrite E360 in *. replace (360 - 360) with 0 by ring. rewrite (rnd_id 0 fmt_0).
        split; [apply fmt_0|]. split; [lra|]. exists 0%Z. apply Rabs_le. lra.
      * split; [apply rnd_fmt|]. split; [lra|]. exists 1%Z. apply Rabs_le. lra.
    + split; [apply rnd_fmt|]. split; [lra|]. exists 0%Z. apply Rabs_le. lra.
Qed.

(* `ao = ((a + psi + fourpi) % twopi) * R2D`: for a positive first argument python's float % is the exact remainder,
   a binary64 number m with 0 <= m < twopi (the binary64 value of 2.0 * math.pi); the product with the binary64 value
   of R2D is then rounded.  Over the reals the model gives [0, 360); on binary64 numbers the result stays in [0, 360]
   (the closed interval is what the run-time range check uses). *)
Definition twopi_f : R := 884279719003555 / 140737488355328.       (* 6.283185307179586 *)
Definition r2d_f : R := 1007958012753983 / 17592186044416.          (* 57.29577951308232 *)

(* STRICTLY below 360 when the remainder m is itself a binary64 number: the largest binary64 number below twopi_f, times
   the binary64 R2D, lies below the midpoint of 360 - 2^-44 and 360 and is rounded down *)
Definition ptwopi : R := twopi_f - / 1125899906842624.

Lemma fmt_ptwopi : fmt ptwopi.
Proof.
  unfold ptwopi, twopi_f. replace (884279719003555 / 140737488355328 - / 1125899906842624)
    with (IZR (8 * 884279719003555 - 1) * bpow radix2 (-50)) by (simpl; lra).
  apply fmt_dyadic; lia.
Qed.

Lemma succ_ptwopi : succ radix2 fexp64 ptwopi = twopi_f.
Proof.
  rewrite (succ_in_binade ptwopi 3) by (unfold ptwopi, twopi_f; simpl; lra).
  change (fexp64 3) with (-50)%Z. unfold ptwopi. simpl. lra.
Qed.

Lemma euler_lon_float_strict m : fmt m -> 0 <= m < twopi_f ->
  0 <= rnd (m * r2d_f) <= p360 /\ p360 < 360.
Proof.
  intros Hm [M0 M1]. assert (m <= ptwopi) as Hp by (apply below_succ; [apply fmt_ptwopi | exact Hm | rewrite succ_ptwopi; exact M1]).
  assert (0 < r2d_f) as R0 by (unfold r2d_f; lra).
  split; [|unfold p360; lra]. split.
  - apply rnd_lb; [apply fmt_0 | apply Rmult_le_pos; lra].
  - unfold rnd. apply round_N_le_midp; [apply fexp64_valid | apply fmt_p360 |].
    rewrite succ_p360.
    apply Rle_lt_trans with (ptwopi * r2d_f); [apply Rmult_le_compat_r; lra|].
    unfold ptwopi, twopi_f, r2d_f, p360. lra.
Qed.

Lemma Qle_bool_Rle x y : Qle_bool x y = if Rle_dec (Q2R x) (Q2R y) then true else false.
Proof.
  destruct (Rle_dec (Q2R x) (Q2R y)) as [H|H].
  - apply Qle_bool_iff, Rle_Qle, H.
  - destruct (Qle_bool x y) eqn:E; [|reflexivity]. exfalso. apply H, Qle_Rle, Qle_bool_iff, E.
Qed.

Lemma rcmp_qcmp c (x t : Q) : rcmp c (Q2R x) (Q2R t) = qcmp c x t.
Proof.
  destruct c; unfold rcmp, qcmp; rewrite ?Qle_bool_Rle.
  - destruct (Rlt_dec (Q2R t) (Q2R x)), (Rle_dec (Q2R x) (Q2R t)); try reflexivity; lra.
  - reflexivity.
  - destruct (Rlt_dec (Q2R x) (Q2R t)), (Rle_dec (Q2R t) (Q2R x)); try reflexivity; lra.
  - reflexivity.
  - destruct (Req_EM_T (Q2R x) (Q2R t)) as [H|H], (Qeq_bool x t) eqn:E; try reflexivity; exfalso.
    + apply eqR_Qeq, Qeq_bool_iff in H. congruence.
    + apply H, Qeq_eqR, Qeq_bool_iff, E.
Qed.

