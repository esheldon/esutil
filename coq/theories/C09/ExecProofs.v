(* C09 -- the statement that the tolerant shiftlon checker of Exec.v establishes (Properties.C09_shiftlon_check_tol_sound), and the
   multiple of 360 that its circle distance exhibits. *)
From Coq Require Import QArith Qround Qabs.
From EsVerif.C09 Require Import Gen Model Spec Exec.
Open Scope Q_scope.

Definition shiftlon_ok_tol (tol : Q) (lon : Q) (shift : option Q) (wrap : bool) (out : Q) : Prop :=
  match shift with
  | Some s => (exists k : Z, Qabs (out - (lon - s) - 360 * inject_Z k) <= tol) /\ 0 <= out /\ out < 360
  | None => if wrap then (exists k : Z, Qabs (out - lon - 360 * inject_Z k) <= tol) /\ -180 <= out /\ out <= 180
            else out == lon
  end.

Lemma circ_dist_witness x y tol : Qle_bool (circ_dist x y) tol = true ->
  exists k : Z, Qabs (x - y - 360 * inject_Z k) <= tol.
Proof.
  unfold circ_dist. intro H. apply Qle_bool_iff in H.
  exists (Qfloor ((x - y) / 360 + (1 # 2))). exact H.
Qed.

