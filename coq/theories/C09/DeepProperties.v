(* C09 -- what holds beyond the real-number statements of Properties.v: shiftlon and the 2 pi seam on binary64 numbers,
   conditioning of the arctan2 extraction, the remaining source ties, the wrappers by name, atbound and the range
   checks for every input, no state. *)
From Coq Require Import Reals QArith Qreals Qabs List Lra Lia Psatz.
From Interval Require Import Tactic.
From EsVerif.Common Require Import Base.
From EsVerif.C09 Require Import Gen Model Spec Geometry Proofs Rows Isometry Wrappers FloatShift Conditioning Loops.
Import ListNotations.
Open Scope R_scope.

(* the range [0,360) holds for the FLOATING-POINT results (rounded additions, exact comparisons; operators, thresholds
   and the second wrap from Gen.v), and the result is lon -/+ a + 360 k up to three roundings (3 * 2^-43) *)
Theorem C09_shiftlon_float_range : forall lon a neg, fmt lon -> fmt a -> 0 <= lon < 360 -> 0 <= a < 360 ->
  fmt (shiftlon_f lon a neg) /\ 0 <= shiftlon_f lon a neg < 360.
Proof.
  intros lon a neg Fl Fa Hl Ha. split; apply (shiftlon_float_spec lon a neg Fl Fa Hl Ha).
Qed.

Theorem C09_wraplon_float_range : forall lon, fmt lon -> 0 <= lon < 360 ->
  fmt (wraplon_f lon) /\ -180 <= wraplon_f lon <= 180.
Proof.
  intros lon.
  intros Fl [L0 L1]. unfold wraplon_f, wrap_cmp, wrap_thr, wrap_period, rcmp. rewrite q2r_180, q2r_360.
  destruct (Rlt_dec 180 lon) as [H|H].
  - split; [apply rnd_fmt|]. split.
    + apply rnd_lb; [apply fmt_m180 | lra].
    + assert (rnd (lon - 360) <= 0) by (apply rnd_ub; [apply fmt_0 | lra]). lra.
  - split; [exact Fl | lra].
Qed.

Theorem C09_shiftlon_float_congruent : forall lon a neg, fmt lon -> fmt a -> 0 <= lon < 360 -> 0 <= a < 360 ->
  exists k : Z, Rabs (shiftlon_f lon a neg - ((if neg then lon + a else lon - a) + 360 * IZR k)) <= 3 * eps43.
Proof.
  intros lon a neg Fl Fa Hl Ha. apply (shiftlon_float_spec lon a neg Fl Fa Hl Ha).
Qed.

(* the exact-rational model of Model.v is the same program with the identity as rounding operation *)
Theorem C09_shiftlon_exact_is_unrounded : forall lon s wrap,
  Q2R (shiftlon lon (Some s) wrap) =
  shiftlon_g (fun x => x) (Q2R lon) (Q2R (Qmod (Qabs s) shift_mod)) (negb (Qle_bool 0 s)).
Proof.
  intros lon s wrap.
  unfold shiftlon, shiftlon_g. set (a := Qmod (Qabs s) shift_mod).
  destruct (negb (Qle_bool 0 s)).
  - rewrite <- Q2R_plus, rcmp_qcmp. destruct (qcmp shift_neg_cmp (lon + a) shift_neg_thr); [rewrite <- Q2R_minus|]; reflexivity.
  - rewrite <- Q2R_minus, rcmp_qcmp. destruct (qcmp shift_pos_cmp (lon - a) shift_pos_thr); [|reflexivity].
    rewrite <- Q2R_plus. destruct shift_pos_rewrap as [[[c t] p]|]; [|reflexivity].
    rewrite rcmp_qcmp. destruct (qcmp c (lon - a + shift_pos_period) t); [rewrite <- Q2R_minus|]; reflexivity.
Qed.

(* binary64: the longitude of euler / rotate at the 2 pi seam stays in [0, 360] *)
Theorem C09_euler_lon_float_range : forall m, 0 <= m < twopi_f ->
  fmt (rnd (m * r2d_f)) /\ 0 <= rnd (m * r2d_f) <= 360.
Proof.
  intros m.
  intros [M0 M1]. split; [apply rnd_fmt|].
  assert (0 < r2d_f) as R0 by (unfold r2d_f; lra).
  assert (twopi_f * r2d_f <= 360) as P by (unfold twopi_f, r2d_f; lra).
  split.
  - apply rnd_lb; [apply fmt_0 | apply Rmult_le_pos; lra].
  - apply rnd_ub; [apply fmt_360|]. apply Rle_trans with (twopi_f * r2d_f); [|exact P].
    apply Rmult_le_compat_r; lra.
Qed.

(* and strictly below 360 when the remainder m is itself a binary64 number (it is: C fmod is exact): the run-time value
   360.0 cannot come out of euler / rotate *)
Theorem C09_euler_lon_float_strict : forall m, fmt m -> 0 <= m < twopi_f ->
  0 <= rnd (m * r2d_f) <= p360 /\ p360 < 360.
Proof. exact euler_lon_float_strict. Qed.

(* the two binary64 constants used above are within one unit in the last place of 2 pi and 180 / pi (they are the values
   python computes for 2.0 * math.pi and 1.0 / (math.pi / 180.0)) *)
Theorem C09_float_consts_close :
  Rabs (twopi_f - 2 * PI) <= / 1125899906842624 /\ Rabs (r2d_f - 180 / PI) <= / 140737488355328.
Proof.
  unfold twopi_f, r2d_f. split; interval with (i_prec 80).
Qed.

Theorem C09_extract_conditioning : forall v u d e1 e2, is_unit u -> 0 <= d <= 1 / 2 -> chord2 v u <= d * d ->
  chord2 (unit_rad (lon_of v + e1) (lat_of v + e2)) u <= 4 * (e1 * e1) + 4 * (e2 * e2) + 4 * (d * d).
Proof. exact extract_conditioning. Qed.

Theorem C09_euler_conditioning : forall r a b v' d e1 e2, 0 < norm2 (euler_xyz r a b) -> 0 <= d <= 1 / 2 ->
  chord2 v' (normalize (euler_xyz r a b)) <= d * d ->
  let lon' := Rmod (lon_of v' + e1 + r_psi r + fourpi) twopi * R2D in
  let lat' := (lat_of v' + e2) * R2D in
  chord2 (unit_deg lon' lat') (normalize (euler_vec r a b)) <= 4 * (e1 * e1) + 4 * (e2 * e2) + 4 * (d * d).
Proof. exact euler_conditioning. Qed.

(* with any error budget up to 1e-9 on each of d, e1, e2 (seven orders of magnitude above binary64 rounding) the
   returned position is within 1e-5 degree of the true one, at every point of the sphere *)
Theorem C09_euler_conditioning_tol5 : forall r a b v' d e1 e2, 0 < norm2 (euler_xyz r a b) ->
  0 <= d <= 1 / 1000000000 -> Rabs e1 <= 1 / 1000000000 -> Rabs e2 <= 1 / 1000000000 ->
  chord2 v' (normalize (euler_xyz r a b)) <= d * d ->
  let lon' := Rmod (lon_of v' + e1 + r_psi r + fourpi) twopi * R2D in
  let lat' := (lat_of v' + e2) * R2D in
  within_sky tol5 (unit_deg lon' lat') (normalize (euler_vec r a b)).
Proof.
  intros r a b v' d e1 e2 Hn Hd H1 H2 Hv lon' lat'. unfold within_sky.
  pose proof (euler_conditioning r a b v' d e1 e2 Hn ltac:(lra) Hv) as H. cbv zeta in H. fold lon' lat' in H.
  apply Rabs_le_inv in H1. apply Rabs_le_inv in H2.
  assert (e1 * e1 <= 1 / 1000000000 * (1 / 1000000000)) by nra.
  assert (e2 * e2 <= 1 / 1000000000 * (1 / 1000000000)) by nra.
  assert (d * d <= 1 / 1000000000 * (1 / 1000000000)) by nra.
  pose proof chord_tol5_lower. lra.
Qed.

Theorem C09_source_output_stage_rotate : forall phi theta psi ra dec,
  let v := euler_xyz (rotate_row phi theta psi) ra dec in
  rotate_out_src atan2 Rmod phi theta psi ra dec (vx v) (vy v) (vz v) = Some (rotate_R phi theta psi ra dec).
Proof.
  intros phi theta psi ra dec v. rewrite rotate_R_is.
  unfold rotate_out_src, euler_R_gen, lat_by, lat_of, lon_of, fourpi, twopi. fold v.
  unfold rotate_row, r_psi; simpl fst; simpl snd.
  f_equal. repeat (try reflexivity; try lra; f_equal).
Qed.

Theorem C09_source_output_stage_eq2sdss : forall ra dec,
  in_range ra eq2sdss_range1 = true -> in_range dec eq2sdss_range2 = true ->
  let v := eq2sdss_xyz ra dec in
  option_map Ok (eq2sdss_out_src atan2 (fun x lo hi => atbound atb_fuel x (lo, hi)) ra dec (vx v) (vy v) (vz v))
  = Some (eq2sdss_R ra dec).
Proof.
  intros ra dec H1 H2 v. unfold eq2sdss_R. change eq2sdss_lat_atan2 with true. unfold eq2sdss_R_gen.
  rewrite H1, H2; simpl negb; cbv iota.
  fold v. unfold eq2sdss_out_src, option_map, eq2sdss_atbound. f_equal. f_equal. f_equal. ring.
Qed.

Theorem C09_source_output_stage_sdss2eq : forall cl ce,
  in_range cl sdss2eq_range1 = true -> in_range ce sdss2eq_range2 = true ->
  let v := sdss_unit (cl * D2R) (ce * D2R) in
  option_map Ok (sdss2eq_out_src atan2 atbound2 cl ce (vx v) (vy v) (vz v)) = Some (sdss2eq_R cl ce).
Proof.
  intros cl ce H1 H2 v. unfold sdss2eq_R. change sdss2eq_lat_atan2 with true. unfold sdss2eq_R_gen, lat_by.
  rewrite H1, H2; simpl negb; cbv iota.
  fold v. unfold sdss2eq_out_src, option_map, lat_of, lon_of.
  destruct (atbound2 (atan2 (vz v) (sqrt (vx v * vx v + vy v * vy v)) * R2D) ((atan2 (vy v) (vx v) + sdss_node) * R2D)) as [d r].
  reflexivity.
Qed.

(* eq2xyz / xyz2eq bodies (copy, deg2rad, stomp offset; stomp offset, rad2deg, atbound or 2 pi wrap), translated from the
   source for each (units, stomp) setting, and the error class of the range checks *)
Theorem C09_source_eq2xyz_arguments : forall (deg stomp : bool) (ra dec : R),
  thetaphi2xyz_xyz_src (fst (eq2xyz_args_src deg stomp ra dec)) (snd (eq2xyz_args_src deg stomp ra dec))
  = Some (eq2xyz_R deg stomp ra dec).
Proof.
  intros deg stomp ra dec. unfold eq2xyz_args_src, thetaphi2xyz_xyz_src, eq2xyz_R, ang_in.
  destruct deg, stomp; simpl fst; simpl snd; rewrite ?Rminus_0_r; reflexivity.
Qed.

Theorem C09_source_xyz2eq_body : forall (deg stomp : bool) (v : vec),
  xyz2eq_post_src (fun x lo hi => atbound atb_fuel x (lo, hi)) deg stomp (lon_of v) (lat_of v) = xyz2eq_R deg stomp v.
Proof.
  intros deg stomp v. unfold xyz2eq_R. change xyz2eq_lat_atan2 with true. change xyz2eq_rad_wrap_2pi with true.
  unfold xyz2eq_post_src, xyz2eq_R_gen, lat_by, xyz2eq_atbound.
  destruct deg, stomp; rewrite ?Rplus_0_r; try reflexivity.
  - destruct (Rlt_dec (lon_of v + sdss_node) (0 / 10)); destruct (Rlt_dec (lon_of v + sdss_node) 0); try lra; f_equal; lra.
  - destruct (Rlt_dec (lon_of v) (0 / 10)); destruct (Rlt_dec (lon_of v) 0); try lra; f_equal; lra.
Qed.

Theorem C09_source_range_error_class : sdss_range_err = EValue.
Proof.
  reflexivity.
Qed.

Theorem C09_wrapper_selectors :
  sel_eq2gal = 1%nat /\ sel_gal2eq = 2%nat /\ sel_eq2ec = 3%nat /\ sel_ec2eq = 4%nat /\ sel_ec2gal = 5%nat /\ sel_gal2ec = 6%nat.
Proof.
  repeat split; reflexivity.
Qed.

Theorem C09_wrappers_invertible :
  undoes eq2gal_R gal2eq_R /\ undoes gal2eq_R eq2gal_R /\ undoes eq2ec_R ec2eq_R /\ undoes ec2eq_R eq2ec_R /\
  undoes ec2gal_R gal2ec_R /\ undoes gal2ec_R ec2gal_R.
Proof.
  unfold undoes, eq2gal_R, gal2eq_R, eq2ec_R, ec2eq_R, ec2gal_R, gal2ec_R.
  repeat split; intros b a d;
    [apply (rows_invertible b 1) | apply (rows_invertible b 2) | apply (rows_invertible b 3) | apply (rows_invertible b 4)
     | apply (rows_invertible b 5) | apply (rows_invertible b 6)]; unfold valid_sel; lia.
Qed.

Theorem C09_wrappers_isometric :
  keeps_separation eq2gal_R /\ keeps_separation gal2eq_R /\ keeps_separation eq2ec_R /\ keeps_separation ec2eq_R /\
  keeps_separation ec2gal_R /\ keeps_separation gal2ec_R.
Proof.
  unfold keeps_separation, eq2gal_R, gal2eq_R, eq2ec_R, ec2eq_R, ec2gal_R, gal2ec_R.
  repeat split; intros b a1 d1 a2 d2;
    [apply (rows_preserve_angles b 1) | apply (rows_preserve_angles b 2) | apply (rows_preserve_angles b 3)
     | apply (rows_preserve_angles b 4) | apply (rows_preserve_angles b 5) | apply (rows_preserve_angles b 6)]; unfold valid_sel; lia.
Qed.

Theorem C09_atbound_total : forall x lo, exists n : nat, forall m,
  atbound (n + m) x (lo, lo + 360) = atbound n x (lo, lo + 360) /\
  lo <= atbound n x (lo, lo + 360) <= lo + 360 /\
  exists k : Z, atbound n x (lo, lo + 360) = x + 360 * IZR k.
Proof. exact atbound_total. Qed.

Theorem C09_eq2sdss_rejects_iff : forall ra dec,
  (eq2sdss_R ra dec = Err EValue <-> (ra < 0 \/ 360 < ra \/ dec < -90 \/ 90 < dec)) /\
  ((exists p, eq2sdss_R ra dec = Ok p) <-> (0 <= ra <= 360 /\ -90 <= dec <= 90)).
Proof. exact eq2sdss_rejects_iff. Qed.

Theorem C09_sdss2eq_rejects_iff : forall cl ce,
  (sdss2eq_R cl ce = Err EValue <-> (cl < -90 \/ 90 < cl \/ ce < -180 \/ 180 < ce)) /\
  ((exists p, sdss2eq_R cl ce = Ok p) <-> (-90 <= cl <= 90 /\ -180 <= ce <= 180)).
Proof.
  intros cl ce.
  destruct sdss_ranges_eq as [_ [_ [E3 E4]]]. unfold sdss2eq_R, sdss2eq_R_gen. rewrite E3, E4.
  apply range_checked_iff. destruct (atbound2 _ _); eexists; reflexivity.
Qed.

Theorem C09_history_independent : forall pre c post h0,
  nth (length pre) (session h0 (pre ++ c :: post)) (AQ 0%Q) = answer c /\ session [] [c] = [answer c].
Proof. exact history_independent. Qed.

Theorem C09_shiftlon_check_complete : forall lon shift wrap out,
  shiftlon_ok lon shift wrap out -> shiftlon_check lon shift wrap out = true.
Proof. intros lon shift wrap out. apply shiftlon_check_iff. Qed.

(* 350 and 10 are binary64 numbers in range; the negative-shift branch lands exactly on 360 and returns 0 *)
Example C09_float_boundary : fmt 350 /\ fmt 10 /\ shiftlon_f 350 10 true = 0.
Proof.
  split; [apply (fmt_int 350); lia | split; [apply (fmt_int 10); lia|]].
  unfold shiftlon_f, shiftlon_g, shift_neg_cmp, shift_neg_thr, shift_neg_period, rcmp. rewrite q2r_360.
  replace (350 + 10) with 360 by lra. rewrite (rnd_id 360 fmt_360).
  destruct (Rle_dec 360 360) as [_|H]; [|lra]. replace (360 - 360) with 0 by lra. apply (rnd_id 0 fmt_0).
Qed.

(* the conditioning hypotheses are satisfiable: exact components of a unit vector, no arctan2 error *)
Example C09_conditioning_instance : is_unit (unit_rad 1 1) /\ chord2 (unit_rad 1 1) (unit_rad 1 1) <= 0 * 0.
Proof. split; [apply unit_rad_unit|]. unfold chord2, Rsqr. lra. Qed.

Example C09_history_instance :
  nth 1 (session [] [CShiftlon (350 # 1) (Some (- 10 # 1)%Q) true; CEq2sdss 500 0; CShiftlon (10 # 1) None true]) (AQ 0%Q)
  = ARes (Err EValue).
Proof.
  destruct (history_independent [CShiftlon (350 # 1) (Some (- 10 # 1)%Q) true] (CEq2sdss 500 0) [CShiftlon (10 # 1) None true] []) as [H _].
  simpl length in H. simpl app in H. rewrite H. simpl. f_equal. apply sdss_rejects. lra.
Qed.
