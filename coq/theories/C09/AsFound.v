(* C09 -- the defect of the as-found latitude formula (arcsin of the third component), stated about the
   model with the shape flag false; independent of the flags in Gen.v:
   at the documented galactic pole the arcsin formula puts the point more than
   1e-5 degree away from the direction of the rotated vector (the formula itself, not rounding). *)
From Coq Require Import Reals Lra Psatz.
From Interval Require Import Tactic.
From EsVerif.Common Require Import Base.
From EsVerif.C09 Require Import Gen Model Spec Geometry.
Open Scope R_scope.

Definition hlen (v : vec) : R := sqrt (vx v * vx v + vy v * vy v).

(* the chord between two vectors is at least the difference of their horizontal lengths *)
Lemma horiz_chord U W : (hlen U - hlen W)² <= chord2 U W.
Proof.
  destruct U as [[a b] c]; destruct W as [[x y] z]. unfold hlen, chord2, vx, vy, vz; simpl fst; simpl snd.
  set (p := sqrt (a * a + b * b)). set (q := sqrt (x * x + y * y)).
  assert (p * p = a * a + b * b) as Hp by (apply sqrt_sqrt; nra).
  assert (q * q = x * x + y * y) as Hq by (apply sqrt_sqrt; nra).
  assert (0 <= p) as Hp0 by apply sqrt_pos. assert (0 <= q) as Hq0 by apply sqrt_pos.
  assert (a * x + b * y <= p * q) as CS.
  { assert ((a * x + b * y) * (a * x + b * y) <= (p * q) * (p * q)) as H2.
    { replace (p * q * (p * q)) with ((p * p) * (q * q)) by ring. rewrite Hp, Hq.
      pose proof (Rle_0_sqr (a * y - b * x)) as S. unfold Rsqr in S. nra. }
    assert (0 <= p * q) as Hpq by (apply Rmult_le_pos; assumption).
    destruct (Rle_dec (a * x + b * y) (p * q)) as [|Hn]; [assumption|]. exfalso. nra. }
  pose proof (Rle_0_sqr (c - z)) as Sz. unfold Rsqr in *. nra.
Qed.

Lemma hlen_Rz a v : hlen (Rz a v) = hlen v.
Proof.
  unfold hlen, Rz, vx, vy, vz; simpl fst; simpl snd. f_equal.
  pose proof (sc1 a) as H. generalize dependent (sin a); generalize dependent (cos a); intros c s H. nra.
Qed.

Lemma hlen_scale k v : 0 <= k -> hlen (scale k v) = k * hlen v.
Proof.
  intro Hk. unfold hlen, scale, vx, vy, vz; simpl fst; simpl snd.
  replace (k * fst (fst v) * (k * fst (fst v)) + k * snd (fst v) * (k * snd (fst v)))
    with (k * k * (fst (fst v) * fst (fst v) + snd (fst v) * snd (fst v))) by ring.
  rewrite sqrt_mult by nra. rewrite sqrt_square by exact Hk. reflexivity.
Qed.

Lemma hlen_unit_rad lon lat : 0 <= cos lat -> hlen (unit_rad lon lat) = cos lat.
Proof.
  intro Hc. unfold hlen, unit_rad, vx, vy, vz; simpl fst; simpl snd.
  replace (cos lat * cos lon * (cos lat * cos lon) + cos lat * sin lon * (cos lat * sin lon))
    with (cos lat * cos lat * (sin lon * sin lon + cos lon * cos lon)) by ring.
  rewrite sc1, Rmult_1_r. apply sqrt_square. exact Hc.
Qed.

Definition pole_row : row := euler_row false 1.
Definition pole_z : R := vz (euler_xyz pole_row doc_alphaG doc_deltaG).
Definition pole_h : R := hlen (euler_xyz pole_row doc_alphaG doc_deltaG).
Definition pole_n : R := euler_norm pole_row doc_alphaG doc_deltaG.

Ltac expand_pole := cbv [pole_z pole_h pole_n pole_row hlen euler_norm euler_xyz euler_row nth Nat.sub rows_J2000 row_J2000_1
  r_psi r_st r_ct r_phi vx vy vz fst snd doc_alphaG doc_deltaG D2R chord_of tol5 Rsqr].

Lemma pole_numbers : 0 < pole_z < 1 /\ 0 < pole_n /\ chord_of tol5 < sqrt (1 - pole_z * pole_z) - pole_h / pole_n.
Proof.
  repeat split; expand_pole; interval.
Qed.

(* eq2gal of the documented galactic pole, as-found formula: the returned position is more than 1e-5 degree
   away from the direction of the rotated vector *)
Lemma asfound_pole_refuted :
  let p := euler_R_gen false pole_row doc_alphaG doc_deltaG in
  ~ within_sky tol5 (unit_deg (fst p) (snd p)) (euler_dir pole_row doc_alphaG doc_deltaG).
Proof.
  intros p H. unfold within_sky in H.
  destruct pole_numbers as [[Hz0 Hz1] [Hn Hgap]].
  pose proof (horiz_chord (unit_deg (fst p) (snd p)) (euler_dir pole_row doc_alphaG doc_deltaG)) as HC.
  (* horizontal length of the returned position: cos(asin z) = sqrt(1 - z^2) *)
  assert (hlen (unit_deg (fst p) (snd p)) = sqrt (1 - pole_z * pole_z)) as HU.
  { unfold p, euler_R_gen, lat_by. cbv zeta.
    change (vz (euler_xyz pole_row doc_alphaG doc_deltaG)) with pole_z.
    cbn [fst snd]. unfold unit_deg. rewrite !D2R_R2D. rewrite Rmin_left by lra.
    assert (cos (asin pole_z) = sqrt (1 - pole_z²)) as Hc by (apply cos_asin; lra).
    rewrite hlen_unit_rad; [rewrite Hc; unfold Rsqr; reflexivity | rewrite Hc; apply sqrt_pos]. }
  assert (hlen (euler_dir pole_row doc_alphaG doc_deltaG) = pole_h / pole_n) as HW.
  { unfold euler_dir. fold pole_n. rewrite hlen_scale by (left; apply Rinv_0_lt_compat; exact Hn).
    rewrite hlen_Rz. fold pole_h. field. lra. }
  rewrite HU, HW in HC.
  assert (0 < chord_of tol5) as Ht by (unfold chord_of, tol5, D2R; interval).
  set (g := sqrt (1 - pole_z * pole_z) - pole_h / pole_n) in *. set (t := chord_of tol5) in *.
  unfold Rsqr in *. nra.
Qed.
