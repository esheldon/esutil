(* C09 — each routine of Model.v as a map of directions: euler's linear map is Rz psi . Rx . Rz (-phi), exact up to the
   defect s^2 + c^2 - 1 of the row; eq2xyz, eq2sdss, sdss2eq are rotations about z of the unit vector of their input;
   the returned angles are coordinates of the image and lie in the documented ranges.  shiftlon (exact rationals)
   and its checker come last. *)
From Coq Require Import QArith Qround Qabs Lqa Reals Lra Psatz.
From EsVerif.Common Require Import Base.
From EsVerif.C09 Require Import Gen Model Spec Geometry.
Open Scope R_scope.

(* 2 (a x + b y) <= a^2 + x^2 + b^2 + y^2 <= 2 *)
Lemma yz_part_bound u v : is_unit u -> is_unit v -> Rabs (vy u * vy v + vz u * vz v) <= 1.
Proof.
  unfold is_unit, norm2, dot. intros Hu Hv. apply Rabs_le.
  pose proof (Rle_0_sqr (vy u - vy v)). pose proof (Rle_0_sqr (vz u - vz v)).
  pose proof (Rle_0_sqr (vy u + vy v)). pose proof (Rle_0_sqr (vz u + vz v)).
  pose proof (Rle_0_sqr (vx u)). pose proof (Rle_0_sqr (vx v)). unfold Rsqr in *. lra.
Qed.

Lemma is_unit_Rz a u : is_unit u -> is_unit (Rz a u).
Proof. unfold is_unit. rewrite norm2_Rz. auto. Qed.

Section Euler.
Variable r : row.
Let psi := r_psi r.
Let s := r_st r.
Let c := r_ct r.
Let phi := r_phi r.
Let eps := s * s + c * c - 1.

(* the three components the code computes are Rx(theta) Rz(-phi) applied to the input direction *)
Lemma euler_xyz_lin a b : euler_xyz r a b = Rx_sc s c (Rz (- phi) (unit_deg a b)).
Proof.
  unfold euler_xyz, Rx_sc, Rz, unit_deg, unit_rad, vx, vy, vz; simpl fst; simpl snd.
  fold phi s c. rewrite cos_minus, sin_minus, cos_neg, sin_neg. apply vec_eq; ring.
Qed.

Lemma euler_vec_xyz a b : euler_vec r a b = Rz psi (euler_xyz r a b).
Proof. unfold euler_vec, euler_lin. rewrite euler_xyz_lin. reflexivity. Qed.

Lemma euler_lin_mat u : euler_lin r u = mapply (euler_mat r) u.
Proof.
  destruct u as [[x y] z].
  unfold euler_lin, euler_mat, mapply, Rz, Rx_sc, dot, mrow1, mrow2, mrow3, vx, vy, vz; simpl fst; simpl snd.
  fold psi phi s c. rewrite cos_neg, sin_neg. apply vec_eq; ring.
Qed.

Lemma euler_lin_scale k u : euler_lin r (scale k u) = scale k (euler_lin r u).
Proof. unfold euler_lin. rewrite Rz_scale, Rx_sc_scale, Rz_scale. reflexivity. Qed.

(* dot products: exact up to the defect eps = s^2 + c^2 - 1 of the tabulated sine/cosine *)
Lemma euler_dot u v :
  dot (euler_lin r u) (euler_lin r v) =
  dot u v + eps * (vy (Rz (- phi) u) * vy (Rz (- phi) v) + vz (Rz (- phi) u) * vz (Rz (- phi) v)).
Proof.
  unfold euler_lin. rewrite dot_Rz, dot_Rx_sc. fold s c phi.
  rewrite <- (dot_Rz (- phi) u v). unfold eps, dot. ring.
Qed.

Lemma euler_norm2 u : norm2 (euler_lin r u) = norm2 u + eps * (norm2 u - (vx (Rz (- phi) u))²).
Proof.
  unfold norm2. rewrite euler_dot. rewrite <- (dot_Rz (- phi) u u). unfold dot, Rsqr. ring.
Qed.

Lemma euler_lin_sub u v : euler_lin r (vsub u v) = vsub (euler_lin r u) (euler_lin r v).
Proof.
  destruct u as [[a b] d]; destruct v as [[x y] z].
  unfold euler_lin, vsub, Rz, Rx_sc, vx, vy, vz; simpl fst; simpl snd. apply vec_eq; ring.
Qed.

(* what follows is stated with a bound e on |eps|, the form in which a table of rows delivers it *)
Variable e : R.
Hypothesis He : Rabs eps <= e.

(* squared lengths, hence squared chords (hence small separations), are preserved multiplicatively *)
Lemma euler_norm2_bound w : Rabs (norm2 (euler_lin r w) - norm2 w) <= e * norm2 w.
Proof.
  rewrite euler_norm2.
  replace (norm2 w + eps * (norm2 w - (vx (Rz (- phi) w))²) - norm2 w)
    with (eps * (norm2 w - (vx (Rz (- phi) w))²)) by ring.
  rewrite Rabs_mult. apply Rmult_le_compat; [apply Rabs_pos | apply Rabs_pos | exact He |].
  rewrite <- (norm2_Rz (- phi) w). set (t := Rz (- phi) w).
  unfold norm2, dot, Rsqr. apply Rabs_le.
  pose proof (Rle_0_sqr (vx t)); pose proof (Rle_0_sqr (vy t)); pose proof (Rle_0_sqr (vz t)).
  unfold Rsqr in *. lra.
Qed.

Lemma euler_chord u v :
  Rabs (chord2 (euler_lin r u) (euler_lin r v) - chord2 u v) <= e * chord2 u v.
Proof. rewrite !chord2_vsub, <- euler_lin_sub. apply euler_norm2_bound. Qed.

(* separations are preserved up to e *)
Lemma euler_near_isometry : isometry_to e (euler_lin r).
Proof.
  intros u v Hu Hv. rewrite euler_dot.
  replace (dot u v + eps * (vy (Rz (- phi) u) * vy (Rz (- phi) v) + vz (Rz (- phi) u) * vz (Rz (- phi) v)) - dot u v)
    with (eps * (vy (Rz (- phi) u) * vy (Rz (- phi) v) + vz (Rz (- phi) u) * vz (Rz (- phi) v))) by ring.
  rewrite Rabs_mult, <- (Rmult_1_r e).
  apply Rmult_le_compat; [apply Rabs_pos | apply Rabs_pos | exact He |].
  exact (yz_part_bound _ _ (is_unit_Rz (- phi) u Hu) (is_unit_Rz (- phi) v Hv)).
Qed.

(* the inverse selector's row undoes the two turns about z exactly and the tilt up to the factor s^2 + c^2 *)
Lemma euler_roundtrip u :
  euler_lin (row_inv r) (euler_lin r u) =
  Rz phi (vx (Rz (- phi) u), (s * s + c * c) * vy (Rz (- phi) u), (s * s + c * c) * vz (Rz (- phi) u)).
Proof.
  change (euler_lin (row_inv r) (euler_lin r u)) with (Rz phi (Rx_sc (- s) c (Rz (- psi) (euler_lin r u)))).
  unfold euler_lin. fold psi phi s c. rewrite Rz_inv_l, Rx_sc_inv. reflexivity.
Qed.

Lemma euler_inverse_chord u :
  chord2 (euler_lin (row_inv r) (euler_lin r u)) u <= e * e * norm2 u.
Proof.
  rewrite euler_roundtrip, chord2_Rz_l, <- (norm2_Rz (- phi) u).
  assert (eps * eps <= e * e) as Hee by (pose proof (Rabs_le_inv _ _ He); nra).
  destruct (Rz (- phi) u) as [[x y] z]. unfold chord2, norm2, dot, vx, vy, vz, Rsqr; simpl fst; simpl snd.
  replace ((x - x) * (x - x) + ((s * s + c * c) * y - y) * ((s * s + c * c) * y - y) + ((s * s + c * c) * z - z) * ((s * s + c * c) * z - z))
    with (eps * eps * (y * y + z * z)) by (unfold eps; ring).
  pose proof (Rle_0_sqr x). pose proof (Rle_0_sqr y). pose proof (Rle_0_sqr z). unfold Rsqr in *.
  pose proof (Rle_0_sqr eps). unfold Rsqr in *. nra.
Qed.

Hypothesis Hsc : s * s + c * c = 1.

Lemma euler_isometry u v : dot (euler_lin r u) (euler_lin r v) = dot u v.
Proof. rewrite euler_dot. unfold eps. rewrite Hsc. ring. Qed.

Lemma euler_inverse_l u : euler_lin (row_inv r) (euler_lin r u) = u.
Proof.
  rewrite euler_roundtrip, Hsc. rewrite <- (Rz_inv_r phi u) at 4. f_equal.
  destruct (Rz (- phi) u) as [[x y] z]. unfold vx, vy, vz; simpl. apply vec_eq; ring.
Qed.
End Euler.

Lemma row_inv_inv r : row_inv (row_inv r) = r.
Proof.
  destruct r as [[[p s] c] f]. unfold row_inv, r_psi, r_st, r_ct, r_phi; simpl.
  rewrite Ropp_involutive. reflexivity.
Qed.

(* as matrices: the inverse selector's row gives the transpose, whether or not s^2 + c^2 = 1 *)
Lemma euler_mat_inv r : euler_mat (row_inv r) = mtrans (euler_mat r).
Proof.
  unfold euler_mat, row_inv, mtrans, mcol, mrow1, mrow2, mrow3, r_psi, r_st, r_ct, r_phi, vx, vy, vz; simpl.
  f_equal; [f_equal|]; apply vec_eq; ring.
Qed.

(* with psi = phi = 0 (ecliptic <-> equatorial) the matrix is the rotation about the x axis alone *)
Lemma euler_mat_x r : r_psi r = 0 -> r_phi r = 0 ->
  euler_mat r = ((1, 0, 0), (0, r_ct r, r_st r), (0, - r_st r, r_ct r)).
Proof.
  intros H1 H2. unfold euler_mat. rewrite H1, H2, cos_0, sin_0.
  f_equal; [f_equal|]; apply vec_eq; ring.
Qed.

Lemma euler_inverse' r u : r_st r * r_st r + r_ct r * r_ct r = 1 -> euler_lin r (euler_lin (row_inv r) u) = u.
Proof.
  intro H. rewrite <- (row_inv_inv r) at 1. apply euler_inverse_l.
  transitivity (r_st r * r_st r + r_ct r * r_ct r); [|exact H].
  unfold row_inv, r_st, r_ct; simpl. ring.
Qed.

Lemma euler_norm_ok r a b : euler_norm r a b = norm (euler_vec r a b).
Proof.
  unfold euler_norm, norm. f_equal. unfold euler_vec. rewrite euler_norm2.
  rewrite (unit_deg_unit a b). f_equal. f_equal. f_equal.
  unfold Rz, unit_deg, unit_rad, vx, vy, vz; simpl fst; simpl snd.
  rewrite cos_minus, cos_neg, sin_neg. unfold Rsqr. ring.
Qed.

Lemma euler_dir_ok r a b : euler_dir r a b = normalize (euler_vec r a b).
Proof. unfold euler_dir, normalize. rewrite euler_norm_ok, euler_vec_xyz. reflexivity. Qed.

Lemma Rmod_twopi_unit x lat : unit_rad (Rmod (x + fourpi) twopi) lat = unit_rad x lat.
Proof.
  pose proof PI_RGT_0. destruct (Rmod_spec (x + fourpi) twopi) as [[k E] _]; [unfold twopi; lra|].
  rewrite E. unfold fourpi, twopi.
  replace (x + 4 * PI - IZR k * (2 * PI)) with (x + 2 * IZR (2 - k) * PI) by (rewrite minus_IZR; ring).
  apply unit_rad_period.
Qed.

Lemma euler_gen_extract r a b : 0 < norm2 (euler_xyz r a b) -> represents_deg (euler_R_gen true r a b) (euler_vec r a b).
Proof.
  intro H. unfold represents_deg, euler_R_gen, lat_by; simpl fst; simpl snd. unfold unit_deg.
  rewrite !D2R_R2D.
  rewrite Rmod_twopi_unit. rewrite <- Rz_unit. rewrite (lonlat_extract _ H).
  rewrite euler_vec_xyz, normalize_Rz. reflexivity.
Qed.

(* the flag regenerated from the source says that euler computes the latitude by arctan2 *)
Lemma euler_R_is r a b : euler_R r a b = euler_R_gen true r a b.
Proof. reflexivity. Qed.

Lemma euler_extract r a b : 0 < norm2 (euler_xyz r a b) -> represents_deg (euler_R r a b) (euler_vec r a b).
Proof. rewrite euler_R_is. apply euler_gen_extract. Qed.

Lemma euler_gen_range r a b :
  0 <= fst (euler_R_gen true r a b) < 360 /\ -90 <= snd (euler_R_gen true r a b) <= 90.
Proof.
  unfold euler_R_gen, lat_by; simpl fst; simpl snd. pose proof PI_RGT_0 as Hpi.
  split.
  - destruct (Rmod_spec (lon_of (euler_xyz r a b) + r_psi r + fourpi) twopi) as [_ Hm]; [unfold twopi; lra|].
    set (m := Rmod _ _) in *. unfold twopi in Hm. pose proof (to_deg m). split; nra.
  - apply deg_of_rad_bounds. unfold lat_of. set (v := euler_xyz r a b).
    pose proof (atan2_bound_lat (vz v) _ (sqrt_pos (vx v * vx v + vy v * vy v))). lra.
Qed.

Lemma rotate_R_is phi theta psi ra dec :
  rotate_R phi theta psi ra dec = euler_R_gen true (rotate_row phi theta psi) ra dec.
Proof. reflexivity. Qed.

Lemma rotate_row_sc phi theta psi :
  r_st (rotate_row phi theta psi) * r_st (rotate_row phi theta psi)
  + r_ct (rotate_row phi theta psi) * r_ct (rotate_row phi theta psi) = 1.
Proof. unfold rotate_row, r_st, r_ct; simpl. apply sc1. Qed.

(* rotate(psi, -theta, phi) undoes rotate(phi, theta, psi) *)
Lemma rotate_row_inv phi theta psi : row_inv (rotate_row phi theta psi) = rotate_row psi (- theta) phi.
Proof.
  unfold row_inv, rotate_row, r_psi, r_st, r_ct, r_phi; simpl.
  replace (- - theta * D2R) with (- (- theta * D2R)) by ring.
  rewrite sin_neg, cos_neg. reflexivity.
Qed.

Lemma eq2xyz_unit deg stomp ra dec :
  eq2xyz_R deg stomp ra dec = Rz (- (if stomp then sdss_node else 0)) (unit_rad (ang_in deg ra) (ang_in deg dec)).
Proof.
  unfold eq2xyz_R. rewrite Rz_unit. unfold unit_rad. apply vec_eq; unfold Rminus; ring.
Qed.

Lemma xyz_unit_length deg stomp ra dec : is_unit (eq2xyz_R deg stomp ra dec).
Proof. rewrite eq2xyz_unit. apply is_unit_Rz, unit_rad_unit. Qed.

(* the windows and ranges regenerated into Gen.v, in the form (lo, lo + 360) that atbound_spec takes *)
Lemma xyz2eq_atbound_val : xyz2eq_atbound = (0, 0 + 360).
Proof. unfold xyz2eq_atbound. f_equal; lra. Qed.

Lemma eq2sdss_atbound_val : eq2sdss_atbound = (-180, -180 + 360).
Proof. unfold eq2sdss_atbound. f_equal; lra. Qed.

Lemma atbound2_b1 : atbound2_bound1 = (-180, 180).
Proof. unfold atbound2_bound1; f_equal; lra. Qed.

Lemma atbound2_b2 : atbound2_bound2 = (-180, 180).
Proof. unfold atbound2_bound2; f_equal; lra. Qed.

Lemma atbound2_b3 : atbound2_bound3 = (0, 0 + 360).
Proof. unfold atbound2_bound3; f_equal; lra. Qed.

Lemma sdss_ranges_eq : eq2sdss_range1 = (0, 360) /\ eq2sdss_range2 = (-90, 90)
  /\ sdss2eq_range1 = (-90, 90) /\ sdss2eq_range2 = (-180, 180).
Proof.
  unfold eq2sdss_range1, eq2sdss_range2, sdss2eq_range1, sdss2eq_range2.
  repeat split; f_equal; lra.
Qed.

Lemma node_bounds : 0 < sdss_node < PI.
Proof.
  unfold sdss_node, sdss_center_ra, D2R. pose proof PI_RGT_0. split.
  - apply Rmult_lt_0_compat; [lra|]. apply Rdiv_lt_0_compat; lra.
  - replace ((1850 / 10 - 900 / 10) * (PI / (1800 / 10))) with (PI * (95 / 180)) by field. nra.
Qed.

(* the longitude of xyz2eq in degrees: moved by whole turns into [0, 360] (the loops of atbound have run out) *)
Lemma xyz2eq_lon (stomp : bool) v :
  let x := (lon_of v + (if stomp then sdss_node else 0)) * R2D in
  (exists k : Z, atbound atb_fuel x xyz2eq_atbound = x + 360 * IZR k) /\ 0 <= atbound atb_fuel x xyz2eq_atbound <= 360.
Proof.
  set (nd := if stomp then sdss_node else 0).
  assert (0 <= nd < PI) as Hnd by (unfold nd; pose proof node_bounds; pose proof PI_RGT_0; destruct stomp; lra).
  pose proof (atan2_bound (vy v) (vx v)) as Hl. fold (lon_of v) in Hl. pose proof PI_RGT_0 as Hpi.
  intro x. rewrite xyz2eq_atbound_val. destruct (atbound_spec atb_fuel x 0) as [E Hr].
  { pose proof (deg_of_rad_bounds (lon_of v + nd) (-180) 360). unfold atb_fuel. simpl INR. unfold x. lra. }
  split; [exact E | lra].
Qed.

(* xyz2eq followed by eq2xyz returns the direction of the vector (same units/stomp setting) *)
Lemma xyz_inverse deg stomp v : 0 < norm2 v ->
  eq2xyz_R deg stomp (fst (xyz2eq_R deg stomp v)) (snd (xyz2eq_R deg stomp v)) = normalize v.
Proof.
  intro Hv. rewrite eq2xyz_unit. rewrite <- (lonlat_extract v Hv).
  unfold xyz2eq_R. change xyz2eq_lat_atan2 with true. change xyz2eq_rad_wrap_2pi with true.
  unfold xyz2eq_R_gen, lat_by. destruct deg; simpl fst; simpl snd; unfold ang_in.
  - rewrite D2R_R2D. destruct (xyz2eq_lon stomp v) as [[k E] _]. rewrite E.
    set (nd := if stomp then sdss_node else 0).
    replace (((lon_of v + nd) * R2D + 360 * IZR k) * D2R) with (lon_of v + nd + 2 * IZR k * PI)
      by (rewrite Rmult_plus_distr_r, D2R_R2D; unfold D2R; field).
    rewrite Rz_unit. rewrite <- (unit_rad_period (lon_of v) (lat_of v) k). f_equal. ring.
  - set (nd := if stomp then sdss_node else 0). rewrite Rz_unit. destruct (Rlt_dec (lon_of v + nd) 0).
    + rewrite <- (unit_rad_period (lon_of v) (lat_of v) 1). f_equal. ring.
    + f_equal. ring.
Qed.

Lemma eq2sdss_xyz_unit ra dec : eq2sdss_xyz ra dec = Rz (- sdss_node) (unit_deg ra dec).
Proof.
  unfold eq2sdss_xyz, unit_deg. rewrite Rz_unit. unfold unit_rad. apply vec_eq; unfold Rminus; ring.
Qed.

Lemma sdss_unit_unit cl ce : is_unit (sdss_unit cl ce).
Proof.
  unfold is_unit, norm2, dot, sdss_unit, vx, vy, vz; simpl fst; simpl snd.
  transitivity (sin cl * sin cl
                + (sin (ce + sdss_etapole) * sin (ce + sdss_etapole) + cos (ce + sdss_etapole) * cos (ce + sdss_etapole)) * (cos cl * cos cl));
    [ring | rewrite sc1, Rmult_1_l; apply sc1].
Qed.

Lemma in_range_iff x b : in_range x b = true <-> fst b <= x <= snd b.
Proof.
  unfold in_range. destruct (Rlt_dec x (fst b)), (Rlt_dec (snd b) x); split; intro H; try discriminate; try reflexivity; lra.
Qed.

Lemma in_range_true x b : in_range x b = true -> fst b <= x <= snd b.
Proof. apply in_range_iff. Qed.

Lemma etapole_bounds : 0 < sdss_etapole < PI / 2.
Proof.
  unfold sdss_etapole, sdss_center_dec, D2R. pose proof PI_RGT_0.
  replace (325 / 10 * (PI / (1800 / 10))) with (PI * (325 / 1800)) by field. nra.
Qed.

(* forward: the survey coordinates returned for (ra, dec) are coordinates of its direction in
   the survey frame, and lie in the documented ranges *)
Lemma eq2sdss_correct ra dec :
  in_range ra eq2sdss_range1 = true -> in_range dec eq2sdss_range2 = true ->
  exists cl ce, eq2sdss_R ra dec = Ok (cl, ce) /\
    sdss_unit (cl * D2R) (ce * D2R) = Rz (- sdss_node) (unit_deg ra dec) /\
    -90 <= cl <= 90 /\ -180 <= ce <= 180.
Proof.
  intros Hra Hdec. unfold eq2sdss_R. change eq2sdss_lat_atan2 with true. unfold eq2sdss_R_gen.
  rewrite Hra, Hdec; simpl negb; cbv iota.
  eexists; eexists; split; [reflexivity|].
  rewrite <- eq2sdss_xyz_unit.
  assert (is_unit (eq2sdss_xyz ra dec)) as Hu by (rewrite eq2sdss_xyz_unit; apply is_unit_Rz, unit_deg_unit).
  destruct (eq2sdss_xyz ra dec) as [[x y] z]. unfold vx, vy, vz; simpl fst; simpl snd.
  (* the extraction of every other routine, with the axes permuted: (y, z, x) *)
  set (w := (y, z, x) : vec).
  assert (is_unit w) as Hw by (unfold is_unit, norm2, dot, w, vx, vy, vz in *; simpl in *; lra).
  pose proof (lonlat_extract w ltac:(rewrite Hw; lra)) as Ew. rewrite (normalize_unit_id w Hw) in Ew.
  change (lat_of w) with (atan2 x (sqrt (y * y + z * z))) in Ew. change (lon_of w) with (atan2 z y) in Ew.
  pose proof (atan2_bound_lat x (sqrt (y * y + z * z)) (sqrt_pos _)) as Hlat.
  pose proof (atan2_bound z y) as Hlon. pose proof etapole_bounds as Hep. pose proof PI_RGT_0 as Hpi.
  set (th := atan2 x _) in *. set (et := atan2 z y) in *. injection Ew as Ey Ez Ex.
  rewrite eq2sdss_atbound_val.
  destruct (atbound_spec atb_fuel ((et - sdss_etapole) * R2D) (-180)) as [[k E] Hrng].
  { pose proof (deg_of_rad_bounds (et - sdss_etapole) (-360) 180). unfold atb_fuel. simpl INR. lra. }
  split; [| split].
  - rewrite E. unfold sdss_unit.
    replace (((et - sdss_etapole) * R2D + 360 * IZR k) * D2R + sdss_etapole) with (et + 2 * IZR k * PI)
      by (rewrite Rmult_plus_distr_r, D2R_R2D; unfold D2R; field).
    rewrite D2R_R2D, cos_period_Z, sin_period_Z, sin_neg, cos_neg, Ropp_involutive.
    apply vec_eq; [exact Ex | rewrite <- Ey; ring | rewrite <- Ez; ring].
  - apply deg_of_rad_bounds. lra.
  - lra.
Qed.

Lemma atbound_id fuel x lo hi : lo <= x <= hi -> atbound (S fuel) x (lo, hi) = x.
Proof.
  intro H. unfold atbound; simpl fst; simpl snd. cbn [atb_up]. destruct (Rlt_dec x lo); [lra|].
  cbn [atb_down]. destruct (Rlt_dec hi x); [lra|]. reflexivity.
Qed.

(* atbound2 on a latitude already in [-90,90]: latitude unchanged, longitude moved by whole
   turns into [0,360], set to 0 at the poles *)
Lemma atbound2_spec theta phi : -90 <= theta <= 90 -> -360 * 3 <= phi <= 360 * 4 ->
  fst (atbound2 theta phi) = theta /\
  0 <= snd (atbound2 theta phi) <= 360 /\
  ((exists k : Z, snd (atbound2 theta phi) = phi + 360 * IZR k) \/ (Rabs theta = 90 /\ snd (atbound2 theta phi) = 0)).
Proof.
  intros Ht Hp. unfold atbound2. rewrite atbound2_b1, atbound2_b2, atbound2_b3. unfold atb_fuel.
  rewrite (atbound_id 2 theta (-180) 180) by lra.
  destruct (Rlt_dec atbound2_fold (Rabs theta)) as [Hf|Hf].
  { exfalso. unfold atbound2_fold in Hf. assert (Rabs theta <= 90) by (apply Rabs_le; lra). lra. }
  rewrite (atbound_id 2 theta (-180) 180) by lra.
  destruct (atbound_spec 3 phi 0) as [[k E] Hr]; [simpl INR; lra|].
  simpl fst; simpl snd. destruct (Req_EM_T (Rabs theta) atbound2_pole) as [He|He].
  - split; [reflexivity|]. split; [lra|]. right. split; [|reflexivity]. rewrite He. unfold atbound2_pole. lra.
  - split; [reflexivity|]. split; [lra|]. left. exists k. exact E.
Qed.

Lemma unit_deg_pole lon lon' lat : Rabs lat = 90 -> unit_deg lon lat = unit_deg lon' lat.
Proof.
  intro H. unfold unit_deg, unit_rad.
  assert (cos (lat * D2R) = 0) as Hc.
  { unfold D2R. destruct (Rcase_abs lat) as [Hn|Hn].
    - rewrite Rabs_left in H by lra. replace (lat * (PI / (1800 / 10))) with (- (PI / 2)) by (replace lat with (-90) by lra; field).
      rewrite cos_neg. apply cos_PI2.
    - rewrite Rabs_right in H by lra. subst lat. replace (90 * (PI / (1800 / 10))) with (PI / 2) by field. apply cos_PI2. }
  rewrite Hc. apply vec_eq; ring.
Qed.

(* backward: (ra, dec) returned for survey coordinates are coordinates of the direction they
   denote, and lie in [0,360] x [-90,90] *)
Lemma sdss2eq_correct cl ce :
  in_range cl sdss2eq_range1 = true -> in_range ce sdss2eq_range2 = true ->
  exists ra dec, sdss2eq_R cl ce = Ok (ra, dec) /\
    unit_deg ra dec = Rz sdss_node (sdss_unit (cl * D2R) (ce * D2R)) /\
    0 <= ra <= 360 /\ -90 <= dec <= 90.
Proof.
  intros Hcl Hce. unfold sdss2eq_R. change sdss2eq_lat_atan2 with true. unfold sdss2eq_R_gen, lat_by.
  rewrite Hcl, Hce; simpl negb; cbv iota.
  set (v := sdss_unit (cl * D2R) (ce * D2R)).
  pose proof (sdss_unit_unit (cl * D2R) (ce * D2R)) as Hu. fold v in Hu.
  assert (0 < norm2 v) as Hv by (rewrite Hu; lra).
  pose proof (atan2_bound (vy v) (vx v)) as Hl. fold (lon_of v) in Hl.
  pose proof (atan2_bound_lat (vz v) (sqrt (vx v * vx v + vy v * vy v)) (sqrt_pos _)) as Hb. fold (lat_of v) in Hb.
  pose proof node_bounds as Hnd. pose proof PI_RGT_0 as Hpi.
  assert (-90 <= lat_of v * R2D <= 90) as Hdec by (apply deg_of_rad_bounds; lra).
  assert (-360 * 3 <= (lon_of v + sdss_node) * R2D <= 360 * 4) as Hra.
  { pose proof (deg_of_rad_bounds (lon_of v + sdss_node) (-180) 360). lra. }
  destruct (atbound2_spec _ _ Hdec Hra) as [E1 [R2 E2]].
  destruct (atbound2 (lat_of v * R2D) ((lon_of v + sdss_node) * R2D)) as [dec ra] eqn:EA.
  simpl fst in *; simpl snd in *. subst dec.
  eexists; eexists; split; [reflexivity|]. split; [|split; [lra|lra]].
  transitivity (Rz sdss_node (unit_rad (lon_of v) (lat_of v)));
    [| rewrite (lonlat_extract v Hv), (normalize_unit_id v Hu); reflexivity].
  rewrite Rz_unit.
  destruct E2 as [[k E]|[Hp E]].
  - rewrite E. rewrite unit_deg_period. unfold unit_deg. rewrite !D2R_R2D. reflexivity.
  - rewrite (unit_deg_pole ra ((lon_of v + sdss_node) * R2D) _ Hp). unfold unit_deg. rewrite !D2R_R2D. reflexivity.
Qed.

(* round trips: exact on the sphere *)
Lemma sdss_inverse_eq ra dec : 0 <= ra <= 360 -> -90 <= dec <= 90 ->
  exists cl ce ra' dec', eq2sdss_R ra dec = Ok (cl, ce) /\ sdss2eq_R cl ce = Ok (ra', dec') /\
    unit_deg ra' dec' = unit_deg ra dec.
Proof.
  intros Hra Hdec. destruct sdss_ranges_eq as [E1 [E2 [E3 E4]]].
  destruct (eq2sdss_correct ra dec) as [cl [ce [Ef [Hv [Rc Re]]]]];
    [apply in_range_iff; rewrite E1; simpl; lra | apply in_range_iff; rewrite E2; simpl; lra|].
  destruct (sdss2eq_correct cl ce) as [ra' [dec' [Eb [Hv' _]]]];
    [apply in_range_iff; rewrite E3; simpl; lra | apply in_range_iff; rewrite E4; simpl; lra|].
  exists cl, ce, ra', dec'. split; [exact Ef|]. split; [exact Eb|].
  rewrite Hv', Hv. apply Rz_inv_r.
Qed.

Lemma sdss_inverse_sdss cl ce : -90 <= cl <= 90 -> -180 <= ce <= 180 ->
  exists ra dec cl' ce', sdss2eq_R cl ce = Ok (ra, dec) /\ eq2sdss_R ra dec = Ok (cl', ce') /\
    sdss_unit (cl' * D2R) (ce' * D2R) = sdss_unit (cl * D2R) (ce * D2R).
Proof.
  intros Hcl Hce. destruct sdss_ranges_eq as [E1 [E2 [E3 E4]]].
  destruct (sdss2eq_correct cl ce) as [ra [dec [Eb [Hv [Rr Rd]]]]];
    [apply in_range_iff; rewrite E3; simpl; lra | apply in_range_iff; rewrite E4; simpl; lra|].
  destruct (eq2sdss_correct ra dec) as [cl' [ce' [Ef [Hv' _]]]];
    [apply in_range_iff; rewrite E1; simpl; lra | apply in_range_iff; rewrite E2; simpl; lra|].
  exists ra, dec, cl', ce'. split; [exact Eb|]. split; [exact Ef|].
  rewrite Hv', Hv. apply Rz_inv_l.
Qed.

(* two range checks, then a result: which inputs are rejected, and that the others are not *)
Lemma range_checked_iff {A} a b lo1 hi1 lo2 hi2 (k : result A) : (exists y, k = Ok y) ->
  let res := if negb (in_range a (lo1, hi1)) then Err EValue else if negb (in_range b (lo2, hi2)) then Err EValue else k in
  (res = Err EValue <-> (a < lo1 \/ hi1 < a \/ b < lo2 \/ hi2 < b)) /\
  ((exists p, res = Ok p) <-> (lo1 <= a <= hi1 /\ lo2 <= b <= hi2)).
Proof.
  intros [y ->]. unfold in_range; simpl.
  destruct (Rlt_dec a lo1), (Rlt_dec hi1 a), (Rlt_dec b lo2), (Rlt_dec hi2 b); simpl;
    (split; split; [intro | intro | intros [p Hp] | intro; try (exists y)]); try reflexivity; try discriminate; lra.
Qed.

Lemma eq2sdss_rejects_iff ra dec :
  (eq2sdss_R ra dec = Err EValue <-> (ra < 0 \/ 360 < ra \/ dec < -90 \/ 90 < dec)) /\
  ((exists p, eq2sdss_R ra dec = Ok p) <-> (0 <= ra <= 360 /\ -90 <= dec <= 90)).
Proof.
  destruct sdss_ranges_eq as [E1 [E2 _]]. unfold eq2sdss_R, eq2sdss_R_gen. rewrite E1, E2.
  apply range_checked_iff. eexists; reflexivity.
Qed.

Lemma sdss_rejects ra dec : (ra < 0 \/ 360 < ra \/ dec < -90 \/ 90 < dec) -> eq2sdss_R ra dec = Err EValue.
Proof. apply eq2sdss_rejects_iff. Qed.

Open Scope Q_scope.

Lemma qle_bool_false x y : Qle_bool x y = false <-> y < x.
Proof.
  split; intro H.
  - apply Qnot_le_lt. intro L. apply Qle_bool_iff in L. congruence.
  - destruct (Qle_bool x y) eqn:E; [|reflexivity]. apply Qle_bool_iff in E. exfalso. apply (Qlt_not_le _ _ H E).
Qed.

Lemma Qmod_spec x m : 0 < m ->
  Qmod x m == x - inject_Z (Qfloor (x / m)) * m /\ 0 <= Qmod x m /\ Qmod x m < m.
Proof.
  intro Hm. unfold Qmod. split; [reflexivity|].
  pose proof (Qfloor_le (x / m)) as H1. pose proof (Qlt_floor (x / m)) as H2.
  rewrite inject_Z_plus in H2.
  assert (~ m == 0) as Hm0 by (intro E; rewrite E in Hm; apply (Qlt_irrefl 0 Hm)).
  assert (x == (x / m) * m) as Hx by (field; exact Hm0).
  set (f := inject_Z (Qfloor (x / m))) in *.
  pose proof (Qmult_le_compat_r _ _ m H1 (Qlt_le_weak _ _ Hm)) as G1.
  pose proof (Qmult_lt_compat_r _ _ m Hm H2) as G2.
  rewrite <- Hx in G1, G2. change (inject_Z 1) with 1 in G2.
  split; Lqa.lra.
Qed.

(* the full statement for shiftlon/shiftra on its documented inputs *)
Lemma shiftlon_spec lon shift wrap : lon_valid lon -> shiftlon_ok lon shift wrap (shiftlon lon shift wrap).
Proof.
  intros [L0 L1]. unfold shiftlon_ok, shiftlon. destruct shift as [s|].
  - (* a = |s| - 360 k lies in [0, 360), so lon -/+ a is at most one period away from [0, 360): the witness is
       k or -k, moved by one where the code wraps *)
    destruct (Qmod_spec (Qabs s) shift_mod) as [E [M0 M1]]; [reflexivity|].
    set (a := Qmod (Qabs s) shift_mod) in *. set (k := Qfloor (Qabs s / shift_mod)) in *.
    unfold shift_mod in E, M1.
    destruct (Qle_bool 0 s) eqn:Hs; simpl negb; cbv iota.
    + apply Qle_bool_iff in Hs. rewrite (Qabs_pos s Hs) in E.
      unfold shift_pos_cmp, qcmp, shift_pos_thr, shift_pos_period.
      destruct (Qle_bool 0 (lon - a)) eqn:Hc; simpl negb; cbv iota.
      * apply Qle_bool_iff in Hc. split; [|Lqa.lra]. exists k. Lqa.lra.
      * apply qle_bool_false in Hc. unfold shift_pos_rewrap, qcmp.
        destruct (Qle_bool 360 (lon - a + 360)) eqn:Hr.
        { exfalso. apply Qle_bool_iff in Hr. Lqa.lra. }
        split; [|Lqa.lra]. exists (k + 1)%Z. rewrite inject_Z_plus. change (inject_Z 1) with 1. Lqa.lra.
    + apply qle_bool_false in Hs. rewrite (Qabs_neg s (Qlt_le_weak _ _ Hs)) in E.
      unfold shift_neg_cmp, qcmp, shift_neg_thr, shift_neg_period.
      destruct (Qle_bool 360 (lon + a)) eqn:Hc; cbv iota.
      * apply Qle_bool_iff in Hc. split; [|Lqa.lra]. exists (- k - 1)%Z.
        unfold Zminus. rewrite inject_Z_plus, inject_Z_opp. change (inject_Z (- (1))) with (- (1)). Lqa.lra.
      * apply qle_bool_false in Hc. split; [|Lqa.lra]. exists (- k)%Z. rewrite inject_Z_opp. Lqa.lra.
  - destruct wrap; [| reflexivity].
    unfold wrap_cmp, qcmp, wrap_thr, wrap_period.
    destruct (Qle_bool lon 180) eqn:Hc; simpl negb; cbv iota.
    + apply Qle_bool_iff in Hc. split; [|Lqa.lra]. exists 0%Z. change (inject_Z 0) with 0. Lqa.lra.
    + apply qle_bool_false in Hc. split; [|Lqa.lra]. exists (-1)%Z. change (inject_Z (-1)) with (- (1)). Lqa.lra.
Qed.

Lemma is_integer_iff q : is_integer q = true <-> exists k : Z, q == inject_Z k.
Proof.
  unfold is_integer. rewrite Qeq_bool_iff. split.
  - intro H. exists (Qfloor q). symmetry; exact H.
  - intros [k H]. rewrite (Qfloor_comp _ _ H), Qfloor_Z. symmetry; exact H.
Qed.

Lemma q_in_iff lo hi x : q_in lo hi x = true <-> lo <= x /\ x <= hi.
Proof. unfold q_in. rewrite andb_true_iff, !Qle_bool_iff. reflexivity. Qed.

Lemma q_in_ho_iff lo hi x : q_in_ho lo hi x = true <-> lo <= x /\ x < hi.
Proof. unfold q_in_ho. rewrite andb_true_iff, negb_true_iff, Qle_bool_iff, qle_bool_false. reflexivity. Qed.

(* the checker run on the implementation's outputs decides the property: out - lon + s = 360 k exactly when
   (out - lon + s) / 360 is the integer k *)
Lemma shiftlon_check_iff lon shift wrap out :
  shiftlon_check lon shift wrap out = true <-> shiftlon_ok lon shift wrap out.
Proof.
  unfold shiftlon_check, shiftlon_ok. destruct shift as [s|]; [|destruct wrap].
  - rewrite andb_true_iff, is_integer_iff, q_in_ho_iff.
    split; intros [[k Hk] H]; (split; [exists k | exact H]).
    + assert (out - lon + s == (out - lon + s) / 360 * 360) as E by field. rewrite Hk in E. Lqa.lra.
    + rewrite Hk. field.
  - rewrite andb_true_iff, is_integer_iff, q_in_iff.
    split; intros [[k Hk] H]; (split; [exists k | exact H]).
    + assert (out - lon == (out - lon) / 360 * 360) as E by field. rewrite Hk in E. Lqa.lra.
    + rewrite Hk. field.
  - apply Qeq_bool_iff.
Qed.
