(* C08 -- conditioning of the inverse trigonometric functions the two separation functions end with.
   acos (gcirc): why the cosine formula can only be held to 2e-6 degree.
   |acos c - acos c'| <= 2 asin (sqrt (|c - c'| / 2)), with equality at c' = 1; hence an error of
   6e-16 (2.7 ulp of 1) in cosdis moves the angle by at most 2e-6 degree, and an error of 2^-53 (half
   an ulp) next to cosdis = 1 already moves it by more than 8e-7 degree.
   asin (sphdist): the two branches under the branch threshold of the source: why the
   chord formula is only used below |u-v|^2 = thr and the cross-product formula above it.
   asin is Lipschitz with constant 1/sqrt(1-m^2) on [-m, m]; with thr = 3.99 an error e in the chord
   length |u-v| moves the chord-branch result by at most 20.01 e, and an error e in |u x v| moves the
   cross-branch result by at most 1.006 e (the chord formula alone would amplify without bound near 180
   degrees).
   Then robustness of the chord branch against errors in the unit vectors: if every component of the two
   computed vectors is within eta of the exact point, the chord length moves by at most 2 sqrt(3) eta
   (triangle inequality in R^3), hence -- below the branch threshold of the source -- the chord-branch result
   by at most 20.01 * 2 sqrt(3) * eta; with eta = 2^-50 (4 ulp of 1) that is below the statement's 1e-11
   degree.  (The remaining operations -- differences, squares, sum, sqrt, asin -- are taken as exact here;
   their rounding is what the per-case certificates measure.) *)
From Coq Require Import Reals Lra.
From Interval Require Import Tactic.
From EsVerif.C08 Require Import Gen Model Spec Proofs.
Open Scope R_scope.

Lemma acos_decr c c' : -1 <= c' <= 1 -> -1 <= c <= 1 -> c' <= c -> acos c <= acos c'.
Proof.
  intros H' H L. pose proof (acos_bound c) as [A0 A1]. pose proof (acos_bound c') as [B0 B1].
  apply cos_decr_0; try assumption. rewrite !cos_acos by assumption. exact L.
Qed.

Lemma half_diff_bound c c' : -1 <= c' <= 1 -> -1 <= c <= 1 -> c' <= c ->
  let d := (acos c' - acos c) / 2 in 0 <= d <= PI / 2 /\ 2 * (sin d * sin d) <= c - c'.
Proof.
  intros H' H L d. pose proof (acos_bound c) as [A0 A1]. pose proof (acos_bound c') as [B0 B1].
  pose proof (acos_decr c c' H' H L) as D.
  set (m := (acos c' + acos c) / 2).
  assert (Hd : 0 <= d <= PI / 2) by (unfold d; lra).
  split; [exact Hd|].
  assert (Ec : c = cos (m - d)) by (unfold m, d; replace ((acos c' + acos c) / 2 - (acos c' - acos c) / 2) with (acos c) by field; symmetry; apply cos_acos; exact H).
  assert (Ec' : c' = cos (m + d)) by (unfold m, d; replace ((acos c' + acos c) / 2 + (acos c' - acos c) / 2) with (acos c') by field; symmetry; apply cos_acos; exact H').
  rewrite Ec, Ec', cos_minus, cos_plus.
  assert (Sd : 0 <= sin d) by (apply sin_ge_0; lra).
  assert (Sm : sin d <= sin m).
  { destruct (Rle_lt_dec m (PI / 2)) as [M|M].
    - apply sin_incr_1; unfold m, d in *; lra.
    - rewrite <- (sin_PI_x m). apply sin_incr_1; unfold m, d in *; lra. }
  (* c - c' = cos (m - d) - cos (m + d) = 2 sin m sin d, and sin d <= sin m *)
  replace (cos m * cos d + sin m * sin d - (cos m * cos d - sin m * sin d)) with (2 * (sin m * sin d)) by ring.
  apply Rmult_le_compat_l; [lra|]. apply Rmult_le_compat_r; assumption.
Qed.

Lemma acos_cond_ordered c c' e : -1 <= c' <= 1 -> -1 <= c <= 1 -> c' <= c -> c - c' <= e -> e <= 2 ->
  acos c' - acos c <= 2 * asin (sqrt (e / 2)).
Proof.
  intros H' H L E E2. destruct (half_diff_bound c c' H' H L) as [[D0 D1] B]. cbv zeta in *.
  set (d := (acos c' - acos c) / 2) in *.
  assert (Sd : 0 <= sin d) by (apply sin_ge_0; lra).
  assert (Q : sin d <= sqrt (e / 2)).
  { rewrite <- (sqrt_square (sin d)) by exact Sd. apply sqrt_le_1_alt. lra. }
  assert (S1 : 0 <= sqrt (e / 2) <= 1).
  { split; [apply sqrt_pos|]. rewrite <- sqrt_1. apply sqrt_le_1_alt. lra. }
  pose proof (asin_bound (sqrt (e / 2))) as [T0 T1].
  assert (d <= asin (sqrt (e / 2))).
  { apply sin_incr_0; try lra. rewrite sin_asin by lra. exact Q. }
  unfold d in *. lra.
Qed.

Lemma acos_conditioning c c' e : -1 <= c <= 1 -> -1 <= c' <= 1 -> Rabs (c - c') <= e -> e <= 2 ->
  Rabs (acos c - acos c') <= 2 * asin (sqrt (e / 2)).
Proof.
  intros H H' E E2. destruct (Rle_lt_dec c' c) as [L|L].
  - pose proof (acos_decr c c' H' H L). rewrite Rabs_left1 by lra.
    replace (- (acos c - acos c')) with (acos c' - acos c) by ring.
    apply acos_cond_ordered; try assumption. rewrite Rabs_right in E by lra. exact E.
  - assert (L' : c <= c') by lra. pose proof (acos_decr c' c H H' L'). rewrite Rabs_right by lra.
    apply acos_cond_ordered; try assumption. rewrite Rabs_left in E by lra. lra.
Qed.

(* the bound is attained at c' = 1 *)
Lemma acos_near_one e : 0 <= e <= 2 -> acos (1 - e) - acos 1 = 2 * asin (sqrt (e / 2)).
Proof.
  intro E. rewrite acos_1, Rminus_0_r. rewrite <- (chord_scalar (1 - e)) by lra. do 2 f_equal.
  replace (2 - 2 * (1 - e)) with ((e / 2) * (2 * 2)) by field.
  rewrite sqrt_mult_alt by lra. rewrite sqrt_square by lra. field.
Qed.

Lemma two_asin_small x : 0 <= x <= / 1000 -> 2 * asin x = 2 * atan (x / sqrt (1 - x * x)).
Proof. intro H. rewrite asin_atan by lra. unfold Rsqr. reflexivity. Qed.

(* 6e-16 = 2.7 ulp(1) of error in cosdis costs at most 2e-6 degree ... *)
Lemma gcirc_conditioning c c' : -1 <= c <= 1 -> -1 <= c' <= 1 -> Rabs (c - c') <= 6e-16 ->
  Rabs (acos c - acos c') <= tol_in Rad 2e-6.
Proof.
  intros H H' E. eapply Rle_trans; [apply (acos_conditioning c c' 6e-16); try assumption; lra|].
  rewrite two_asin_small by (split; [apply sqrt_pos | interval]).
  unfold tol_in. interval with (i_prec 80).
Qed.

(* ... and half an ulp next to cosdis = 1 already costs more than 8e-7 degree: no implementation of the
   law of cosines in binary64 can meet the chord function's 1e-11 degree *)
Lemma cosine_formula_limit : 8e-7 < r2d (acos (1 - / 2 ^ 53) - acos 1).
Proof.
  rewrite acos_near_one by (split; interval).
  rewrite two_asin_small by (split; [apply sqrt_pos | interval]).
  unfold r2d. interval with (i_prec 80).
Qed.

Lemma sqrt_lower a b : 0 <= a -> a * a <= b -> a <= sqrt b.
Proof. intros Ha H. rewrite <- (sqrt_square a Ha). apply sqrt_le_1_alt. exact H. Qed.

Lemma asin_deriv c : -1 < c < 1 -> derivable_pt_lim asin c (1 / sqrt (1 - c²)).
Proof. intro H. apply (derive_pt_eq_1 asin c _ (derivable_pt_asin c H)). apply derive_pt_asin. Qed.

Lemma asin_lipschitz_ordered m x y : 0 <= m < 1 -> -m <= x -> x < y -> y <= m ->
  asin y - asin x <= (y - x) / sqrt (1 - m²).
Proof.
  intros Hm Hx Hxy Hy.
  destruct (MVT_cor2 asin (fun c => 1 / sqrt (1 - c²)) x y Hxy) as [c [E [C0 C1]]].
  { intros c Hc. apply asin_deriv. lra. }
  rewrite E.
  assert (Q : 0 < 1 - m²) by (unfold Rsqr; nra).
  assert (Qc : 1 - m² <= 1 - c²) by (unfold Rsqr; nra).
  assert (S0 : 0 < sqrt (1 - m²)) by (apply sqrt_lt_R0; exact Q).
  assert (S1 : sqrt (1 - m²) <= sqrt (1 - c²)) by (apply sqrt_le_1_alt; exact Qc).
  assert (I : / sqrt (1 - c²) <= / sqrt (1 - m²)) by (apply Rinv_le_contravar; assumption).
  unfold Rdiv. rewrite Rmult_1_l, (Rmult_comm (y - x)). apply Rmult_le_compat_r; lra.
Qed.

Lemma asin_incr x y : -1 <= x -> x <= y -> y <= 1 -> asin x <= asin y.
Proof.
  intros Hx Hxy Hy. destruct (Rle_lt_dec (asin x) (asin y)) as [A|A]; [exact A|exfalso].
  pose proof (asin_bound x). pose proof (asin_bound y).
  assert (sin (asin y) < sin (asin x)) by (apply sin_increasing_1; lra).
  rewrite !sin_asin in * by lra. lra.
Qed.

Lemma asin_lipschitz m x y : 0 <= m < 1 -> -m <= x <= m -> -m <= y <= m ->
  Rabs (asin x - asin y) <= Rabs (x - y) / sqrt (1 - m²).
Proof.
  assert (O : forall x y, 0 <= m < 1 -> -m <= x -> x <= y -> y <= m ->
              Rabs (asin x - asin y) <= Rabs (x - y) / sqrt (1 - m²)).
  { intros a b Hm Ha [L|E] Hb.
    - pose proof (asin_lipschitz_ordered m a b Hm Ha L Hb) as B.
      pose proof (asin_incr a b ltac:(lra) ltac:(lra) ltac:(lra)).
      rewrite (Rabs_left1 (asin a - asin b)), (Rabs_left1 (a - b)) by lra.
      replace (- (a - b)) with (b - a) by ring. lra.
    - subst b. rewrite !Rminus_diag_eq, Rabs_R0 by reflexivity. unfold Rdiv. lra. }
  intros Hm Hx Hy. destruct (Rle_lt_dec x y); [apply O; lra|].
  rewrite (Rabs_minus_sym (asin x)), (Rabs_minus_sym x). apply O; lra.
Qed.

(* a Lipschitz constant 1/c for asin on [-m, m] is certified by the rational inequality c^2 <= 1 - m^2 *)
Lemma asin_lipschitz_c m c x y : 0 <= m < 1 -> 0 < c -> c * c <= 1 - m * m -> -m <= x <= m -> -m <= y <= m ->
  Rabs (asin x - asin y) <= Rabs (x - y) / c.
Proof.
  intros Hm Hc Hcm Hx Hy. eapply Rle_trans; [apply (asin_lipschitz m); assumption|].
  apply Rmult_le_compat_l; [apply Rabs_pos|]. apply Rinv_le_contravar; [exact Hc|]. apply sqrt_lower; [lra | exact Hcm].
Qed.

(* the chord formula 2 asin (d/2) for chord lengths with d^2 <= T < 4: here m = sqrt T / 2 *)
Lemma chord_conditioning T c d d' : 0 <= T < 4 -> 0 < c -> c * c <= 1 - T / 4 ->
  0 <= d -> 0 <= d' -> d * d <= T -> d' * d' <= T ->
  Rabs (2 * asin (/ 2 * d) - 2 * asin (/ 2 * d')) <= Rabs (d - d') / c.
Proof.
  intros HT Hc HcT D0 D0' D D'. set (m := sqrt T / 2).
  assert (M2 : m * m = T / 4).
  { unfold m. replace (sqrt T / 2 * (sqrt T / 2)) with (sqrt T * sqrt T / 4) by field. rewrite sqrt_sqrt by lra. reflexivity. }
  assert (M0 : 0 <= m) by (unfold m; apply Rmult_le_pos; [apply sqrt_pos | lra]).
  assert (Hm : 0 <= m < 1) by (split; [exact M0 | nra]).
  assert (Hd : - m <= / 2 * d <= m) by (split; nra).
  assert (Hd' : - m <= / 2 * d' <= m) by (split; nra).
  rewrite <- M2 in HcT. pose proof (asin_lipschitz_c m c (/ 2 * d) (/ 2 * d') Hm Hc HcT Hd Hd') as L.
  replace (2 * asin (/ 2 * d) - 2 * asin (/ 2 * d')) with (2 * (asin (/ 2 * d) - asin (/ 2 * d'))) by ring.
  rewrite Rabs_mult, (Rabs_right 2) by lra.
  replace (/ 2 * d - / 2 * d') with (/ 2 * (d - d')) in L by ring.
  rewrite Rabs_mult, (Rabs_right (/ 2)) in L by lra. unfold Rdiv in *. set (k := / c) in *. lra.
Qed.

(* chord branch: taken when dsq < thr.  d, d' = exact and computed chord length |u-v| *)
Lemma chord_branch_conditioning d d' : 0 <= d -> 0 <= d' -> d * d <= sphdist_thr -> d' * d' <= sphdist_thr ->
  Rabs (2 * asin (/ 2 * d) - 2 * asin (/ 2 * d')) <= 2001 / 100 * Rabs (d - d').
Proof.
  intros D0 D0' D D'. replace (2001 / 100 * Rabs (d - d')) with (Rabs (d - d') / (100 / 2001)) by field.
  apply (chord_conditioning sphdist_thr); unfold sphdist_thr in *; lra.
Qed.

(* cross-product branch: taken when dsq >= thr; then |u x v|^2 <= 1/100 *)
Lemma cross_branch_small u v : is_unit u -> is_unit v -> sphdist_thr <= nsq (vsub u v) -> nsq (cross u v) <= / 100.
Proof.
  unfold sphdist_thr. intros U V H. rewrite nsq_sub in H by assumption. rewrite nsq_cross by assumption.
  pose proof (dot_bound u v U V). nra.
Qed.

Lemma cross_branch_conditioning s s' : 0 <= s <= / 10 -> 0 <= s' <= / 10 ->
  Rabs ((PI - asin s) - (PI - asin s')) <= 1006 / 1000 * Rabs (s - s').
Proof.
  intros Hs Hs'. replace (PI - asin s - (PI - asin s')) with (- (asin s - asin s')) by ring. rewrite Rabs_Ropp.
  replace (1006 / 1000 * Rabs (s - s')) with (Rabs (s - s') / (1000 / 1006)) by field.
  apply (asin_lipschitz_c (/ 10)); lra.
Qed.

(* without the second branch: the chord formula's amplification is unbounded towards 180 degrees *)
Lemma chord_alone_ill_conditioned : forall K, 0 < K -> exists m, 0 <= m < 1 /\ K < / sqrt (1 - m²).
Proof.
  intros K HK. set (q := / (K + 1)).
  assert (Q0 : 0 < q) by (unfold q; apply Rinv_0_lt_compat; lra).
  assert (Q1 : q < 1) by (unfold q; rewrite <- Rinv_1; apply Rinv_lt_contravar; lra).
  exists (sqrt (1 - q * q)).
  assert (Q : 0 <= 1 - q * q < 1) by nra.
  split.
  - split; [apply sqrt_pos|]. assert (T : sqrt (1 - q * q) < sqrt 1) by (apply sqrt_lt_1_alt; lra).
    rewrite sqrt_1 in T. exact T.
  - unfold Rsqr. rewrite sqrt_sqrt by lra.
    replace (1 - (1 - q * q)) with (q * q) by ring. rewrite sqrt_square by lra.
    unfold q. rewrite Rinv_inv. lra.
Qed.

Definition norm3 (u : vec3) : R := sqrt (nsq u).

Lemma cauchy_schwarz u v : dot u v * dot u v <= nsq u * nsq v.
Proof.
  destruct u as [[x1 y1] z1], v as [[x2 y2] z2]. unfold nsq, dot.
  replace ((x1 * x1 + y1 * y1 + z1 * z1) * (x2 * x2 + y2 * y2 + z2 * z2))
    with ((x1 * x2 + y1 * y2 + z1 * z2) * (x1 * x2 + y1 * y2 + z1 * z2)
          + (Rsqr (y1 * z2 - z1 * y2) + Rsqr (z1 * x2 - x1 * z2) + Rsqr (x1 * y2 - y1 * x2))) by (unfold Rsqr; ring).
  pose proof (Rle_0_sqr (y1 * z2 - z1 * y2)). pose proof (Rle_0_sqr (z1 * x2 - x1 * z2)).
  pose proof (Rle_0_sqr (x1 * y2 - y1 * x2)). lra.
Qed.

Lemma norm3_sq u : norm3 u * norm3 u = nsq u.
Proof. unfold norm3. apply sqrt_sqrt, nsq_nonneg. Qed.

Lemma norm3_nonneg u : 0 <= norm3 u.
Proof. apply sqrt_pos. Qed.

Lemma dot_le_norms u v : dot u v <= norm3 u * norm3 v.
Proof.
  pose proof (cauchy_schwarz u v) as C. pose proof (norm3_sq u) as U. pose proof (norm3_sq v) as V.
  pose proof (norm3_nonneg u). pose proof (norm3_nonneg v).
  destruct (Rle_lt_dec (dot u v) (norm3 u * norm3 v)) as [L|L]; [exact L|exfalso].
  assert (0 <= norm3 u * norm3 v) by (apply Rmult_le_pos; assumption).
  assert (norm3 u * norm3 v * (norm3 u * norm3 v) < dot u v * dot u v) by nra.
  replace (norm3 u * norm3 v * (norm3 u * norm3 v)) with (norm3 u * norm3 u * (norm3 v * norm3 v)) in * by ring.
  rewrite U, V in *. lra.
Qed.

Lemma nsq_vadd u v : nsq (vadd u v) = nsq u + 2 * dot u v + nsq v.
Proof. destruct u as [[x1 y1] z1], v as [[x2 y2] z2]. unfold nsq, vadd, dot. ring. Qed.

Lemma norm3_triangle u v : norm3 (vadd u v) <= norm3 u + norm3 v.
Proof.
  pose proof (norm3_sq (vadd u v)) as S. rewrite nsq_vadd in S.
  pose proof (dot_le_norms u v). pose proof (norm3_sq u). pose proof (norm3_sq v).
  pose proof (norm3_nonneg u). pose proof (norm3_nonneg v). pose proof (norm3_nonneg (vadd u v)).
  destruct (Rle_lt_dec (norm3 (vadd u v)) (norm3 u + norm3 v)) as [L|L]; [exact L|exfalso]. nra.
Qed.

Lemma vadd_vsub a b : vadd a (vsub b a) = b.
Proof. destruct a as [[x1 y1] z1], b as [[x2 y2] z2]. unfold vadd, vsub. repeat f_equal; ring. Qed.

Lemma norm3_reverse a b : Rabs (norm3 b - norm3 a) <= norm3 (vsub b a).
Proof.
  pose proof (norm3_triangle a (vsub b a)) as T1. rewrite vadd_vsub in T1.
  pose proof (norm3_triangle b (vsub a b)) as T2. rewrite vadd_vsub in T2.
  assert (E : norm3 (vsub a b) = norm3 (vsub b a)).
  { unfold norm3. f_equal. destruct a as [[x1 y1] z1], b as [[x2 y2] z2]. unfold nsq, vsub, dot. ring. }
  rewrite E in T2. apply Rabs_le. lra.
Qed.

Definition close (eta : R) (u u' : vec3) : Prop :=
  let '(x, y, z) := u in let '(x', y', z') := u' in
  Rabs (x' - x) <= eta /\ Rabs (y' - y) <= eta /\ Rabs (z' - z) <= eta.

Lemma close_norm eta u u' : 0 <= eta -> close eta u u' -> norm3 (vsub u' u) <= sqrt 3 * eta.
Proof.
  intros He C. destruct u as [[x y] z], u' as [[x' y'] z']. unfold close in C. destruct C as [C1 [C2 C3]].
  apply abs_le_inv in C1, C2, C3. unfold norm3, nsq, vsub, dot.
  replace (sqrt 3 * eta) with (sqrt (3 * (eta * eta))) by (rewrite sqrt_mult_alt by lra; rewrite sqrt_square by lra; reflexivity).
  apply sqrt_le_1_alt. nra.
Qed.

Lemma close_vsub eta u v u' v' : close eta u u' -> close eta v v' -> close (2 * eta) (vsub u v) (vsub u' v').
Proof.
  destruct u as [[x1 y1] z1], v as [[x2 y2] z2], u' as [[a1 b1] c1], v' as [[a2 b2] c2]. unfold close, vsub.
  intros [U1 [U2 U3]] [V1 [V2 V3]]. apply abs_le_inv in U1, U2, U3, V1, V2, V3.
  repeat split; apply Rabs_le; lra.
Qed.

Lemma chord_length_perturbed eta u v u' v' : 0 <= eta -> close eta u u' -> close eta v v' ->
  Rabs (norm3 (vsub u' v') - norm3 (vsub u v)) <= 2 * sqrt 3 * eta.
Proof.
  intros He Cu Cv. eapply Rle_trans; [apply norm3_reverse|].
  replace (2 * sqrt 3 * eta) with (sqrt 3 * (2 * eta)) by ring. apply close_norm; [lra | apply close_vsub; assumption].
Qed.

(* component errors up to eta in both vectors, everything else exact, below the threshold of the source *)
Lemma chord_branch_robust eta u v u' v' : 0 <= eta -> close eta u u' -> close eta v v' ->
  nsq (vsub u v) <= sphdist_thr -> nsq (vsub u' v') <= sphdist_thr ->
  Rabs (2 * asin (/ 2 * norm3 (vsub u' v')) - 2 * asin (/ 2 * norm3 (vsub u v))) <= 2001 / 100 * (2 * sqrt 3 * eta).
Proof.
  intros He Cu Cv T T'.
  pose proof (chord_length_perturbed eta u v u' v' He Cu Cv) as P.
  pose proof (chord_branch_conditioning (norm3 (vsub u' v')) (norm3 (vsub u v))
                (norm3_nonneg _) (norm3_nonneg _)) as C.
  rewrite !norm3_sq in C. specialize (C T' T). lra.
Qed.

(* with eta = 2^-50 (4 ulp of 1): below 1e-11 degree *)
Lemma chord_branch_robust_4ulp u v u' v' : close (/ 2 ^ 50) u u' -> close (/ 2 ^ 50) v v' ->
  nsq (vsub u v) <= sphdist_thr -> nsq (vsub u' v') <= sphdist_thr ->
  Rabs (2 * asin (/ 2 * norm3 (vsub u' v')) - 2 * asin (/ 2 * norm3 (vsub u v))) <= tol_in Rad 1e-11.
Proof.
  intros Cu Cv T T'. eapply Rle_trans; [apply (chord_branch_robust (/ 2 ^ 50)); try assumption; interval|].
  unfold tol_in. interval.
Qed.
