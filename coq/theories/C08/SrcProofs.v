(* C08 -- the functions translated from the source (Src.v, regenerated on every run) are the
   hand-written model (Model.v) with the constants of Gen.v; hence every theorem about the model is a
   theorem about the element-wise reading of the source text.  These proofs are re-checked whenever
   Src.v changes; they fail (and the check reports it) when a formula of the source changes. *)
From Coq Require Import Reals Bool Lra.
From EsVerif.C08 Require Import Gen Model Spec Proofs Code SrcLib Src.
Open Scope R_scope.

Lemma thetaphi2xyz_src_eq theta phi : thetaphi2xyz_src theta phi = thetaphi2xyz theta phi.
Proof. reflexivity. Qed.

Lemma eq2xyz_src_eq u ra dec : eq2xyz_src u ra dec = eq2xyz u ra dec.
Proof. destruct u; reflexivity. Qed.

Lemma sphdist_src_eq uin uout ra1 dec1 ra2 dec2 :
  sphdist_src uin uout ra1 dec1 ra2 dec2 = sphdist_code uin uout ra1 dec1 ra2 dec2.
Proof.
  unfold sphdist_src, sphdist_code, sphdist_R. cbv zeta.
  rewrite eq2xyz_src_eq. destruct (eq2xyz uin ra1 dec1) as [[x1 y1] z1].
  rewrite eq2xyz_src_eq. destruct (eq2xyz uin ra2 dec2) as [[x2 y2] z2].
  unfold Rgeb, same_point, Reqb, sphdist_thr, from_rad, cross3, vx, vy, vz. cbn [fst snd].
  (* source and model differ only in the order of the tests: every combination of their outcomes is compared *)
  destruct (Rle_dec _ _); destruct uout; destruct (Req_EM_T ra1 ra2); destruct (Req_EM_T dec1 dec2); reflexivity.
Qed.

Lemma gcirc_src_eq ra1 dec1 ra2 dec2 : gcirc_src ra1 dec1 ra2 dec2 = gcirc_code ra1 dec1 ra2 dec2.
Proof.
  unfold gcirc_src, gcirc_code, gcirc_R, same_point, Reqb, gcirc_clip_lo, gcirc_clip_hi. cbv zeta.
  destruct (Req_EM_T (d2r ra1) (d2r ra2)); destruct (Req_EM_T (d2r dec1) (d2r dec2)); reflexivity.
Qed.

Lemma sphdist_src_exact uin uout ra1 dec1 ra2 dec2 :
  sphdist_src uin uout ra1 dec1 ra2 dec2 = from_rad uout (true_sep uin ra1 dec1 ra2 dec2).
Proof. rewrite sphdist_src_eq. apply sphdist_code_exact. Qed.

Lemma gcirc_src_exact ra1 dec1 ra2 dec2 : gcirc_src ra1 dec1 ra2 dec2 = true_sep Deg ra1 dec1 ra2 dec2.
Proof. rewrite gcirc_src_eq. apply gcirc_code_exact. Qed.

(* the vectors of the source are unit vectors: what the chord / cross-product formulas rely on *)
Lemma eq2xyz_src_unit u ra dec : is_unit (eq2xyz_src u ra dec).
Proof. rewrite eq2xyz_src_eq, eq2xyz_point. apply point_unit. Qed.

(* per-case certificates stated against the translated source: the property for the sampled pair,
   and its consequence that the real code's output is within the tolerance of the element-wise
   reading of its own source text *)
Definition sphdist_src_cert (uin uout : unit_t) (tol ra1 dec1 ra2 dec2 out : R) : Prop :=
  sep_ok uin uout tol ra1 dec1 ra2 dec2 out
  /\ Rabs (sphdist_src uin uout ra1 dec1 ra2 dec2 - out) <= tol_in uout tol.

Definition gcirc_src_cert (tol ra1 dec1 ra2 dec2 out : R) : Prop :=
  sep_ok Deg Rad tol ra1 dec1 ra2 dec2 out
  /\ Rabs (gcirc_src ra1 dec1 ra2 dec2 - out) <= tol_in Rad tol.

Lemma sphdist_src_cert_intro uin uout tol ra1 dec1 ra2 dec2 out :
  sep_ok uin uout tol ra1 dec1 ra2 dec2 out -> sphdist_src_cert uin uout tol ra1 dec1 ra2 dec2 out.
Proof. intro H. split; [exact H | rewrite sphdist_src_eq; apply sphdist_model_close; exact H]. Qed.

Lemma gcirc_src_cert_intro tol ra1 dec1 ra2 dec2 out :
  sep_ok Deg Rad tol ra1 dec1 ra2 dec2 out -> gcirc_src_cert tol ra1 dec1 ra2 dec2 out.
Proof. intro H. split; [exact H | rewrite gcirc_src_eq; apply gcirc_model_close; exact H]. Qed.
