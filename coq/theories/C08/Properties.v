(* C08 -- the property theorems.  The lemmas they are assembled from live in the other files of the directory.
   Angles are in radians inside [true_sep]; [from_rad uout] converts to the requested unit. *)
From Coq Require Import Reals Lra QArith Qreals List.
Import ListNotations.
From Coq Require PrimFloat.
From EsVerif.C08 Require Import Gen Model Spec Proofs Code SrcLib Src SrcProofs SrcLibF SrcF Cond3 Rounding Rounding2 Rounding3 Rounding4 ArrayLayer Examples SkelLib GenMeta GenNp TieProofs Checkers.
Open Scope R_scope.

(* The two formulas of the chord-based function are the great-circle angle of unit vectors. *)
Theorem C08_chord_is_angle : forall u v, is_unit u -> is_unit v ->
  2 * asin (/ 2 * sqrt (nsq (vsub u v))) = angle u v.
Proof. exact chord_is_angle. Qed.

Theorem C08_cross_is_angle : forall u v, is_unit u -> is_unit v -> dot u v <= 0 ->
  PI - asin (sqrt (nsq (cross u v))) = angle u v.
Proof. exact cross_is_angle. Qed.

(* sphdist as coded -- chord branch, cross-product branch, unit conversion, exact-zero override --
   returns the true separation for ALL real inputs and for every threshold constant >= 2
   (|u-v|^2 >= 2 iff the angle is >= 90 degrees, where the cross-product formula is valid). *)
Theorem C08_sphdist_exact : forall thr uin uout ra1 dec1 ra2 dec2, 2 <= thr ->
  sphdist_R thr uin uout ra1 dec1 ra2 dec2 = from_rad uout (true_sep uin ra1 dec1 ra2 dec2).
Proof. exact sphdist_exact. Qed.

(* gcirc as coded -- law of cosines, clipping to [lo,hi] containing [-1,1], exact-zero override. *)
Theorem C08_gcirc_exact : forall lo hi ra1 dec1 ra2 dec2, lo <= -1 -> 1 <= hi ->
  gcirc_R lo hi ra1 dec1 ra2 dec2 = true_sep Deg ra1 dec1 ra2 dec2.
Proof. exact gcirc_exact. Qed.

(* The constants found in the source of the tree under check satisfy those side conditions ... *)
Theorem C08_code_constants : 2 <= sphdist_thr /\ gcirc_clip_lo <= -1 /\ 1 <= gcirc_clip_hi.
Proof. exact (conj sphdist_thr_ok gcirc_clip_ok). Qed.

(* ... hence the model with the code's constants is exact. *)
Theorem C08_sphdist_code_exact : forall uin uout ra1 dec1 ra2 dec2,
  sphdist_code uin uout ra1 dec1 ra2 dec2 = from_rad uout (true_sep uin ra1 dec1 ra2 dec2).
Proof. exact sphdist_code_exact. Qed.

Theorem C08_gcirc_code_exact : forall ra1 dec1 ra2 dec2,
  gcirc_code ra1 dec1 ra2 dec2 = true_sep Deg ra1 dec1 ra2 dec2.
Proof. exact gcirc_code_exact. Qed.

(* The element-wise reading of the SOURCE TEXT of _thetaphi2xyz / eq2xyz / sphdist / gcirc (Src.v,
   regenerated from esutil/coords.py of the tree under check on every run) is the model ... *)
Theorem C08_source_is_model :
  (forall theta phi, thetaphi2xyz_src theta phi = thetaphi2xyz theta phi)
  /\ (forall u ra dec, eq2xyz_src u ra dec = eq2xyz u ra dec)
  /\ (forall uin uout ra1 dec1 ra2 dec2,
        sphdist_src uin uout ra1 dec1 ra2 dec2 = sphdist_code uin uout ra1 dec1 ra2 dec2)
  /\ (forall ra1 dec1 ra2 dec2, gcirc_src ra1 dec1 ra2 dec2 = gcirc_code ra1 dec1 ra2 dec2).
Proof. exact (conj thetaphi2xyz_src_eq (conj eq2xyz_src_eq (conj sphdist_src_eq gcirc_src_eq))). Qed.

(* ... hence the source formulas return the true great-circle angle for all real inputs, and the
   vectors they are computed from are unit vectors. *)
Theorem C08_source_exact :
  (forall uin uout ra1 dec1 ra2 dec2,
     sphdist_src uin uout ra1 dec1 ra2 dec2 = from_rad uout (true_sep uin ra1 dec1 ra2 dec2))
  /\ (forall ra1 dec1 ra2 dec2, gcirc_src ra1 dec1 ra2 dec2 = true_sep Deg ra1 dec1 ra2 dec2)
  /\ (forall u ra dec, is_unit (eq2xyz_src u ra dec)).
Proof. exact (conj sphdist_src_exact (conj gcirc_src_exact eq2xyz_src_unit)). Qed.

(* Range: [0,180] degrees, i.e. [0,PI] when radians are requested. *)
Theorem C08_range : forall uin ra1 dec1 ra2 dec2,
  0 <= sphdist_code uin Deg ra1 dec1 ra2 dec2 <= 180
  /\ 0 <= sphdist_code uin Rad ra1 dec1 ra2 dec2 <= PI
  /\ 0 <= gcirc_code ra1 dec1 ra2 dec2 <= PI.
Proof.
  intros. split; [apply (sphdist_range _ _ Deg), sphdist_thr_ok|].
  split; [apply (sphdist_range _ _ Rad), sphdist_thr_ok|]. rewrite gcirc_code_exact. apply true_sep_range.
Qed.

(* Symmetry in the two points. *)
Theorem C08_sym : forall uin uout ra1 dec1 ra2 dec2,
  sphdist_code uin uout ra1 dec1 ra2 dec2 = sphdist_code uin uout ra2 dec2 ra1 dec1
  /\ gcirc_code ra1 dec1 ra2 dec2 = gcirc_code ra2 dec2 ra1 dec1.
Proof.
  intros. rewrite !sphdist_code_exact, !gcirc_code_exact. simpl.
  rewrite (true_sep_sym uin), (true_sep_sym Deg). split; reflexivity.
Qed.

(* Zero exactly when the two inputs denote the same point of the sphere; in particular for
   identical inputs. *)
Theorem C08_zero_iff : forall uin uout ra1 dec1 ra2 dec2,
  sphdist_code uin uout ra1 dec1 ra2 dec2 = 0 <->
  point (to_rad uin ra1) (to_rad uin dec1) = point (to_rad uin ra2) (to_rad uin dec2).
Proof. intros. apply sphdist_zero_iff, sphdist_thr_ok. Qed.

Theorem C08_zero_identical : forall uin uout ra dec,
  sphdist_code uin uout ra dec ra dec = 0 /\ gcirc_code ra dec ra dec = 0.
Proof.
  intros. rewrite sphdist_code_exact, gcirc_code_exact, !true_sep_same. split; [apply from_rad_0 | reflexivity].
Qed.

(* Adding a full turn (360 degrees; 2 PI when the input unit is radians) to either longitude
   changes nothing. *)
Theorem C08_period : forall uin uout ra1 dec1 ra2 dec2,
  let turn := match uin with Deg => 360 | Rad => 2 * PI end in
  sphdist_code uin uout (ra1 + turn) dec1 ra2 dec2 = sphdist_code uin uout ra1 dec1 ra2 dec2
  /\ sphdist_code uin uout ra1 dec1 (ra2 + turn) dec2 = sphdist_code uin uout ra1 dec1 ra2 dec2
  /\ gcirc_code (ra1 + 360) dec1 ra2 dec2 = gcirc_code ra1 dec1 ra2 dec2
  /\ gcirc_code ra1 dec1 (ra2 + 360) dec2 = gcirc_code ra1 dec1 ra2 dec2.
Proof.
  intros uin uout ra1 dec1 ra2 dec2 turn.
  assert (P1 : forall u a b c d,
             true_sep u (a + match u with Deg => 360 | Rad => 2 * PI end) b c d = true_sep u a b c d)
    by (intros; apply true_sep_period).
  assert (P2 : forall u a b c d,
             true_sep u a b (c + match u with Deg => 360 | Rad => 2 * PI end) d = true_sep u a b c d)
    by (intros; rewrite true_sep_sym, P1; apply true_sep_sym).
  pose proof (P1 Deg) as P1d. pose proof (P2 Deg) as P2d. cbv beta iota in P1d, P2d.
  rewrite !sphdist_code_exact, !gcirc_code_exact. unfold turn.
  rewrite P1, P2, P1d, P2d. repeat split; reflexivity.
Qed.

(* What a per-case certificate (generated lemma [sep_ok ...] closed by interval through the
   half-angle forms below) says about the model: the implementation's output is within the
   statement's tolerance of the model as coded. *)
Theorem C08_certificate_forms : forall u ra1 dec1 ra2 dec2,
  (0 < dplus u ra1 dec1 ra2 dec2 -> true_sep u ra1 dec1 ra2 dec2 = sep_small u ra1 dec1 ra2 dec2)
  /\ (0 < dminus u ra1 dec1 ra2 dec2 -> true_sep u ra1 dec1 ra2 dec2 = sep_large u ra1 dec1 ra2 dec2).
Proof. intros. split; [apply true_sep_small | apply true_sep_large]. Qed.

Theorem C08_certificate_ties_model :
  (forall uin uout tol ra1 dec1 ra2 dec2 out,
     sep_ok uin uout tol ra1 dec1 ra2 dec2 out -> sphdist_cert uin uout tol ra1 dec1 ra2 dec2 out)
  /\ (forall tol ra1 dec1 ra2 dec2 out,
     sep_ok Deg Rad tol ra1 dec1 ra2 dec2 out -> gcirc_cert tol ra1 dec1 ra2 dec2 out).
Proof. exact (conj sphdist_cert_intro gcirc_cert_intro). Qed.

Theorem C08_certificate_ties_source :
  (forall uin uout tol ra1 dec1 ra2 dec2 out,
     sep_ok uin uout tol ra1 dec1 ra2 dec2 out -> sphdist_src_cert uin uout tol ra1 dec1 ra2 dec2 out)
  /\ (forall tol ra1 dec1 ra2 dec2 out,
     sep_ok Deg Rad tol ra1 dec1 ra2 dec2 out -> gcirc_src_cert tol ra1 dec1 ra2 dec2 out).
Proof. exact (conj sphdist_src_cert_intro gcirc_src_cert_intro). Qed.

(* Soundness of the exact-rational checkers run on the implementation's outputs. *)
Theorem C08_checkers_sound :
  (forall uout pts outs, outs_ok uout pts outs = true -> Forall2 (out_spec uout) pts outs)
  /\ (forall a b, all_same a b = true -> Forall2 (fun x y => Q2R x = Q2R y) a b)
  /\ (forall tol a b, all_close tol a b = true -> Forall2 (fun x y => Rabs (Q2R x - Q2R y) <= Q2R tol) a b)
  /\ (forall t a b tol, Rabs (a - t) <= tol -> Rabs (b - t) <= tol -> Rabs (a - b) <= 2 * tol)
  /\ Q2R pi_lo < PI < Q2R pi_hi.
Proof.
  exact (conj outs_ok_sound (conj all_same_sound (conj all_close_sound (conj shift_triangle (conj pi_lo_lt_PI PI_lt_pi_hi))))).
Qed.

(* Binary64 reading of the source text (SrcF.v, same translation with IEEE operations and arbitrary libm
   oracles O): identical inputs give exactly +0, whatever the rounding and whatever sin/cos/arcsin/arccos
   return -- the "exactly zero for identical inputs" clause at the level of the floats. *)
Theorem C08_float_zero_identical :
  (forall O uin uout ra dec, PrimFloat.is_nan ra = false -> PrimFloat.is_nan dec = false ->
     sphdist_f O uin uout ra dec ra dec = PrimFloat.zero)
  /\ (forall O ra dec, PrimFloat.is_nan (d2r_f ra) = false -> PrimFloat.is_nan (d2r_f dec) = false ->
     gcirc_f O ra dec ra dec = PrimFloat.zero).
Proof.
  (* the override `dis[w] = 0.0` is the last statement, and x == x holds for every float that is not a NaN *)
  assert (S : forall x, PrimFloat.is_nan x = false -> PrimFloat.eqb x x = true).
  { intros x H. unfold PrimFloat.is_nan in H. apply Bool.negb_false_iff in H. exact H. }
  split.
  - intros O uin uout ra dec A B. unfold sphdist_f. cbv zeta.
    destruct (eq2xyz_f O uin ra dec) as [[x y] z]. rewrite (S ra A), (S dec B). reflexivity.
  - intros O ra dec A B. unfold gcirc_f. cbv zeta. rewrite (S _ A), (S _ B). reflexivity.
Qed.

(* Conditioning of the cosine formula: an error e in cosdis moves the angle by at most
   2 asin (sqrt (e/2)), attained next to cosdis = 1.  Hence 6e-16 (2.7 ulp of 1) costs at most the
   statement's 2e-6 degree, and half an ulp (2^-53) already costs more than 8e-7 degree, which is why the
   cosine-based function cannot be held to the chord function's 1e-11 degree. *)
Theorem C08_acos_conditioning : forall c c' e, -1 <= c <= 1 -> -1 <= c' <= 1 -> Rabs (c - c') <= e -> e <= 2 ->
  Rabs (acos c - acos c') <= 2 * asin (sqrt (e / 2)).
Proof. exact acos_conditioning. Qed.

Theorem C08_acos_conditioning_sharp : forall e, 0 <= e <= 2 -> acos (1 - e) - acos 1 = 2 * asin (sqrt (e / 2)).
Proof. exact acos_near_one. Qed.

Theorem C08_gcirc_conditioning : forall c c', -1 <= c <= 1 -> -1 <= c' <= 1 -> Rabs (c - c') <= 6e-16 ->
  Rabs (acos c - acos c') <= tol_in Rad 2e-6.
Proof. exact gcirc_conditioning. Qed.

Theorem C08_cosine_formula_limit : 8e-7 < r2d (acos (1 - / 2 ^ 53) - acos 1).
Proof. exact cosine_formula_limit. Qed.

(* Conditioning of the two branches of sphdist under the threshold literal of the source (3.99): asin is
   Lipschitz with constant 1/sqrt(1-m^2) on [-m,m]; an error e in the chord length |u-v| moves the chord-branch
   result by at most 20.01 e, in the cross-product branch |u x v|^2 <= 1/100 and an error e in |u x v| moves the
   result by at most 1.006 e; the chord formula alone would amplify without bound towards 180 degrees. *)
Theorem C08_asin_lipschitz : forall m x y, 0 <= m < 1 -> -m <= x <= m -> -m <= y <= m ->
  Rabs (asin x - asin y) <= Rabs (x - y) / sqrt (1 - m²).
Proof. exact asin_lipschitz. Qed.

Theorem C08_branch_conditioning :
  (forall d d', 0 <= d -> 0 <= d' -> d * d <= sphdist_thr -> d' * d' <= sphdist_thr ->
     Rabs (2 * asin (/ 2 * d) - 2 * asin (/ 2 * d')) <= 2001 / 100 * Rabs (d - d'))
  /\ (forall u v, is_unit u -> is_unit v -> sphdist_thr <= nsq (vsub u v) -> nsq (cross u v) <= / 100)
  /\ (forall s s', 0 <= s <= / 10 -> 0 <= s' <= / 10 ->
     Rabs ((PI - asin s) - (PI - asin s')) <= 1006 / 1000 * Rabs (s - s')).
Proof. exact (conj chord_branch_conditioning (conj cross_branch_small cross_branch_conditioning)). Qed.

Theorem C08_chord_alone_ill_conditioned : forall K, 0 < K -> exists m, 0 <= m < 1 /\ K < / sqrt (1 - m²).
Proof. exact chord_alone_ill_conditioned. Qed.

(* Robustness of the chord branch against errors in the unit vectors (everything downstream exact): component
   errors up to eta move the chord length by at most 2 sqrt(3) eta, hence the result by at most
   20.01 * 2 sqrt(3) * eta below the source's threshold; with eta = 2^-50 (4 ulp of 1) that is within the
   statement's 1e-11 degree. *)
Theorem C08_chord_length_perturbed : forall eta u v u' v', 0 <= eta -> close eta u u' -> close eta v v' ->
  Rabs (norm3 (vsub u' v') - norm3 (vsub u v)) <= 2 * sqrt 3 * eta.
Proof. exact chord_length_perturbed. Qed.

Theorem C08_chord_branch_robust : forall eta u v u' v', 0 <= eta -> close eta u u' -> close eta v v' ->
  nsq (vsub u v) <= sphdist_thr -> nsq (vsub u' v') <= sphdist_thr ->
  Rabs (2 * asin (/ 2 * norm3 (vsub u' v')) - 2 * asin (/ 2 * norm3 (vsub u v))) <= 2001 / 100 * (2 * sqrt 3 * eta).
Proof. exact chord_branch_robust. Qed.

Theorem C08_chord_branch_robust_4ulp : forall u v u' v', close (/ 2 ^ 50) u u' -> close (/ 2 ^ 50) v v' ->
  nsq (vsub u v) <= sphdist_thr -> nsq (vsub u' v') <= sphdist_thr ->
  Rabs (2 * asin (/ 2 * norm3 (vsub u' v')) - 2 * asin (/ 2 * norm3 (vsub u v))) <= tol_in Rad 1e-11.
Proof. exact chord_branch_robust_4ulp. Qed.

(* The two functions compute the same quantity (sphdist with units deg -> rad and gcirc). *)
Theorem C08_functions_agree : forall ra1 dec1 ra2 dec2,
  sphdist_code Deg Rad ra1 dec1 ra2 dec2 = gcirc_code ra1 dec1 ra2 dec2
  /\ sphdist_src Deg Rad ra1 dec1 ra2 dec2 = gcirc_src ra1 dec1 ra2 dec2.
Proof.
  intros. rewrite sphdist_code_exact, gcirc_code_exact, sphdist_src_exact, gcirc_src_exact. split; reflexivity.
Qed.

(* Non-vacuity: a quarter turn along the equator is 90 degrees in the model as coded (chord
   branch), the antipode is 180 degrees (cross-product branch: |u-v|^2 = 4 >= threshold), and a
   pair of distinct inputs has a non-zero separation. *)
Example C08_nonvacuous :
  sphdist_code Deg Deg 0 0 90 0 = 90 /\ sphdist_code Deg Deg 0 0 180 0 = 180
  /\ gcirc_code 0 0 90 0 = PI / 2 /\ sphdist_code Deg Deg 0 0 90 0 <> 0.
Proof.
  assert (A : true_sep Deg 0 0 90 0 = PI / 2).
  { unfold true_sep, to_rad, d2r, angle, point, dot.
    replace (90 * (PI / 180)) with (PI / 2) by field. replace (0 * (PI / 180)) with 0 by field.
    rewrite cos_PI2, sin_PI2, cos_0, sin_0.
    replace (1 * 1 * (1 * 0) + 1 * 0 * (1 * 1) + 0 * 0) with 0 by ring. apply acos_0. }
  assert (B : true_sep Deg 0 0 180 0 = PI).
  { unfold true_sep, to_rad, d2r, angle, point, dot.
    replace (180 * (PI / 180)) with PI by (field; apply PI_neq0). replace (0 * (PI / 180)) with 0 by field.
    rewrite cos_PI, sin_PI, cos_0, sin_0.
    replace (1 * 1 * (1 * -1) + 1 * 0 * (1 * 0) + 0 * 0) with (Ropp 1) by ring.
    rewrite acos_opp, acos_1. ring. }
  assert (C : sphdist_code Deg Deg 0 0 90 0 = 90).
  { rewrite sphdist_code_exact, A. unfold from_rad, r2d. field. apply PI_neq0. }
  split; [exact C|]. split.
  - rewrite sphdist_code_exact, B. unfold from_rad, r2d. field. apply PI_neq0.
  - split; [rewrite gcirc_code_exact; exact A | rewrite C; lra].
Qed.

(* the array layer: what the element-wise reading of Src.v takes for granted, proved on lists *)

(* `if np.any(w): d[w] = f(x[:, w])` (selection by a boolean mask, values computed on the selected columns only,
   stored back through the same mask) is the element-wise conditional, for every f, mask, columns and target *)
Theorem C08_masked_store_elementwise : forall (A B : Type) (f : A -> B) (w : list bool) (xs : list A) (d : list B),
  length w = length xs -> length w = length d ->
  (if existsb (fun b => b) w then scatter w d (map f (compress w xs)) else d) = cond3 f w xs d.
Proof. exact (fun A B => @guarded_masked_store A B). Qed.

(* sphdist and gcirc written at list level with these primitives (both masked stores of sphdist, the unit
   conversion, clip, the exact-zero store) equal the element-wise reading of the source mapped over the pairs;
   one output per pair *)
Theorem C08_array_is_elementwise :
  (forall uin uout p, sphdist_vec uin uout p = map (fun q : pair4 => let '(a, b, c, d) := q in sphdist_src uin uout a b c d) p)
  /\ (forall p, gcirc_vec p = map (fun q : pair4 => let '(a, b, c, d) := q in gcirc_src a b c d) p)
  /\ (forall uin uout p, length (sphdist_vec uin uout p) = length p /\ length (gcirc_vec p) = length p).
Proof. exact (conj sphdist_vec_elementwise (conj gcirc_vec_elementwise vec_lengths)). Qed.

(* "the same for scalar and array inputs": element i of any array call, the length-1 call and the scalar value agree *)
Theorem C08_scalar_is_array : forall uin uout a b c d p i, nth_error p i = Some (a, b, c, d) ->
  nth_error (sphdist_vec uin uout p) i = Some (sphdist_src uin uout a b c d)
  /\ nth_error (gcirc_vec p) i = Some (gcirc_src a b c d)
  /\ sphdist_vec uin uout [(a, b, c, d)] = [sphdist_src uin uout a b c d].
Proof. exact scalar_is_array. Qed.

(* a scalar first point broadcast against arrays for the second point *)
Theorem C08_broadcast_first_point : forall uin uout a b l,
  sphdist_vec uin uout (bcast_first a b l) = map (fun cd => sphdist_src uin uout a b (fst cd) (snd cd)) l.
Proof. exact sphdist_vec_bcast. Qed.

(* history: the model of a call is a function of the call's own arguments; a process state of ANY type is carried
   along unchanged and never read, so the answer is the same after any history and in any state *)
Theorem C08_history_irrelevant :
  (forall (S : Type) (st : S) cs, run S st cs = (st, map answer cs))
  /\ (forall (S : Type) (st st' : S) before c,
        nth_error (snd (run S st (before ++ [c]))) (length before) = Some (answer c) /\ snd (run S st' [c]) = [answer c]).
Proof. exact (conj history_irrelevant answer_independent). Qed.

(* conditional rounding theorems: IF numpy/libm meet the stated error budgets THEN the result is within the
       statement's tolerance.  Every computed quantity is any real within its budget of the exact function of the
       computed quantities it was obtained from. *)

Theorem C08_sin_cos_lipschitz :
  (forall a b, Rabs (sin a - sin b) <= Rabs (a - b)) /\ (forall a b, Rabs (cos a - cos b) <= Rabs (a - b)).
Proof. exact (conj sin_lip cos_lip). Qed.

(* np.deg2rad(x) = fl(x * fl(pi/180)) *)
Theorem C08_deg2rad_rounding : forall x dc dm uu, 0 <= uu <= / 4 -> Rabs dc <= uu -> Rabs dm <= uu ->
  Rabs (x * (PI / 180 * (1 + dc)) * (1 + dm) - d2r x) <= Rabs (d2r x) * (2 * uu + uu * uu).
Proof. intros x dc dm uu _. apply d2r_rounding. Qed.

(* the unit vector: argument errors a_th, a_ph; libm sin/cos within s; products within relative e *)
Theorem C08_vector_stage : forall th ph th' ph' cth sth cph sph dx dy a_th a_ph s e,
  0 <= a_th -> 0 <= a_ph -> 0 <= s -> 0 <= e ->
  Rabs (th' - th) <= a_th -> Rabs (ph' - ph) <= a_ph ->
  Rabs (cth - cos th') <= s -> Rabs (sth - sin th') <= s -> Rabs (cph - cos ph') <= s -> Rabs (sph - sin ph') <= s ->
  Rabs dx <= e -> Rabs dy <= e ->
  close (eta_of a_th a_ph s e) (point th ph) (cth * cph * (1 + dx), sth * cph * (1 + dy), sph).
Proof. exact vector_stage. Qed.

(* the chain differences - squares - sum - sqrt with relative error e per operation: relative error (1+e)^4 - 1 *)
Theorem C08_chain_stage : forall (u' v' : vec3) d11 d12 d21 d22 d31 d32 d4 d5 d6 e,
  0 <= e <= / 2 ->
  Rabs d11 <= e -> Rabs d12 <= e -> Rabs d21 <= e -> Rabs d22 <= e -> Rabs d31 <= e -> Rabs d32 <= e ->
  Rabs d4 <= e -> Rabs d5 <= e -> Rabs d6 <= e ->
  let '(x1, y1, z1) := u' in let '(x2, y2, z2) := v' in
  let t1 := ((x1 - x2) * (1 + d11)) * ((x1 - x2) * (1 + d11)) * (1 + d12) in
  let t2 := ((y1 - y2) * (1 + d21)) * ((y1 - y2) * (1 + d21)) * (1 + d22) in
  let t3 := ((z1 - z2) * (1 + d31)) * ((z1 - z2) * (1 + d31)) * (1 + d32) in
  let dsq := ((t1 + t2) * (1 + d4) + t3) * (1 + d5) in
  let d' := sqrt dsq * (1 + d6) in
  0 <= dsq /\ 0 <= d' /\ Rabs (d' - norm3 (vsub u' v')) <= ((1 + e) * (1 + e) * (1 + e) * (1 + e) - 1) * norm3 (vsub u' v').
Proof. exact chain_stage. Qed.

(* chord branch, parametric in the budgets *)
Theorem C08_chord_branch_rounding : forall eta rho tau u v u' v' d' a',
  0 <= eta -> 0 <= rho -> is_unit u -> is_unit v -> close eta u u' -> close eta v v' ->
  Rabs (d' - norm3 (vsub u' v')) <= rho * norm3 (vsub u' v') ->
  0 <= d' -> d' * d' <= T_room -> nsq (vsub u v) <= T_room ->
  Rabs (a' - asin (/ 2 * d')) <= tau ->
  Rabs (2 * a' - angle u v) <= chord_bound eta rho tau.
Proof. exact chord_branch_rounding. Qed.

(* the room used above covers the branch decision of the source: computed chord^2 below the threshold literal and a
   chord-length error below 1e-5 put the exact chord^2 below T_room *)
Theorem C08_chord_room : sphdist_thr <= T_room
  /\ (forall d d', 0 <= d -> 0 <= d' -> d' * d' <= sphdist_thr -> Rabs (d - d') <= / 100000 -> d * d <= T_room).
Proof.
  split; [exact thr_below_room|]. intros d d' D0 D0' H E. apply (below_room d d'); try assumption.
  unfold sphdist_thr in H. lra.
Qed.

(* degrees out: one more constant and product *)
Theorem C08_degrees_out : forall r R E eps, Rabs (r - R) <= E -> 0 <= R <= PI -> 0 <= E ->
  Rabs (r * (180 / PI) * (1 + eps) - r2d R) <= 180 / PI * (E * (1 + Rabs eps)) + 180 * Rabs eps.
Proof. exact degrees_out. Qed.

(* cross-product branch, parametric and with binary64 budgets: within 1e-12 degree *)
Theorem C08_cross_branch_rounding : forall eta kappa rho tau eps_pi e u v u' v' c' s' a' pif dl,
  0 <= eta -> 0 <= kappa -> 0 <= rho -> 0 <= tau -> 0 <= eps_pi -> 0 <= e <= / 2 ->
  is_unit u -> is_unit v -> close eta u u' -> close eta v v' ->
  3989 / 1000 <= nsq (vsub u v) ->
  close kappa (cross u' v') c' ->
  Rabs (s' - norm3 c') <= rho * norm3 c' -> 0 <= s' <= 11 / 100 -> norm3 c' <= 12 / 100 ->
  Rabs (a' - asin s') <= tau -> Rabs (pif - PI) <= eps_pi -> Rabs dl <= e -> Rabs a' <= 1 / 2 ->
  Rabs ((pif - a') * (1 + dl) - angle u v) <= cross_bound eta kappa rho tau eps_pi e.
Proof. exact cross_branch_rounding. Qed.

(* gcirc: forward error of cosdis, clipping never hurts, sharp conditioning of acos.  A worst-case analysis cannot
   reach the statement's 2e-6 degree (sharper partial): with binary64 budgets 7e-6 degree for ALL inputs *)
Theorem C08_gcirc_rounding : forall sg r e tau s1 c1 s2 c2 cr S1 C1 S2 C2 CR d1 d2 d3 d4 a',
  0 <= sg -> 0 <= r -> 0 <= e -> 0 <= tau ->
  Rabs s1 <= 1 -> Rabs c1 <= 1 -> Rabs s2 <= 1 -> Rabs c2 <= 1 -> Rabs cr <= 1 ->
  -1 <= s1 * s2 + c1 * c2 * cr <= 1 ->
  Rabs (S1 - s1) <= sg -> Rabs (C1 - c1) <= sg -> Rabs (S2 - s2) <= sg -> Rabs (C2 - c2) <= sg -> Rabs (CR - cr) <= r ->
  Rabs d1 <= e -> Rabs d2 <= e -> Rabs d3 <= e -> Rabs d4 <= e ->
  cosdis_budget sg r e <= 2 ->
  let cosdis' := (S1 * S2 * (1 + d1) + C1 * C2 * (1 + d2) * CR * (1 + d3)) * (1 + d4) in
  Rabs (a' - acos (clip (-1) 1 cosdis')) <= tau ->
  Rabs (a' - acos (s1 * s2 + c1 * c2 * cr)) <= tau + 2 * asin (sqrt (cosdis_budget sg r e / 2)).
Proof. exact gcirc_rounding. Qed.

(* The three conditional theorems instantiated with binary64 budgets (u = 2^-53; longitudes within one turn: argument
   errors 12.57 u / 3.15 u; libm within 1 ulp; one rounding per arithmetic operation), stated together because they
   share the numeric facts closed by Interval.  The three statements are spelled out in Examples.v:
     chord_branch_binary64_stmt :  ... -> Rabs (2 * a' - angle (point th1 ph1) (point th2 ph2)) <= tol_in Rad 1e-11
     cross_branch_binary64_stmt :  ... -> Rabs ((pif - a') * (1 + dl) - angle u v) <= tol_in Rad 1e-12
     gcirc_binary64_stmt        :  4 u + 2 asin (sqrt (cosdis_budget ... / 2)) <= tol_in Rad 7e-6
   i.e. the chord branch meets the statement's 1e-11 degree, the cross-product branch 1e-12 degree, and the worst-case
   bound for gcirc is 7e-6 degree (the statement's 2e-6 is not reachable by a worst-case analysis: sharper partial). *)
Theorem C08_rounding_binary64 : chord_branch_binary64_stmt /\ cross_branch_binary64_stmt /\ gcirc_binary64_stmt.
Proof. exact (conj chord_branch_binary64 (conj cross_branch_binary64 gcirc_binary64_budget)). Qed.

(* The chord branch of sphdist from DEGREES TO DEGREES, assembled from the stage theorems: |ra| <= 360, |dec| <= 90;
   every numpy operation rounds once (|delta| <= u = 2^-53: the four deg2rad products m1..m4 with the rounded constant
   dc, the products dx, dy of the vector components, the nine operations d11..d6 of differences-squares-sum-sqrt, the
   rad2deg constant dk and product dr); libm's cos / sin values within u of cos / sin of the COMPUTED arguments, np.arcsin
   within 2u; the code's test `dsq >= 3.99` false on the COMPUTED dsq.  Then the number returned is within the
   statement's 1e-11 degree of the model, i.e. of the true great-circle angle in degrees. *)
Theorem C08_sphdist_chord_degrees_binary64 :
  forall ra1 dec1 ra2 dec2 dc m1 m2 m3 m4 c1 s1 cp1 sp1 c2 s2 cp2 sp2 dx1 dy1 dx2 dy2
         d11 d12 d21 d22 d31 d32 d4 d5 d6 a' dk dr,
  Rabs ra1 <= 360 -> Rabs ra2 <= 360 -> Rabs dec1 <= 90 -> Rabs dec2 <= 90 ->
  Rabs dc <= u64 -> Rabs m1 <= u64 -> Rabs m2 <= u64 -> Rabs m3 <= u64 -> Rabs m4 <= u64 ->
  let th1' := fl_d2r ra1 dc m1 in let ph1' := fl_d2r dec1 dc m2 in
  let th2' := fl_d2r ra2 dc m3 in let ph2' := fl_d2r dec2 dc m4 in
  Rabs (c1 - cos th1') <= u64 -> Rabs (s1 - sin th1') <= u64 -> Rabs (cp1 - cos ph1') <= u64 -> Rabs (sp1 - sin ph1') <= u64 ->
  Rabs (c2 - cos th2') <= u64 -> Rabs (s2 - sin th2') <= u64 -> Rabs (cp2 - cos ph2') <= u64 -> Rabs (sp2 - sin ph2') <= u64 ->
  Rabs dx1 <= u64 -> Rabs dy1 <= u64 -> Rabs dx2 <= u64 -> Rabs dy2 <= u64 ->
  Rabs d11 <= u64 -> Rabs d12 <= u64 -> Rabs d21 <= u64 -> Rabs d22 <= u64 -> Rabs d31 <= u64 -> Rabs d32 <= u64 ->
  Rabs d4 <= u64 -> Rabs d5 <= u64 -> Rabs d6 <= u64 ->
  let u' := fl_vec c1 s1 cp1 sp1 dx1 dy1 in let v' := fl_vec c2 s2 cp2 sp2 dx2 dy2 in
  let dsq := fl_dsq u' v' d11 d12 d21 d22 d31 d32 d4 d5 in
  let d' := sqrt dsq * (1 + d6) in
  dsq < sphdist_thr ->
  Rabs (a' - asin (/ 2 * d')) <= 2 * u64 ->
  Rabs dk <= u64 -> Rabs dr <= u64 ->
  Rabs (2 * a' * (180 / PI * (1 + dk)) * (1 + dr) - sphdist_code Deg Deg ra1 dec1 ra2 dec2) <= 1 / 10 ^ 11.
Proof. exact sphdist_chord_degrees_binary64. Qed.

(* GenMeta.v (statement sequences and keyword defaults read from esutil/coords.py) and GenNp.v (constants of the numpy
   that runs the check) are regenerated on every run, and these lemmas are re-checked against them *)
Theorem C08_skeleton_tie :
  thetaphi2xyz_skel = thetaphi2xyz_skel_model /\ eq2xyz_skel = eq2xyz_skel_model
  /\ sphdist_skel = sphdist_skel_model /\ gcirc_skel = gcirc_skel_model.
Proof. exact skeleton_tie. Qed.

Theorem C08_defaults_tie :
  sphdist_units_default = sphdist_units_default_model /\ eq2xyz_units_default = eq2xyz_units_default_model
  /\ eq2xyz_dtype_is_f8 = eq2xyz_dtype_is_f8_model /\ eq2xyz_stomp_default = eq2xyz_stomp_default_model
  /\ gcirc_getangle_default = gcirc_getangle_default_model.
Proof. exact defaults_tie. Qed.

Theorem C08_numpy_constants_tie :
  PrimFloat.Leibniz.eqb np_deg2rad_1 d2r_c = true /\ PrimFloat.Leibniz.eqb np_rad2deg_1 r2d_c = true
  /\ PrimFloat.Leibniz.eqb np_pi pi_f = true.
Proof. exact numpy_constants_tie. Qed.

(* the exact-rational checkers are complete as well as sound: they reject only outputs that violate the checked Prop *)
Theorem C08_checkers_complete :
  (forall uout q, range_check uout q = true <-> 0 <= Q2R q <= match uout with Deg => 180 | Rad => Q2R pi_lo end)
  /\ (forall a b, same_check a b = true <-> Q2R a = Q2R b)
  /\ (forall a, zero_check a = true <-> Q2R a = 0)
  /\ (forall tol a b, close_check tol a b = true <-> Rabs (Q2R a - Q2R b) <= Q2R tol)
  /\ (forall a b c d, ident_inputs a b c d = true <-> Q2R a = Q2R c /\ Q2R b = Q2R d).
Proof.
  exact (conj range_check_complete (conj same_check_complete (conj zero_check_complete
          (conj close_check_complete ident_inputs_complete)))).
Qed.

(* non-vacuity of the new theorems: concrete, non-trivial instances satisfying every hypothesis *)
Example C08_chord_branch_binary64_nonvacuous :
  let d' := norm3 (vsub (point 0 0) (point (PI / 2) 0)) in
  Rabs (2 * asin (/ 2 * d') - angle (point 0 0) (point (PI / 2) 0)) <= tol_in Rad 1e-11.
Proof. exact chord_branch_binary64_instance. Qed.

Example C08_cross_branch_binary64_nonvacuous :
  Rabs ((PI - asin 0) * (1 + 0) - angle (point 0 0) (point PI 0)) <= tol_in Rad 1e-12.
Proof. exact cross_branch_binary64_instance. Qed.

Example C08_gcirc_rounding_nonvacuous :
  Rabs (acos (clip (-1) 1 ((0 * 0 * (1 + 0) + 1 * 1 * (1 + 0) * 0 * (1 + 0)) * (1 + 0))) - acos (0 * 0 + 1 * 1 * 0))
  <= tol_in Rad 7e-6.
Proof. exact gcirc_rounding_instance. Qed.

Example C08_array_layer_nonvacuous :
  sphdist_vec Deg Deg [(0, 0, 90, 0); (0, 0, 180, 0); (5, 5, 5, 5)]
  = [sphdist_code Deg Deg 0 0 90 0; sphdist_code Deg Deg 0 0 180 0; 0]
  /\ length (gcirc_vec [(0, 0, 90, 0); (0, 0, 180, 0)]) = 2%nat.
Proof. exact array_layer_instance. Qed.

Example C08_sphdist_chord_degrees_nonvacuous :
  Rabs (2 * asin (/ 2 * (sqrt 2 * (1 + 0))) * (180 / PI * (1 + 0)) * (1 + 0) - sphdist_code Deg Deg 0 0 90 0) <= 1 / 10 ^ 11.
Proof. exact sphdist_chord_degrees_instance. Qed.
