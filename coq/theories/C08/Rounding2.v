(* C08 -- conditional rounding theorem for the cross-product branch of sphdist (|u-v|^2 >= 3.99), in the style of
   Rounding.v: eta = error of the unit-vector components, kappa = absolute error of the computed cross-product
   components (each is fl(fl(ab) - fl(cd)): absolute, not relative, because of cancellation), rho = relative error of
   the chain squares-sum-sqrt, tau = absolute error of libm's arcsin value, eps_pi = |np.pi - PI|, dl = rounding of the
   final subtraction.  With binary64 budgets the result is within 1e-13 degree of the true angle: this branch is two
   orders of magnitude better conditioned than the chord branch is at the threshold. *)
From Coq Require Import Reals Lra.
From Interval Require Import Tactic.
From EsVerif.C08 Require Import Gen Model Spec Proofs Cond3 Rounding.
Open Scope R_scope.

Lemma cross_bilinear u v u' v' :
  vsub (cross u' v') (cross u v) = vadd (cross (vsub u' u) v') (cross u (vsub v' v)).
Proof.
  destruct u as [[x1 y1] z1], v as [[x2 y2] z2], u' as [[a1 b1] c1], v' as [[a2 b2] c2].
  unfold vsub, vadd, cross. f_equal; [f_equal|]; ring.
Qed.

Lemma nsq_cross_le a b : nsq (cross a b) <= nsq a * nsq b.
Proof.
  destruct a as [[x1 y1] z1], b as [[x2 y2] z2]. unfold nsq, cross, dot.
  replace ((x1 * x1 + y1 * y1 + z1 * z1) * (x2 * x2 + y2 * y2 + z2 * z2))
    with ((y1 * z2 - z1 * y2) * (y1 * z2 - z1 * y2) + (z1 * x2 - x1 * z2) * (z1 * x2 - x1 * z2)
          + (x1 * y2 - y1 * x2) * (x1 * y2 - y1 * x2) + Rsqr (x1 * x2 + y1 * y2 + z1 * z2)) by (unfold Rsqr; ring).
  pose proof (Rle_0_sqr (x1 * x2 + y1 * y2 + z1 * z2)). lra.
Qed.

Lemma norm3_cross_le a b : norm3 (cross a b) <= norm3 a * norm3 b.
Proof.
  unfold norm3. rewrite <- sqrt_mult_alt by apply nsq_nonneg. apply sqrt_le_1_alt, nsq_cross_le.
Qed.

Lemma unit_norm u : is_unit u -> norm3 u = 1.
Proof. intro U. unfold norm3, nsq. rewrite U. apply sqrt_1. Qed.

Lemma cross_norm_perturbed eta u v u' v' : 0 <= eta -> is_unit u -> is_unit v -> close eta u u' -> close eta v v' ->
  Rabs (norm3 (cross u' v') - norm3 (cross u v)) <= sqrt 3 * eta * (2 + sqrt 3 * eta).
Proof.
  intros He U V Cu Cv. eapply Rle_trans; [apply norm3_reverse|]. rewrite cross_bilinear.
  eapply Rle_trans; [apply norm3_triangle|].
  pose proof (norm3_cross_le (vsub u' u) v') as A. pose proof (norm3_cross_le u (vsub v' v)) as B.
  pose proof (close_norm eta u u' He Cu) as Nu. pose proof (close_norm eta v v' He Cv) as Nv.
  pose proof (norm3_triangle v (vsub v' v)) as Tv. rewrite vadd_vsub in Tv.
  rewrite (unit_norm u U) in B. rewrite (unit_norm v V) in Tv.
  pose proof (norm3_nonneg (vsub u' u)) as N1. pose proof (norm3_nonneg (vsub v' v)) as N2. pose proof (norm3_nonneg v') as N3.
  assert (S3 : 0 <= sqrt 3) by apply sqrt_pos. set (w := sqrt 3 * eta) in *. assert (W0 : 0 <= w) by (apply Rmult_le_pos; assumption).
  assert (A' : norm3 (cross (vsub u' u) v') <= w * (1 + w)).
  { eapply Rle_trans; [exact A|]. apply Rmult_le_compat; lra. }
  replace (w * (2 + w)) with (w * (1 + w) + w) by ring. lra.
Qed.

(* the branch with a little room below the threshold of the source *)
Lemma cross_small_room u v : is_unit u -> is_unit v -> 3989 / 1000 <= nsq (vsub u v) ->
  dot u v <= 0 /\ norm3 (cross u v) <= 11 / 100.
Proof.
  intros U V H. rewrite nsq_sub in H by assumption. pose proof (dot_bound u v U V). split; [lra|].
  unfold norm3. rewrite nsq_cross by assumption.
  replace (11 / 100) with (sqrt (11 / 100 * (11 / 100))) by (apply sqrt_square; lra). apply sqrt_le_1_alt. nra.
Qed.

Lemma cross_conditioning_room s s' : 0 <= s <= 11 / 100 -> 0 <= s' <= 11 / 100 ->
  Rabs (asin s - asin s') <= 1007 / 1000 * Rabs (s - s').
Proof.
  intros Hs Hs'. replace (1007 / 1000 * Rabs (s - s')) with (Rabs (s - s') / (1000 / 1007)) by field.
  apply (asin_lipschitz_c (11 / 100)); lra.
Qed.

Definition cross_bound (eta kappa rho tau eps_pi e : R) : R :=
  e * (4 + eps_pi + 1 / 2) + (eps_pi + tau + 1007 / 1000 * (sqrt 3 * eta * (2 + sqrt 3 * eta) + sqrt 3 * kappa + rho * (12 / 100))).

Lemma cross_branch_rounding eta kappa rho tau eps_pi e u v u' v' c' s' a' pif dl :
  0 <= eta -> 0 <= kappa -> 0 <= rho -> 0 <= tau -> 0 <= eps_pi -> 0 <= e <= / 2 ->
  is_unit u -> is_unit v -> close eta u u' -> close eta v v' ->
  3989 / 1000 <= nsq (vsub u v) ->                                     (* cross branch (with room) *)
  close kappa (cross u' v') c' ->                                      (* computed cross product *)
  Rabs (s' - norm3 c') <= rho * norm3 c' -> 0 <= s' <= 11 / 100 -> norm3 c' <= 12 / 100 ->
  Rabs (a' - asin s') <= tau -> Rabs (pif - PI) <= eps_pi -> Rabs dl <= e -> Rabs a' <= 1 / 2 ->
  Rabs ((pif - a') * (1 + dl) - angle u v) <= cross_bound eta kappa rho tau eps_pi e.
Proof.
  intros He Hk Hr Ht Hp Hee U V Cu Cv Br Cc Hs Hs1 Hc1 Ha Hpi Hdl Ha1. unfold cross_bound.
  destruct (cross_small_room u v U V Br) as [D0 S1].
  rewrite <- (cross_is_angle u v U V D0). fold (norm3 (cross u v)). set (S := norm3 (cross u v)) in *.
  pose proof (norm3_nonneg (cross u v)) as S0. fold S in S0.
  pose proof (cross_norm_perturbed eta u v u' v' He U V Cu Cv) as P1. fold S in P1.
  pose proof (close_norm kappa (cross u' v') c' Hk Cc) as P2.
  pose proof (norm3_reverse (cross u' v') c') as P3.
  assert (E : Rabs (s' - S) <= sqrt 3 * eta * (2 + sqrt 3 * eta) + sqrt 3 * kappa + rho * (12 / 100)).
  { replace (s' - S) with ((s' - norm3 c') + ((norm3 c' - norm3 (cross u' v')) + (norm3 (cross u' v') - S))) by ring.
    eapply Rle_trans; [apply Rabs_triang|]. eapply Rle_trans; [apply Rplus_le_compat_l, Rabs_triang|].
    assert (rho * norm3 c' <= rho * (12 / 100)) by (apply Rmult_le_compat_l; lra). lra. }
  pose proof (cross_conditioning_room s' S Hs1 ltac:(lra)) as C.
  pose proof PI_RGT_0 as Pp. assert (P4 : PI <= 4) by apply PI_4.
  assert (C2 : Rabs (asin s' - asin S) <= 1007 / 1000 * (sqrt 3 * eta * (2 + sqrt 3 * eta) + sqrt 3 * kappa + rho * (12 / 100))).
  { eapply Rle_trans; [exact C|]. apply Rmult_le_compat_l; [lra | exact E]. }
  apply abs_le_inv in Ha, Hpi, Ha1, C2.
  (* the last subtraction rounds a number of modulus <= 4 + eps_pi + 1/2 *)
  apply (Rabs_via (pif - a')).
  - replace ((pif - a') * (1 + dl) - (pif - a')) with ((pif - a') * dl) by ring. rewrite (Rmult_comm e).
    apply Rabs_mult_le; [apply Rabs_le; lra | exact Hdl].
  - (* the three terms are bounded by eps_pi (Hpi), tau (Ha) and the conditioning of asin (C2) *)
    replace (pif - a' - (PI - asin S)) with ((pif - PI) - (a' - asin s') - (asin s' - asin S)) by ring.
    apply Rabs_le. lra.
Qed.

(* binary64 budgets: eta as in Rounding.v; kappa = 5u (two products of numbers <= 1+eta in modulus, one
   subtraction); rho = (1+u)^4 - 1; tau = u; eps_pi = 2u (|np.pi - PI| = 1.22e-16); e = u *)
Lemma cross_binary64_budget :
  cross_bound (eta_of (1257 / 100 * u64) (315 / 100 * u64) u64 u64) (5 * u64) rho64 u64 (2 * u64) u64 <= tol_in Rad 1e-12.
Proof. unfold cross_bound, eta_of, rho64, u64, tol_in. interval with (i_prec 80). Qed.
