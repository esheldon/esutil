(* C08 -- the exact-rational checkers run on the implementation's outputs are SOUND (an accepted output satisfies the
   checked Prop) and, wherever that Prop is a comparison of rationals, COMPLETE: they reject only outputs that really
   violate it (so a VIOLATION from them is never a checker artefact).  The radian range check compares with pi_lo,
   the largest binary64 below PI: complete for binary64 outputs, stated as: accepted iff 0 <= q <= pi_lo. *)
From Coq Require Import Reals Lra QArith Qreals Qabs Bool List.
From Interval Require Import Tactic.
From EsVerif.C08 Require Import Model Spec Proofs.
Open Scope R_scope.

Lemma pi_lo_lt_PI : Q2R pi_lo < PI.
Proof. unfold pi_lo, Q2R; simpl. interval with (i_prec 80). Qed.

Lemma PI_lt_pi_hi : PI < Q2R pi_hi.
Proof. unfold pi_hi, Q2R; simpl. interval with (i_prec 80). Qed.

Lemma Q2R_Z z : Q2R (inject_Z z) = IZR z.
Proof. unfold Q2R; simpl. field. Qed.

Lemma Q2R_0 : Q2R 0 = 0.
Proof. exact (Q2R_Z 0). Qed.

Lemma Qle_R a b : (a <= b)%Q <-> Q2R a <= Q2R b.
Proof. split; [apply Qle_Rle | apply Rle_Qle]. Qed.

Lemma Qle_bool_R a b : Qle_bool a b = true <-> Q2R a <= Q2R b.
Proof. rewrite Qle_bool_iff. apply Qle_R. Qed.

Lemma Qeq_bool_R a b : Qeq_bool a b = true <-> Q2R a = Q2R b.
Proof. rewrite Qeq_bool_iff. split; [apply Qeq_eqR | apply eqR_Qeq]. Qed.

Lemma range_check_complete uout q :
  range_check uout q = true <-> 0 <= Q2R q <= match uout with Deg => 180 | Rad => Q2R pi_lo end.
Proof.
  unfold range_check. rewrite andb_true_iff, !Qle_bool_R, Q2R_0.
  destruct uout; [change (Q2R 180) with (Q2R (inject_Z 180)); rewrite Q2R_Z|]; tauto.
Qed.

Lemma same_check_complete a b : same_check a b = true <-> Q2R a = Q2R b.
Proof. apply Qeq_bool_R. Qed.

Lemma zero_check_complete a : zero_check a = true <-> Q2R a = 0.
Proof. unfold zero_check. rewrite Qeq_bool_R, Q2R_0. tauto. Qed.

Lemma close_check_complete tol a b : close_check tol a b = true <-> Rabs (Q2R a - Q2R b) <= Q2R tol.
Proof.
  unfold close_check. rewrite Qle_bool_iff, <- Q2R_minus. generalize (a - b)%Q. intro d.
  (* Qabs d <= tol iff - tol <= d <= tol, carried to the reals *)
  rewrite Qabs_Qle_condition, !Qle_R, Q2R_opp.
  split; [apply Rabs_le | apply abs_le_inv].
Qed.

Lemma ident_inputs_complete a b c d : ident_inputs a b c d = true <-> Q2R a = Q2R c /\ Q2R b = Q2R d.
Proof. unfold ident_inputs. rewrite andb_true_iff, !Qeq_bool_R. tauto. Qed.

Lemma range_check_sound uout q : range_check uout q = true -> 0 <= Q2R q <= range_hi uout.
Proof. intro H. apply range_check_complete in H. destruct uout; [exact H | pose proof pi_lo_lt_PI; simpl; lra]. Qed.

Lemma outs_ok_sound uout pts outs : outs_ok uout pts outs = true -> Forall2 (out_spec uout) pts outs.
Proof.
  revert outs. induction pts as [|p ps IH]; intros [|o os] H; simpl in H; try discriminate; constructor.
  - apply andb_true_iff in H as [H _]. unfold out_ok in H. apply andb_true_iff in H as [A B].
    split; [exact (range_check_sound _ _ A)|].
    intro I. rewrite I in B. apply zero_check_complete; exact B.
  - apply IH. apply andb_true_iff in H as [_ H]. exact H.
Qed.

Lemma all2_sound (f : Q -> Q -> bool) (P : Q -> Q -> Prop) :
  (forall x y, f x y = true -> P x y) -> forall a b, all2 f a b = true -> Forall2 P a b.
Proof.
  intros HP a. induction a as [|x a IH]; intros [|y b] H; simpl in H; try discriminate; constructor.
  - apply HP. apply andb_true_iff in H as [H _]. exact H.
  - apply IH. apply andb_true_iff in H as [_ H]. exact H.
Qed.

Lemma all_same_sound a b : all_same a b = true -> Forall2 (fun x y => Q2R x = Q2R y) a b.
Proof. apply all2_sound. intros x y. apply same_check_complete. Qed.

Lemma all_close_sound tol a b : all_close tol a b = true -> Forall2 (fun x y => Rabs (Q2R x - Q2R y) <= Q2R tol) a b.
Proof. apply all2_sound. intros x y. apply close_check_complete. Qed.

(* why the +360 comparison uses twice the tolerance: two outputs within tol of one true value *)
Lemma shift_triangle t a b tol : Rabs (a - t) <= tol -> Rabs (b - t) <= tol -> Rabs (a - b) <= 2 * tol.
Proof. intros A B. rewrite Rabs_minus_sym in B. replace (2 * tol) with (tol + tol) by ring. exact (Rabs_via t a b tol tol A B). Qed.
