(* C08 -- conditional rounding theorem for gcirc (law of cosines).  Forward analysis of cosdis with interface
   budgets, then the sharp conditioning of acos (Cond3.v).  Because acos amplifies like a square root next to +-1, a
   WORST-CASE analysis cannot reach the statement's 2e-6 degree: with binary64 budgets it proves 7e-6 degree for ALL
   inputs (longitudes within one turn).  The statement's 2e-6 remains what the per-case certificates measure (largest
   error seen in 2e7 adversarial pairs: 1.4e-6 degree). *)
From Coq Require Import Reals Lra.
From Interval Require Import Tactic.
From EsVerif.C08 Require Import Gen Model Spec Proofs Cond3 Rounding.
Open Scope R_scope.

Lemma clip_closer x c : -1 <= c <= 1 -> Rabs (clip (-1) 1 x - c) <= Rabs (x - c).
Proof.
  intro Hc. pose proof (abs_le_inv _ _ (Rle_refl (Rabs (x - c)))) as T. apply Rabs_le.
  unfold clip, Rmin, Rmax. destruct (Rle_dec x (-1)); destruct (Rle_dec _ 1); lra.
Qed.

(* the bound of Rounding.prod_round *)
Definition p2 (al be e : R) : R := al * (1 + be) + be + e * ((1 + al) * (1 + be)).
Definition cosdis_budget (sg r e : R) : R :=
  let e1 := p2 sg sg e in                       (* sin dec1 * sin dec2 *)
  let pc := p2 sg sg e in                       (* cos dec1 * cos dec2 *)
  let e2 := p2 pc r e in                        (* ... * cos radiff *)
  e1 + e2 + e * (2 + e1 + e2).

(* a rounded sum of two approximated terms of modulus <= 1 *)
Lemma sum_round x y X Y e1 e2 d e : Rabs x <= 1 -> Rabs y <= 1 -> Rabs (X - x) <= e1 -> Rabs (Y - y) <= e2 -> Rabs d <= e ->
  Rabs ((X + Y) * (1 + d) - (x + y)) <= e1 + e2 + e * (2 + e1 + e2).
Proof.
  intros Hx Hy HX HY Hd. rewrite (Rplus_comm (e1 + e2)). apply (Rabs_via (X + Y)).
  - apply abs_le_inv in Hx, Hy, HX, HY.
    replace ((X + Y) * (1 + d) - (X + Y)) with (d * (X + Y)) by ring. apply Rabs_mult_le; [exact Hd | apply Rabs_le; lra].
  - replace (X + Y - (x + y)) with ((X - x) + (Y - y)) by ring. eapply Rle_trans; [apply Rabs_triang | lra].
Qed.

Lemma gcirc_rounding sg r e tau s1 c1 s2 c2 cr S1 C1 S2 C2 CR d1 d2 d3 d4 a' :
  0 <= sg -> 0 <= r -> 0 <= e -> 0 <= tau ->
  Rabs s1 <= 1 -> Rabs c1 <= 1 -> Rabs s2 <= 1 -> Rabs c2 <= 1 -> Rabs cr <= 1 ->     (* exact sines and cosines *)
  -1 <= s1 * s2 + c1 * c2 * cr <= 1 ->
  Rabs (S1 - s1) <= sg -> Rabs (C1 - c1) <= sg -> Rabs (S2 - s2) <= sg -> Rabs (C2 - c2) <= sg -> Rabs (CR - cr) <= r ->
  Rabs d1 <= e -> Rabs d2 <= e -> Rabs d3 <= e -> Rabs d4 <= e ->
  cosdis_budget sg r e <= 2 ->
  let cosdis' := (S1 * S2 * (1 + d1) + C1 * C2 * (1 + d2) * CR * (1 + d3)) * (1 + d4) in
  Rabs (a' - acos (clip (-1) 1 cosdis')) <= tau ->
  Rabs (a' - acos (s1 * s2 + c1 * c2 * cr)) <= tau + 2 * asin (sqrt (cosdis_budget sg r e / 2)).
Proof.
  intros Hsg Hr He Ht B1 B2 B3 B4 B5 Hc E1 E2 E3 E4 E5 D1 D2 D3 D4 Hb cosdis' Ha.
  assert (Bss : Rabs (s1 * s2) <= 1) by (rewrite <- (Rmult_1_r 1); apply Rabs_mult_le; assumption).
  assert (Bcc : Rabs (c1 * c2) <= 1) by (rewrite <- (Rmult_1_r 1); apply Rabs_mult_le; assumption).
  assert (Bccr : Rabs (c1 * c2 * cr) <= 1) by (rewrite <- (Rmult_1_r 1); apply Rabs_mult_le; assumption).
  pose proof (prod_round s1 s2 S1 S2 sg sg d1 e B1 B3 E1 E3 D1) as P1.
  pose proof (prod_round c1 c2 C1 C2 sg sg d2 e B2 B4 E2 E4 D2) as P2.
  pose proof (prod_round (c1 * c2) cr (C1 * C2 * (1 + d2)) CR _ r d3 e Bcc B5 P2 E5 D3) as P3.
  pose proof (sum_round _ _ _ _ _ _ d4 e Bss Bccr P1 P3 D4) as E. fold cosdis' in E.
  change (Rabs (cosdis' - (s1 * s2 + c1 * c2 * cr)) <= cosdis_budget sg r e) in E.
  set (c := s1 * s2 + c1 * c2 * cr) in *.
  pose proof (clip_closer cosdis' c Hc) as K.
  assert (CB : -1 <= clip (-1) 1 cosdis' <= 1) by (apply clip_bounds; lra).
  pose proof (acos_conditioning (clip (-1) 1 cosdis') c (cosdis_budget sg r e) CB Hc ltac:(lra) Hb) as A.
  apply (Rabs_via (acos (clip (-1) 1 cosdis'))); assumption.
Qed.

(* binary64 budgets: sines/cosines of the latitudes: argument error 3.15u + libm 1u; cos radiff: two longitudes
   12.57u each, the subtraction 6.3u, libm 1u; products/sum e = u; libm arccos tau = 4u (values < 4) *)
Lemma gcirc_binary64_budget :
  4 * u64 + 2 * asin (sqrt (cosdis_budget (415 / 100 * u64) (3245 / 100 * u64) u64 / 2)) <= tol_in Rad 7e-6
  /\ cosdis_budget (415 / 100 * u64) (3245 / 100 * u64) u64 <= 2.
Proof.
  assert (B : 0 <= cosdis_budget (415 / 100 * u64) (3245 / 100 * u64) u64 <= 7 / 10 ^ 15).
  { (* the two inner products are bounded first, so that no enclosure is computed on the nested expression *)
    unfold cosdis_budget. set (e1 := p2 (415 / 100 * u64) (415 / 100 * u64) u64). set (e2 := p2 e1 _ _).
    assert (H1 : 0 <= e1 <= 104 / 10 ^ 17) by (unfold e1, p2, u64; split; interval). clearbody e1.
    assert (H2 : 0 <= e2 <= 48 / 10 ^ 16) by (unfold e2, p2, u64; split; interval). clearbody e2.
    unfold u64. split; interval. }
  split; [|lra].
  set (E := cosdis_budget (415 / 100 * u64) (3245 / 100 * u64) u64) in *.
  (* asin is increasing: the budget is replaced by the rational above it before the enclosure is computed *)
  assert (A : asin (sqrt (E / 2)) <= asin (sqrt (7 / 10 ^ 15 / 2))).
  { apply asin_incr; [pose proof (sqrt_pos (E / 2)); lra | apply sqrt_le_1_alt; lra | interval]. }
  eapply Rle_trans; [apply Rplus_le_compat_l, Rmult_le_compat_l; [lra | exact A]|].
  rewrite two_asin_small by (split; [apply sqrt_pos | interval]).
  unfold tol_in, u64. interval.
Qed.
