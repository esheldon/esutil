(* C08 -- the array layer.  The generated files Src.v / SrcF.v are the ELEMENT-WISE reading of the numpy code;
   here the statements that are not element-wise by numpy's definition -- boolean-mask selection x[:, w],
   the masked store dis[w] = values-computed-on-the-selected-columns guarded by `if np.any(w)`, the masked
   store of a constant -- are modelled on lists (compress / scatter), the whole of sphdist and gcirc is written
   at list level with them, and proved equal to mapping the element-wise reading over the pairs.  Also: a
   call's result depends on its own arguments only (step function with irrelevant, unchanged state). *)
From Coq Require Import Reals List Bool Lia.
Import ListNotations.
From EsVerif.C08 Require Import Gen Model SrcLib Src.
Open Scope R_scope.

Section Generic.
  Context {A B : Type}.

  (* a[w] for a boolean mask w (np.compress / x[:, w] along the pair axis) *)
  Fixpoint compress {X} (w : list bool) (l : list X) : list X :=
    match w, l with
    | b :: w', x :: l' => if b then x :: compress w' l' else compress w' l'
    | _, _ => []
    end.

  (* d[w] = v : the values v go, in order, to the positions where w holds *)
  Fixpoint scatter {X} (w : list bool) (d v : list X) : list X :=
    match w, d with
    | b :: w', x :: d' =>
        if b then match v with y :: v' => y :: scatter w' d' v' | [] => x :: scatter w' d' [] end
        else x :: scatter w' d' v
    | _, _ => d
    end.

  (* element-wise conditional *)
  Fixpoint cond3 (f : A -> B) (w : list bool) (xs : list A) (d : list B) : list B :=
    match w, xs, d with
    | b :: w', x :: xs', y :: d' => (if b then f x else y) :: cond3 f w' xs' d'
    | _, _, _ => []
    end.

  Lemma masked_store (f : A -> B) : forall w xs d, length w = length xs -> length w = length d ->
    scatter w d (map f (compress w xs)) = cond3 f w xs d.
  Proof.
    induction w as [|b w IH]; intros [|x xs] [|y d] H1 H2; simpl in *; try discriminate; try reflexivity.
    injection H1 as H1. injection H2 as H2. destruct b; simpl; rewrite IH by assumption; reflexivity.
  Qed.

  Lemma cond3_no_true (f : A -> B) : forall w xs d, length w = length xs -> length w = length d ->
    existsb (fun b => b) w = false -> cond3 f w xs d = d.
  Proof.
    induction w as [|b w IH]; intros [|x xs] [|y d] H1 H2 E; simpl in *; try discriminate; try reflexivity.
    injection H1 as H1. injection H2 as H2. destruct b; simpl in E; [discriminate|]. rewrite IH by assumption. reflexivity.
  Qed.

  (* `if np.any(w): d[w] = f(x[w])` *)
  Lemma guarded_masked_store (f : A -> B) w xs d : length w = length xs -> length w = length d ->
    (if existsb (fun b => b) w then scatter w d (map f (compress w xs)) else d) = cond3 f w xs d.
  Proof.
    intros H1 H2. destruct (existsb _ w) eqn:E; [apply masked_store; assumption | symmetry; apply cond3_no_true; assumption].
  Qed.

  Lemma compress_pairs {X Y Z} (f : Z -> X) (g : Z -> Y) : forall (w : list bool) (p : list Z),
    combine (compress w (map f p)) (compress w (map g p)) = compress w (map (fun q => (f q, g q)) p).
  Proof.
    induction w as [|c w IH]; intros [|q p]; simpl; try reflexivity.
    destruct c; simpl; rewrite IH; reflexivity.
  Qed.

  Lemma cond3_map {X} (f : A -> B) (e : X -> B) (h : X -> A) (t : X -> bool) : forall l,
    cond3 f (map t l) (map h l) (map e l) = map (fun x => if t x then f (h x) else e x) l.
  Proof. induction l as [|x l IH]; simpl; [reflexivity | rewrite IH; reflexivity]. Qed.
End Generic.

(* d[w] = c for a constant c *)
Lemma masked_store_const {B} (c : B) w d : length w = length d ->
  scatter w d (repeat c (length (compress w d))) = cond3 (fun _ : B => c) w d d.
Proof.
  intro H. rewrite <- (masked_store (fun _ : B => c) w d d H H). f_equal.
  generalize (compress w d). intro l. induction l as [|x l IH]; simpl; [reflexivity | rewrite IH; reflexivity].
Qed.

(* sphdist and gcirc at list level: p = the n pairs after numpy's conversion/broadcast to length n *)

Definition pair4 : Type := (R * R * R * R)%type.

Definition dsq_of (a b : vec3) : R :=
  let '(x1, y1, z1) := a in let '(x2, y2, z2) := b in ((x1 - x2) ^ 2 + (y1 - y2) ^ 2) + (z1 - z2) ^ 2.
Definition large_of (ab : vec3 * vec3) : R :=
  let cross := cross3 (fst ab) (snd ab) in
  PI - asin (sqrt (((vx cross) ^ 2 + (vy cross) ^ 2) + (vz cross) ^ 2)).

Definition sphdist_vec (uin uout : unit_t) (p : list pair4) : list R :=
  let v1 := map (fun q : pair4 => let '(a, b, _, _) := q in eq2xyz_src uin a b) p in     (* (3, n) array as n columns *)
  let v2 := map (fun q : pair4 => let '(_, _, c, d) := q in eq2xyz_src uin c d) p in
  let dsq := map (fun ab => dsq_of (fst ab) (snd ab)) (combine v1 v2) in
  let dis := map (fun q => 2 * asin (/ 2 * sqrt q)) dsq in
  let w := map (fun q => Rgeb q sphdist_thr) dsq in
  let dis := if existsb (fun b => b) w
             then scatter w dis (map large_of (combine (compress w v1) (compress w v2)))   (* dis[w] = ... *)
             else dis in
  let dis := match uout with Deg => map r2d dis | Rad => dis end in
  let same := map (fun q : pair4 => let '(a, b, c, d) := q in andb (Reqb a c) (Reqb b d)) p in
  scatter same dis (repeat 0 (length (compress same dis))).                              (* dis[w] = 0.0 *)

Lemma sphdist_elem_unfold uin uout a b c d :
  sphdist_src uin uout a b c d =
  let v1 := eq2xyz_src uin a b in let v2 := eq2xyz_src uin c d in
  let q := dsq_of v1 v2 in
  let dis := if Rgeb q sphdist_thr then large_of (v1, v2) else 2 * asin (/ 2 * sqrt q) in
  let dis := match uout with Deg => r2d dis | Rad => dis end in
  if andb (Reqb a c) (Reqb b d) then 0 else dis.
Proof.
  unfold sphdist_src, dsq_of, large_of, sphdist_thr. cbv zeta.
  destruct (eq2xyz_src uin a b) as [[x1 y1] z1]. destruct (eq2xyz_src uin c d) as [[x2 y2] z2]. cbn [fst snd].
  reflexivity.
Qed.

Lemma sphdist_vec_elementwise uin uout p :
  sphdist_vec uin uout p = map (fun q : pair4 => let '(a, b, c, d) := q in sphdist_src uin uout a b c d) p.
Proof.
  unfold sphdist_vec. cbv zeta.
  set (f1 := fun q : pair4 => let '(a, b, _, _) := q in eq2xyz_src uin a b).
  set (f2 := fun q : pair4 => let '(_, _, c, d) := q in eq2xyz_src uin c d).
  set (same := fun q : pair4 => let '(a, b, c, d) := q in andb (Reqb a c) (Reqb b d)).
  assert (C : combine (map f1 p) (map f2 p) = map (fun q => (f1 q, f2 q)) p).
  { induction p as [|q p IH]; simpl; [reflexivity | rewrite IH; reflexivity]. }
  rewrite C, !map_map. cbn [fst snd].
  rewrite compress_pairs.
  set (Q := fun q => dsq_of (f1 q) (f2 q)).
  set (W := fun q => Rgeb (Q q) sphdist_thr).
  rewrite guarded_masked_store by (rewrite !map_length; reflexivity).
  rewrite (cond3_map large_of (fun q => 2 * asin (/ 2 * sqrt (Q q))) (fun q => (f1 q, f2 q)) W).
  set (D1 := fun x => if W x then large_of (f1 x, f2 x) else 2 * asin (/ 2 * sqrt (Q x))).
  assert (U : (match uout with Deg => map r2d (map D1 p) | Rad => map D1 p end)
              = map (fun x => match uout with Deg => r2d (D1 x) | Rad => D1 x end) p).
  { destruct uout; [rewrite map_map; reflexivity | reflexivity]. }
  rewrite U. set (D2 := fun x => match uout with Deg => r2d (D1 x) | Rad => D1 x end).
  rewrite masked_store_const by (rewrite !map_length; reflexivity).
  rewrite (cond3_map (fun _ : R => 0) D2 D2 same).
  apply map_ext. intros [[[a b] c] d]. rewrite sphdist_elem_unfold. reflexivity.
Qed.

Definition gcirc_vec (p : list pair4) : list R :=
  let cosdis := map (fun q : pair4 => let '(a, b, c, d) := q in
                       (sin (d2r b) * sin (d2r d)) + ((cos (d2r b) * cos (d2r d)) * cos (d2r c - d2r a))) p in
  let cosdis := map (clip (- 1) 1) cosdis in                                             (* cosdis.clip(-1, 1, out=cosdis) *)
  let dis := map acos cosdis in
  let same := map (fun q : pair4 => let '(a, b, c, d) := q in andb (Reqb (d2r a) (d2r c)) (Reqb (d2r b) (d2r d))) p in
  scatter same dis (repeat 0 (length (compress same dis))).                              (* dis[w] = 0.0 *)

Lemma gcirc_vec_elementwise p :
  gcirc_vec p = map (fun q : pair4 => let '(a, b, c, d) := q in gcirc_src a b c d) p.
Proof.
  unfold gcirc_vec. cbv zeta. rewrite !map_map.
  set (same := fun q : pair4 => let '(a, b, c, d) := q in andb (Reqb (d2r a) (d2r c)) (Reqb (d2r b) (d2r d))).
  rewrite masked_store_const by (rewrite !map_length; reflexivity).
  match goal with |- cond3 _ _ (map ?D _) _ = _ => set (D2 := D) end.
  rewrite (cond3_map (fun _ : R => 0) D2 D2 same).
  apply map_ext. intros [[[a b] c] d]. unfold D2, same, gcirc_src. cbv zeta. reflexivity.
Qed.

(* numpy broadcasting of a scalar first point against arrays for the second point *)
Definition bcast_first (a b : R) (l : list (R * R)) : list pair4 := map (fun cd => (a, b, fst cd, snd cd)) l.

Lemma sphdist_vec_bcast uin uout a b l :
  sphdist_vec uin uout (bcast_first a b l) = map (fun cd => sphdist_src uin uout a b (fst cd) (snd cd)) l.
Proof. rewrite sphdist_vec_elementwise. unfold bcast_first. rewrite map_map. reflexivity. Qed.

Lemma vec_lengths uin uout p : length (sphdist_vec uin uout p) = length p /\ length (gcirc_vec p) = length p.
Proof. rewrite sphdist_vec_elementwise, gcirc_vec_elementwise, !map_length. split; reflexivity. Qed.

(* scalar call = length-1 array call = the element of any array call *)
Lemma scalar_is_array uin uout a b c d p i :
  nth_error p i = Some (a, b, c, d) ->
  nth_error (sphdist_vec uin uout p) i = Some (sphdist_src uin uout a b c d)
  /\ nth_error (gcirc_vec p) i = Some (gcirc_src a b c d)
  /\ sphdist_vec uin uout [(a, b, c, d)] = [sphdist_src uin uout a b c d].
Proof.
  intro H. rewrite sphdist_vec_elementwise, gcirc_vec_elementwise.
  split; [|split]; try (erewrite map_nth_error by exact H; reflexivity).
  rewrite sphdist_vec_elementwise. reflexivity.
Qed.

(* history: the model of a call is a function of the call's own arguments; a process state of any type is
   carried along unchanged and never read *)

Inductive call := CSphdist (uin uout : unit_t) (p : list pair4) | CGcirc (p : list pair4).
Definition answer (c : call) : list R :=
  match c with CSphdist uin uout p => sphdist_vec uin uout p | CGcirc p => gcirc_vec p end.

Section History.
  Variable S : Type.
  Definition step (st : S) (c : call) : S * list R := (st, answer c).
  Fixpoint run (st : S) (cs : list call) : S * list (list R) :=
    match cs with
    | [] => (st, [])
    | c :: cs' => let '(st1, o) := step st c in let '(st2, os) := run st1 cs' in (st2, o :: os)
    end.
  Lemma history_irrelevant st cs : run st cs = (st, map answer cs).
  Proof. induction cs as [|c cs IH]; simpl; [reflexivity | rewrite IH; reflexivity]. Qed.
  (* in particular: the answer to a call is the same after any history and in any state *)
  Lemma answer_independent st st' before c :
    nth_error (snd (run st (before ++ [c]))) (length before) = Some (answer c)
    /\ snd (run st' [c]) = [answer c].
  Proof.
    rewrite !history_irrelevant. cbn [snd]. split; [|reflexivity].
    rewrite map_app, nth_error_app2 by (rewrite map_length; lia). rewrite map_length, PeanoNat.Nat.sub_diag. reflexivity.
  Qed.
End History.
