(* C08 -- the model instantiated with the constants read out of the source (Gen.v), the side
   conditions under which the general theorems apply to them, and the statement of a per-case
   certificate.  Re-proved whenever a constant in esutil/coords.py changes. *)
From Coq Require Import Reals Lra.
From EsVerif.C08 Require Import Gen Model Spec Proofs.
Open Scope R_scope.

Definition sphdist_code : unit_t -> unit_t -> R -> R -> R -> R -> R := sphdist_R sphdist_thr.
Definition gcirc_code : R -> R -> R -> R -> R := gcirc_R gcirc_clip_lo gcirc_clip_hi.

Lemma sphdist_thr_ok : 2 <= sphdist_thr.
Proof. unfold sphdist_thr. lra. Qed.

Lemma gcirc_clip_ok : gcirc_clip_lo <= -1 /\ 1 <= gcirc_clip_hi.
Proof. unfold gcirc_clip_lo, gcirc_clip_hi. lra. Qed.

Lemma sphdist_code_exact uin uout ra1 dec1 ra2 dec2 :
  sphdist_code uin uout ra1 dec1 ra2 dec2 = from_rad uout (true_sep uin ra1 dec1 ra2 dec2).
Proof. apply sphdist_exact, sphdist_thr_ok. Qed.

Lemma gcirc_code_exact ra1 dec1 ra2 dec2 :
  gcirc_code ra1 dec1 ra2 dec2 = from_rad Rad (true_sep Deg ra1 dec1 ra2 dec2).
Proof. destruct gcirc_clip_ok. apply gcirc_exact; assumption. Qed.

(* a certified output of the implementation is within tolerance of the model as coded *)
Lemma sphdist_model_close uin uout tol ra1 dec1 ra2 dec2 out :
  sep_ok uin uout tol ra1 dec1 ra2 dec2 out ->
  Rabs (sphdist_code uin uout ra1 dec1 ra2 dec2 - out) <= tol_in uout tol.
Proof. unfold sep_ok. rewrite sphdist_code_exact. auto. Qed.

Lemma gcirc_model_close tol ra1 dec1 ra2 dec2 out :
  sep_ok Deg Rad tol ra1 dec1 ra2 dec2 out ->
  Rabs (gcirc_code ra1 dec1 ra2 dec2 - out) <= tol_in Rad tol.
Proof. unfold sep_ok. rewrite gcirc_code_exact. auto. Qed.

(* Statement of a per-case certificate (generated by the harness for one sampled pair and the
   output [out] of the real code): the property for that pair, and its consequence that the
   implementation agrees with the model as coded within the tolerance. *)
Definition sphdist_cert (uin uout : unit_t) (tol ra1 dec1 ra2 dec2 out : R) : Prop :=
  sep_ok uin uout tol ra1 dec1 ra2 dec2 out
  /\ Rabs (sphdist_code uin uout ra1 dec1 ra2 dec2 - out) <= tol_in uout tol.

Definition gcirc_cert (tol ra1 dec1 ra2 dec2 out : R) : Prop :=
  sep_ok Deg Rad tol ra1 dec1 ra2 dec2 out
  /\ Rabs (gcirc_code ra1 dec1 ra2 dec2 - out) <= tol_in Rad tol.

Lemma sphdist_cert_intro uin uout tol ra1 dec1 ra2 dec2 out :
  sep_ok uin uout tol ra1 dec1 ra2 dec2 out -> sphdist_cert uin uout tol ra1 dec1 ra2 dec2 out.
Proof. intro H. split; [exact H | apply sphdist_model_close; exact H]. Qed.

Lemma gcirc_cert_intro tol ra1 dec1 ra2 dec2 out :
  sep_ok Deg Rad tol ra1 dec1 ra2 dec2 out -> gcirc_cert tol ra1 dec1 ra2 dec2 out.
Proof. intro H. split; [exact H | apply gcirc_model_close; exact H]. Qed.
