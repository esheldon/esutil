(* C08 -- tie lemmas re-checked on every run: what the translator reads in esutil/coords.py (GenMeta.v) and what
   the numpy running the check uses (GenNp.v) are what the hand-written models say. *)
From Coq Require Import List PrimFloat.
Import ListNotations.
From EsVerif.C08 Require Import Model SkelLib GenMeta GenNp SrcLibF.

(* the array-level statement sequence of each anchored function is the one Model.v (element-wise) and ArrayLayer.v
   (list level: SGuardedStore = scatter/compress, SMaskedConst = scatter of a constant, SWhere = the mask itself,
   SUnitConv / SInplace / SClip = element-wise maps) model *)
Lemma skeleton_tie :
  thetaphi2xyz_skel = thetaphi2xyz_skel_model /\ eq2xyz_skel = eq2xyz_skel_model
  /\ sphdist_skel = sphdist_skel_model /\ gcirc_skel = gcirc_skel_model.
Proof. repeat split; reflexivity. Qed.

(* keyword defaults: units=["deg","deg"] (the harness omits the keyword only for deg/deg), eq2xyz called by sphdist
   with its default dtype "f8" and stomp=False (the branch `if stomp:` is not taken), gcirc's getangle=False *)
Lemma defaults_tie :
  sphdist_units_default = sphdist_units_default_model /\ eq2xyz_units_default = eq2xyz_units_default_model
  /\ eq2xyz_dtype_is_f8 = eq2xyz_dtype_is_f8_model /\ eq2xyz_stomp_default = eq2xyz_stomp_default_model
  /\ gcirc_getangle_default = gcirc_getangle_default_model.
Proof. repeat split; reflexivity. Qed.

(* the constants of the binary64 reading are the running numpy's *)
Lemma numpy_constants_tie :
  Leibniz.eqb np_deg2rad_1 d2r_c = true /\ Leibniz.eqb np_rad2deg_1 r2d_c = true /\ Leibniz.eqb np_pi pi_f = true.
Proof. repeat split; vm_compute; reflexivity. Qed.
