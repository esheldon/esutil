(* C08 -- non-vacuity: the hypotheses of the conditional rounding theorems and of the array-layer theorems are
   satisfiable by concrete, non-trivial instances (exact evaluation is within every budget). *)
From Coq Require Import Reals Lra List.
Import ListNotations.
From EsVerif.C08 Require Import Gen Model Spec Proofs Code SrcLib Src SrcProofs Cond3 Rounding Rounding2 Rounding3 Rounding4 ArrayLayer.
Open Scope R_scope.

(* the conditional rounding theorems with binary64 budgets (u = 2^-53): the statements, and the two branches of sphdist *)
Definition chord_branch_binary64_stmt : Prop :=
  forall th1 ph1 th2 ph2 th1' ph1' th2' ph2' c1 s1 cp1 sp1 c2 s2 cp2 sp2 dx1 dy1 dx2 dy2 d' a',
  Rabs (th1' - th1) <= 1257 / 100 * u64 -> Rabs (ph1' - ph1) <= 315 / 100 * u64 ->
  Rabs (th2' - th2) <= 1257 / 100 * u64 -> Rabs (ph2' - ph2) <= 315 / 100 * u64 ->
  Rabs (c1 - cos th1') <= u64 -> Rabs (s1 - sin th1') <= u64 -> Rabs (cp1 - cos ph1') <= u64 -> Rabs (sp1 - sin ph1') <= u64 ->
  Rabs (c2 - cos th2') <= u64 -> Rabs (s2 - sin th2') <= u64 -> Rabs (cp2 - cos ph2') <= u64 -> Rabs (sp2 - sin ph2') <= u64 ->
  Rabs dx1 <= u64 -> Rabs dy1 <= u64 -> Rabs dx2 <= u64 -> Rabs dy2 <= u64 ->
  let u' := (c1 * cp1 * (1 + dx1), s1 * cp1 * (1 + dy1), sp1) in
  let v' := (c2 * cp2 * (1 + dx2), s2 * cp2 * (1 + dy2), sp2) in
  Rabs (d' - norm3 (vsub u' v')) <= rho64 * norm3 (vsub u' v') ->
  0 <= d' -> d' * d' <= T_room -> nsq (vsub (point th1 ph1) (point th2 ph2)) <= T_room ->
  Rabs (a' - asin (/ 2 * d')) <= 2 * u64 ->
  Rabs (2 * a' - angle (point th1 ph1) (point th2 ph2)) <= tol_in Rad 1e-11.

Definition cross_branch_binary64_stmt : Prop :=
  forall u v u' v' c' s' a' pif dl,
  is_unit u -> is_unit v ->
  close (eta_of (1257 / 100 * u64) (315 / 100 * u64) u64 u64) u u' ->
  close (eta_of (1257 / 100 * u64) (315 / 100 * u64) u64 u64) v v' ->
  3989 / 1000 <= nsq (vsub u v) ->
  close (5 * u64) (cross u' v') c' ->
  Rabs (s' - norm3 c') <= rho64 * norm3 c' -> 0 <= s' <= 11 / 100 -> norm3 c' <= 12 / 100 ->
  Rabs (a' - asin s') <= u64 -> Rabs (pif - PI) <= 2 * u64 -> Rabs dl <= u64 -> Rabs a' <= 1 / 2 ->
  Rabs ((pif - a') * (1 + dl) - angle u v) <= tol_in Rad 1e-12.

Definition gcirc_binary64_stmt : Prop :=
  4 * u64 + 2 * asin (sqrt (cosdis_budget (415 / 100 * u64) (3245 / 100 * u64) u64 / 2)) <= tol_in Rad 7e-6
  /\ cosdis_budget (415 / 100 * u64) (3245 / 100 * u64) u64 <= 2.

Lemma chord_branch_binary64 : chord_branch_binary64_stmt.
Proof.
  cbv delta [chord_branch_binary64_stmt]. intros. pose proof u64_small as U0.
  eapply Rle_trans; [|apply binary64_budget_rho64].
  apply (chord_branch_rounding _ _ _ (point th1 ph1) (point th2 ph2) u' v' d' a'); try assumption.
  - apply eta64_nonneg.
  - apply rho64_nonneg.
  - apply point_unit.
  - apply point_unit.
  - apply (vector_stage th1 ph1 th1' ph1' c1 s1 cp1 sp1 dx1 dy1); assumption || lra.
  - apply (vector_stage th2 ph2 th2' ph2' c2 s2 cp2 sp2 dx2 dy2); assumption || lra.
Qed.

Lemma cross_branch_binary64 : cross_branch_binary64_stmt.
Proof.
  cbv delta [cross_branch_binary64_stmt]. intros. pose proof u64_small as U0.
  eapply Rle_trans; [|apply cross_binary64_budget].
  apply (cross_branch_rounding _ _ _ _ _ _ u v u' v' c' s' a' pif dl); try assumption; try lra.
  - apply eta64_nonneg.
  - apply rho64_nonneg.
Qed.

Lemma triple_eq (a b c a' b' c' : R) : a = a' -> b = b' -> c = c' -> (a, b, c) = (a', b', c').
Proof. intros; subst; reflexivity. Qed.

Lemma abs0_le x : 0 <= x -> Rabs (0) <= x.
Proof. intro H. rewrite Rabs_R0. exact H. Qed.

Lemma point_0_0 : point 0 0 = (1, 0, 0).
Proof. unfold point. rewrite cos_0, sin_0. apply triple_eq; ring. Qed.
Lemma point_PI2_0 : point (PI / 2) 0 = (0, 1, 0).
Proof. unfold point. rewrite cos_0, sin_0, cos_PI2, sin_PI2. apply triple_eq; ring. Qed.
Lemma point_PI_0 : point PI 0 = (-1, 0, 0).
Proof. unfold point. rewrite cos_0, sin_0, cos_PI, sin_PI. apply triple_eq; ring. Qed.

(* a quarter turn along the equator, evaluated exactly, satisfies every hypothesis of the chord-branch theorem *)
Lemma chord_branch_binary64_instance :
  let d' := norm3 (vsub (point 0 0) (point (PI / 2) 0)) in
  Rabs (2 * asin (/ 2 * d') - angle (point 0 0) (point (PI / 2) 0)) <= tol_in Rad 1e-11.
Proof.
  intro d'. pose proof u64_small as U.
  assert (Z : forall x, x - x = 0) by (intro; ring).
  pose proof (chord_branch_binary64 0 0 (PI / 2) 0 0 0 (PI / 2) 0
                (cos 0) (sin 0) (cos 0) (sin 0) (cos (PI / 2)) (sin (PI / 2)) (cos 0) (sin 0) 0 0 0 0 d' (asin (/ 2 * d'))) as T.
  rewrite !Z in T. cbv zeta in T.
  assert (E1 : (cos 0 * cos 0 * (1 + 0), sin 0 * cos 0 * (1 + 0), sin 0) = point 0 0).
  { unfold point. apply triple_eq; ring. }
  assert (E2 : (cos (PI / 2) * cos 0 * (1 + 0), sin (PI / 2) * cos 0 * (1 + 0), sin 0) = point (PI / 2) 0).
  { unfold point. apply triple_eq; ring. }
  rewrite E1, E2 in T. fold d' in T.
  assert (N : nsq (vsub (point 0 0) (point (PI / 2) 0)) = 2).
  { rewrite point_0_0, point_PI2_0. unfold nsq, vsub, dot. ring. }
  assert (D0 : 0 <= d') by apply norm3_nonneg.
  assert (DD : d' * d' = 2) by (unfold d'; rewrite norm3_sq; exact N).
  apply T; try (apply abs0_le; lra); try (unfold T_room; lra).
  - rewrite Z, Rabs_R0. apply Rmult_le_pos; [apply rho64_nonneg | exact D0].
Qed.

(* antipodal points on the equator, evaluated exactly, satisfy every hypothesis of the cross-branch theorem *)
Lemma cross_branch_binary64_instance :
  Rabs ((PI - asin 0) * (1 + 0) - angle (point 0 0) (point PI 0)) <= tol_in Rad 1e-12.
Proof.
  pose proof u64_small as U. assert (Z : forall x, x - x = 0) by (intro; ring).
  assert (C : cross (point 0 0) (point PI 0) = (0, 0, 0)).
  { rewrite point_0_0, point_PI_0. unfold cross. apply triple_eq; ring. }
  assert (N0 : norm3 (0, 0, 0) = 0).
  { unfold norm3, nsq, dot. replace (0 * 0 + 0 * 0 + 0 * 0) with 0 by ring. apply sqrt_0. }
  pose proof eta64_nonneg as E0. unfold eta64 in E0.
  assert (CL : forall eta w, 0 <= eta -> close eta w w).
  { intros eta [[x y] z] H. unfold close. rewrite !Z, Rabs_R0. auto. }
  apply (cross_branch_binary64 (point 0 0) (point PI 0) (point 0 0) (point PI 0) (0, 0, 0) 0 (asin 0) PI 0);
    try apply point_unit; try (apply CL; lra).
  - rewrite point_0_0, point_PI_0. unfold nsq, vsub, dot. lra.
  - rewrite C. apply CL. lra.
  - rewrite N0, Z, Rabs_R0. lra.
  - lra.
  - rewrite N0. lra.
  - rewrite Z, Rabs_R0. lra.
  - rewrite Z, Rabs_R0. lra.
  - rewrite Rabs_R0. lra.
  - rewrite asin_0, Rabs_R0. lra.
Qed.

(* a quarter turn along the equator for gcirc: sin dec = 0, cos dec = 1, cos radiff = 0, evaluated exactly *)
Lemma gcirc_rounding_instance :
  Rabs (acos (clip (-1) 1 ((0 * 0 * (1 + 0) + 1 * 1 * (1 + 0) * 0 * (1 + 0)) * (1 + 0))) - acos (0 * 0 + 1 * 1 * 0))
  <= tol_in Rad 7e-6.
Proof.
  pose proof u64_small as U. destruct gcirc_binary64_budget as [B1 B2].
  assert (Z : forall x, x - x = 0) by (intro; ring).
  eapply Rle_trans; [|exact B1].
  apply (gcirc_rounding (415 / 100 * u64) (3245 / 100 * u64) u64 (4 * u64) 0 1 0 1 0 0 1 0 1 0 0 0 0 0);
    try lra; try (rewrite Z, Rabs_R0; lra); try (rewrite Rabs_R0; lra); try (rewrite Rabs_R1; lra).
Qed.

(* the array layer on three pairs: chord branch, cross branch, identical inputs *)
Lemma array_layer_instance :
  sphdist_vec Deg Deg [(0, 0, 90, 0); (0, 0, 180, 0); (5, 5, 5, 5)]
  = [sphdist_code Deg Deg 0 0 90 0; sphdist_code Deg Deg 0 0 180 0; 0]
  /\ length (gcirc_vec [(0, 0, 90, 0); (0, 0, 180, 0)]) = 2%nat.
Proof.
  split; [|apply (vec_lengths Deg Deg)]. rewrite sphdist_vec_elementwise. cbn [map]. rewrite !sphdist_src_eq.
  replace (sphdist_code Deg Deg 5 5 5 5) with 0; [reflexivity|].
  symmetry. rewrite sphdist_code_exact, true_sep_same. apply from_rad_0.
Qed.

(* a quarter turn along the equator, every operation evaluated exactly: all hypotheses of the degrees-to-degrees
   theorem hold *)
Lemma sphdist_chord_degrees_instance :
  Rabs (2 * asin (/ 2 * (sqrt 2 * (1 + 0))) * (180 / PI * (1 + 0)) * (1 + 0) - sphdist_code Deg Deg 0 0 90 0) <= 1 / 10 ^ 11.
Proof.
  pose proof u64_small as U.
  assert (Z : forall x, x - x = 0) by (intro; ring).
  assert (A0 : Rabs 0 <= u64) by (rewrite Rabs_R0; lra).
  assert (T0 : fl_d2r 0 0 0 = 0) by (unfold fl_d2r; ring).
  assert (T9 : fl_d2r 90 0 0 = PI / 2) by (unfold fl_d2r; field).
  pose proof (sphdist_chord_degrees_binary64 0 0 90 0 0 0 0 0 0
                (cos 0) (sin 0) (cos 0) (sin 0) (cos (PI / 2)) (sin (PI / 2)) (cos 0) (sin 0)
                0 0 0 0 0 0 0 0 0 0 0 0 0 (asin (/ 2 * (sqrt 2 * (1 + 0)))) 0 0) as T.
  cbv zeta in T. rewrite T0, T9 in T. rewrite !Z in T.
  assert (DS : fl_dsq (fl_vec (cos 0) (sin 0) (cos 0) (sin 0) 0 0) (fl_vec (cos (PI / 2)) (sin (PI / 2)) (cos 0) (sin 0) 0 0)
                      0 0 0 0 0 0 0 0 = 2).
  { unfold fl_dsq, fl_vec. rewrite cos_0, sin_0, cos_PI2, sin_PI2. ring. }
  rewrite DS in T. apply T; try exact A0; try (rewrite Rabs_R0; lra); try (unfold sphdist_thr; lra);
    try (unfold Rabs; destruct (Rcase_abs _); lra).
Qed.
