(* C08 -- the chord branch of sphdist from degrees to degrees, assembled from the stage theorems: every numpy
   operation rounds once (relative error <= u = 2^-53), the constants pi/180 and 180/pi are rounded once, libm's
   sin / cos / arcsin are within 1 ulp (<= u for values in [-1,1], <= 2u for arcsin values), |ra| <= 360, |dec| <= 90,
   and the code's test `dsq >= 3.99` is false on the COMPUTED dsq.  Then the returned number is within the
   statement's 1e-11 degree of the model (= the true great-circle angle in degrees). *)
From Coq Require Import Reals Lra.
From Interval Require Import Tactic.
From EsVerif.C08 Require Import Gen Model Spec Proofs Code Cond3 Rounding.
Open Scope R_scope.

Definition fl_d2r (x dc dm : R) : R := x * (PI / 180 * (1 + dc)) * (1 + dm).
Definition fl_vec (c s cp sp dx dy : R) : vec3 := (c * cp * (1 + dx), s * cp * (1 + dy), sp).
Definition fl_dsq (u' v' : vec3) (d11 d12 d21 d22 d31 d32 d4 d5 : R) : R :=
  let '(x1, y1, z1) := u' in let '(x2, y2, z2) := v' in
  let t1 := ((x1 - x2) * (1 + d11)) * ((x1 - x2) * (1 + d11)) * (1 + d12) in
  let t2 := ((y1 - y2) * (1 + d21)) * ((y1 - y2) * (1 + d21)) * (1 + d22) in
  let t3 := ((z1 - z2) * (1 + d31)) * ((z1 - z2) * (1 + d31)) * (1 + d32) in
  ((t1 + t2) * (1 + d4) + t3) * (1 + d5).

Lemma arg_budget x lim b : Rabs x <= lim -> 0 <= lim -> lim * (PI / 180) * (2 * u64 + u64 * u64) <= b ->
  forall dc dm, Rabs dc <= u64 -> Rabs dm <= u64 -> Rabs (fl_d2r x dc dm - d2r x) <= b.
Proof.
  intros Hx Hl Hb dc dm Hc Hm. pose proof u64_small as U.
  eapply Rle_trans; [apply (d2r_rounding x dc dm u64 Hc Hm)|]. eapply Rle_trans; [|exact Hb].
  apply Rmult_le_compat_r; [nra|]. unfold d2r. rewrite Rabs_mult. pose proof PI_RGT_0.
  rewrite (Rabs_right (PI / 180)) by (apply Rle_ge; apply Rmult_le_pos; lra).
  apply Rmult_le_compat_r; [apply Rmult_le_pos; lra | exact Hx].
Qed.

Lemma lon_budget : 360 * (PI / 180) * (2 * u64 + u64 * u64) <= 1257 / 100 * u64.
Proof. unfold u64. interval with (i_prec 80). Qed.
Lemma lat_budget : 90 * (PI / 180) * (2 * u64 + u64 * u64) <= 315 / 100 * u64.
Proof. unfold u64. interval with (i_prec 80). Qed.

Lemma sq_one_plus d e : Rabs d <= e -> 0 <= (1 + d) * (1 + d) <= (1 + e) * (1 + e).
Proof.
  intro H. apply abs_le_inv in H. split; [exact (Rle_0_sqr (1 + d))|].
  assert (0 <= (e - d) * (e + d)) by (apply Rmult_le_pos; lra). lra.
Qed.

Lemma budgets64 :
  2 * sqrt 3 * eta64 + rho64 * (2 + 2 * sqrt 3 * eta64) <= / 100000
  /\ chord_bound eta64 rho64 (2 * u64) <= 164 / 10 ^ 15
  /\ sphdist_thr * ((1 + u64) * (1 + u64)) <= 39900001 / 10000000
  /\ (forall eps, Rabs eps <= 3 * u64 -> 180 / PI * (164 / 10 ^ 15 * (1 + Rabs eps)) + 180 * Rabs eps <= 1 / 10 ^ 11).
Proof.
  unfold eta64, eta_of, rho64, chord_bound, sphdist_thr, T_room, u64.
  repeat split; try interval with (i_prec 80).
  intros eps H. pose proof (Rabs_pos eps) as P. revert H P. generalize (Rabs eps). intros a H P.
  interval with (i_prec 80).
Qed.

Lemma sphdist_chord_degrees_binary64
      ra1 dec1 ra2 dec2 dc m1 m2 m3 m4 c1 s1 cp1 sp1 c2 s2 cp2 sp2 dx1 dy1 dx2 dy2
      d11 d12 d21 d22 d31 d32 d4 d5 d6 a' dk dr :
  Rabs ra1 <= 360 -> Rabs ra2 <= 360 -> Rabs dec1 <= 90 -> Rabs dec2 <= 90 ->
  Rabs dc <= u64 -> Rabs m1 <= u64 -> Rabs m2 <= u64 -> Rabs m3 <= u64 -> Rabs m4 <= u64 ->
  let th1' := fl_d2r ra1 dc m1 in let ph1' := fl_d2r dec1 dc m2 in
  let th2' := fl_d2r ra2 dc m3 in let ph2' := fl_d2r dec2 dc m4 in
  Rabs (c1 - cos th1') <= u64 -> Rabs (s1 - sin th1') <= u64 -> Rabs (cp1 - cos ph1') <= u64 -> Rabs (sp1 - sin ph1') <= u64 ->
  Rabs (c2 - cos th2') <= u64 -> Rabs (s2 - sin th2') <= u64 -> Rabs (cp2 - cos ph2') <= u64 -> Rabs (sp2 - sin ph2') <= u64 ->
  Rabs dx1 <= u64 -> Rabs dy1 <= u64 -> Rabs dx2 <= u64 -> Rabs dy2 <= u64 ->
  Rabs d11 <= u64 -> Rabs d12 <= u64 -> Rabs d21 <= u64 -> Rabs d22 <= u64 -> Rabs d31 <= u64 -> Rabs d32 <= u64 ->
  Rabs d4 <= u64 -> Rabs d5 <= u64 -> Rabs d6 <= u64 ->
  let u' := fl_vec c1 s1 cp1 sp1 dx1 dy1 in let v' := fl_vec c2 s2 cp2 sp2 dx2 dy2 in
  let dsq := fl_dsq u' v' d11 d12 d21 d22 d31 d32 d4 d5 in
  let d' := sqrt dsq * (1 + d6) in
  dsq < sphdist_thr ->                                             (* the code's `dsq >= 3.99` is False *)
  Rabs (a' - asin (/ 2 * d')) <= 2 * u64 ->                        (* np.arcsin *)
  Rabs dk <= u64 -> Rabs dr <= u64 ->                              (* np.rad2deg: constant and product *)
  Rabs (2 * a' * (180 / PI * (1 + dk)) * (1 + dr) - sphdist_code Deg Deg ra1 dec1 ra2 dec2) <= 1 / 10 ^ 11.
Proof.
  intros R1 R2 L1 L2 Hdc Hm1 Hm2 Hm3 Hm4 th1' ph1' th2' ph2' C1 S1 CP1 SP1 C2 S2 CP2 SP2 X1 Y1 X2 Y2
         D11 D12 D21 D22 D31 D32 D4 D5 D6 u' v' dsq d' Hbr Ha Hdk Hdr.
  destruct budgets64 as [Len [Bnd [Room Hdeg]]]. pose proof eta64_nonneg as E0. pose proof rho64_nonneg as Rh0.
  pose proof u64_small as U.
  pose proof (arg_budget ra1 360 _ R1 ltac:(lra) lon_budget dc m1 Hdc Hm1) as A1. fold th1' in A1.
  pose proof (arg_budget dec1 90 _ L1 ltac:(lra) lat_budget dc m2 Hdc Hm2) as A2. fold ph1' in A2.
  pose proof (arg_budget ra2 360 _ R2 ltac:(lra) lon_budget dc m3 Hdc Hm3) as A3. fold th2' in A3.
  pose proof (arg_budget dec2 90 _ L2 ltac:(lra) lat_budget dc m4 Hdc Hm4) as A4. fold ph2' in A4.
  set (pu := point (d2r ra1) (d2r dec1)). set (pv := point (d2r ra2) (d2r dec2)).
  assert (Cu : close eta64 pu u').
  { unfold pu, u', fl_vec, eta64. apply (vector_stage (d2r ra1) (d2r dec1) th1' ph1' c1 s1 cp1 sp1 dx1 dy1); assumption || lra. }
  assert (Cv : close eta64 pv v').
  { unfold pv, v', fl_vec, eta64. apply (vector_stage (d2r ra2) (d2r dec2) th2' ph2' c2 s2 cp2 sp2 dx2 dy2); assumption || lra. }
  pose proof (chain_stage u' v' d11 d12 d21 d22 d31 d32 d4 d5 d6 u64 ltac:(lra) D11 D12 D21 D22 D31 D32 D4 D5 D6) as CH.
  assert (CH' : 0 <= dsq /\ 0 <= d' /\ Rabs (d' - norm3 (vsub u' v')) <= rho64 * norm3 (vsub u' v')).
  { unfold dsq, d', fl_dsq, rho64. destruct u' as [[x1 y1] z1], v' as [[x2 y2] z2]. exact CH. }
  destruct CH' as [Q0 [D0 Hd]].
  assert (U1 : is_unit pu) by apply point_unit. assert (U2 : is_unit pv) by apply point_unit.
  (* the computed chord is below the room *)
  assert (DT1 : d' * d' <= 39900001 / 10000000).
  { unfold d'. replace (sqrt dsq * (1 + d6) * (sqrt dsq * (1 + d6))) with (sqrt dsq * sqrt dsq * ((1 + d6) * (1 + d6))) by ring.
    rewrite sqrt_sqrt by exact Q0. destruct (sq_one_plus d6 u64 D6).
    eapply Rle_trans; [|exact Room]. apply Rmult_le_compat; lra. }
  pose proof (chord_len_err eta64 rho64 pu pv u' v' d' E0 Rh0 U1 U2 Cu Cv Hd) as LE.
  set (d := norm3 (vsub pu pv)) in *. pose proof (norm3_nonneg (vsub pu pv)) as Dn. fold d in Dn.
  assert (LE' : Rabs (d - d') <= / 100000) by (rewrite Rabs_minus_sym; lra).
  destruct (below_room d d' Dn D0 DT1 LE') as [DD DT].
  assert (NT : nsq (vsub pu pv) <= T_room) by (rewrite <- norm3_sq; exact DD).
  pose proof (chord_branch_rounding eta64 rho64 (2 * u64) pu pv u' v' d' a' E0 Rh0 U1 U2 Cu Cv Hd D0 DT NT Ha) as CB.
  assert (CB' : Rabs (2 * a' - angle pu pv) <= 164 / 10 ^ 15) by lra.
  (* degrees *)
  rewrite sphdist_code_exact. unfold from_rad, true_sep, to_rad. fold pu pv.
  pose proof (acos_bound (dot pu pv)) as AB. fold (angle pu pv) in AB.
  set (eps := (1 + dk) * (1 + dr) - 1).
  assert (Heps : Rabs eps <= 3 * u64).
  { eapply Rle_trans; [apply (two_roundings dk dr u64 Hdk Hdr)|].
    assert (u64 * u64 <= u64 * 1) by (apply Rmult_le_compat_l; lra). lra. }
  replace (2 * a' * (180 / PI * (1 + dk)) * (1 + dr)) with (2 * a' * (180 / PI) * (1 + eps)) by (unfold eps; ring).
  eapply Rle_trans; [apply (degrees_out (2 * a') (angle pu pv) (164 / 10 ^ 15) eps CB' AB); lra|].
  apply Hdeg. exact Heps.
Qed.
