(* C08 -- a conditional rounding theorem for the chord branch of sphdist.  The computed chain is described by
   interface error budgets (every computed quantity is ANY real within its budget of the exact function of the
   computed inputs it was obtained from):
     a_th, a_ph  absolute error of the radian arguments (np.deg2rad: two roundings)
     s           absolute error of libm's sin / cos values (1 ulp of a value in [-1,1] is <= 2^-53)
     e           relative error of one floating-point multiplication
     rho         relative error of the chain  differences, squares, sum, sqrt  on the chord length
     tau         absolute error of libm's arcsin value
   Theorem: the result is within  2 tau + K (2 sqrt3 eta + rho (2 + 2 sqrt3 eta))  of the true angle, K = 20.11 for
   chord^2 <= 3.9901; with binary64 budgets (u = 2^-53, longitudes within one turn, libm within 1 ulp) this is below
   the statement's 1e-11 degree.  What is NOT proved: that numpy/libm meet these budgets (libm has no specification);
   the per-case certificates keep measuring the real outputs. *)
From Coq Require Import Reals Lra.
From Interval Require Import Tactic.
From EsVerif.C08 Require Import Gen Model Spec Proofs Cond3.
Open Scope R_scope.

(* sin and cos are 1-Lipschitz *)
Lemma Rabs_sin_le x : Rabs (sin x) <= Rabs x.
Proof.
  assert (P : forall y, 0 <= y -> Rabs (sin y) <= y).
  { intros y Hy. destruct (Rle_lt_dec 1 y) as [L|L].
    - pose proof (SIN_bound y). apply Rabs_le. lra.
    - destruct Hy as [Hy| <-]; [|rewrite sin_0, Rabs_R0; lra].
      pose proof (sin_lt_x y Hy). pose proof PI_RGT_0. assert (PI2 : 3 < PI) by (pose proof PI2_3_2; lra).
      pose proof (sin_gt_0 y Hy ltac:(lra)). rewrite Rabs_right by lra. lra. }
  destruct (Rle_lt_dec 0 x) as [H|H].
  - rewrite (Rabs_right x) by lra. apply P; exact H.
  - rewrite (Rabs_left x) by exact H. replace (sin x) with (- sin (- x)) by (rewrite sin_neg; ring).
    rewrite Rabs_Ropp. apply P. lra.
Qed.

Lemma Rabs_cos_le_1 x : Rabs (cos x) <= 1.
Proof. pose proof (COS_bound x). apply Rabs_le. lra. Qed.

Lemma Rabs_sin_le_1 x : Rabs (sin x) <= 1.
Proof. pose proof (SIN_bound x). apply Rabs_le. lra. Qed.

(* both differences are 2 p sin ((a - b) / 2) up to sign, with p a sine or cosine of the half sum *)
Lemma half_angle_lip a b p : Rabs p <= 1 -> 2 * (Rabs p * Rabs (sin ((a - b) / 2))) <= Rabs (a - b).
Proof.
  intro Hp. pose proof (Rabs_sin_le ((a - b) / 2)) as S.
  replace (Rabs ((a - b) / 2)) with (Rabs (a - b) / 2) in S
    by (unfold Rdiv; rewrite Rabs_mult, (Rabs_right (/ 2)) by lra; reflexivity).
  pose proof (Rmult_le_compat _ _ _ _ (Rabs_pos p) (Rabs_pos _) Hp S). lra.
Qed.

Lemma sin_lip a b : Rabs (sin a - sin b) <= Rabs (a - b).
Proof.
  rewrite form4, !Rabs_mult, (Rabs_right 2), Rmult_assoc by lra. apply half_angle_lip, Rabs_cos_le_1.
Qed.

Lemma cos_lip a b : Rabs (cos a - cos b) <= Rabs (a - b).
Proof.
  rewrite form2, !Rabs_mult, (Rabs_left (-2)), Rmult_assoc, (Rmult_comm (Rabs (sin ((a - b) / 2)))) by lra.
  replace (- -2) with 2 by lra. apply half_angle_lip, Rabs_sin_le_1.
Qed.

(* stage 0: np.deg2rad(x) = fl(x * fl(pi/180)): two relative roundings *)
Lemma two_roundings a b u : Rabs a <= u -> Rabs b <= u -> Rabs ((1 + a) * (1 + b) - 1) <= 2 * u + u * u.
Proof.
  intros Ha Hb. replace ((1 + a) * (1 + b) - 1) with (a + b + a * b) by ring.
  pose proof (Rabs_mult_le a b u u Ha Hb).
  eapply Rle_trans; [apply Rabs_triang|]. eapply Rle_trans; [apply Rplus_le_compat_r, Rabs_triang|]. lra.
Qed.

Lemma d2r_rounding x dc dm uu : Rabs dc <= uu -> Rabs dm <= uu ->
  Rabs (x * (PI / 180 * (1 + dc)) * (1 + dm) - d2r x) <= Rabs (d2r x) * (2 * uu + uu * uu).
Proof.
  intros Hc Hm. unfold d2r.
  replace (x * (PI / 180 * (1 + dc)) * (1 + dm) - x * (PI / 180)) with (x * (PI / 180) * ((1 + dc) * (1 + dm) - 1)) by ring.
  rewrite Rabs_mult. apply Rmult_le_compat_l; [apply Rabs_pos | apply two_roundings; assumption].
Qed.

(* the stage lemma for products: two factors in [-1,1] known within al and be, multiplied with one rounding.
        Both the unit vector (below) and the cosine of gcirc (Rounding3.v) are built from it *)
Lemma prod_err A B Ah Bh al be : Rabs A <= 1 -> Rabs B <= 1 -> Rabs (Ah - A) <= al -> Rabs (Bh - B) <= be ->
  Rabs (Ah * Bh - A * B) <= al * (1 + be) + be /\ Rabs (Ah * Bh) <= (1 + al) * (1 + be).
Proof.
  intros HA HB Ha Hb. apply abs_le_inv in HA, HB, Ha, Hb.
  assert (0 <= al) by lra. assert (0 <= be) by lra.
  split; apply Rabs_le; nra.
Qed.

Lemma prod_round A B Ah Bh al be dl e : Rabs A <= 1 -> Rabs B <= 1 -> Rabs (Ah - A) <= al -> Rabs (Bh - B) <= be ->
  Rabs dl <= e ->
  Rabs (Ah * Bh * (1 + dl) - A * B) <= al * (1 + be) + be + e * ((1 + al) * (1 + be)).
Proof.
  intros HA HB Ha Hb Hd. destruct (prod_err A B Ah Bh al be HA HB Ha Hb) as [P Q].
  replace (Ah * Bh * (1 + dl)) with (dl * (Ah * Bh) + Ah * Bh) by ring.
  rewrite (Rplus_comm (al * (1 + be) + be)). apply (Rabs_via (Ah * Bh)); [|exact P].
  replace (dl * (Ah * Bh) + Ah * Bh - Ah * Bh) with (dl * (Ah * Bh)) by ring. apply Rabs_mult_le; assumption.
Qed.

Lemma lip_err (f : R -> R) x x' v a s : (forall p q, Rabs (f p - f q) <= Rabs (p - q)) ->
  Rabs (x' - x) <= a -> Rabs (v - f x') <= s -> Rabs (v - f x) <= a + s.
Proof.
  intros L Hx Hv. rewrite Rplus_comm. apply (Rabs_via (f x')); [exact Hv | eapply Rle_trans; [apply L | exact Hx]].
Qed.

(* stage 1: the unit vector *)
(* eta_of a_th a_ph s e is the bound of prod_round at al = a_th + s, be = a_ph + s: argument error through the
   1-Lipschitz sin / cos plus libm's error, on both factors *)
Definition eta_of (a_th a_ph s e : R) : R :=
  (a_th + s) * (1 + (a_ph + s)) + (a_ph + s) + e * ((1 + (a_th + s)) * (1 + (a_ph + s))).

Lemma eta_of_nonneg a_th a_ph s e : 0 <= a_th -> 0 <= a_ph -> 0 <= s -> 0 <= e -> 0 <= eta_of a_th a_ph s e.
Proof. intros. unfold eta_of. repeat (apply Rplus_le_le_0_compat || apply Rmult_le_pos); lra. Qed.

Lemma vector_stage th ph th' ph' cth sth cph sph dx dy a_th a_ph s e :
  0 <= a_th -> 0 <= a_ph -> 0 <= s -> 0 <= e ->
  Rabs (th' - th) <= a_th -> Rabs (ph' - ph) <= a_ph ->
  Rabs (cth - cos th') <= s -> Rabs (sth - sin th') <= s -> Rabs (cph - cos ph') <= s -> Rabs (sph - sin ph') <= s ->
  Rabs dx <= e -> Rabs dy <= e ->
  close (eta_of a_th a_ph s e) (point th ph) (cth * cph * (1 + dx), sth * cph * (1 + dy), sph).
Proof.
  intros H1 H2 H3 H4 Ht Hp Hc Hs Hcp Hsp Hdx Hdy.
  pose proof (lip_err cos th th' cth a_th s cos_lip Ht Hc) as Ec.
  pose proof (lip_err sin th th' sth a_th s sin_lip Ht Hs) as Es.
  pose proof (lip_err cos ph ph' cph a_ph s cos_lip Hp Hcp) as Ecp.
  pose proof (lip_err sin ph ph' sph a_ph s sin_lip Hp Hsp) as Esp.
  unfold close, point, eta_of. rewrite !(Rmult_comm (cos ph)).
  split; [|split].
  - exact (prod_round _ _ _ _ _ _ dx e (Rabs_cos_le_1 th) (Rabs_cos_le_1 ph) Ec Ecp Hdx).
  - exact (prod_round _ _ _ _ _ _ dy e (Rabs_sin_le_1 th) (Rabs_cos_le_1 ph) Es Ecp Hdy).
  - (* the third component is not multiplied: its error a_ph + s is one summand of the bound *)
    eapply Rle_trans; [exact Esp|]. set (al := a_th + s). set (be := a_ph + s).
    assert (0 <= al * (1 + be)) by (apply Rmult_le_pos; unfold al, be; lra).
    assert (0 <= e * ((1 + al) * (1 + be))) by (repeat apply Rmult_le_pos; unfold al, be; lra). lra.
Qed.

(* stage 2: chains of operations on non-negative quantities, each with relative error at most e.
        [rnd e k q x]: x is the exact non-negative q after at most k roundings.  A factor 1 + d adds one, a sum keeps
        the count of its terms, a square root halves it, and k roundings are a relative error of at most (1+e)^k - 1,
        for every k *)
Definition rnd (e : R) (k : nat) (q x : R) : Prop := 0 <= q /\ q * (1 - e) ^ k <= x <= q * (1 + e) ^ k.

Lemma rnd_refl e q : 0 <= q -> rnd e 0 q q.
Proof. intro H. unfold rnd. simpl. lra. Qed.

Lemma rnd_pos {e k q x} : 0 <= e <= 1 -> rnd e k q x -> 0 <= x.
Proof. intros He [Hq [L _]]. eapply Rle_trans; [|exact L]. apply Rmult_le_pos; [exact Hq | apply pow_le; lra]. Qed.

Lemma rnd_mul {e k q x} d : 0 <= e <= 1 -> Rabs d <= e -> rnd e k q x -> rnd e (S k) q (x * (1 + d)).
Proof.
  intros He Hd H. pose proof (rnd_pos He H) as X0. destruct H as [Hq [L U]]. apply abs_le_inv in Hd.
  assert (0 <= q * (1 - e) ^ k) by (apply Rmult_le_pos; [exact Hq | apply pow_le; lra]).
  split; [exact Hq|]. simpl. split.
  - replace (q * ((1 - e) * (1 - e) ^ k)) with (q * (1 - e) ^ k * (1 - e)) by ring. apply Rmult_le_compat; lra.
  - replace (q * ((1 + e) * (1 + e) ^ k)) with (q * (1 + e) ^ k * (1 + e)) by ring. apply Rmult_le_compat; lra.
Qed.

Lemma rnd_weaken {e k q x} : 0 <= e <= 1 -> rnd e k q x -> rnd e (S k) q x.
Proof. intros He H. replace x with (x * (1 + 0)) by ring. apply rnd_mul; [exact He | rewrite Rabs_R0; lra | exact H]. Qed.

Lemma rnd_add {e k q1 q2 x1 x2} : rnd e k q1 x1 -> rnd e k q2 x2 -> rnd e k (q1 + q2) (x1 + x2).
Proof. intros [H1 B1] [H2 B2]. split; [lra|]. rewrite !Rmult_plus_distr_r. lra. Qed.

Lemma rnd_sqrt {e q x} k : 0 <= e <= 1 -> rnd e (k + k) q x -> rnd e k (sqrt q) (sqrt x).
Proof.
  intros He [Hq [L U]]. split; [apply sqrt_pos|].
  assert (S : forall c, 0 <= c -> sqrt q * c ^ k = sqrt (q * c ^ (k + k))).
  { intros c Hc. rewrite pow_add, sqrt_mult_alt, sqrt_square by (try apply pow_le; assumption). reflexivity. }
  rewrite !S by lra. split; apply sqrt_le_1_alt; assumption.
Qed.

Lemma pow_sum_ge_2 e k : 0 <= e <= 1 -> 2 <= (1 - e) ^ k + (1 + e) ^ k.
Proof.
  intro He. induction k as [|k IH]; simpl; [lra|].
  assert (M : (1 - e) ^ k <= (1 + e) ^ k) by (apply pow_incr; lra).
  assert (0 <= e * ((1 + e) ^ k - (1 - e) ^ k)) by (apply Rmult_le_pos; lra). lra.
Qed.

Lemma rnd_abs {e k q x} : 0 <= e <= 1 -> rnd e k q x -> Rabs (x - q) <= ((1 + e) ^ k - 1) * q.
Proof.
  intros He [Hq [L U]]. pose proof (pow_sum_ge_2 e k He) as P.
  assert (q * (2 - (1 + e) ^ k) <= q * (1 - e) ^ k) by (apply Rmult_le_compat_l; lra).
  apply Rabs_le. lra.
Qed.

(* a rounded difference, squared with one more rounding *)
Lemma sq_term e a b d1 d2 : 0 <= e <= 1 -> Rabs d1 <= e -> Rabs d2 <= e ->
  rnd e 3 ((a - b) * (a - b)) ((a - b) * (1 + d1) * ((a - b) * (1 + d1)) * (1 + d2)).
Proof.
  intros He H1 H2.
  replace ((a - b) * (1 + d1) * ((a - b) * (1 + d1))) with ((a - b) * (a - b) * (1 + d1) * (1 + d1)) by ring.
  do 2 (apply rnd_mul; [exact He | assumption |]). apply rnd_mul; [exact He | assumption |].
  apply rnd_refl. exact (Rle_0_sqr (a - b)).
Qed.

(* differences, squares, sum, sqrt: four roundings on the chord length *)
Lemma chain_stage (u' v' : vec3) d11 d12 d21 d22 d31 d32 d4 d5 d6 e :
  0 <= e <= / 2 ->
  Rabs d11 <= e -> Rabs d12 <= e -> Rabs d21 <= e -> Rabs d22 <= e -> Rabs d31 <= e -> Rabs d32 <= e ->
  Rabs d4 <= e -> Rabs d5 <= e -> Rabs d6 <= e ->
  let '(x1, y1, z1) := u' in let '(x2, y2, z2) := v' in
  let t1 := ((x1 - x2) * (1 + d11)) * ((x1 - x2) * (1 + d11)) * (1 + d12) in
  let t2 := ((y1 - y2) * (1 + d21)) * ((y1 - y2) * (1 + d21)) * (1 + d22) in
  let t3 := ((z1 - z2) * (1 + d31)) * ((z1 - z2) * (1 + d31)) * (1 + d32) in
  let dsq := ((t1 + t2) * (1 + d4) + t3) * (1 + d5) in
  let d' := sqrt dsq * (1 + d6) in
  0 <= dsq /\ 0 <= d' /\ Rabs (d' - norm3 (vsub u' v')) <= ((1 + e) * (1 + e) * (1 + e) * (1 + e) - 1) * norm3 (vsub u' v').
Proof.
  intros He H11 H12 H21 H22 H31 H32 H4 H5 H6. destruct u' as [[x1 y1] z1], v' as [[x2 y2] z2]. cbv zeta.
  assert (E : 0 <= e <= 1) by lra.
  pose proof (sq_term e x1 x2 d11 d12 E H11 H12) as T1.
  pose proof (sq_term e y1 y2 d21 d22 E H21 H22) as T2.
  pose proof (sq_term e z1 z2 d31 d32 E H31 H32) as T3.
  pose proof (rnd_mul d4 E H4 (rnd_add T1 T2)) as S12.                       (* (t1 + t2) (1 + d4): 4 roundings *)
  pose proof (rnd_mul d5 E H5 (rnd_add S12 (rnd_weaken E T3))) as S.         (* dsq: 5, counted as 6 = 3 + 3 *)
  pose proof (rnd_mul d6 E H6 (rnd_sqrt 3 E (rnd_weaken E S))) as D.         (* d': 3 + 1 *)
  split; [exact (rnd_pos E S)|]. split; [exact (rnd_pos E D)|].
  replace ((1 + e) * (1 + e) * (1 + e) * (1 + e)) with ((1 + e) ^ 4) by ring. exact (rnd_abs E D).
Qed.

(* chord conditioning with a little room above the threshold of the source *)
Definition T_room : R := 39901 / 10000.

Lemma thr_below_room : sphdist_thr <= T_room.
Proof. unfold sphdist_thr, T_room. lra. Qed.

Lemma chord_conditioning_room d d' : 0 <= d -> 0 <= d' -> d * d <= T_room -> d' * d' <= T_room ->
  Rabs (2 * asin (/ 2 * d) - 2 * asin (/ 2 * d')) <= 2011 / 100 * Rabs (d - d').
Proof.
  intros D0 D0' D D'. replace (2011 / 100 * Rabs (d - d')) with (Rabs (d - d') / (100 / 2011)) by field.
  apply (chord_conditioning T_room); unfold T_room in *; lra.
Qed.

(* both chords are below the room when the computed one is below the threshold of the source (with the rounding of
   the square root allowed for) and the two are close *)
Lemma below_room d d' : 0 <= d -> 0 <= d' -> d' * d' <= 39900001 / 10000000 -> Rabs (d - d') <= / 100000 ->
  d * d <= T_room /\ d' * d' <= T_room.
Proof.
  unfold T_room. intros D0 D0' H E. apply abs_le_inv in E. assert (d' <= 2) by nra.
  assert (d * d <= (d' + / 100000) * (d' + / 100000)) by nra. split; nra.
Qed.

Lemma unit_chord_le_2 u v : is_unit u -> is_unit v -> norm3 (vsub u v) <= 2.
Proof.
  intros U V. pose proof (norm3_sq (vsub u v)) as S. rewrite nsq_sub in S by assumption.
  pose proof (dot_bound u v U V). pose proof (norm3_nonneg (vsub u v)). nra.
Qed.

(* total error of the computed chord length: perturbation of the vectors, then the relative error of the chain *)
Lemma chord_len_err eta rho u v u' v' d' : 0 <= eta -> 0 <= rho -> is_unit u -> is_unit v ->
  close eta u u' -> close eta v v' -> Rabs (d' - norm3 (vsub u' v')) <= rho * norm3 (vsub u' v') ->
  Rabs (d' - norm3 (vsub u v)) <= 2 * sqrt 3 * eta + rho * (2 + 2 * sqrt 3 * eta).
Proof.
  intros He Hr U V Cu Cv Hd. rewrite Rplus_comm.
  pose proof (chord_length_perturbed eta u v u' v' He Cu Cv) as P.
  apply (Rabs_via (norm3 (vsub u' v'))); [|exact P].
  eapply Rle_trans; [exact Hd|]. apply Rmult_le_compat_l; [exact Hr|].
  pose proof (unit_chord_le_2 u v U V). apply abs_le_inv in P. lra.
Qed.

(* the chord branch, end to end (radians) *)
Definition chord_bound (eta rho tau : R) : R :=
  2 * tau + 2011 / 100 * (2 * sqrt 3 * eta + rho * (2 + 2 * sqrt 3 * eta)).

Lemma chord_branch_rounding eta rho tau u v u' v' d' a' :
  0 <= eta -> 0 <= rho -> is_unit u -> is_unit v -> close eta u u' -> close eta v v' ->
  Rabs (d' - norm3 (vsub u' v')) <= rho * norm3 (vsub u' v') ->        (* computed chord length *)
  0 <= d' -> d' * d' <= T_room -> nsq (vsub u v) <= T_room ->         (* chord branch (with room) *)
  Rabs (a' - asin (/ 2 * d')) <= tau ->                                 (* libm arcsin *)
  Rabs (2 * a' - angle u v) <= chord_bound eta rho tau.
Proof.
  intros He Hr U V Cu Cv Hd D0 DT T Ha. unfold chord_bound.
  rewrite <- (chord_is_angle u v U V). fold (norm3 (vsub u v)). set (d := norm3 (vsub u v)).
  pose proof (chord_len_err eta rho u v u' v' d' He Hr U V Cu Cv Hd) as E. fold d in E.
  assert (DD : d * d <= T_room) by (unfold d; rewrite norm3_sq; exact T).
  pose proof (chord_conditioning_room d' d D0 (norm3_nonneg _) DT DD) as C.
  apply (Rabs_via (2 * asin (/ 2 * d'))); [|lra].
  replace (2 * a' - 2 * asin (/ 2 * d')) with (2 * (a' - asin (/ 2 * d'))) by ring.
  rewrite Rabs_mult, (Rabs_right 2); lra.
Qed.

(* degrees out: result * fl(180/pi), one more product; eps collects the roundings (<= 3u) *)
Lemma degrees_out r R E eps : Rabs (r - R) <= E -> 0 <= R <= PI -> 0 <= E -> 
  Rabs (r * (180 / PI) * (1 + eps) - r2d R) <= 180 / PI * (E * (1 + Rabs eps)) + 180 * Rabs eps.
Proof.
  intros H HR HE. unfold r2d. pose proof PI_RGT_0 as P.
  assert (K : 0 < 180 / PI) by (apply Rdiv_lt_0_compat; lra).
  assert (KR : Rabs (180 / PI * R) <= 180).
  { rewrite Rabs_right by (apply Rle_ge, Rmult_le_pos; lra).
    replace 180 with (180 / PI * PI) at 2 by (field; lra). apply Rmult_le_compat_l; lra. }
  (* the error of r scaled by the constant and the rounding, plus the rounding of the exact value (at most 180) *)
  replace (r * (180 / PI) * (1 + eps) - R * (180 / PI))
    with (180 / PI * ((r - R) * (1 + eps)) + 180 / PI * R * eps) by ring.
  eapply Rle_trans; [apply Rabs_triang|]. apply Rplus_le_compat.
  - rewrite Rabs_mult, (Rabs_right (180 / PI)) by lra. apply Rmult_le_compat_l; [lra|].
    apply Rabs_mult_le; [exact H|]. eapply Rle_trans; [apply Rabs_triang|]. rewrite Rabs_R1. lra.
  - apply Rabs_mult_le; [exact KR | lra].
Qed.

(* binary64 budgets: u = 2^-53; longitudes within one turn (|lon| <= 2 pi): (2u + u^2) * 6.2832 <= 12.57 u;
        |lat| <= pi/2: 3.15 u; libm within 1 ulp: s = u (values in [-1,1]), tau = 2u (arcsin values < 2);
        products e = u; the chain differences-squares-sum-sqrt rho = 4u *)
Definition u64 : R := / 2 ^ 53.

Lemma u64_small : 0 < u64 < / 1000.
Proof. unfold u64. split; interval. Qed.

Lemma binary64_budget_within_tolerance :
  chord_bound (eta_of (1257 / 100 * u64) (315 / 100 * u64) u64 u64) (4 * u64) (2 * u64) <= tol_in Rad 1e-11.
Proof. unfold chord_bound, eta_of, u64, tol_in. interval with (i_prec 80). Qed.

(* for e = u the chain of stage 2 delivers (1+u)^4 - 1, just above 4u: the same budget with that rho *)
Definition rho64 : R := (1 + u64) * (1 + u64) * (1 + u64) * (1 + u64) - 1.

Definition eta64 : R := eta_of (1257 / 100 * u64) (315 / 100 * u64) u64 u64.

Lemma eta64_nonneg : 0 <= eta64.
Proof. pose proof u64_small. apply eta_of_nonneg; lra. Qed.

Lemma rho64_nonneg : 0 <= rho64.
Proof. pose proof u64_small. unfold rho64. nra. Qed.

Lemma binary64_budget_rho64 : chord_bound eta64 rho64 (2 * u64) <= tol_in Rad 1e-11.
Proof. unfold chord_bound, eta64, eta_of, rho64, u64, tol_in. interval with (i_prec 80). Qed.
