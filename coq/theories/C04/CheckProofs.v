(* C04 -- soundness of the boolean checkers evaluated on the implementation's output, and the
   model's round-trip result satisfies the property (under the oracle contract). *)
From Coq Require Import Qabs.
From Coq.Strings Require Import Byte.
From EsVerif.Common Require Import Base Bytes.
From EsVerif.C04 Require Import TextModel Spec DecProofs RoundTrip.
Open Scope Z_scope.

Lemma first_ok_sound f l : first_ok f l = true -> exists e, f e = true.
Proof.
  induction l as [|a l IH]; simpl; [discriminate|]. destruct (f a) eqn:E; [exists a; exact E|exact IH].
Qed.

Lemma sig_close_at_sound digits x y e : sig_close_at digits x y e = true ->
  (Qpower ten e <= Qabs x)%Q /\ (Qabs x < Qpower ten (e + 1))%Q /\ (Qabs (y - x) <= Qpower ten (e - digits + 1))%Q.
Proof.
  unfold sig_close_at. destruct (Qle_bool (Qpower ten e) (Qabs x)) eqn:E1; [|discriminate].
  destruct (Qle_bool (Qpower ten (e + 1)) (Qabs x)) eqn:E2; [discriminate|]. intro E3.
  apply Qle_bool_iff in E1. apply Qle_bool_iff in E3.
  split; [exact E1|]. split; [|exact E3].
  apply Qnot_le_lt. intro H. apply Qle_bool_iff in H. rewrite H in E2. discriminate.
Qed.

Lemma sig_close_b_sound digits x y : sig_close_b digits x y = true -> sig_close digits x y.
Proof.
  unfold sig_close_b, sig_close. destruct (Qeq_bool x 0) eqn:E.
  - intro H. left. split; apply Qeq_bool_iff; assumption.
  - intro H. right. apply first_ok_sound in H. destruct H as [e H]. exists e. apply sig_close_at_sound. exact H.
Qed.

Lemma fval_ok_b_sound digits a b : fval_ok_b digits a b = true -> fval_ok digits a b.
Proof.
  destruct a, b; simpl; try discriminate; auto.
  - intro H. apply Bool.eqb_prop. exact H.
  - apply sig_close_b_sound.
Qed.

Lemma forall2b_sound {A B} (p : A -> B -> bool) (R : A -> B -> Prop) :
  (forall a b, p a b = true -> R a b) -> forall l1 l2, forall2b p l1 l2 = true -> Forall2 R l1 l2.
Proof.
  intro H. induction l1 as [|a l1 IH]; intros [|b l2] E; simpl in E; try discriminate; constructor.
  - apply H. apply andb_true_iff in E. apply E.
  - apply IH. apply andb_true_iff in E. apply E.
Qed.

Lemma Forall2_map_self {A B} (R : A -> B -> Prop) (g : A -> B) l : Forall (fun x => R x (g x)) l -> Forall2 R l (map g l).
Proof. induction 1; simpl; constructor; assumption. Qed.

Lemma forall2b_complete {A B} (p : A -> B -> bool) (R : A -> B -> Prop) :
  (forall a b, R a b -> p a b = true) -> forall l1 l2, Forall2 R l1 l2 -> forall2b p l1 l2 = true.
Proof. intros H l1 l2 F. induction F as [|a b l1 l2 Hab F IH]; [reflexivity|]. simpl. rewrite (H a b Hab). exact IH. Qed.

Lemma kind_eqb_eq a b : kind_eqb a b = true <-> a = b.
Proof.
  destruct a as [s n|n|n], b as [s' n'|n'|n']; simpl; try (split; discriminate).
  - rewrite andb_true_iff, Bool.eqb_true_iff, Nat.eqb_eq. split; [intros [-> ->]; reflexivity|intro H; inversion H; auto].
  - rewrite Nat.eqb_eq. split; [intros ->; reflexivity|intro H; inversion H; reflexivity].
  - rewrite Nat.eqb_eq. split; [intros ->; reflexivity|intro H; inversion H; reflexivity].
Qed.

Lemma order_eqb_eq a b : order_eqb a b = true <-> a = b.
Proof. destruct a, b; simpl; split; congruence. Qed.

Lemma fld_match_b_iff fin fout : fld_match_b fin fout = true <-> fld_match fin fout.
Proof.
  unfold fld_match_b, fld_match. rewrite !andb_true_iff, bytes_eqb_eq, kind_eqb_eq, order_eqb_eq.
  unfold zlist_eqb. rewrite (list_eqb_spec Z.eqb Z.eqb_eq). tauto.
Qed.

Lemma el_match_b_sound f ein eout : el_match_b f ein eout = true -> el_match f ein eout.
Proof.
  unfold el_match_b, el_match. intro H. apply andb_true_iff in H. destruct H as [Hl Hm].
  split; [apply Nat.eqb_eq; exact Hl|].
  destruct (fkind f) as [sg sz|sz|w].
  - apply Z.eqb_eq. exact Hm.
  - apply fval_ok_b_sound. exact Hm.
  - apply bytes_eqb_eq. exact Hm.
Qed.

Lemma row_match_b_sound : forall fs rin rout, row_match_b fs rin rout = true -> row_match fs rin rout.
Proof.
  induction fs as [|f fs IH]; intros [|ei ri] [|eo ro] H; simpl in *; try discriminate; auto.
  apply andb_true_iff in H. destruct H as [H1 H2]. split; [|apply IH; exact H2].
  eapply forall2b_sound; [|exact H1]. apply el_match_b_sound.
Qed.

Theorem roundtrip_check_sound tin out : roundtrip_check tin out = true -> roundtrip_ok tin out.
Proof.
  unfold roundtrip_check, roundtrip_ok. destruct out as [tout|e]; [|discriminate]. intro H.
  apply andb_true_iff in H. destruct H as [H1 H2]. exists tout. split; [reflexivity|]. split.
  - eapply forall2b_sound; [|exact H1]. apply fld_match_b_iff.
  - eapply forall2b_sound; [|exact H2]. apply row_match_b_sound.
Qed.

Lemma no_order_char_b_iff s : no_order_char_b s = true <-> no_order_char s.
Proof.
  destruct s as [|c s]; simpl; [split; [discriminate|contradiction]|].
  rewrite !andb_true_iff, !negb_true_iff, !byte_eqb_false. tauto.
Qed.

Lemma hfield_match_b_iff f h : hfield_match_b f h = true <-> hfield_match f h.
Proof.
  unfold hfield_match_b, hfield_match. rewrite !andb_true_iff, !bytes_eqb_eq, no_order_char_b_iff.
  unfold zlist_eqb. rewrite (list_eqb_spec Z.eqb Z.eqb_eq). tauto.
Qed.

Theorem header_check_iff d t h : header_check d t h = true <-> header_ok d t h.
Proof.
  unfold header_check, header_ok. rewrite andb_true_iff, bytes_eqb_eq.
  split; (intros [H1 H2]; split; [exact H1|]);
    [eapply forall2b_sound|eapply forall2b_complete]; try exact H2; apply hfield_match_b_iff.
Qed.

Lemma kind_char_no_order k : no_order_char (kind_char k :: dec (Z.of_nat (elsize k))).
Proof. destruct k as [[|] sz|sz|w]; simpl; repeat split; discriminate. Qed.

Section Expected.
  Variable F P : nat -> list byte -> list byte.

  Lemma el_expected_ok f e : el_ok_b f e = true -> el_contract_b F P f (to_native_el f e) = true ->
    el_match f e (rt_el F P (fkind f) (to_native_el f e)).
  Proof.
    unfold el_ok_b, el_contract_b, el_match. intros H1 H2.
    apply andb_true_iff in H1. destruct H1 as [Hl _]. apply Nat.eqb_eq in Hl.
    destruct (fkind f) as [sg sz|sz|w] eqn:Ek; simpl in *.
    - rewrite to_native_el_length. split; [exact Hl|reflexivity].
    - unfold fcell_ok_b in H2. apply andb_true_iff in H2. destruct H2 as [H2 Hv].
      apply andb_true_iff in H2. destruct H2 as [_ Hlen]. apply Nat.eqb_eq in Hlen.
      split; [exact Hlen|]. apply fval_ok_b_sound. exact Hv.
    - rewrite to_native_el_str by (rewrite Ek; reflexivity). split; [exact Hl|reflexivity].
  Qed.

  Lemma row_expected_ok : forall fs r, row_ok_b fs r = true -> row_contract_b F P fs (to_native_row fs r) = true ->
    row_match fs r (rt_row F P fs (to_native_row fs r)).
  Proof.
    induction fs as [|f fs IH]; intros [|els r] H1 H2; simpl in *; try discriminate; auto.
    apply andb_true_iff in H1. destruct H1 as [H1 Hr]. apply andb_true_iff in H1. destruct H1 as [_ He].
    apply andb_true_iff in H2. destruct H2 as [Hc Hcr].
    split; [|apply IH; assumption].
    rewrite forallb_map' in Hc. rewrite forallb_forall in He, Hc. rewrite map_map.
    apply Forall2_map_self. apply Forall_forall. intros e Hin. apply el_expected_ok; [apply He|apply Hc]; exact Hin.
  Qed.

  Theorem expected_ok t : table_ok t -> fcontract F P t -> roundtrip_ok t (Ok (expected F P t)).
  Proof.
    unfold table_ok, table_ok_b, fcontract, fcontract_b, roundtrip_ok. intros Hok Hc.
    apply andb_true_iff in Hok. destruct Hok as [_ Hrows].
    exists (expected F P t). split; [reflexivity|]. unfold expected. cbn [tdt trows]. split.
    - apply Forall2_map_self. apply Forall_forall. intros f _. unfold fld_match. simpl. auto.
    - rewrite forallb_forall in Hrows, Hc. apply Forall2_map_self. apply Forall_forall. intros r Hin.
      apply row_expected_ok; [apply Hrows|apply Hc]; exact Hin.
  Qed.
End Expected.

(* no clause of the known class is superfluous:
   each of the three has an in-scope member on which the read fails; the same tables are outside the class
   (and therefore round-trip) with another delimiter *)
Definition idf : nat -> list byte -> list byte := fun _ e => e.
Definition refutes (d : byte) (t : table) : Prop :=
  table_ok t /\ delim_ok d /\ fcontract idf idf t /\ strings_noeol t /\ kf_leading_ws_after_numeric d t = true
  /\ ~ roundtrip_ok t (read_text idf d (tdt t) (Z.of_nat (length (trows t))) (write_text idf d t)).

Lemma refutes_by_error d t :
  table_ok_b t = true -> delim_ok_b d = true -> fcontract_b idf idf t = true -> strings_noeol_b t = true ->
  kf_leading_ws_after_numeric d t = true ->
  read_text idf d (tdt t) (Z.of_nat (length (trows t))) (write_text idf d t) = Err ERuntime -> refutes d t.
Proof.
  intros H1 H2 H3 H4 H5 E. unfold refutes. repeat split; try assumption.
  rewrite E. intros [tout [H _]]. discriminate.
Qed.
