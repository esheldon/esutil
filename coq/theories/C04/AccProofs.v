(* C04 -- the accuracy clause of the oracle contract H_num (Spec.fcell_ok_b) as a THEOREM on sub-domains that matter in practice.
   Integers: an integer that the format holds exactly and that has at most as many digits as the print precision is
   printed as its decimal text and that text is read back as the same image (so every integer |z| <= 2000 stored in a
   binary32 or binary64 column: this contains the only text data of esutil's own test-suite, the integers 1..1764).
   Powers of two and ten listed below: decided by the kernel, not sampled.
   For each such memory image e:  tok_ok (F_model e), length (P_model (F_model e)) = sz, and the value comes back
   to 16 / 7 significant digits (for the integers even exactly). *)
From Coq Require Import Qabs Qpower.
From Coq.Strings Require Import Byte.
From EsVerif.Common Require Import Base Bytes.
From EsVerif.C04 Require Import TextModel Spec DecProofs CheckProofs FmtModel FmtProofs.
Open Scope Z_scope.

(* memory image of the value (-1)^neg * N/D rounded to the format *)
Definition img (sz : nat) (neg : bool) (N D : Z) : list byte :=
  if N =? 0 then image (fp_of sz) neg 0 0 else round_to (fp_of sz) neg N D.
Definition int_img (sz : nat) (z : Z) : list byte := img sz (z <? 0) (Z.abs z) 1.
Definition pow_img (B : Z) (sz : nat) (k : Z) : list byte := if 0 <=? k then img sz false (B ^ k) 1 else img sz false 1 (B ^ (- k)).

(* the cell meets the contract and its value is read back EXACTLY (same bytes) *)
Definition cell_exact (sz : nat) (e : list byte) : bool :=
  fcell_ok_b F_model P_model sz e && bytes_eqb (P_model sz (F_model sz e)) e.

Definition is_int_val (e : list byte) (z : Z) : bool :=
  match fdecode e with FFin q => Qeq_bool q (z # 1) | _ => false end.

Lemma zseq_In : forall n s z, s <= z < s + Z.of_nat n -> In z (zseq s n).
Proof.
  induction n as [|n IH]; intros s z H; [lia|]. simpl.
  destruct (Z.eq_dec s z) as [->|Hne]; [left; reflexivity|right]. apply IH. lia.
Qed.

Lemma forallb_range (p : Z -> bool) s n : forallb p (zseq s n) = true -> forall z, s <= z < s + Z.of_nat n -> p z = true.
Proof. intros H z Hz. rewrite forallb_forall in H. apply H. apply zseq_In. exact Hz. Qed.

(* sign, exponent and mantissa fields of a word s.b.m, P = 2^(mantissa bits), E = 2^(exponent bits) *)
Lemma bit_fields P E (neg : bool) b m : 0 < P -> 0 < E -> 0 <= b < E -> 0 <= m < P ->
  let bits := (if neg then P * E else 0) + b * P + m in
  (P * E <=? bits) = neg /\ (bits / P) mod E = b /\ bits mod P = m.
Proof.
  intros HP HE Hb Hm bits.
  assert (Hq : bits / P = (if neg then E else 0) + b).
  { symmetry. apply (Z.div_unique _ _ _ m); [lia|]. subst bits. destruct neg; ring. }
  assert (Hbm : 0 <= b * P + m < P * E) by nia.
  split; [|split].
  - subst bits. destruct neg; lia.
  - rewrite Hq. destruct neg; [|apply Z.mod_small; lia].
    rewrite Z.add_comm, <- (Z.mul_1_l E) at 1. rewrite Z.mod_add by lia. apply Z.mod_small; lia.
  - symmetry. apply (Z.mod_unique _ _ ((if neg then E else 0) + b)); [lia|]. subst bits. destruct neg; ring.
Qed.

(* the formats the model is instantiated with *)
Definition fmt_wf (f : fmtp) : Prop :=
  2 <= f_p f /\ 2 <= f_ebits f /\ f_p f - 1 < 2 ^ (f_ebits f - 1) /\ 256 ^ Z.of_nat (f_bytes f) = 2 ^ (f_p f + f_ebits f).
Lemma fp_of_wf sz : fmt_wf (fp_of sz).
Proof. unfold fp_of. destruct (sz =? 8)%nat; unfold fmt_wf; cbn [f_p f_ebits f_bytes fp64 fp32]; repeat split; try lia; reflexivity. Qed.

Lemma image_bits f neg b m : fmt_wf f -> 0 <= b < 2 ^ f_ebits f -> 0 <= m < 2 ^ (f_p f - 1) ->
  le_unsigned (image f neg b m) = (if neg then 2 ^ (f_p f - 1) * 2 ^ f_ebits f else 0) + b * 2 ^ (f_p f - 1) + m.
Proof.
  intros (Hp & He & _ & Hw) Hb Hm. unfold image. rewrite Z.pow_add_r by lia.
  apply le_unsigned_encode_le. rewrite Hw.
  replace (f_p f + f_ebits f) with (1 + (f_p f - 1) + f_ebits f) by lia. rewrite !Z.pow_add_r by lia.
  set (P := 2 ^ (f_p f - 1)) in *. set (E := 2 ^ f_ebits f) in *. change (2 ^ 1) with 2. destruct neg; nia.
Qed.

Lemma classify_image f neg b m : fmt_wf f -> 0 < b < 2 ^ f_ebits f - 1 -> 0 <= m < 2 ^ (f_p f - 1) ->
  classify f (image f neg b m) =
  let mm := 2 ^ (f_p f - 1) + m in let e2 := b - f_bias f - (f_p f - 1) in
  if 0 <=? e2 then CFin neg (mm * 2 ^ e2) 1 else CFin neg mm (2 ^ (- e2)).
Proof.
  intros Hf Hb Hm. unfold classify. rewrite image_bits by (assumption || lia).
  destruct Hf as (Hp & He & _).
  rewrite Z.pow_add_r by lia.
  set (P := 2 ^ (f_p f - 1)) in *. set (E := 2 ^ f_ebits f) in *.
  assert (HP : 0 < P) by (apply Z.pow_pos_nonneg; lia). assert (HE : 0 < E) by (apply Z.pow_pos_nonneg; lia).
  destruct (bit_fields P E neg b m HP HE ltac:(lia) Hm) as (-> & -> & ->).
  assert (b =? E - 1 = false) as -> by lia. assert (b =? 0 = false) as -> by lia. reflexivity.
Qed.

Lemma fdecode_image sz neg b m :
  let f := fp_of sz in 0 < b < 2 ^ f_ebits f - 1 -> 0 <= m < 2 ^ (f_p f - 1) ->
  fdecode (image f neg b m) = FFin (q_of neg (2 ^ (f_p f - 1) + m) (b - f_bias f - (f_p f - 1))).
Proof.
  intros f Hb Hm. unfold fdecode. rewrite image_length, image_bits by (apply fp_of_wf || assumption || lia).
  (* fp_of knows two formats, and fdecode tells them apart by the length of the image *)
  subst f. unfold fp_of in *. destruct (sz =? 8)%nat; cbn [Nat.eqb f_p f_ebits f_bytes fp64 fp32] in *.
  - change (2 ^ 63) with (2 ^ (53 - 1) * 2 ^ 11). change (2 ^ 52) with (2 ^ (53 - 1)).
    set (P := 2 ^ (53 - 1)) in *. set (E := 2 ^ 11) in *.
    destruct (bit_fields P E neg b m eq_refl eq_refl ltac:(lia) Hm) as (-> & -> & ->).
    assert (b =? 2047 = false) as -> by (subst E; lia). assert (b =? 0 = false) as -> by lia.
    do 2 f_equal. change (f_bias fp64) with 1023. lia.
  - change (2 ^ 31) with (2 ^ (24 - 1) * 2 ^ 8). change (2 ^ 23) with (2 ^ (24 - 1)).
    set (P := 2 ^ (24 - 1)) in *. set (E := 2 ^ 8) in *.
    destruct (bit_fields P E neg b m eq_refl eq_refl ltac:(lia) Hm) as (-> & -> & ->).
    assert (b =? 255 = false) as -> by (subst E; lia). assert (b =? 0 = false) as -> by lia.
    do 2 f_equal. change (f_bias fp32) with 127. lia.
Qed.

Lemma adjust_spec B N D L : (forall k, ge_pow B N D k = (k <=? L)) ->
  forall fuel g, Z.abs (g - L) < Z.of_nat fuel -> adjust fuel B N D g = L.
Proof.
  intro H. induction fuel as [|fuel IH]; intros g Hg; [lia|].
  cbn [adjust]. rewrite !H. destruct (g + 1 <=? L) eqn:E1; [apply IH; lia|].
  destruct (g <=? L) eqn:E2; [lia|apply IH; lia].
Qed.

Lemma ge_pow_ratio B N D L : 1 < B -> 0 < D -> 0 <= L -> B ^ L <= N < B ^ (L + 1) ->
  forall k, ge_pow B (N * D) D k = (k <=? L).
Proof.
  intros HB HD HL HN k. unfold ge_pow. apply Bool.eq_true_iff_eq. rewrite Z.leb_le. destruct (0 <=? k) eqn:Ek; rewrite Z.leb_le.
  - rewrite (Z.mul_comm N D), <- Z.mul_le_mono_pos_l by exact HD. split; intro H.
    + apply Z.lt_succ_r. apply (Z.pow_lt_mono_r_iff B); lia.
    + apply Z.le_trans with (B ^ L); [apply Z.pow_le_mono_r; lia|apply HN].
  - assert (0 < B ^ (- k)) by (apply Z.pow_pos_nonneg; lia). assert (0 < B ^ L) by (apply Z.pow_pos_nonneg; lia).
    split; [lia|intros _]. replace (N * D * B ^ (- k)) with (D * (N * B ^ (- k))) by ring. rewrite <- (Z.mul_1_r D) at 1.
    apply Z.mul_le_mono_nonneg_l; [lia|]. change 1 with (1 * 1). apply Z.mul_le_mono_nonneg; lia.
Qed.

Lemma ilog2_int N : 0 < N -> ilog2 N 1 = Z.log2 N.
Proof.
  intro HN. unfold ilog2. change (Z.log2 1) with 0. rewrite <- (Z.mul_1_r N) at 1.
  apply adjust_spec; [|simpl; lia]. apply ge_pow_ratio; [lia|lia|apply Z.log2_nonneg|].
  rewrite Z.add_1_r. apply Z.log2_spec. exact HN.
Qed.

Lemma rhe_exact a b : 0 < b -> rhe (a * b) b = a.
Proof.
  intro Hb. unfold rhe. pose proof (Z.div_mul a b ltac:(lia)) as Hq. pose proof (Z.mod_mul a b ltac:(lia)) as Hr.
  unfold Z.div, Z.modulo in Hq, Hr. destruct (Z.div_eucl (a * b) b) as [q r]. subst q r. assert (2 * 0 <? b = true) as -> by lia. reflexivity.
Qed.

Lemma scaled_rhe_exact B N D k : 0 < D -> k <= 0 -> scaled_rhe B (N * D) D k = N * B ^ (- k).
Proof.
  intros HD Hk. unfold scaled_rhe. destruct (0 <=? k) eqn:E.
  - assert (k = 0) as -> by lia. change (- 0) with 0. rewrite Z.pow_0_r, !Z.mul_1_r. apply rhe_exact. exact HD.
  - replace (N * D * B ^ (- k)) with (N * B ^ (- k) * D) by ring. apply rhe_exact. exact HD.
Qed.

Lemma int_fields f N : fmt_wf f -> 0 < N < 2 ^ f_p f ->
  let k := f_p f - 1 - Z.log2 N in
  0 <= k /\ 0 < Z.log2 N + f_bias f < 2 ^ f_ebits f - 1 /\ 0 <= N * 2 ^ k - 2 ^ (f_p f - 1) < 2 ^ (f_p f - 1).
Proof.
  intros (Hp & He & Hpe & _) HN k. pose proof (Z.log2_spec N ltac:(lia)) as Ht. pose proof (Z.log2_nonneg N) as Ht0.
  assert (Htp : Z.log2 N < f_p f) by (apply Z.log2_lt_pow2; lia). subst k. set (t := Z.log2 N) in *. set (p := f_p f) in *.
  split; [lia|]. split.
  - unfold f_bias. replace (2 ^ f_ebits f) with (2 * 2 ^ (f_ebits f - 1)) by (rewrite <- Z.pow_succ_r by lia; f_equal; lia).
    assert (2 ^ 1 <= 2 ^ (f_ebits f - 1)) by (apply Z.pow_le_mono_r; lia). change (2 ^ 1) with 2 in *. lia.
  - replace (2 ^ (p - 1)) with (2 ^ t * 2 ^ (p - 1 - t)) by (rewrite <- Z.pow_add_r by lia; f_equal; lia).
    rewrite Z.pow_succ_r in Ht by lia. assert (0 < 2 ^ (p - 1 - t)) by (apply Z.pow_pos_nonneg; lia). nia.
Qed.

(* an integer below 2^p is representable: its image has exponent field log2 N + bias *)
Lemma round_to_int f neg N : fmt_wf f -> 0 < N < 2 ^ f_p f ->
  round_to f neg N 1 = image f neg (Z.log2 N + f_bias f) (N * 2 ^ (f_p f - 1 - Z.log2 N) - 2 ^ (f_p f - 1)).
Proof.
  intros Hf HN. destruct (int_fields f N Hf HN) as (Hk & Hb & Hm). destruct Hf as (Hp & He & _).
  unfold round_to. cbv zeta. rewrite ilog2_int by lia.
  set (t := Z.log2 N) in *. set (p := f_p f) in *.
  rewrite Z.max_l by (unfold f_emin; lia).
  replace (scaled_rhe 2 N 1 (t - (p - 1))) with (N * 2 ^ (p - 1 - t))
    by (rewrite <- (Z.mul_1_r N) at 2; rewrite scaled_rhe_exact by lia; do 2 f_equal; lia).
  set (n := N * 2 ^ (p - 1 - t)) in *.
  assert (H2p : 2 ^ p = 2 * 2 ^ (p - 1)) by (rewrite <- Z.pow_succ_r by lia; f_equal; lia).
  assert (n =? 2 ^ p = false) as -> by lia.
  cbv beta iota zeta. assert (n <? 2 ^ (p - 1) = false) as -> by lia.
  replace (t - (p - 1) + (p - 1) + f_bias f) with (t + f_bias f) by lia.
  assert (2 ^ f_ebits f - 1 <=? t + f_bias f = false) as -> by lia. reflexivity.
Qed.

(* floor(log10) from the guess 0.30103 * floor(log2): exact to one unit below 2^64 (a table of 64 rows) *)
Definition guess10 (t : Z) : Z := t * 30103 / 100000.
Lemma guess10_table : forallb (fun t => (10 ^ guess10 t <=? 2 ^ t) && (2 ^ (t + 1) <=? 10 ^ (guess10 t + 2))) (zseq 0 64) = true.
Proof. reflexivity. Qed.
Lemma guess10_spec N : 0 < N < 2 ^ 64 -> let g := guess10 (Z.log2 N) in 0 <= g /\ 10 ^ g <= N < 10 ^ (g + 2).
Proof.
  intros HN g. pose proof (Z.log2_spec N ltac:(lia)) as Ht. pose proof (Z.log2_nonneg N).
  assert (Z.log2 N < 64) by (apply Z.log2_lt_pow2; lia).
  pose proof (forallb_range _ _ _ guess10_table (Z.log2 N) ltac:(simpl; lia)) as T. cbv beta in T. fold g in T.
  rewrite Z.add_1_r in T. split; [unfold g, guess10; lia|lia].
Qed.

Lemma log10_exists N : 0 < N < 2 ^ 64 -> exists L, 0 <= L /\ 10 ^ L <= N < 10 ^ (L + 1) /\ Z.abs (guess10 (Z.log2 N) - L) <= 1.
Proof.
  intro HN. destruct (guess10_spec N HN) as [Hg0 Hg]. set (g := guess10 (Z.log2 N)) in *.
  destruct (Z.lt_ge_cases N (10 ^ (g + 1))).
  - exists g. lia.
  - exists (g + 1). replace (g + 1 + 1) with (g + 2) by lia. lia.
Qed.

Lemma ilog10_scaled N k L : 0 < N < 2 ^ 64 -> 0 <= k -> 0 <= L -> 10 ^ L <= N < 10 ^ (L + 1) -> ilog10 (N * 2 ^ k) (2 ^ k) = L.
Proof.
  intros HN Hk HL HNL. unfold ilog10. rewrite Z.log2_mul_pow2, Z.log2_pow2 by lia.
  replace (k + Z.log2 N - k) with (Z.log2 N) by lia. fold (guess10 (Z.log2 N)).
  destruct (guess10_spec N HN) as [Hg0 Hg]. set (g := guess10 (Z.log2 N)) in *.
  apply adjust_spec; [apply ge_pow_ratio; try lia; apply Z.pow_pos_nonneg; lia|].
  assert (g < L + 1) by (apply (Z.pow_lt_mono_r_iff 10); lia). assert (L < g + 2) by (apply (Z.pow_lt_mono_r_iff 10); lia).
  simpl. lia.
Qed.

Lemma sig_digits_scaled prec N k L : 0 < N < 2 ^ 64 -> 0 <= k -> 0 <= L < prec -> 10 ^ L <= N < 10 ^ (L + 1) ->
  sig_digits prec (N * 2 ^ k) (2 ^ k) = (dec_nat N ++ repeat zero_b (Z.to_nat (prec - 1 - L)), L).
Proof.
  intros HN Hk HL HNL. unfold sig_digits. rewrite (ilog10_scaled N k L) by (assumption || lia). cbv zeta.
  rewrite scaled_rhe_exact by (try apply Z.pow_pos_nonneg; lia).
  replace (- (L - (prec - 1))) with (prec - 1 - L) by lia.
  assert (N * 10 ^ (prec - 1 - L) =? 10 ^ prec = false) as ->.
  { apply Z.eqb_neq. replace prec with ((L + 1) + (prec - 1 - L)) at 2 by lia. rewrite Z.pow_add_r by lia.
    assert (0 < 10 ^ (prec - 1 - L)) by (apply Z.pow_pos_nonneg; lia). nia. }
  rewrite dec_nat_mul_pow10 by lia. reflexivity.
Qed.

Lemma strip0_zeros n : strip0 (repeat zero_b n) = [].
Proof.
  unfold strip0. assert (H : forall l, (forall b, In b l -> b = zero_b) -> drop_zeros l = []).
  { induction l as [|b l IH]; intro Hl; [reflexivity|]. simpl. rewrite (Hl b) by (left; reflexivity).
    change (byte_eqb zero_b zero_b) with true. apply IH. intros c Hc. apply Hl. right. exact Hc. }
  rewrite H; [reflexivity|]. intros b Hb. apply in_rev in Hb. apply repeat_spec in Hb. exact Hb.
Qed.

Lemma fmt_g_pos_int prec N k : 0 < N < 2 ^ 64 -> N < 10 ^ prec -> 0 <= k -> fmt_g_pos prec (N * 2 ^ k) (2 ^ k) = dec_nat N.
Proof.
  intros HN Hprec Hk. destruct (log10_exists N HN) as (L & HL & HNL & _).
  assert (0 <= prec) by (destruct (Z.lt_ge_cases prec 0) as [Hn|]; [rewrite (Z.pow_neg_r _ _ Hn) in Hprec|]; lia).
  assert (L < prec) by (apply (Z.pow_lt_mono_r_iff 10); lia).
  unfold fmt_g_pos. assert (prec =? 0 = false) as -> by lia. rewrite (sig_digits_scaled prec N k L) by (assumption || lia).
  assert ((-4 <=? L) && (L <? prec) = true) as -> by lia. assert (0 <=? L = true) as -> by lia.
  replace (Z.to_nat (L + 1)) with (length (dec_nat N)) by (rewrite (dec_nat_length L) by assumption; lia).
  rewrite firstn_app, skipn_app, firstn_all, skipn_all, Nat.sub_diag. cbn [firstn skipn app]. rewrite app_nil_r.
  unfold with_frac. rewrite strip0_zeros. reflexivity.
Qed.

Lemma take_digits_all l : digits l -> take_digits l = (l, []).
Proof. induction 1 as [|b l Hb _ IH]; simpl; [reflexivity|]. rewrite Hb, IH. reflexivity. Qed.

Lemma starts_lc_digit b r c w : is_digit b = true -> c < 48 \/ 57 < c -> starts_lc (b :: r) (c :: w) = false.
Proof.
  intros Hb Hc. unfold starts_lc. cbn [combine forallb fst snd]. unfold lc_is at 1, lc. unfold is_digit in Hb.
  set (n := bZ b) in *. assert ((65 <=? n) && (n <=? 90) = false) as -> by lia.
  assert (n =? c = false) as -> by lia. apply andb_false_r.
Qed.

Lemma P_body_dec_nat f neg N : 0 < N -> P_body f neg (dec_nat N) = round_to f neg N 1.
Proof.
  intro HN. pose proof (dec_nat_parse N ltac:(lia)) as Hv. destruct (dec_nat_shape N) as (Hd & Hne). unfold P_body.
  rewrite (take_digits_all _ Hd).
  assert (H2 : starts_lc (dec_nat N) [48; 120] = false).
  { apply second_ok_not_hex. destruct (dec_nat N) as [|b [|c r]]; try exact I.
    apply (digit_facts c). exact (Forall_inv (Forall_inv_tail Hd)). }
  rewrite H2. destruct (dec_nat N) as [|b r] eqn:E; [contradiction|].
  rewrite !(starts_lc_digit b r) by (lia || exact (Forall_inv Hd)).
  cbv beta iota zeta. rewrite app_nil_r, Hv.
  change (Z.max (- exp_clamp) (Z.min exp_clamp 0) - Z.of_nat (length (@nil byte))) with 0.
  assert (N =? 0 = false) as -> by lia. change (0 <=? 0) with true. cbv iota. rewrite Z.pow_0_r, Z.mul_1_r. reflexivity.
Qed.

(* the value of such an image, and the boolean accuracy test on equal arguments *)
Lemma q_of_int neg N k : 0 < N -> 0 <= k ->
  let x := q_of neg (N * 2 ^ k) (- k) in
  Z.abs (Qnum x) = N * 2 ^ k /\ Zpos (Qden x) = 2 ^ k /\ Qeq x ((if neg then - N else N) # 1).
Proof.
  intros HN Hk. assert (H2 : 0 < 2 ^ k) by (apply Z.pow_pos_nonneg; lia). unfold q_of. destruct (0 <=? - k) eqn:E.
  - assert (k = 0) as -> by lia. change (- 0) with 0. rewrite Z.pow_0_r, !Z.mul_1_r.
    destruct neg; cbn; repeat split; lia.
  - rewrite Z.opp_involutive. destruct neg; unfold Qeq; cbn; rewrite Z2Pos.id by lia; repeat split; lia.
Qed.

Lemma first_ok_complete f l e : In e l -> f e = true -> first_ok f l = true.
Proof.
  intros Hin He. induction l as [|a l IH]; [contradiction|]. simpl. destruct (f a) eqn:Ea; [reflexivity|].
  destruct Hin as [-> | Hin]; [congruence|exact (IH Hin)].
Qed.

Lemma sig_close_at_refl d x e : (Qpower ten e <= Qabs x)%Q -> (Qabs x < Qpower ten (e + 1))%Q -> sig_close_at d x x e = true.
Proof.
  intros H1 H2. unfold sig_close_at.
  assert (Qle_bool (Qpower ten e) (Qabs x) = true) as -> by (apply Qle_bool_iff; exact H1).
  assert (Qle_bool (Qpower ten (e + 1)) (Qabs x) = false) as ->.
  { destruct (Qle_bool _ _) eqn:E; [|reflexivity]. apply Qle_bool_iff in E. exfalso. exact (Qlt_not_le _ _ H2 E). }
  apply Qle_bool_iff. setoid_replace (x - x)%Q with 0%Q by ring. apply Qpower_0_le. discriminate.
Qed.

(* x = N * 2^k / 2^k, written that way *)
Lemma sig_close_b_int d x N k : 0 < N < 2 ^ 64 -> 0 <= k -> Z.abs (Qnum x) = N * 2 ^ k -> Zpos (Qden x) = 2 ^ k ->
  sig_close_b d x x = true.
Proof.
  intros HN Hk Hn Hd. destruct (log10_exists N HN) as (L & HL & HNL & Hg).
  assert (H2 : 0 < 2 ^ k) by (apply Z.pow_pos_nonneg; lia).
  assert (Hx : Qeq (Qabs x) (inject_Z N)).
  { destruct x as [n dd]. unfold Qeq. cbn in *. rewrite Hn, Hd. ring. }
  unfold sig_close_b.
  assert (Qeq_bool x 0 = false) as ->.
  { destruct (Qeq_bool x 0) eqn:E; [|reflexivity]. apply Qeq_bool_iff in E. unfold Qeq in E. cbn in E. nia. }
  cbv zeta. rewrite Hn, Hd, Z.log2_mul_pow2, Z.log2_pow2 by lia.
  replace (k + Z.log2 N - k) with (Z.log2 N) by lia. fold (guess10 (Z.log2 N)). set (g := guess10 (Z.log2 N)) in *.
  apply (first_ok_complete _ _ L); [simpl; lia|].
  apply sig_close_at_refl; rewrite Hx; change ten with (inject_Z 10); rewrite <- Zpower_Qpower by lia.
  - rewrite <- Zle_Qle. lia.
  - rewrite <- Zlt_Qlt. lia.
Qed.

(* integers with at most print_prec digits that the format holds exactly *)
Definition int_fits (sz : nat) (z : Z) : Prop := z <> 0 /\ Z.abs z < 2 ^ f_p (fp_of sz) /\ Z.abs z < 10 ^ print_prec sz.

Lemma int_img_nonzero sz z : z <> 0 -> int_img sz z = round_to (fp_of sz) (z <? 0) (Z.abs z) 1.
Proof. intro Hz. unfold int_img, img. assert (Z.abs z =? 0 = false) as -> by lia. reflexivity. Qed.

Lemma fp_of_p sz : f_p (fp_of sz) <= 64.
Proof. unfold fp_of. destruct (sz =? 8)%nat; simpl; lia. Qed.

(* how printf (classify) and the value decoder (fdecode) see the image of such an integer: |z| * 2^k / 2^k *)
Lemma int_img_seen sz z : z <> 0 -> Z.abs z < 2 ^ f_p (fp_of sz) ->
  exists k, 0 <= k /\ classify (fp_of sz) (int_img sz z) = CFin (z <? 0) (Z.abs z * 2 ^ k) (2 ^ k)
            /\ fdecode (int_img sz z) = FFin (q_of (z <? 0) (Z.abs z * 2 ^ k) (- k)).
Proof.
  intros Hz Hp. rewrite int_img_nonzero by exact Hz. assert (HN : 0 < Z.abs z < 2 ^ f_p (fp_of sz)) by lia.
  destruct (int_fields _ _ (fp_of_wf sz) HN) as (Hk & Hb & Hm). exists (f_p (fp_of sz) - 1 - Z.log2 (Z.abs z)).
  rewrite round_to_int, classify_image, fdecode_image by (assumption || apply fp_of_wf). cbv zeta.
  set (k := f_p (fp_of sz) - 1 - Z.log2 (Z.abs z)) in *.
  replace (Z.log2 (Z.abs z) + f_bias (fp_of sz) - f_bias (fp_of sz) - (f_p (fp_of sz) - 1)) with (- k) by lia.
  replace (2 ^ (f_p (fp_of sz) - 1) + (Z.abs z * 2 ^ k - 2 ^ (f_p (fp_of sz) - 1))) with (Z.abs z * 2 ^ k) by lia.
  repeat split; [exact Hk|]. destruct (0 <=? - k) eqn:E; [|rewrite Z.opp_involutive; reflexivity].
  assert (k = 0) as -> by lia. change (- 0) with 0. rewrite Z.pow_0_r, !Z.mul_1_r. reflexivity.
Qed.

Theorem F_model_int sz z : int_fits sz z -> F_model sz (int_img sz z) = dec z.
Proof.
  intros (Hz & Hp & Hd). unfold F_model. destruct (int_img_seen sz z Hz Hp) as (k & Hk & -> & _).
  assert (2 ^ f_p (fp_of sz) <= 2 ^ 64) by (apply Z.pow_le_mono_r; [lia|apply fp_of_p]).
  unfold fmt_g. rewrite fmt_g_pos_int by lia. unfold dec, sgn.
  destruct (z <? 0) eqn:Ez; [rewrite Z.abs_neq by lia|rewrite Z.abs_eq by lia]; reflexivity.
Qed.

Theorem P_model_int sz z : z <> 0 -> P_model sz (dec z) = int_img sz z.
Proof.
  intro Hz. rewrite int_img_nonzero, P_model_body by exact Hz. unfold dec. destruct (z <? 0) eqn:E.
  - change (byte_eqb minus minus) with true. cbv iota. rewrite Z.abs_neq by lia. apply P_body_dec_nat. lia.
  - rewrite Z.abs_eq by lia. destruct (dec_nat_shape z) as (Hd & Hne).
    rewrite <- (P_body_dec_nat _ _ z) by lia. destruct (dec_nat z) as [|b r]; [contradiction|].
    destruct (is_digit_not_sign b (Forall_inv Hd)) as [-> ->]. reflexivity.
Qed.

Theorem fdecode_int_img sz z : int_fits sz z ->
  exists q, fdecode (int_img sz z) = FFin q /\ Qeq q (z # 1) /\ forall d, sig_close_b d q q = true.
Proof.
  intros (Hz & Hp & _). destruct (int_img_seen sz z Hz Hp) as (k & Hk & _ & ->).
  destruct (q_of_int (z <? 0) (Z.abs z) k ltac:(lia) Hk) as (Hn & Hd & Hq).
  assert (2 ^ f_p (fp_of sz) <= 2 ^ 64) by (apply Z.pow_le_mono_r; [lia|apply fp_of_p]).
  eexists. split; [reflexivity|]. split.
  - rewrite Hq. destruct (z <? 0) eqn:E; [rewrite Z.abs_neq by lia|rewrite Z.abs_eq by lia]; rewrite ?Z.opp_involutive; reflexivity.
  - intro d. apply (sig_close_b_int d _ (Z.abs z) k); (assumption || lia).
Qed.

Theorem accuracy_integers sz z : sz = 4%nat \/ sz = 8%nat -> int_fits sz z ->
  fcell_ok_b F_model P_model sz (int_img sz z) = true
  /\ P_model sz (F_model sz (int_img sz z)) = int_img sz z
  /\ is_int_val (int_img sz z) z = true.
Proof.
  intros Hsz Hfit. destruct (fdecode_int_img sz z Hfit) as (q & Hq & Hv & Hc).
  assert (HPF : P_model sz (F_model sz (int_img sz z)) = int_img sz z)
    by (rewrite F_model_int by assumption; apply P_model_int; apply Hfit).
  repeat split; [|exact HPF|unfold is_int_val; rewrite Hq; apply Qeq_bool_iff; exact Hv].
  apply (fcell_ok_of_acc print_prec); [exact Hsz|]. cbv zeta. fold (F_model sz (int_img sz z)). rewrite HPF, Hq. apply Hc.
Qed.

(* powers of two and of ten (as rounded to the format): the contract holds; the read-back is in general NOT exact
   (16 digits do not identify a binary64: 855 of its 2098 powers of two come back one unit off), which is why the
   property -- and the contract -- speak of 16 significant digits.  binary32: the whole exponent range incl. subnormals;
   binary64: 2^-128..2^128 and 1e-40..1e40 (the full range costs minutes of kernel time; it was evaluated once, see report).
   The powers B^0 .. B^kmax are integers that fit; for the others the accuracy clause is evaluated (fcell_ok_of_acc),
   with the image bound once. *)
Definition acc_b (sz : nat) (e : list byte) : bool :=
  fval_ok_b (digits_of sz) (fdecode e) (fdecode (P_model sz (F_model sz e))).
Definition pow_acc_b (B : Z) (sz : nat) (kmax k : Z) : bool :=
  if (0 <=? k) && (k <=? kmax) then true else acc_b sz (pow_img B sz k).

Lemma pow_acc_ok B sz kmax k : sz = 4%nat \/ sz = 8%nat -> 1 < B -> int_fits sz (B ^ kmax) ->
  pow_acc_b B sz kmax k = true -> fcell_ok_b F_model P_model sz (pow_img B sz k) = true.
Proof.
  intros Hsz HB (_ & Hp & Hd) H. unfold pow_acc_b in H. destruct ((0 <=? k) && (k <=? kmax)) eqn:E.
  - assert (Hk : 0 < B ^ k <= B ^ kmax) by (split; [apply Z.pow_pos_nonneg|apply Z.pow_le_mono_r]; lia).
    unfold pow_img, img. assert (0 <=? k = true) as -> by lia.
    replace (B ^ k) with (Z.abs (B ^ k)) by lia. replace false with (B ^ k <? 0) by lia.
    apply (accuracy_integers sz (B ^ k) Hsz). unfold int_fits. lia.
  - apply (fcell_ok_of_acc print_prec); assumption.
Qed.

Lemma pow2_8_b : forallb (pow_acc_b 2 8 52) (zseq (-128) 257) = true.
Proof. vm_compute. reflexivity. Qed.
Lemma pow2_4_b : forallb (pow_acc_b 2 4 23) (zseq (-149) 277) = true.
Proof. vm_compute. reflexivity. Qed.
Lemma pow10_8_b : forallb (pow_acc_b 10 8 15) (zseq (-40) 81) = true.
Proof. vm_compute. reflexivity. Qed.
Lemma pow10_4_b : forallb (pow_acc_b 10 4 6) (zseq (-37) 76) = true.
Proof. vm_compute. reflexivity. Qed.

(* a cell that is read back exactly meets the accuracy clause of the property (soundness of the boolean) *)
Theorem cell_exact_sound sz e : cell_exact sz e = true ->
  fval_ok (digits_of sz) (fdecode e) (fdecode (P_model sz (F_model sz e))) /\ P_model sz (F_model sz e) = e.
Proof.
  unfold cell_exact, fcell_ok_b. intro H. apply andb_true_iff in H. destruct H as [H1 H2].
  apply andb_true_iff in H1. destruct H1 as [_ H1]. split; [apply fval_ok_b_sound; exact H1|apply bytes_eqb_eq; exact H2].
Qed.
