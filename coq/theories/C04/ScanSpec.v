(* C04 -- exact acceptance / rejection of the scanner model on ARBITRARY text (not only on text the writer produced):
   maximal munch, the empty-field -> NaN branch, end of file, and the fixed-width string reader. *)
From Coq.Strings Require Import Byte.
From EsVerif.Common Require Import Base Bytes.
From EsVerif.C04 Require Import TextModel Spec DecProofs ScanProofs RoundTrip FmtProofs.

(* the automaton takes the LONGEST prefix it can (maximal munch), whatever the input *)
(* acceptance: exactly the well-formed tokens that cannot be extended by the next byte *)
Theorem scan_tok_accepts k l t r : scan_tok k l = TOk t r <->
  l = t ++ r /\ tok_ok k t = true /\ (exists s, steps k Q0 t = Some s /\ match r with [] => True | c :: _ => step k s c = None end).
Proof.
  unfold scan_tok. split.
  - destruct (run k Q0 l) as [[s t0] r0] eqn:R. apply run_spec in R. destruct R as [E1 [E2 E3]].
    destruct (accepting s) eqn:A; [|discriminate]. intro H. inversion H; subst.
    split; [reflexivity|]. split; [eapply steps_tok_ok; eassumption|]. exists s. auto.
  - intros [E [Hok [s1 [Hs Hm]]]]. rewrite (proj2 (run_spec k l Q0 s1 t r) (conj E (conj Hs Hm))).
    unfold tok_ok in Hok. rewrite (run_steps k t Q0 s1 Hs) in Hok. apply andb_true_iff in Hok. destruct Hok as [A _].
    rewrite A. reflexivity.
Qed.

(* one numeric cell, delimiter mode (format "<conv> <delim>"): the three outcomes *)
Section Cell.
  Variable d : byte.
  Hypothesis Hd : delim_ok d.
  Hypothesis Hsp : byte_eqb d space = false.

  Let Hdn : numchar d = false. Proof. exact (proj1 (delim_ok_facts d Hd)). Qed.

  Lemma run_stuck k c r : numchar c = false -> run k Q0 (c :: r) = (Q0, [], c :: r).
  Proof. intro H. simpl. unfold step. rewrite H. reflexivity. Qed.

  (* an EMPTY field (the delimiter comes first, after optional white space): NaN for floating point, error for integers *)
  Theorem empty_field_float pre r : all_ws pre -> is_ws d = false ->
    read_num TFloat d (pre ++ d :: r) = Ok (nan_tok, r).
  Proof.
    intros Hp Hw. unfold read_num, fscanf_num. rewrite Hsp. rewrite skip_ws_all_ws by exact Hp.
    rewrite skip_ws_stop by exact Hw. unfold scan_tok. rewrite (run_stuck TFloat d r Hdn). simpl.
    rewrite byte_eqb_refl. reflexivity.
  Qed.

  Theorem empty_field_int pre r : all_ws pre -> is_ws d = false ->
    read_num TInt d (pre ++ d :: r) = Err ERuntime.
  Proof.
    intros Hp Hw. unfold read_num, fscanf_num. rewrite Hsp. rewrite skip_ws_all_ws by exact Hp.
    rewrite skip_ws_stop by exact Hw. unfold scan_tok. rewrite (run_stuck TInt d r Hdn). simpl.
    rewrite byte_eqb_refl. reflexivity.
  Qed.

End Cell.

(* fixed-width strings: exactly w bytes are taken, none of them 0xff, else error *)
Theorem take_bytes_spec : forall w l e r, take_bytes w l = Ok (e, r) <->
  l = e ++ r /\ length e = w /\ Forall (fun b => byte_eqb b xff = false) e.
Proof.
  intros w l e r. split.
  - revert l e r. induction w as [|w IH]; intros l e r H; simpl in H.
    + inversion H; subst. auto.
    + destruct l as [|b l]; [discriminate|]. destruct (byte_eqb b xff) eqn:Eb; [discriminate|].
      destruct (take_bytes w l) as [[e1 r1]|er] eqn:T; simpl in H; [|discriminate]. inversion H; subst.
      destruct (IH _ _ _ T) as (-> & L & Fa). repeat split; [simpl; f_equal; exact L|constructor; assumption].
  - intros (-> & <- & Fa). apply take_bytes_app. exact Fa.
Qed.

(* error class: whatever the text, the reader either succeeds or fails with RuntimeError (every C++ exception of
   records.cpp surfaces as RuntimeError through SWIG); no other error class can come out of the model *)
Definition fails_runtime {A} (x : result A) : Prop := forall e, x = Err e -> e = ERuntime.

Lemma fails_runtime_ok {A} (a : A) : fails_runtime (Ok a).
Proof. intros e H. discriminate. Qed.

Lemma fails_runtime_err {A} : fails_runtime (Err ERuntime : result A).
Proof. intros e H. inversion H. reflexivity. Qed.

Lemma fails_runtime_bind {A B} (x : result A) (f : A -> result B) :
  fails_runtime x -> (forall a, fails_runtime (f a)) -> fails_runtime (bind x f).
Proof. intros Hx Hf e H. destruct x as [a|e1]; simpl in H; [exact (Hf a e H)|inversion H; subst; apply Hx; reflexivity]. Qed.

Section ErrClass.
  Variable P : nat -> list byte -> list byte.

  Lemma take_bytes_err : forall w l, fails_runtime (take_bytes w l).
  Proof.
    induction w as [|w IH]; intro l; simpl; [apply fails_runtime_ok|].
    destruct l as [|b l]; [apply fails_runtime_err|]. destruct (byte_eqb b xff); [apply fails_runtime_err|].
    apply fails_runtime_bind; [apply IH|]. intros [e1 r1]. apply fails_runtime_ok.
  Qed.

  Lemma read_num_err k d l : fails_runtime (read_num k d l).
  Proof.
    unfold read_num. destruct (fscanf_num k _ l) as [t r|r|]; [apply fails_runtime_ok| |apply fails_runtime_err].
    destruct (byte_eqb d space); [apply fails_runtime_err|].
    destruct r as [|c r]; [apply fails_runtime_err|].
    destruct (byte_eqb c d); [|apply fails_runtime_err]. destruct k; [apply fails_runtime_err|apply fails_runtime_ok].
  Qed.

  Lemma read_str_els_err w : forall n l, fails_runtime (read_str_els w n l).
  Proof.
    induction n as [|n IH]; intro l; simpl; [apply fails_runtime_ok|].
    apply fails_runtime_bind; [apply take_bytes_err|]. intros [e1 r1].
    apply fails_runtime_bind; [apply IH|]. intros [es r2]. apply fails_runtime_ok.
  Qed.

  Lemma read_num_els_err k d : forall n l, fails_runtime (read_num_els P k d n l).
  Proof.
    induction n as [|n IH]; intro l; simpl; [apply fails_runtime_ok|].
    apply fails_runtime_bind; [apply read_num_err|]. intros [t r].
    apply fails_runtime_bind; [apply IH|]. intros [es r2]. apply fails_runtime_ok.
  Qed.

  Lemma read_field_err d f l : fails_runtime (read_field P d f l).
  Proof.
    unfold read_field. destruct (fkind f) as [sg sz|sz|w]; [| |apply read_str_els_err].
    all: apply fails_runtime_bind; [apply read_num_els_err|]; intros [es r]; apply fails_runtime_ok.
  Qed.

  Lemma read_row_err d : forall fs keep l, fails_runtime (read_row P d fs keep l).
  Proof.
    induction fs as [|f fs IH]; intros keep l; simpl; [apply fails_runtime_ok|].
    apply fails_runtime_bind; [apply read_field_err|]. intros [els r].
    apply fails_runtime_bind; [apply IH|]. intros [rest r2]. apply fails_runtime_ok.
  Qed.

  Lemma read_rows_all_err d fs keep : forall n l, fails_runtime (read_rows_all P d fs keep n l).
  Proof.
    induction n as [|n IH]; intro l; simpl; [apply fails_runtime_ok|].
    apply fails_runtime_bind; [apply read_row_err|]. intros [r l2].
    apply fails_runtime_bind; [apply IH|]. intro rs. apply fails_runtime_ok.
  Qed.
End ErrClass.

(* blank tolerance of the format "<conv> <delim>": white space before a number and between a number and its
   (non-blank) delimiter is skipped; the stream is left right behind the delimiter *)
Theorem blank_tolerance k d pre tok mid rest :
  byte_eqb d space = false -> numchar d = false -> is_ws d = false ->
  all_ws pre -> all_ws mid -> tok_ok k tok = true ->
  read_num k d (pre ++ tok ++ mid ++ d :: rest) = Ok (tok, rest).
Proof.
  intros Hsp Hdn Hdw Hpre Hmid Htok. unfold read_num, fscanf_num. rewrite Hsp. rewrite skip_ws_all_ws by exact Hpre.
  destruct (tok_ok_head k tok Htok) as [b [r [-> Hb]]].
  change ((b :: r) ++ mid ++ d :: rest) with (b :: (r ++ mid ++ d :: rest)).
  rewrite skip_ws_stop by (apply numchar_not_ws; exact Hb).
  change (b :: (r ++ mid ++ d :: rest)) with ((b :: r) ++ (mid ++ d :: rest)).
  assert (He : ends_tok (mid ++ d :: rest)).
  { destruct mid as [|m mid]; simpl; [exact Hdn|]. pose proof (Forall_inv Hmid) as Hm. simpl in Hm.
    destruct (numchar m) eqn:E; [|reflexivity]. apply numchar_not_ws in E. congruence. }
  rewrite (scan_tok_ends k (b :: r) _ Htok He). cbv beta iota.
  rewrite skip_ws_all_ws by exact Hmid. rewrite skip_ws_stop by exact Hdw. rewrite byte_eqb_refl. reflexivity.
Qed.
