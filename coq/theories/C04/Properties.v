(* C04 -- the property theorems (the longer proofs live in DecProofs.v / ScanProofs.v / WriteProofs.v / RoundTrip.v /
   CheckProofs.v and the other proof files).

   F sz e : the text printf("%.16g" / "%.7g") writes for the floating-point element with native bytes e
   P sz s : the native bytes scanf("%lf" / "%f") stores for the token s
   They are universally quantified; [fcontract F P t] (Spec.v, H_num) is the only thing assumed about
   them and is evaluated by the contract monitor on every case of every run. *)
From Coq Require Import Qabs Lqa.
From Coq.Strings Require Import Byte.
From EsVerif.Common Require Import Base Bytes.
From EsVerif.C04 Require Import TextModel Spec DecProofs ScanProofs WriteProofs RoundTrip CheckProofs FmtModel FmtProofs AccProofs Exec ExecProofs History ScanSpec CheckComplete NoNewline TieProofs.
Open Scope Z_scope.

(* integers: printf %d / scanf %d and the memory image are inverse to each other *)
Theorem C04_dec_parse_roundtrip : forall z, parse_dec (dec z) = z.
Proof. exact dec_parse_roundtrip. Qed.

Theorem C04_dec_chars : forall z, tok_ok TInt (dec z) = true
  /\ exists sg ds, dec z = sg ++ ds /\ (sg = [] \/ sg = [minus]) /\ ds <> [] /\ Forall (fun b => is_digit b = true) ds.
Proof. intro z. split; [apply tok_ok_dec|apply dec_shape]. Qed.

Theorem C04_int_image_roundtrip : forall sg e, encode_le (length e) (decode_le sg e) = e.
Proof. exact encode_decode_le. Qed.

(* the scanner: after the text of a field followed by its delimiter or newline, the reader returns
   the field and leaves the stream at the first byte of the next field -- under the premise the proof
   forces: a numeric field read with the format "<conv> <delim>" must not be followed (behind a
   white-space separator) by white space or the delimiter character *)
Theorem C04_scan_field_consumes_exactly : forall F P d, delim_ok d -> forall f els sep rest,
  fld_ok_b f = true -> length els = fnel f -> Forall (cell_good F P (fkind f)) els ->
  sep = d \/ sep = nl ->
  (is_str (fkind f) = false -> byte_eqb d space = false -> safe_next d sep rest) ->
  read_field P d f (join_els d (map (cell_text F (fkind f)) els) ++ sep :: rest)
  = Ok (map (rt_el F P (fkind f)) els, rest).
Proof. exact read_field_ok. Qed.

(* the round trip (sfile: the row count comes from the header), outside the known class *)
Theorem C04_roundtrip_outside_known : forall F P d t,
  table_ok t -> delim_ok d -> fcontract F P t -> kf_leading_ws_after_numeric d t = false ->
  read_text P d (tdt t) (Z.of_nat (length (trows t))) (write_text F d t) = Ok (expected F P t)
  /\ roundtrip_ok t (read_text P d (tdt t) (Z.of_nat (length (trows t))) (write_text F d t)).
Proof.
  intros F P d t Ht Hd Hc Hk. pose proof (roundtrip_model F P d Hd t Ht Hc Hk) as E.
  split; [exact E|]. rewrite E. apply expected_ok; assumption.
Qed.

(* the same through Recfile without nrows= (rows counted as lines of the file) *)
Theorem C04_roundtrip_recfile_outside_known : forall F P d t,
  table_ok t -> delim_ok d -> fcontract F P t -> strings_noeol t -> kf_leading_ws_after_numeric d t = false ->
  count_lines (write_text F d t) = Z.of_nat (length (trows t))
  /\ roundtrip_ok t (read_text P d (tdt t) (count_lines (write_text F d t)) (write_text F d t)).
Proof.
  intros F P d t Ht Hd Hc Hn Hk. pose proof (count_lines_text F P d Hd t Ht Hc Hn) as E.
  split; [exact E|]. rewrite E. apply C04_roundtrip_outside_known; assumption.
Qed.

(* for the white-space delimiter the statement holds at full strength (the class is empty) *)
Theorem C04_roundtrip_space_delim : forall F P t,
  table_ok t -> fcontract F P t ->
  roundtrip_ok t (read_text P space (tdt t) (Z.of_nat (length (trows t))) (write_text F space t)).
Proof. intros F P t Ht Hc. apply C04_roundtrip_outside_known; try assumption; reflexivity. Qed.

(* the instance the correspondence run evaluates: printf("%.<p>g") and strtod/strtof as modelled in
   FmtModel.v, the precisions <p> being Gen.print_prec_f8 / Gen.print_prec_f4 (regenerated from
   records.cpp on every run).  [fcontract F_model P_model t] is decided by evaluation for every case. *)
Theorem C04_roundtrip_fmt_model : forall d t,
  table_ok t -> delim_ok d -> fcontract F_model P_model t -> kf_leading_ws_after_numeric d t = false ->
  read_text P_model d (tdt t) (Z.of_nat (length (trows t))) (write_text F_model d t) = Ok (expected F_model P_model t)
  /\ roundtrip_ok t (read_text P_model d (tdt t) (Z.of_nat (length (trows t))) (write_text F_model d t)).
Proof. intros d t. apply C04_roundtrip_outside_known. Qed.

(* two of the three parts of H_num hold for the modelled printf/strtod for EVERY memory image and every precision:
   the printed text is one well-formed scanf token, and strtod stores exactly sz bytes for it.  H_num therefore
   reduces to its accuracy part (16 / 7 significant digits, NaN, +-inf), which is what the monitor decides per case *)
Theorem C04_fmt_model_token : forall sz e, tok_ok TFloat (F_model sz e) = true.
Proof. intros sz e. apply fmt_g_tok_ok. Qed.

Theorem C04_fmt_model_length : forall sz e, sz = 4%nat \/ sz = 8%nat -> length (P_model sz (F_model sz e)) = sz.
Proof. intros sz e. intro Hsz. unfold F_model. rewrite P_fmt_g_length. apply fp_bytes. exact Hsz. Qed.

Theorem C04_fmt_model_contract_is_accuracy : forall t,
  table_ok t -> facc_b F_model P_model t = true -> fcontract F_model P_model t.
Proof.
  intro t. unfold table_ok, table_ok_b, facc_b, fcontract, fcontract_b. intros Hok Ha.
  apply andb_true_iff in Hok. destruct Hok as [Hok _]. apply andb_true_iff in Hok. destruct Hok as [Hok _].
  apply andb_true_iff in Hok. destruct Hok as [Hf _].
  induction (trows t) as [|r rows IH]; simpl in *; [reflexivity|].
  apply andb_true_iff in Ha. destruct Ha as [Har Hal].
  rewrite (facc_row_contract (tdt t) _ Hf Har), (IH Hal). reflexivity.
Qed.

(* the contract is not vacuous for the modelled printf/strtod: binary64 1/3, -0, nan, inf, the least subnormal,
   1e22, 123456, 0.0001, binary32 0.1f and FLT_MAX print as glibc prints them and come back within the stated digits *)
(* the accuracy part as a theorem on finite sub-domains (decided by the kernel): every integer |z| <= 2000 held in
   a binary32 or binary64 column -- this contains the only text data of esutil's own test-suite -- is printed as a
   well-formed token and read back EXACTLY; powers of two and ten meet the contract *)
Theorem C04_accuracy_small_integers : forall sz z, sz = 4%nat \/ sz = 8%nat -> -2000 <= z <= 2000 ->
  fcell_ok_b F_model P_model sz (int_img sz z) = true
  /\ P_model sz (F_model sz (int_img sz z)) = int_img sz z
  /\ is_int_val (int_img sz z) z = true.
Proof.
  intros sz z Hsz Hz. destruct (Z.eq_dec z 0) as [->|Hz0].
  - destruct Hsz as [-> | ->]; repeat split; reflexivity.
  - apply accuracy_integers; [exact Hsz|]. destruct Hsz as [-> | ->]; repeat split; simpl; lia.
Qed.

Theorem C04_accuracy_powers : forall k,
  (-128 <= k <= 128 -> fcell_ok_b F_model P_model 8 (pow_img 2 8 k) = true)
  /\ (-149 <= k <= 127 -> fcell_ok_b F_model P_model 4 (pow_img 2 4 k) = true)
  /\ (-40 <= k <= 40 -> fcell_ok_b F_model P_model 8 (pow_img 10 8 k) = true)
  /\ (-37 <= k <= 38 -> fcell_ok_b F_model P_model 4 (pow_img 10 4 k) = true).
Proof.
  assert (fits : int_fits 8 (2 ^ 52) /\ int_fits 4 (2 ^ 23) /\ int_fits 8 (10 ^ 15) /\ int_fits 4 (10 ^ 6))
    by (repeat split; discriminate || reflexivity).
  destruct fits as (f1 & f2 & f3 & f4). intro k. repeat split; intro Hk.
  - apply (pow_acc_ok 2 8 52); auto; [lia|]. apply (forallb_range _ _ _ pow2_8_b). simpl. lia.
  - apply (pow_acc_ok 2 4 23); auto; [lia|]. apply (forallb_range _ _ _ pow2_4_b). simpl. lia.
  - apply (pow_acc_ok 10 8 15); auto; [lia|]. apply (forallb_range _ _ _ pow10_8_b). simpl. lia.
  - apply (pow_acc_ok 10 4 6); auto; [lia|]. apply (forallb_range _ _ _ pow10_4_b). simpl. lia.
Qed.

(* where the accuracy clause of H_num comes from: printing correctly rounded to [digits] significant digits and reading
   back a nearest representable number (x itself being representable) differ from x by at most one unit of the last
   digit; and the two rounding steps of the model (decimal digits in printf, binary mantissa in strtod) are
   nearest-roundings of the exact quotient *)
Theorem C04_accuracy_from_correct_rounding : forall digits x p y e,
  (Qpower ten e <= Qabs x)%Q -> (Qabs x < Qpower ten (e + 1))%Q ->
  (Qabs (p - x) <= (1 # 2) * Qpower ten (e - digits + 1))%Q ->
  (Qabs (y - p) <= Qabs (x - p))%Q ->
  sig_close digits x y.
Proof.
  intros digits x p y e H1 H2 Hp Hy. right. exists e. split; [exact H1|]. split; [exact H2|].
  assert (T : (Qabs (y - x) <= Qabs (y - p) + Qabs (p - x))%Q).
  { setoid_replace (y - x)%Q with ((y - p) + (p - x))%Q by ring. apply Qabs_triangle. }
  assert (S : (Qabs (x - p) == Qabs (p - x))%Q).
  { setoid_replace (x - p)%Q with (- (p - x))%Q by ring. apply Qabs_opp. }
  rewrite S in Hy. lra.
Qed.

Theorem C04_model_rounding_is_nearest : forall a b, 0 <= a -> 0 < b -> 2 * Z.abs (rhe a b * b - a) <= b.
Proof. exact rhe_nearest. Qed.

Example C04_fmt_model_examples :
  F16 8 [x55; x55; x55; x55; x55; x55; xd5; x3f] = [x30; x2e; x33; x33; x33; x33; x33; x33; x33; x33; x33; x33; x33; x33; x33; x33; x33; x33]
  /\ F16 8 [x00; x00; x00; x00; x00; x00; x00; x80] = [x2d; x30]
  /\ F16 8 [x01; x00; x00; x00; x00; x00; x00; x00] = [x34; x2e; x39; x34; x30; x36; x35; x36; x34; x35; x38; x34; x31; x32; x34; x36; x35; x65; x2d; x33; x32; x34]
  /\ F16 8 [x92; xd5; x4d; x06; xcf; xf0; x80; x44] = [x31; x65; x2b; x32; x32]
  /\ F16 8 [x00; x00; x00; x00; x00; x24; xfe; x40] = [x31; x32; x33; x34; x35; x36]
  /\ F16 8 [x2d; x43; x1c; xeb; xe2; x36; x1a; x3f] = [x30; x2e; x30; x30; x30; x31]
  /\ F16 4 [xcd; xcc; xcc; x3d] = [x30; x2e; x31]
  /\ F16 4 [xff; xff; x7f; x7f] = [x33; x2e; x34; x30; x32; x38; x32; x33; x65; x2b; x33; x38]
  /\ P_model 8 [x30; x2e; x31] = [x9a; x99; x99; x99; x99; x99; xb9; x3f]
  /\ P_model 4 [x33; x2e; x34; x30; x32; x38; x32; x33; x65; x2b; x33; x38] = [xfd; xff; x7f; x7f]
  /\ fcell_ok_b F16 P_model 8 [x55; x55; x55; x55; x55; x55; xd5; x3f] = true
  /\ fcell_ok_b F16 P_model 8 [x01; x00; x00; x00; x00; x00; x00; x00] = true
  /\ fcell_ok_b F16 P_model 8 [x00; x00; x00; x00; x00; x00; xf8; xff] = true
  /\ fcell_ok_b F16 P_model 8 [x00; x00; x00; x00; x00; x00; xf0; xff] = true
  /\ fcell_ok_b F16 P_model 4 [xff; xff; x7f; x7f] = true
  /\ fcell_ok_b F16 P_model 4 [xcd; xcc; xcc; x3d] = true.
Proof.
  (* each text is evaluated once: the cells below reuse the printed texts above, and only their accuracy clause is evaluated *)
  assert (K : forall A B : Prop, A -> (A -> B) -> A /\ B) by tauto.
  assert (C : forall sz e t, sz = 4%nat \/ sz = 8%nat -> F16 sz e = t ->
              fval_ok_b (digits_of sz) (fdecode e) (fdecode (P_model sz t)) = true -> fcell_ok_b F16 P_model sz e = true).
  { intros sz e t Hsz <-. apply (fcell_ok_of_acc digits_of). exact Hsz. }
  apply K; [vm_compute; reflexivity|intro H1]. split; [vm_compute; reflexivity|].
  apply K; [vm_compute; reflexivity|intro H3]. do 3 (split; [vm_compute; reflexivity|]).
  apply K; [vm_compute; reflexivity|intro H7]. apply K; [vm_compute; reflexivity|intro H8].
  do 2 (split; [vm_compute; reflexivity|]).
  split; [apply (C _ _ _ (or_intror eq_refl) H1); vm_compute; reflexivity|].
  split; [apply (C _ _ _ (or_intror eq_refl) H3); vm_compute; reflexivity|].
  do 2 (split; [apply (C _ _ _ (or_intror eq_refl) eq_refl); vm_compute; reflexivity|]).
  split; [apply (C _ _ _ (or_introl eq_refl) H8)|apply (C _ _ _ (or_introl eq_refl) H7)]; vm_compute; reflexivity.
Qed.

(* the full statement ("for every single-character delimiter", strings with leading blanks) is false
   of the code: [('s','S3'),('i','i4')], rows ("  a",1),("  b",2), delim ',' *)

Theorem C04_full_refuted : exists F P d t,
  table_ok t /\ delim_ok d /\ fcontract F P t /\ strings_noeol t
  /\ ~ roundtrip_ok t (read_text P d (tdt t) (Z.of_nat (length (trows t))) (write_text F d t)).
Proof.
  exists (fun _ e => e), (fun _ e => e), x2c, kf_witness.
  split; [reflexivity|]. split; [reflexivity|]. split; [reflexivity|]. split; [reflexivity|].
  assert (E : read_text (fun _ e => e) x2c (tdt kf_witness) (Z.of_nat (length (trows kf_witness)))
                (write_text (fun _ e => e) x2c kf_witness) = Err ERuntime) by (vm_compute; reflexivity).
  rewrite E. intros [tout [H _]]. discriminate.
Qed.

(* every clause of the class is needed: each has an in-scope member on which the read fails *)
Theorem C04_known_class_each_clause_refuted :
  refutes x2c kf_witness /\ refutes x3b w_delim /\ refutes x09 w_tab
  /\ kf_leading_ws_after_numeric x2c w_tab = false /\ kf_leading_ws_after_numeric x2c w_delim = false
  /\ kf_leading_ws_after_numeric space kf_witness = false.
Proof.
  (* kf_witness: the first cell of the next row starts with white space; w_delim: it starts with the delimiter;
     w_tab: same row, tab delimiter, a cell starts with white space *)
  do 3 (split; [apply refutes_by_error; vm_compute; reflexivity|]). repeat split; reflexivity.
Qed.

(* second known class: a finite binary64 whose 16-digit text exceeds the largest finite value is read back as an
   infinity (the largest finite double and its predecessor, either sign).  For the modelled printf/strtod with the
   precision of records.cpp the contract H_num FAILS on such a cell: 1.7976931348623157e308 prints as
   1.797693134862316e+308, which strtod rounds to +inf *)
Theorem C04_float_print_overflow_witness :
  table_ok w_dblmax /\ kf_float_print_overflow F16 P_model w_dblmax = true /\ fcontract_b F16 P_model w_dblmax = false
  /\ F16 8 [xff; xff; xff; xff; xff; xff; xef; x7f]
     = [x31; x2e; x37; x39; x37; x36; x39; x33; x31; x33; x34; x38; x36; x32; x33; x31; x36; x65; x2b; x33; x30; x38]
  /\ P_model 8 (F16 8 [xff; xff; xff; xff; xff; xff; xef; x7f]) = [x00; x00; x00; x00; x00; x00; xf0; x7f].
Proof.
  (* the one cell is printed once and its text read once *)
  set (e := [xff; xff; xff; xff; xff; xff; xef; x7f]).
  assert (Hk : forall F P, kf_float_print_overflow F P w_dblmax = is_finite (fdecode e) && is_infinite (fdecode (P 8%nat (F 8%nat e))))
    by (intros; cbn -[fdecode]; rewrite !orb_false_r; reflexivity).
  assert (Hc : forall F P, fcontract_b F P w_dblmax = fcell_ok_b F P 8 e) by (intros; cbn -[fcell_ok_b]; rewrite !andb_true_r; reflexivity).
  rewrite Hk, Hc. unfold fcell_ok_b.
  assert (F16 8 e = [x31; x2e; x37; x39; x37; x36; x39; x33; x31; x33; x34; x38; x36; x32; x33; x31; x36; x65; x2b; x33; x30; x38]) as ->
    by (vm_compute; reflexivity).
  assert (P_model 8 [x31; x2e; x37; x39; x37; x36; x39; x33; x31; x33; x34; x38; x36; x32; x33; x31; x36; x65; x2b; x33; x30; x38]
          = [x00; x00; x00; x00; x00; x00; xf0; x7f]) as -> by (vm_compute; reflexivity).
  repeat split; reflexivity.
Qed.

(* the stored header records the delimiter and a byte-order-free dtype *)
Theorem C04_header : forall d t, header_ok d t (header_delim d, header_dtype (tdt t)).
Proof.
  intros d t. unfold header_ok, header_delim, header_dtype. simpl. split; [reflexivity|].
  induction (tdt t) as [|f fs IH]; simpl; constructor; [|exact IH].
  unfold hfield_match. simpl. repeat split; try discriminate; destruct (fkind f) as [[|] sz|sz|w]; simpl; discriminate.
Qed.

(* tables holding the same values in different byte orders produce the same text *)
Theorem C04_big_endian_same_text : forall F d t t',
  map fkind (tdt t) = map fkind (tdt t') ->
  map (to_native_row (tdt t)) (trows t) = map (to_native_row (tdt t')) (trows t') ->
  write_text F d t = write_text F d t'.
Proof. exact same_values_same_text. Qed.

Theorem C04_write_text_native : forall F d t, write_text F d (native_table t) = write_text F d t.
Proof.
  intros F d t. apply same_values_same_text; unfold native_table; cbn [tdt trows].
  - rewrite map_map. reflexivity.
  - rewrite map_map. apply map_ext. intro r. apply to_native_row_native.
Qed.

(* soundness of the checkers evaluated on the implementation's outputs *)
Theorem C04_checkers_sound :
  (forall tin out, roundtrip_check tin out = true -> roundtrip_ok tin out)
  /\ (forall d t h, header_check d t h = true -> header_ok d t h)
  /\ (forall digits a b, fval_ok_b digits a b = true -> fval_ok digits a b).
Proof.
  split; [exact roundtrip_check_sound|]. split; [intros d t h; apply header_check_iff|exact fval_ok_b_sound].
Qed.

(* the verdict terms of the correspondence run evaluate exactly the models above (the tabulated printf/strtod
   values are F_model / P_model), and verdict 0 on an in-scope case establishes the property for the
   implementation's output, the equality of the file text with the model's, H_num, and non-membership of the class *)
Theorem C04_exec_models : forall t d,
  m_sfile2 d t = m_sfile_gen F_model P_model d t
  /\ m_recfile2 d t = m_recfile_gen F_model P_model d t
  /\ fcontract_b (F_tab (ftab t)) (P_tab (ptab (ftab t))) t = fcontract_b F_model P_model t.
Proof.
  intros t d. split; [|split].
  - unfold m_sfile2, m_sfile_gen. cbv zeta.
  rewrite (write_text_ext _ _ (F_tab_model t)). rewrite (read_text_ext _ _ (P_tab_model (ftab t))). reflexivity.
  - unfold m_recfile2, m_recfile_gen. cbv zeta.
  rewrite (write_text_ext _ _ (F_tab_model t)). rewrite (read_text_ext _ _ (P_tab_model (ftab t))). reflexivity.
  - apply fcontract_ext; [apply F_tab_model|apply P_tab_model].
Qed.

Theorem C04_verdict0_sfile : forall d t text h out, in_scope d t = true -> v_sfile2 d t text h out = 0 ->
  text = write_text F_model d t /\ roundtrip_ok t out /\ header_ok d t h
  /\ fcontract F_model P_model t /\ kf_leading_ws_after_numeric d t = false.
Proof. exact verdict0_sfile. Qed.

Theorem C04_verdict0_recfile : forall d t text out, in_scope d t = true -> v_recfile2 d t text out = 0 ->
  text = write_text F_model d t /\ roundtrip_ok t out
  /\ fcontract F_model P_model t /\ kf_leading_ws_after_numeric d t = false.
Proof. exact verdict0_recfile. Qed.

(* history: the two operations as a step function over a file system (History.v).  sfile.read takes delimiter,
   dtype and row count from the STORED header; the reader's fields rebuilt from the byte-order-free type strings are
   the native fields of the table that was written *)
Theorem C04_reader_fields_from_header : forall fs : list fld, map fld_of_header (header_dtype fs) = map native_fld fs.
Proof. exact fld_of_header_native. Qed.

(* frame: a read changes no file; a write changes only its own path *)
Theorem C04_read_changes_nothing : forall F P fs p, fst (step F P fs (ORead p)) = fs.
Proof. reflexivity. Qed.

Theorem C04_write_changes_only_its_path : forall F P fs p d t q, bytes_eqb p q = false ->
  fs_get (fst (step F P fs (OWrite p d t))) q = fs_get fs q.
Proof. intros F P fs p d t q. intro H. cbn [step fst]. apply fs_get_set_other. exact H. Qed.

(* the answer of a read is determined by the last write to its path alone: whatever the file system held before (same
   size or not), whatever other paths were written or read in between; it is the single-call model *)
Theorem C04_read_after_write : forall F P fs0 before p d t between,
  forallb (fun o => negb (writes_path p o)) between = true ->
  snd (step F P (run_ops F P (fst (step F P (run_ops F P fs0 before) (OWrite p d t))) between) (ORead p))
  = OutRead (read_text P d (tdt t) (Z.of_nat (length (trows t))) (write_text F d t)).
Proof. exact read_after_write. Qed.

(* the round-trip theorem for any history: after a write of an in-scope table outside the known class, every later
   read of that path -- whatever else was written or read in between, whatever the path held before -- satisfies the property *)
Theorem C04_roundtrip_any_history : forall F P fs0 before p d t between,
  table_ok t -> delim_ok d -> fcontract F P t -> kf_leading_ws_after_numeric d t = false ->
  forallb (fun o => negb (writes_path p o)) between = true ->
  exists r, snd (step F P (run_ops F P (fst (step F P (run_ops F P fs0 before) (OWrite p d t))) between) (ORead p)) = OutRead r
            /\ r = Ok (expected F P t) /\ roundtrip_ok t r.
Proof.
  intros F P fs0 before p d t between. intros Ht Hd Hc Hk Hb. rewrite (read_after_write F P fs0 before p d t between Hb).
  eexists. split; [reflexivity|]. rewrite (roundtrip_model F P d Hd t Ht Hc Hk).
  split; [reflexivity|apply expected_ok; assumption].
Qed.

(* the scanner on ARBITRARY text (ScanSpec.v): maximal munch, exact acceptance and rejection *)
Theorem C04_scan_tok_accepts : forall k l t r, scan_tok k l = TOk t r <->
  l = t ++ r /\ tok_ok k t = true /\ (exists s, steps k Q0 t = Some s /\ match r with [] => True | c :: _ => TextModel.step k s c = None end).
Proof. exact scan_tok_accepts. Qed.

(* rejection: the longest prefix the automaton can take is not a complete token *)
Theorem C04_scan_tok_rejects : forall k l, (exists r, scan_tok k l = TFail r) <->
  (exists s t r, run k Q0 l = (s, t, r) /\ accepting s = false).
Proof.
  intros k l. unfold scan_tok. destruct (run k Q0 l) as [[s t] r] eqn:R. split.
  - intros [r' H]. destruct (accepting s) eqn:A; [discriminate|]. exists s, t, r. auto.
  - intros [s' [t' [r' [E A]]]]. inversion E; subst. rewrite A. eexists. reflexivity.
Qed.

(* the empty-field branch of scan_column_values: NaN for floating point, RuntimeError for integers; other garbage and
   end of file are errors *)
Theorem C04_empty_field : forall d, delim_ok d -> byte_eqb d space = false -> is_ws d = false -> forall pre r, all_ws pre ->
  read_num TFloat d (pre ++ d :: r) = Ok (nan_tok, r) /\ read_num TInt d (pre ++ d :: r) = Err ERuntime.
Proof. intros d Hd Hs Hw pre r Hp. split; [apply empty_field_float|apply empty_field_int]; assumption. Qed.

(* anything that is neither white space, the delimiter nor able to start a number is an error *)
Theorem C04_garbage_field : forall d, byte_eqb d space = false -> forall k pre c r,
  all_ws pre -> is_ws c = false -> numchar c = false -> c <> d -> read_num k d (pre ++ c :: r) = Err ERuntime.
Proof.
  intros d Hsp k pre c r. intros Hp Hw Hn Hne. unfold read_num, fscanf_num. rewrite Hsp. rewrite skip_ws_all_ws by exact Hp.
  rewrite skip_ws_stop by exact Hw. unfold scan_tok. rewrite (run_stuck k c r Hn). simpl.
  apply byte_eqb_false in Hne. rewrite Hne. reflexivity.
Qed.

(* end of file (possibly after white space) is an error, in both modes *)
Theorem C04_eof_field : forall k d pre, all_ws pre -> read_num k d pre = Err ERuntime.
Proof.
  intros k d' pre. intro Hp. unfold read_num, fscanf_num. rewrite <- (app_nil_r pre). rewrite skip_ws_all_ws by exact Hp. simpl.
  destruct (byte_eqb d' space); reflexivity.
Qed.

(* fixed-width strings: exactly w bytes, none 0xff; a file that ends inside a string cell is rejected *)
Theorem C04_take_bytes_spec : forall w l e r, take_bytes w l = Ok (e, r) <->
  l = e ++ r /\ length e = w /\ Forall (fun b => byte_eqb b xff = false) e.
Proof. exact take_bytes_spec. Qed.

(* a file that ends inside a string cell is rejected *)
Theorem C04_take_bytes_truncated : forall w l, (length l < w)%nat -> take_bytes w l = Err ERuntime.
Proof.
  induction w as [|w IH]; intros l H; [lia|]. simpl. destruct l as [|b l]; [reflexivity|].
  destruct (byte_eqb b xff); [reflexivity|]. simpl in H. rewrite IH by lia. reflexivity.
Qed.

(* rejections: whatever the text, the reader succeeds or fails with RuntimeError; no other error class *)
Theorem C04_read_error_class : forall P d fs n l e, read_text P d fs n l = Err e -> e = ERuntime.
Proof.
  intros P d fs n l e. unfold read_text. destruct (n <? 1); [intro H; inversion H; reflexivity|].
  unfold read_text_columns. destruct (read_rows_all P d (map native_fld fs) _ (Z.to_nat n) l) as [rows|e1] eqn:R; simpl; [discriminate|].
  intro H. inversion H; subst. eapply read_rows_all_err. exact R.
Qed.

(* option path nrows= smaller than the file (or the first rows of a larger file): the first k rows come back *)
Theorem C04_read_first_rows : forall F P d, delim_ok d -> forall t k,
  table_ok t -> fcontract F P t -> kf_leading_ws_after_numeric d t = false ->
  (1 <= k <= length (trows t))%nat ->
  read_text P d (tdt t) (Z.of_nat k) (write_text F d t)
  = Ok {| tdt := map native_fld (tdt t); trows := firstn k (trows (expected F P t)) |}.
Proof. exact read_first_rows. Qed.

(* blank tolerance of "<conv> <delim>": blanks before a number and between a number and its non-blank delimiter are skipped *)
Theorem C04_blank_tolerance : forall k d pre tok mid rest,
  byte_eqb d space = false -> numchar d = false -> is_ws d = false ->
  all_ws pre -> all_ws mid -> tok_ok k tok = true ->
  read_num k d (pre ++ tok ++ mid ++ d :: rest) = Ok (tok, rest).
Proof. exact blank_tolerance. Qed.

(* the newline behind the last row is not needed: a file that ends right behind the last cell reads the same *)
Theorem C04_roundtrip_without_final_newline : forall F P d, delim_ok d -> forall t,
  table_ok t -> fcontract F P t -> kf_leading_ws_after_numeric d t = false ->
  read_text P d (tdt t) (Z.of_nat (length (trows t))) (removelast (write_text F d t)) = Ok (expected F P t).
Proof. exact roundtrip_without_final_newline. Qed.

(* the checkers DECIDE the property where no real-number search is involved (CheckComplete.v) *)
Theorem C04_header_check_iff : forall d t h, header_check d t h = true <-> header_ok d t h.
Proof. exact header_check_iff. Qed.

Theorem C04_roundtrip_check_iff_float_free : forall tin out, float_free tin = true ->
  (roundtrip_check tin out = true <-> roundtrip_ok tin out).
Proof. intros tin out. intro Hf. split; [apply roundtrip_check_sound|apply roundtrip_check_complete; exact Hf]. Qed.

(* non-vacuity of the new statements: a write, an unrelated write and a read in between, then the read *)
Example C04_history_example :
  let F := fun (_ : nat) (e : list byte) => e in
  let ops := [OWrite [x61] x2c nv_table; OWrite [x62] x3b kf_witness; ORead [x62]] in
  snd (step F F (run_ops F F [] ops) (ORead [x61])) = OutRead (Ok (expected F F nv_table))
  /\ float_free kf_witness = true /\ roundtrip_check nv_table (Ok (expected F F nv_table)) = true
  /\ read_num TFloat x2c [x20; x2c; x35] = Ok (nan_tok, [x35])
  /\ scan_tok TFloat [x31; x65; x2c] = TOk [x31; x65] [x2c]
  /\ scan_tok TFloat [x2d; x2c] = TFail [x2c]
  /\ take_bytes 3 [x61; x62] = Err ERuntime
  /\ read_num TInt x2c [x20; x37; x20; x20; x2c; x38] = Ok ([x37], [x38])
  /\ read_text F x2c (tdt kf_witness) 1 (removelast (write_text F x2c kf_witness))
     = Ok {| tdt := tdt (expected F F kf_witness); trows := firstn 1 (trows (expected F F kf_witness)) |}
  (* strings may hold any control character except \n and \r: \x0b, \x1c, \x00 do not end a line *)
  /\ (let t := {| tdt := [ {| fname := [x73]; fkind := KStr 3; forder := NA; fshape := [] |} ];
                   trows := [ [[[x61; x0b; x1c]]]; [[[x1e; x00; x7f]]] ] |} in
      table_ok t /\ strings_noeol t /\ count_lines (write_text F x3b t) = 2
      /\ read_text F x3b (tdt t) 2 (write_text F x3b t) = Ok (expected F F t)).
Proof. vm_compute. repeat split; reflexivity. Qed.

(* the hand model is the source's loop nest.  TieProofs.v: the writer of TextModel.v equals the double loop of WriteRows/WriteField with the conditions
   `el < nel-1`, `fnum < mNfields-1` and the row terminator; the harness proves on every run that these conditions,
   the terminator, the white-space-mode test, the extra-fgetc condition, the string byte loop bound, the [1:] slices and
   the line-count increment regenerated from the source (Gen.v) are these very terms *)
Theorem C04_source_writer_loops : forall F d fs rows, Forall (fun r : row => length r = length fs) rows ->
  rows_loop model_elem_delim model_field_delim nl F d fs rows = write_rows F d fs rows.
Proof. exact write_rows_is_source_loop. Qed.

Theorem C04_source_text_is_loop_nest : forall F d t, table_ok t ->
  rows_loop model_elem_delim model_field_delim nl F d (tdt t) (map (to_native_row (tdt t)) (trows t)) = write_text F d t.
Proof. exact write_text_is_source_loop. Qed.

Theorem C04_source_extra_getc : forall P d f l,
  read_field P d f l =
  match fkind f with
  | KStr w => read_str_els w (fnel f) l
  | k => do (es, r) <- read_num_els P k d (fnel f) l;
         Ok (es, if model_extra_getc (model_ws_mode d) 0 0 then tl r else r)
  end.
Proof. exact read_field_extra_getc. Qed.

Theorem C04_source_string_loop : forall w : nat, str_loop_count (S w) 0 (Z.of_nat w) = w.
Proof. exact str_loop_takes_w. Qed.

Theorem C04_source_header_strip : forall fs : list fld,
  header_dtype fs = map (fun f => (fname f, skipn model_strip (typestr f), fshape f)) fs.
Proof. exact header_strip. Qed.

(* non-vacuity: a table with a blank-leading string BEFORE the numeric cell in white-space mode, and the
   same with ',' and no leading blank, meet the hypotheses; the conclusion computes *)
Example C04_nonvacuous :
  table_ok nv_table /\ fcontract (fun _ e => e) (fun _ e => e) nv_table /\ strings_noeol nv_table
  /\ kf_leading_ws_after_numeric space nv_table = false /\ delim_ok space
  /\ kf_leading_ws_after_numeric x3b nv_table = false /\ delim_ok x3b
  /\ kf_leading_ws_after_numeric x09 nv_table = true
  /\ write_text (fun _ e => e) x3b nv_table
     = [x2d; x32; x3b; x32; x35; x36; x3b; x20; x61; x2c; x0a; x37; x3b; x2d; x33; x32; x37; x36; x38; x3b; x20; x20; x00; x0a].
Proof. repeat split; reflexivity. Qed.
