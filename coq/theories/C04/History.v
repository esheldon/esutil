(* C04 -- the history dimension.  A tiny file system (path |-> stored sfile) and the two operations of the property as a
   step function: sfile.write(path, table, delim) replaces the file at that path by header + text, sfile.read(path)
   takes delimiter, dtype and row count FROM THE STORED HEADER (SFile.open in read mode: _DELIM, _DTYPE, _SIZE), builds
   the reader's fields from the byte-order-free type strings and scans the text.
   Theorems: a read never changes any file; a write changes only its own path; what a read returns is determined by the
   LAST write to that path alone -- whatever was at the path before (same size or not), whatever other paths were
   written or read in between -- and equals the single-call model the round-trip theorems are about. *)
From Coq.Strings Require Import Byte.
From EsVerif.Common Require Import Base Bytes.
From EsVerif.C04 Require Import TextModel DecProofs.

Definition path := list byte.
Record sfile_data := { sf_delim : list byte; sf_dtype : list (list byte * list byte * list Z); sf_size : Z; sf_text : list byte }.
Definition fsys := list (path * sfile_data).

Fixpoint fs_get (fs : fsys) (p : path) : option sfile_data :=
  match fs with
  | [] => None
  | (q, f) :: r => if bytes_eqb q p then Some f else fs_get r p
  end.
Definition fs_set (fs : fsys) (p : path) (f : sfile_data) : fsys := (p, f) :: fs.

(* the reader's field from a stored (name, type string without byte order, shape) *)
Definition kind_of_typestr (s : list byte) : kind :=
  match s with
  | c :: ds => let n := Z.to_nat (parse_dec ds) in
               if byte_eqb c x69 then KInt true n else if byte_eqb c x75 then KInt false n
               else if byte_eqb c x66 then KFlt n else KStr n
  | [] => KStr 0
  end.
Definition fld_of_header (h : list byte * list byte * list Z) : fld :=
  let k := kind_of_typestr (snd (fst h)) in
  {| fname := fst (fst h); fkind := k; forder := native_order k; fshape := snd h |}.

Section Hist.
  Variable F P : nat -> list byte -> list byte.

  Inductive op := OWrite (p : path) (d : byte) (t : table) | ORead (p : path).
  Inductive outv := OutWritten | OutRead (r : result table).

  Definition stored (d : byte) (t : table) : sfile_data :=
    {| sf_delim := header_delim d; sf_dtype := header_dtype (tdt t);
       sf_size := Z.of_nat (length (trows t)); sf_text := write_text F d t |}.

  Definition read_stored (f : sfile_data) : result table :=
    match sf_delim f with
    | [d] => let fs := map fld_of_header (sf_dtype f) in
             do rows <- (if sf_size f <? 1 then Err ERuntime
                         else read_text_columns P d fs (sf_size f) None None (sf_text f));
             Ok {| tdt := fs; trows := rows |}
    | _ => Err EOther
    end.

  Definition step (fs : fsys) (o : op) : fsys * outv :=
    match o with
    | OWrite p d t => (fs_set fs p (stored d t), OutWritten)
    | ORead p => (fs, OutRead (match fs_get fs p with Some f => read_stored f | None => Err EOther end))
    end.

  Fixpoint run_ops (fs : fsys) (ops : list op) : fsys :=
    match ops with [] => fs | o :: r => run_ops (fst (step fs o)) r end.

  Definition writes_path (p : path) (o : op) : bool := match o with OWrite q _ _ => bytes_eqb q p | ORead _ => false end.

  Lemma kind_of_typestr_tl f : kind_of_typestr (tl (typestr f)) = fkind f.
  Proof.
    unfold typestr. cbn [tl]. unfold kind_of_typestr.
    rewrite dec_parse_roundtrip, Nat2Z.id. destruct (fkind f) as [[|] sz|sz|w]; reflexivity.
  Qed.

  Lemma fld_of_header_native : forall fs : list fld, map fld_of_header (header_dtype fs) = map native_fld fs.
  Proof.
    intro fs. unfold header_dtype. rewrite map_map. apply map_ext. intro f.
    unfold fld_of_header, native_fld. cbn [fst snd]. rewrite kind_of_typestr_tl. reflexivity.
  Qed.

  Lemma read_stored_model d t :
    read_stored (stored d t) = read_text P d (tdt t) (Z.of_nat (length (trows t))) (write_text F d t).
  Proof.
    unfold read_stored, stored, header_delim, read_text. cbn [sf_delim sf_dtype sf_size sf_text].
    rewrite fld_of_header_native. destruct (Z.of_nat (length (trows t)) <? 1); reflexivity.
  Qed.

  Lemma fs_get_set_same fs p f : fs_get (fs_set fs p f) p = Some f.
  Proof. unfold fs_set. cbn [fs_get]. assert (bytes_eqb p p = true) as -> by (apply bytes_eqb_eq; reflexivity). reflexivity. Qed.

  Lemma fs_get_set_other fs p q f : bytes_eqb p q = false -> fs_get (fs_set fs p f) q = fs_get fs q.
  Proof. intro H. unfold fs_set. cbn [fs_get]. rewrite H. reflexivity. Qed.

  Lemma run_ops_keeps fs p : forall ops, forallb (fun o => negb (writes_path p o)) ops = true ->
    fs_get (run_ops fs ops) p = fs_get fs p.
  Proof.
    intro ops. revert fs. induction ops as [|o ops IH]; intros fs H; [reflexivity|].
    cbn [forallb] in H. apply andb_true_iff in H. destruct H as [Ho Hr]. cbn [run_ops]. rewrite (IH _ Hr).
    destruct o as [q d t|q]; [|reflexivity]. cbn [step fst]. apply fs_get_set_other.
    simpl in Ho. apply negb_true_iff in Ho. exact Ho.
  Qed.

  Theorem read_after_write fs0 before p d t between :
    forallb (fun o => negb (writes_path p o)) between = true ->
    snd (step (run_ops (fst (step (run_ops fs0 before) (OWrite p d t))) between) (ORead p))
    = OutRead (read_text P d (tdt t) (Z.of_nat (length (trows t))) (write_text F d t)).
  Proof.
    intro H. cbn [step snd]. rewrite (run_ops_keeps _ p between H). cbn [step fst].
    rewrite fs_get_set_same, read_stored_model. reflexivity.
  Qed.
End Hist.
