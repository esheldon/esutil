(* C04 -- the token automaton as a fold ([steps], [run_spec]); the text the modelled printf("%.<p>g") produces is, for
   EVERY binary32/binary64 memory image and every precision, one well-formed token of scanf's floating-point grammar,
   and the modelled strtod stores sz bytes for it: the clauses (tok) and (len) of the oracle contract H_num
   (Spec.fcell_ok_b / Spec.fcontract), so that the contract reduces to its accuracy clause (acc). *)
From Coq.Strings Require Import Byte.
From EsVerif.Common Require Import Base Bytes.
From EsVerif.C04 Require Import TextModel Spec DecProofs FmtModel.

Definition digits (l : list byte) : Prop := Forall (fun b => is_digit b = true) l.

Fixpoint steps (k : tk) (s : st) (l : list byte) : option st :=
  match l with
  | [] => Some s
  | b :: r => match step k s b with Some s' => steps k s' r | None => None end
  end.

Lemma steps_app k : forall l1 l2 s, steps k s (l1 ++ l2) = match steps k s l1 with Some s1 => steps k s1 l2 | None => None end.
Proof.
  induction l1 as [|b l1 IH]; intros l2 s; simpl; [reflexivity|]. destruct (step k s b); [apply IH|reflexivity].
Qed.

(* [run] splits its input into the longest prefix the automaton can take and the rest, and that split is the only one *)
Lemma run_spec k : forall l s s' t r, run k s l = (s', t, r) <->
  l = t ++ r /\ steps k s t = Some s' /\ match r with [] => True | c :: _ => step k s' c = None end.
Proof.
  intros l s s' t r. split.
  - revert s s' t r. induction l as [|b l IH]; intros s s' t r H; simpl in H.
    + inversion H; subst. auto.
    + destruct (step k s b) as [s1|] eqn:E.
      * destruct (run k s1 l) as [[s2 t2] r2] eqn:R. inversion H; subst.
        destruct (IH _ _ _ _ R) as [E1 [E2 E3]]. split; [simpl; f_equal; exact E1|]. split; [simpl; rewrite E; exact E2|exact E3].
      * inversion H; subst. split; [reflexivity|]. split; [reflexivity|exact E].
  - intros (-> & Hs & Hm). revert s Hs. induction t as [|b t IH]; intros s Hs; simpl in *.
    + inversion Hs; subst. destruct r as [|c r]; [reflexivity|]. simpl. rewrite Hm. reflexivity.
    + destruct (step k s b) as [s1|]; [|discriminate]. rewrite (IH s1 Hs). reflexivity.
Qed.

Lemma steps_numchars k : forall t s s', steps k s t = Some s' -> Forall (fun b => numchar b = true) t.
Proof.
  induction t as [|b t IH]; intros s s' H; simpl in H; constructor.
  - unfold step in H. destruct (numchar b); [reflexivity|discriminate].
  - destruct (step k s b) as [s1|]; [eapply IH; exact H|discriminate].
Qed.

Lemma run_steps k l s s' : steps k s l = Some s' -> run k s l = (s', l, []).
Proof. intro H. apply run_spec. rewrite app_nil_r. auto. Qed.

Lemma steps_tok_ok k tok s : steps k Q0 tok = Some s -> accepting s = true -> tok_ok k tok = true.
Proof. intros H A. unfold tok_ok. rewrite (run_steps k tok Q0 s H), A. reflexivity. Qed.

(* The states of TextModel.st a printed number passes through, grouped by what may come next:
     startish  before the first digit (Q0, or QSign behind '-');      intish   inside the integer digits (QZero, QInt);
     fracish   behind the point (QIntDot) or inside the fraction (QFrac);   mant_state  intish or QFrac: 'e' may follow;
     expish    behind 'e', its sign, or inside the exponent digits (QE, QESign, QExp).
   The other states (inf/nan/hex) are never entered by the text of a finite number. *)
Definition intish (s : st) : Prop := s = QZero \/ s = QInt.
Definition startish (s : st) : Prop := s = Q0 \/ s = QSign.

Lemma digit_facts b : is_digit b = true -> numchar b = true /\ is_sign b = false /\ (lc b =? 120) = false
  /\ (lc b =? 101) = false /\ (bZ b =? 46) = false.
Proof.
  intro H. unfold is_digit in H. set (n := bZ b) in *. assert (R : 48 <= n <= 57) by lia.
  unfold numchar, is_sign, lc, is_digit, is_alpha. fold n.
  assert ((65 <=? n) && (n <=? 90) = false) as -> by lia.
  repeat split; lia.
Qed.

Lemma step_start_digit s b : startish s -> is_digit b = true -> exists s', step TFloat s b = Some s' /\ intish s'.
Proof.
  intros Hs Hb. destruct (digit_facts b Hb) as [Hn [Hsg _]]. unfold step. rewrite Hn.
  destruct Hs as [-> | ->]; simpl; rewrite ?Hsg; unfold fstart; rewrite Hb;
    destruct (bZ b =? 48); eexists; (split; [reflexivity|]); unfold intish; auto.
Qed.

Lemma step_int_digit s b : intish s -> is_digit b = true -> step TFloat s b = Some QInt.
Proof.
  intros Hs Hb. destruct (digit_facts b Hb) as [Hn [_ [Hx _]]]. unfold step. rewrite Hn.
  destruct Hs as [-> | ->]; simpl; rewrite ?Hx, Hb; reflexivity.
Qed.

Lemma steps_int_digits : forall ds s, digits ds -> intish s -> exists s', steps TFloat s ds = Some s' /\ intish s'.
Proof.
  induction ds as [|b ds IH]; intros s Hd Hs; simpl.
  - exists s. auto.
  - rewrite (step_int_digit s b Hs (Forall_inv Hd)). apply IH; [exact (Forall_inv_tail Hd)|right; reflexivity].
Qed.

Lemma steps_start_digits ds s : digits ds -> ds <> [] -> startish s -> exists s', steps TFloat s ds = Some s' /\ intish s'.
Proof.
  intros Hd Hne Hs. destruct ds as [|b ds]; [contradiction|]. simpl.
  destruct (step_start_digit s b Hs (Forall_inv Hd)) as [s1 [-> Hi]].
  apply steps_int_digits; [exact (Forall_inv_tail Hd)|exact Hi].
Qed.

Definition fracish (s : st) : Prop := s = QIntDot \/ s = QFrac.
Lemma steps_frac_digits : forall ds s, digits ds -> fracish s -> ds <> [] -> steps TFloat s ds = Some QFrac.
Proof.
  induction ds as [|b ds IH]; intros s Hd Hs Hne; [contradiction|]. simpl.
  destruct (digit_facts b (Forall_inv Hd)) as [Hn _].
  assert (E : step TFloat s b = Some QFrac).
  { unfold step. rewrite Hn. destruct Hs as [-> | ->]; simpl; rewrite (Forall_inv Hd); reflexivity. }
  rewrite E. destruct ds as [|b2 ds]; [reflexivity|].
  apply IH; [exact (Forall_inv_tail Hd)|right; reflexivity|discriminate].
Qed.

Definition expish (s : st) : Prop := s = QE \/ s = QESign \/ s = QExp.
Lemma steps_exp_digits : forall ds s, digits ds -> expish s -> ds <> [] -> steps TFloat s ds = Some QExp.
Proof.
  induction ds as [|b ds IH]; intros s Hd Hs Hne; [contradiction|]. simpl.
  destruct (digit_facts b (Forall_inv Hd)) as [Hn [Hsg _]].
  assert (E : step TFloat s b = Some QExp).
  { unfold step. rewrite Hn. destruct Hs as [-> | [-> | ->]]; simpl; rewrite ?Hsg, (Forall_inv Hd); reflexivity. }
  rewrite E. destruct ds as [|b2 ds]; [reflexivity|].
  apply IH; [exact (Forall_inv_tail Hd)|right; right; reflexivity|discriminate].
Qed.

Definition mant_state (s : st) : Prop := intish s \/ s = QFrac.

Lemma steps_dot s : intish s -> step TFloat s dot_b = Some QIntDot.
Proof. intros [-> | ->]; reflexivity. Qed.

Lemma steps_e s : mant_state s -> step TFloat s x65 = Some QE.
Proof. intros [[-> | ->] | ->]; reflexivity. Qed.

Lemma mant_accepting s : mant_state s -> accepting s = true.
Proof. intros [[-> | ->] | ->]; reflexivity. Qed.

Lemma drop_zeros_digits l : digits l -> digits (drop_zeros l).
Proof.
  induction l as [|b l IH]; intro H; simpl; [constructor|].
  destruct (byte_eqb b zero_b); [apply IH; exact (Forall_inv_tail H)|exact H].
Qed.

Lemma strip0_digits l : digits l -> digits (strip0 l).
Proof. intro H. unfold strip0. apply Forall_rev. apply drop_zeros_digits. apply Forall_rev. exact H. Qed.

Lemma firstn_digits : forall n l, digits l -> digits (firstn n l).
Proof.
  induction n as [|n IH]; intros l H; simpl; [constructor|]. destruct l as [|b l]; [constructor|].
  constructor; [exact (Forall_inv H)|apply IH; exact (Forall_inv_tail H)].
Qed.

Lemma skipn_digits : forall n l, digits l -> digits (skipn n l).
Proof.
  induction n as [|n IH]; intros l H; simpl; [exact H|]. destruct l as [|b l]; [constructor|].
  apply IH. exact (Forall_inv_tail H).
Qed.

Lemma repeat_zero_digits n : digits (repeat zero_b n).
Proof. induction n; simpl; constructor; [reflexivity|assumption]. Qed.

(* the mantissa text leads from a start state to an accepting mantissa state *)
Lemma with_frac_steps ip frac s : digits ip -> ip <> [] -> digits frac -> startish s ->
  exists s', steps TFloat s (with_frac ip frac) = Some s' /\ mant_state s'.
Proof.
  intros Hi Hne Hf Hs. unfold with_frac. pose proof (strip0_digits frac Hf) as Hfr.
  destruct (steps_start_digits ip s Hi Hne Hs) as [s1 [E1 I1]].
  destruct (strip0 frac) as [|c fr] eqn:Efr.
  - exists s1. split; [exact E1|left; exact I1].
  - exists QFrac. split; [|right; reflexivity].
    rewrite steps_app, E1.
    change (steps TFloat s1 (dot_b :: c :: fr))
      with (match step TFloat s1 dot_b with Some s' => steps TFloat s' (c :: fr) | None => None end).
    rewrite (steps_dot s1 I1).
    apply steps_frac_digits; [exact Hfr|left; reflexivity|discriminate].
Qed.

Lemma exp_text_steps X s : mant_state s -> steps TFloat s (exp_text X) = Some QExp.
Proof.
  intro Hs. unfold exp_text. cbn [app steps]. rewrite (steps_e s Hs).
  assert (Hsg : step TFloat QE (if X <? 0 then minus else plus) = Some QESign) by (destruct (X <? 0); reflexivity).
  rewrite Hsg. destruct (dec_nat_shape (Z.abs X)) as [Hd Hne].
  apply steps_exp_digits; [|right; left; reflexivity|].
  - destruct (Z.abs X <? 10); [constructor; [reflexivity|exact Hd]|exact Hd].
  - destruct (Z.abs X <? 10); [discriminate|exact Hne].
Qed.

Lemma sig_digits_shape prec N D : digits (fst (sig_digits prec N D)) /\ fst (sig_digits prec N D) <> [].
Proof. unfold sig_digits. destruct (_ =? _); simpl; apply dec_nat_shape. Qed.

Lemma firstn_S_nonempty {A} n (l : list A) : l <> [] -> firstn (S n) l <> [].
Proof. destruct l; [contradiction|discriminate]. Qed.

(* every %g text of a positive number: mantissa digits with an optional fraction, then nothing or an exponent *)
Lemma fmt_g_pos_shape prec N D : exists ip frac rest,
  fmt_g_pos prec N D = with_frac ip frac ++ rest /\ digits ip /\ ip <> [] /\ digits frac
  /\ (rest = [] \/ exists X, rest = exp_text X).
Proof.
  unfold fmt_g_pos. set (p := if prec =? 0 then 1 else prec).
  destruct (sig_digits_shape p N D) as [Hd Hne]. destruct (sig_digits p N D) as [ds X]. simpl in Hd, Hne.
  destruct ((-4 <=? X) && (X <? p)); [destruct (0 <=? X) eqn:EX|].
  - assert (Z.to_nat (X + 1) = S (Z.to_nat X)) as -> by lia.
    exists (firstn (S (Z.to_nat X)) ds), (skipn (S (Z.to_nat X)) ds), []. rewrite app_nil_r.
    repeat split; [apply firstn_digits; exact Hd|apply firstn_S_nonempty; exact Hne|apply skipn_digits; exact Hd|left; reflexivity].
  - exists [zero_b], (repeat zero_b (Z.to_nat (- X - 1)) ++ ds), []. rewrite app_nil_r.
    repeat split; [constructor; [reflexivity|constructor]|discriminate| |left; reflexivity].
    apply Forall_app. split; [apply repeat_zero_digits|exact Hd].
  - exists (firstn 1 ds), (skipn 1 ds), (exp_text X).
    repeat split; [apply firstn_digits; exact Hd|apply firstn_S_nonempty; exact Hne|apply skipn_digits; exact Hd|right; eexists; reflexivity].
Qed.

Lemma fmt_g_pos_steps prec N D s : startish s ->
  exists s', steps TFloat s (fmt_g_pos prec N D) = Some s' /\ accepting s' = true.
Proof.
  intro Hs. destruct (fmt_g_pos_shape prec N D) as (ip & frac & rest & -> & Hi & Hne & Hf & Hr).
  destruct (with_frac_steps ip frac s Hi Hne Hf Hs) as [s' [E M]]. rewrite steps_app, E.
  destruct Hr as [-> | [X ->]].
  - exists s'. split; [reflexivity|apply mant_accepting; exact M].
  - exists QExp. split; [apply exp_text_steps; exact M|reflexivity].
Qed.

Theorem fmt_g_tok_ok prec c : tok_ok TFloat (fmt_g prec c) = true.
Proof.
  destruct c as [neg|neg|neg|neg N D]; [destruct neg; reflexivity..|].   (* nan, inf, 0: fixed texts *)
  unfold fmt_g, sgn. destruct neg.
  - destruct (fmt_g_pos_steps prec N D QSign (or_intror eq_refl)) as [s' [E A]].
    eapply steps_tok_ok; [|exact A]. simpl. exact E.
  - destruct (fmt_g_pos_steps prec N D Q0 (or_introl eq_refl)) as [s' [E A]].
    eapply steps_tok_ok; [exact E|exact A].
Qed.

(* part "len" of H_num: the modelled strtod stores
   exactly sz bytes for the text the modelled printf produces (it is never taken for a hexadecimal float) *)
Lemma image_length f neg b m : length (image f neg b m) = f_bytes f.
Proof. unfold image. apply encode_le_length. Qed.

Lemma round_to_length f neg N D : length (round_to f neg N D) = f_bytes f.
Proof.
  (* whatever the branch, the result is an [image] *)
  unfold round_to, image_inf. repeat match goal with |- context [if ?c then _ else _] => destruct c end; apply image_length.
Qed.

Lemma fp_bytes sz : sz = 4%nat \/ sz = 8%nat -> f_bytes (fp_of sz) = sz.
Proof. intros [-> | ->]; reflexivity. Qed.

(* the part of P_model behind the sign *)
Definition P_body (f : fmtp) (neg : bool) (l : list byte) : list byte :=
  if starts_lc l [110; 97; 110] then image_nan f
  else if starts_lc l [105; 110; 102] then image_inf f neg
  else if starts_lc l [48; 120] then []
  else
    let '(ip, r1) := take_digits l in
    let '(fp, r2) := match r1 with
                     | b :: r => if byte_eqb b dot_b then take_digits r else ([], r1)
                     | [] => ([], [])
                     end in
    let ex := match r2 with
              | b :: r => if lc_is b 101
                          then match r with
                               | s :: r' => if byte_eqb s minus then - parse_digits 0 (fst (take_digits r'))
                                            else if byte_eqb s plus then parse_digits 0 (fst (take_digits r'))
                                            else parse_digits 0 (fst (take_digits r))
                               | [] => 0
                               end
                          else 0
              | [] => 0
              end in
    let m := parse_digits 0 (ip ++ fp) in
    let k := Z.max (- exp_clamp) (Z.min exp_clamp ex) - Z.of_nat (length fp) in
    if m =? 0 then image f neg 0 0
    else if 0 <=? k then round_to f neg (m * 10 ^ k) 1 else round_to f neg m (10 ^ (- k)).

Lemma P_model_body sz tok : P_model sz tok =
  match tok with
  | b :: r => if byte_eqb b minus then P_body (fp_of sz) true r
              else if byte_eqb b plus then P_body (fp_of sz) false r else P_body (fp_of sz) false tok
  | [] => P_body (fp_of sz) false []
  end.
Proof.
  unfold P_model, P_body. destruct tok as [|b r]; [reflexivity|].
  destruct (byte_eqb b minus); [reflexivity|]. destruct (byte_eqb b plus); reflexivity.
Qed.

Lemma P_body_length f neg l : starts_lc l [48; 120] = false -> length (P_body f neg l) = f_bytes f.
Proof.
  intro H. unfold P_body. rewrite H.
  destruct (starts_lc l [110; 97; 110]); [apply image_length|].
  destruct (starts_lc l [105; 110; 102]); [apply image_length|].
  destruct (take_digits l) as [ip r1].
  destruct (match r1 with b :: r => if byte_eqb b dot_b then take_digits r else ([], r1) | [] => ([], []) end) as [fp r2].
  cbv zeta. destruct (_ =? 0); [apply image_length|]. destruct (0 <=? _); apply round_to_length.
Qed.

(* the second byte of the printed text is never an x *)
Definition second_ok (l : list byte) : Prop := match l with _ :: c :: _ => (lc c =? 120) = false | _ => True end.

Lemma second_ok_not_hex l : second_ok l -> starts_lc l [48; 120] = false.
Proof.
  destruct l as [|a [|c l]]; try reflexivity. simpl. intro H. unfold starts_lc. simpl.
  unfold lc_is at 2. simpl. rewrite H. rewrite andb_false_r. reflexivity.
Qed.

Lemma with_frac_second ip frac rest : digits ip -> ip <> [] -> (rest = [] \/ exists r, rest = x65 :: r) ->
  second_ok (with_frac ip frac ++ rest).
Proof.
  intros Hi Hne Hr. unfold with_frac. destruct ip as [|a [|c ip]]; [contradiction| |].
  - destruct (strip0 frac) as [|c fr]; simpl.
    + destruct Hr as [-> | [r ->]]; simpl; [exact I|reflexivity].
    + reflexivity.
  - pose proof (Forall_inv (Forall_inv_tail Hi)) as Hc. destruct (digit_facts c Hc) as [_ [_ [Hx _]]].
    destruct (strip0 frac); simpl; exact Hx.
Qed.

Lemma fmt_g_pos_second prec N D : second_ok (fmt_g_pos prec N D).
Proof.
  destruct (fmt_g_pos_shape prec N D) as (ip & frac & rest & -> & Hi & Hne & _ & Hr).
  apply with_frac_second; [exact Hi|exact Hne|]. destruct Hr as [-> | [X ->]]; [left; reflexivity|right; eexists; reflexivity].
Qed.

Lemma with_frac_head ip frac rest : digits ip -> ip <> [] ->
  exists b r, with_frac ip frac ++ rest = b :: r /\ is_digit b = true.
Proof.
  intros Hi Hne. unfold with_frac. destruct ip as [|a ip]; [contradiction|].
  pose proof (Forall_inv Hi) as Ha. destruct (strip0 frac); simpl; eexists; eexists; (split; [reflexivity|exact Ha]).
Qed.

Lemma fmt_g_pos_head prec N D : exists b r, fmt_g_pos prec N D = b :: r /\ is_digit b = true.
Proof.
  destruct (fmt_g_pos_shape prec N D) as (ip & frac & rest & -> & Hi & Hne & _). apply with_frac_head; assumption.
Qed.

Lemma P_fmt_g_length sz prec c : length (P_model sz (fmt_g prec c)) = f_bytes (fp_of sz).
Proof.
  rewrite P_model_body.
  destruct c as [neg|neg|neg|neg N D]; [destruct neg; simpl; apply P_body_length; reflexivity..|].   (* nan, inf, 0 *)
  unfold fmt_g, sgn. destruct (fmt_g_pos_head prec N D) as [b [r [E Hb]]].
  pose proof (fmt_g_pos_second prec N D) as H2.
  destruct neg.
  - change (byte_eqb minus minus) with true. cbv iota. apply P_body_length. apply second_ok_not_hex. exact H2.
  - rewrite E in *. destruct (is_digit_not_sign b Hb) as [-> ->]. apply P_body_length. apply second_ok_not_hex. exact H2.
Qed.

(* H_num for the modelled printf/strtod reduces to its
   accuracy part: every floating-point element comes back to 16 / 7 significant digits *)
Section Acc.
  Variable F P : nat -> list byte -> list byte.
  Definition facc_el_b (f : fld) (e : list byte) : bool :=
    match fkind f with KFlt sz => fval_ok_b (digits_of sz) (fdecode e) (fdecode (P sz (F sz e))) | _ => true end.
  Fixpoint facc_row_b (fs : list fld) (r : row) : bool :=
    match fs, r with
    | f :: fs', els :: r' => forallb (facc_el_b f) els && facc_row_b fs' r'
    | _, _ => true
    end.
  Definition facc_b (t : table) : bool := forallb (fun r => facc_row_b (tdt t) (to_native_row (tdt t) r)) (trows t).
End Acc.

(* whatever the precisions [prec] printed with *)
Lemma fcell_ok_of_acc (prec : nat -> Z) sz e : sz = 4%nat \/ sz = 8%nat ->
  let F := fun sz e => fmt_g (prec sz) (classify (fp_of sz) e) in
  fval_ok_b (digits_of sz) (fdecode e) (fdecode (P_model sz (F sz e))) = true -> fcell_ok_b F P_model sz e = true.
Proof.
  intros Hsz F Ha. unfold fcell_ok_b. rewrite Ha. unfold F. rewrite fmt_g_tok_ok, P_fmt_g_length, (fp_bytes sz Hsz), Nat.eqb_refl.
  reflexivity.
Qed.

Lemma facc_el_contract f e : fld_ok_b f = true -> facc_el_b F_model P_model f e = true -> el_contract_b F_model P_model f e = true.
Proof.
  unfold fld_ok_b, facc_el_b, el_contract_b. intros Hf Ha. destruct (fkind f) as [sg sz|sz|w]; try reflexivity.
  apply andb_true_iff in Hf. destruct Hf as [Hk _]. simpl in Hk.
  apply (fcell_ok_of_acc print_prec); [|exact Ha]. apply orb_true_iff in Hk. destruct Hk as [Hk|Hk]; apply Nat.eqb_eq in Hk; auto.
Qed.

Lemma facc_row_contract : forall fs r, forallb fld_ok_b fs = true ->
  facc_row_b F_model P_model fs r = true -> row_contract_b F_model P_model fs r = true.
Proof.
  induction fs as [|f fs IH]; intros [|els r] Hf Ha; simpl in *; try reflexivity.
  apply andb_true_iff in Hf. destruct Hf as [Hf Hfs]. apply andb_true_iff in Ha. destruct Ha as [Ha Har].
  rewrite (IH r Hfs Har), andb_true_r.
  induction els as [|e els IHe]; simpl in *; [reflexivity|].
  apply andb_true_iff in Ha. destruct Ha as [Hae Hal]. rewrite (facc_el_contract f e Hf Hae), (IHe Hal). reflexivity.
Qed.

(* towards the accuracy part of H_num: the rounding steps
   of the model are nearest-roundings *)
(* round-half-even returns a nearest integer: | rhe a b - a/b | <= 1/2 *)
Lemma rhe_nearest a b : 0 <= a -> 0 < b -> 2 * Z.abs (rhe a b * b - a) <= b.
Proof.
  intros Ha Hb. unfold rhe. pose proof (Z_div_mod a b ltac:(lia)) as H.
  destruct (Z.div_eucl a b) as [q r]. destruct H as [E R].
  destruct (2 * r <? b) eqn:E1; [nia|]. destruct (b <? 2 * r) eqn:E2; [nia|].
  destruct (Z.even q); nia.
Qed.

Lemma rhe_nonneg a b : 0 <= a -> 0 < b -> 0 <= rhe a b.
Proof.
  intros Ha Hb. unfold rhe. pose proof (Z_div_mod a b ltac:(lia)) as H.
  destruct (Z.div_eucl a b) as [q r]. destruct H as [E R].
  assert (0 <= q) by nia.
  destruct (2 * r <? b); [lia|]. destruct (b <? 2 * r); [lia|]. destruct (Z.even q); lia.
Qed.

(* the integer the printer turns into digits is the value divided by 10^k, correctly rounded -- whatever k is *)
Lemma scaled_rhe_nearest N D k : 0 <= N -> 0 < D ->
  if 0 <=? k then 2 * Z.abs (scaled_rhe 10 N D k * (D * 10 ^ k) - N) <= D * 10 ^ k
  else 2 * Z.abs (scaled_rhe 10 N D k * D - N * 10 ^ (- k)) <= D.
Proof.
  intros HN HD. unfold scaled_rhe. destruct (0 <=? k) eqn:E.
  - apply rhe_nearest; [exact HN|]. assert (0 < 10 ^ k) by (apply Z.pow_pos_nonneg; lia). nia.
  - apply rhe_nearest; [|exact HD]. assert (0 < 10 ^ (- k)) by (apply Z.pow_pos_nonneg; lia). nia.
Qed.
