(* C04 -- the newline behind the LAST row is not needed: the reader returns the same table when the file ends right
   behind the last cell (hand-written files; end of file ends a numeric token and a fixed-width string alike). *)
From Coq.Strings Require Import Byte.
From EsVerif.Common Require Import Base Bytes.
From EsVerif.C04 Require Import TextModel Spec ScanProofs RoundTrip.

Section NoNl.
  Variable F P : nat -> list byte -> list byte.
  Variable d : byte.
  Hypothesis Hd : delim_ok d.
  Let Hdn : numchar d = false. Proof. exact (proj1 (delim_ok_facts d Hd)). Qed.

  Lemma read_num_at_eof k pre tok : all_ws pre -> tok_ok k tok = true -> read_num k d (pre ++ tok) = Ok (tok, []).
  Proof.
    intros Hp Ht. unfold read_num, fscanf_num. rewrite skip_ws_all_ws by exact Hp.
    destruct (tok_ok_head k tok Ht) as [b [r [-> Hb]]]. rewrite skip_ws_stop by (apply numchar_not_ws; exact Hb).
    rewrite (scan_tok_eof k (b :: r) Ht). destruct (byte_eqb d space); reflexivity.
  Qed.

  Lemma read_field_eof f els :
    fld_ok_b f = true -> length els = fnel f -> Forall (cell_good F P (fkind f)) els ->
    read_field P d f (join_els d (map (cell_text F (fkind f)) els)) = Ok (map (rt_el F P (fkind f)) els, []).
  Proof.
    intros Hf Hl Hg.
    assert (Hne : els <> []).
    { unfold fld_ok_b in Hf. apply andb_true_iff in Hf. destruct Hf as [_ Hn]. destruct els; [simpl in Hl; lia|discriminate]. }
    assert (Hnum : is_str (fkind f) = false ->
              read_num_els P (fkind f) d (length els) (join_els d (map (cell_text F (fkind f)) els)) = Ok (map (rt_el F P (fkind f)) els, [])).
    { intro Hk. rewrite <- (app_nil_r (join_els _ _)).
      apply (read_num_els_gen F P d Hd _ _ _ Hk) with (pre := []); [|assumption|assumption|constructor].
      intros pre tok Hp Ht. rewrite app_nil_r. apply read_num_at_eof; assumption. }
    unfold read_field. rewrite <- Hl. destruct (fkind f) as [sg sz|sz|w] eqn:Ek.
    1, 2: rewrite (Hnum eq_refl); cbn [bind]; destruct (byte_eqb d space); reflexivity.
    rewrite (map_id_ext (cell_text F (KStr w))) by reflexivity. rewrite (map_id_ext (rt_el F P (KStr w))) by reflexivity.
    rewrite <- (app_nil_r (join_els d els)). apply (read_str_els_ok F P d w els []); assumption.
  Qed.

  (* the last row, without its newline *)
  Lemma read_row_eof : forall fs r,
    fs <> [] -> forallb fld_ok_b fs = true -> row_ok_b fs r = true -> row_contract_b F P fs r = true ->
    (byte_eqb d space = false -> kf_fields d fs r false = false) ->
    read_row P d fs (repeat true (length fs)) (write_fields F d fs r) = Ok (rt_row F P fs r, []).
  Proof.
    intros fs r Hne Hf Hr Hc Hkf. rewrite <- (app_nil_r (write_fields F d fs r)).
    apply (read_row_gen F P d Hd [] [] false); try assumption.
    intros f els Hf1 Hl Hg _. rewrite app_nil_r. apply read_field_eof; assumption.
  Qed.

  Lemma read_rows_eof fs : fs <> [] -> forallb fld_ok_b fs = true ->
    forall rows rl,
    forallb (row_ok_b fs) (rows ++ [rl]) = true -> forallb (row_contract_b F P fs) (rows ++ [rl]) = true ->
    (byte_eqb d space = false -> kf_rows d fs (rows ++ [rl]) = false) ->
    read_rows_all P d fs (repeat true (length fs)) (length (rows ++ [rl])) (write_rows F d fs rows ++ write_fields F d fs rl)
    = Ok (map (rt_row F P fs) (rows ++ [rl])).
  Proof.
    intros Hne Hf rows rl Hr Hc Hkf. rewrite forallb_app in Hr, Hc. apply andb_true_iff in Hr, Hc.
    destruct Hr as [Hr1 Hr2], Hc as [Hc1 Hc2]. cbn [forallb] in Hr2, Hc2. apply andb_true_iff in Hr2, Hc2.
    rewrite app_length, map_app.
    apply (read_rows_then F P d Hd fs Hne Hf rows [rl]); try assumption.
    - intro Hu. rewrite <- (app_nil_r (write_fields F d fs rl)).
      apply (write_fields_head F P d Hd); try assumption; [apply Hr2|apply Hc2].
    - cbn [read_rows_all length]. rewrite (read_row_eof fs rl Hne Hf (proj1 Hr2) (proj1 Hc2)); [reflexivity|].
      intro Esp. specialize (Hkf Esp). clear - Hkf. induction rows as [|r rows IH]; cbn [app kf_rows] in Hkf.
      + rewrite orb_false_r in Hkf. exact Hkf.
      + apply orb_false_iff in Hkf. apply IH. apply Hkf.
  Qed.

  Lemma write_rows_removelast fs : forall rows rl,
    removelast (write_rows F d fs (rows ++ [rl])) = write_rows F d fs rows ++ write_fields F d fs rl.
  Proof.
    intros rows rl. unfold write_rows. rewrite map_app, concat_app. cbn [map concat]. rewrite app_nil_r.
    unfold write_row at 2. rewrite app_assoc. apply removelast_last.
  Qed.

  Theorem roundtrip_without_final_newline t :
    table_ok t -> fcontract F P t -> kf_leading_ws_after_numeric d t = false ->
    read_text P d (tdt t) (Z.of_nat (length (trows t))) (removelast (write_text F d t)) = Ok (expected F P t).
  Proof.
    intros Hok Hc Hkf. destruct (native_rows_facts F P d t Hok Hc Hkf) as (Hne & Hf & Hn1 & Hok' & Hc' & Hk').
    unfold read_text, write_text, expected. cbn [tdt trows].
    assert (Z.of_nat (length (trows t)) <? 1 = false) as -> by (destruct (trows t); [contradiction|simpl length; lia]).
    unfold read_text_columns. rewrite Nat2Z.id. unfold keep_flags. rewrite map_length. rewrite read_rows_all_native.
    set (fs := tdt t) in *. set (nrows := map (to_native_row fs) (trows t)) in *.
    assert (Hlen : length (trows t) = length nrows) by (unfold nrows; rewrite map_length; reflexivity).
    assert (Hnn : nrows <> []) by (unfold nrows; destruct (trows t); [contradiction|discriminate]).
    destruct (exists_last Hnn) as [rows0 [rl E]].
    rewrite Hlen. rewrite E in *. rewrite write_rows_removelast.
    rewrite (read_rows_eof fs Hne Hf rows0 rl Hok' Hc' Hk'). cbn [bind]. rewrite <- E. unfold nrows. rewrite map_map. reflexivity.
  Qed.
End NoNl.
