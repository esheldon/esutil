(* C04 -- what the verdict terms of Exec.v compute: the tabulated printf/strtod values are those of
   FmtModel.F_model / P_model, so the verdict functions evaluate exactly the models the theorems are about;
   and what verdict 0 on an in-scope case establishes. *)
From Coq.Strings Require Import Byte.
From EsVerif.Common Require Import Base Bytes.
From EsVerif.C04 Require Import TextModel Spec CheckProofs FmtModel Exec.

(* the model uses F and P only pointwise: oracles that agree on every argument give the same text, table and contract *)
Section ExtF.
  Variable F F' : nat -> list byte -> list byte.
  Hypothesis HF : forall sz e, F sz e = F' sz e.

  Lemma cell_text_ext k e : cell_text F k e = cell_text F' k e.
  Proof. destruct k; simpl; auto. Qed.

  Lemma write_fields_ext d : forall fs r, write_fields F d fs r = write_fields F' d fs r.
  Proof.
    induction fs as [|f fs IH]; intros [|els r]; simpl; try reflexivity.
    rewrite IH. f_equal. f_equal. apply map_ext. intro e. apply cell_text_ext.
  Qed.

  Lemma write_text_ext d t : write_text F d t = write_text F' d t.
  Proof.
    unfold write_text, write_rows. f_equal. apply map_ext. intro r. unfold write_row. rewrite write_fields_ext. reflexivity.
  Qed.
End ExtF.

Section ExtP.
  Variable P P' : nat -> list byte -> list byte.
  Hypothesis HP : forall sz e, P sz e = P' sz e.

  Lemma store_ext k tok : store P k tok = store P' k tok.
  Proof. destruct k; simpl; auto. Qed.

  Lemma read_num_els_ext k d : forall n l, read_num_els P k d n l = read_num_els P' k d n l.
  Proof.
    induction n as [|n IH]; intro l; simpl; [reflexivity|].
    destruct (read_num (tk_of k) d l) as [[t r]|e]; simpl; [|reflexivity].
    rewrite IH. destruct (read_num_els P' k d n r) as [[es r2]|e]; simpl; [|reflexivity]. rewrite store_ext. reflexivity.
  Qed.

  Lemma read_field_ext d f l : read_field P d f l = read_field P' d f l.
  Proof. unfold read_field. destruct (fkind f); try reflexivity; rewrite read_num_els_ext; reflexivity. Qed.

  Lemma read_row_ext d : forall fs keep l, read_row P d fs keep l = read_row P' d fs keep l.
  Proof.
    induction fs as [|f fs IH]; intros keep l; simpl; [reflexivity|].
    rewrite read_field_ext. destruct (read_field P' d f l) as [[els r]|e]; simpl; [|reflexivity]. rewrite IH. reflexivity.
  Qed.

  Lemma read_rows_all_ext d fs keep : forall n l, read_rows_all P d fs keep n l = read_rows_all P' d fs keep n l.
  Proof.
    induction n as [|n IH]; intro l; simpl; [reflexivity|].
    rewrite read_row_ext. destruct (read_row P' d fs keep l) as [[r l2]|e]; simpl; [|reflexivity]. rewrite IH. reflexivity.
  Qed.

  Lemma read_text_ext d fs n l : read_text P d fs n l = read_text P' d fs n l.
  Proof.
    unfold read_text. destruct (n <? 1); [reflexivity|]. unfold read_text_columns. rewrite read_rows_all_ext. reflexivity.
  Qed.
End ExtP.

Section ExtC.
  Variable F F' P P' : nat -> list byte -> list byte.
  Hypothesis HF : forall sz e, F sz e = F' sz e.
  Hypothesis HP : forall sz e, P sz e = P' sz e.

  Lemma fcell_ok_ext sz e : fcell_ok_b F P sz e = fcell_ok_b F' P' sz e.
  Proof. unfold fcell_ok_b. rewrite HF, HP. reflexivity. Qed.

  Lemma row_contract_ext : forall fs r, row_contract_b F P fs r = row_contract_b F' P' fs r.
  Proof.
    induction fs as [|f fs IH]; intros [|els r]; simpl; try reflexivity. rewrite IH. f_equal.
    induction els as [|e els IHe]; simpl; [reflexivity|]. rewrite IHe. f_equal.
    unfold el_contract_b. destruct (fkind f); try reflexivity. apply fcell_ok_ext.
  Qed.

  Lemma fcontract_ext t : fcontract_b F P t = fcontract_b F' P' t.
  Proof.
    unfold fcontract_b. induction (trows t) as [|r rows IH]; simpl; [reflexivity|]. rewrite IH, row_contract_ext. reflexivity.
  Qed.
End ExtC.

Lemma lookup_or_tab f (g : nat -> list byte -> list byte) : forall (cells : list (nat * list byte)) sz k,
  (forall s a, g s a = f s a) ->
  lookup_or f (map (fun c => (fst c, snd c, g (fst c) (snd c))) cells) sz k = f sz k.
Proof.
  induction cells as [|[s a] cells IH]; intros sz k Hg; simpl; [reflexivity|].
  destruct ((s =? sz)%nat && bytes_eqb a k) eqn:E; [|apply IH; exact Hg].
  apply andb_true_iff in E. destruct E as [E1 E2]. apply Nat.eqb_eq in E1. apply bytes_eqb_eq in E2. subst. apply Hg.
Qed.

Lemma F_tab_model t sz e : F_tab (ftab t) sz e = F_model sz e.
Proof. unfold F_tab, ftab. apply lookup_or_tab. reflexivity. Qed.

Lemma P_tab_model ft sz tok : P_tab (ptab ft) sz tok = P_model sz tok.
Proof.
  unfold P_tab, ptab. induction ft as [|[[s a] b] ft IH]; simpl; [reflexivity|].
  destruct ((s =? sz)%nat && bytes_eqb b tok) eqn:E; [|exact IH].
  apply andb_true_iff in E. destruct E as [E1 E2]. apply Nat.eqb_eq in E1. apply bytes_eqb_eq in E2. subst. reflexivity.
Qed.

(* the part all verdicts share: the three extra bits are the known class, the contract and the overflow class *)
Lemma verdict0_extra d t agree ok : in_scope d t = true ->
  verdict agree ok + extra_bits2 (ftab t) (ptab (ftab t)) d t = 0 ->
  agree = true /\ ok = true /\ fcontract F_model P_model t /\ kf_leading_ws_after_numeric d t = false.
Proof.
  intros Hs Hv. unfold extra_bits2, verdict in Hv. rewrite Hs in Hv. unfold fcontract.
  rewrite <- (fcontract_ext _ _ _ _ (F_tab_model t) (P_tab_model (ftab t))).
  destruct agree, ok, (kf_leading_ws_after_numeric d t), (fcontract_b (F_tab (ftab t)) (P_tab (ptab (ftab t))) t),
    (kf_float_print_overflow (F_tab (ftab t)) (P_tab (ptab (ftab t))) t); simpl in Hv; try discriminate Hv; auto.
Qed.

Theorem verdict0_sfile d t text h out : in_scope d t = true -> v_sfile2 d t text h out = 0 ->
  text = write_text F_model d t /\ roundtrip_ok t out /\ header_ok d t h
  /\ fcontract F_model P_model t /\ kf_leading_ws_after_numeric d t = false.
Proof.
  intros Hs Hv. unfold v_sfile2 in Hv. cbv zeta in Hv. rewrite Hs in Hv.
  destruct (verdict0_extra d t _ _ Hs Hv) as (Ha & Hok & Hc & Hk).
  apply andb_true_iff in Ha. destruct Ha as [Ha _]. apply andb_true_iff in Ha. destruct Ha as [Ha _].
  apply bytes_eqb_eq in Ha. unfold m_sfile_gen in Ha. simpl in Ha. rewrite (write_text_ext _ _ (F_tab_model t)) in Ha.
  apply andb_true_iff in Hok. destruct Hok as [Hr Hh].
  split; [symmetry; exact Ha|]. split; [apply roundtrip_check_sound; exact Hr|]. split; [apply header_check_iff; exact Hh|].
  split; assumption.
Qed.

Theorem verdict0_recfile d t text out : in_scope d t = true -> v_recfile2 d t text out = 0 ->
  text = write_text F_model d t /\ roundtrip_ok t out
  /\ fcontract F_model P_model t /\ kf_leading_ws_after_numeric d t = false.
Proof.
  intros Hs Hv. unfold v_recfile2 in Hv. cbv zeta in Hv. rewrite Hs in Hv.
  destruct (verdict0_extra d t _ _ Hs Hv) as (Ha & Hok & Hc & Hk).
  apply andb_true_iff in Ha. destruct Ha as [Ha _].
  apply bytes_eqb_eq in Ha. unfold m_recfile_gen in Ha. simpl in Ha. rewrite (write_text_ext _ _ (F_tab_model t)) in Ha.
  split; [symmetry; exact Ha|]. split; [apply roundtrip_check_sound; exact Hok|]. split; assumption.
Qed.
