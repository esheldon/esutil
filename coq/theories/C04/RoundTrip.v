(* C04 -- the reader applied to the writer's text returns the table (floats through P o F),
   outside the class kf_leading_ws_after_numeric. *)
From Coq Require Import ZifyBool.
From Coq.Strings Require Import Byte.
From EsVerif.Common Require Import Base Bytes.
From EsVerif.C04 Require Import TextModel Spec DecProofs ScanProofs.

Lemma forallb_Forall {A} (p : A -> bool) l : forallb p l = true <-> Forall (fun x => p x = true) l.
Proof.
  induction l as [|a l IH]; simpl; split; intro H; auto.
  - apply andb_true_iff in H. destruct H as [Ha Hl]. constructor; [exact Ha|apply IH; exact Hl].
  - inversion H as [|? ? Ha Hl]; subst. apply andb_true_iff. split; [exact Ha|apply IH; exact Hl].
Qed.

Lemma forallb_map' {A B} (p : B -> bool) (f : A -> B) l : forallb p (map f l) = forallb (fun x => p (f x)) l.
Proof. induction l as [|a l IH]; simpl; [reflexivity|]. rewrite IH. reflexivity. Qed.

Lemma forallb_map_impl {A B} (p : A -> bool) (q : B -> bool) (f : A -> B) l :
  (forall x, p x = true -> q (f x) = true) -> forallb p l = true -> forallb q (map f l) = true.
Proof.
  intros H Hl. rewrite forallb_map'. apply forallb_Forall. apply forallb_Forall in Hl.
  eapply Forall_impl; [|exact Hl]. exact H.
Qed.

Lemma map_id_ext {A} (f : A -> A) l : (forall x, f x = x) -> map f l = l.
Proof. intro H. induction l as [|a l IH]; simpl; [reflexivity|]. rewrite H, IH. reflexivity. Qed.

Lemma starts_safe_safe_next d sep rest : starts_safe d rest -> safe_next d sep rest.
Proof. intro H. right. exact H. Qed.

Lemma delim_ok_facts d : delim_ok d -> numchar d = false /\ d <> nl /\ d <> x0d.
Proof.
  unfold delim_ok, delim_ok_b. intro H.
  apply andb_true_iff in H. destruct H as [H H3]. apply andb_true_iff in H. destruct H as [H1 H2].
  apply negb_true_iff in H1, H2, H3. apply byte_eqb_false in H2, H3. auto.
Qed.

Lemma nl_facts : numchar nl = false /\ is_ws nl = true.
Proof. split; reflexivity. Qed.

Section RT.
  Variable F P : nat -> list byte -> list byte.
  Variable d : byte.
  Hypothesis Hd : delim_ok d.

  Let Hdn : numchar d = false. Proof. exact (proj1 (delim_ok_facts d Hd)). Qed.

  Definition cell_good (k : kind) (e : list byte) : Prop :=
    length e = elsize k /\
    match k with
    | KStr _ => Forall (fun b => byte_eqb b xff = false) e
    | KFlt sz => fcell_ok_b F P sz e = true
    | KInt _ _ => True
    end.

  Lemma cell_good_of f e : el_ok_b f e = true -> el_contract_b F P f e = true -> cell_good (fkind f) e.
  Proof.
    unfold el_ok_b, el_contract_b, cell_good. intros H1 H2.
    apply andb_true_iff in H1. destruct H1 as [Hl Hs]. split; [apply Nat.eqb_eq; exact Hl|].
    destruct (fkind f) as [sg sz|sz|w]; simpl in *; [exact I|exact H2|].
    apply forallb_Forall in Hs. eapply Forall_impl; [|exact Hs].
    intros b Hb. simpl in Hb. apply negb_true_iff in Hb. exact Hb.
  Qed.

  Lemma num_cell k e : is_str k = false -> cell_good k e ->
    tok_ok (tk_of k) (cell_text F k e) = true /\ store P k (cell_text F k e) = rt_el F P k e.
  Proof.
    intros Hk [Hl Hc]. destruct k as [sg sz|sz|w]; simpl in *; [| |discriminate].
    - split; [apply tok_ok_dec|]. rewrite dec_parse_roundtrip. rewrite <- Hl. apply encode_decode_le.
    - unfold fcell_ok_b in Hc. apply andb_true_iff in Hc. destruct Hc as [Hc _].
      apply andb_true_iff in Hc. destruct Hc as [Hc _]. split; [exact Hc|reflexivity].
  Qed.

  Lemma tok_head_safe k tok x : tok_ok k tok = true -> starts_safe d (tok ++ x).
  Proof.
    intro H. destruct (tok_ok_head k tok H) as [b [r [-> Hb]]]. simpl. split.
    - apply numchar_not_ws. exact Hb.
    - intro E. subst b. rewrite Hdn in Hb. discriminate.
  Qed.

  Lemma join_els_cons t ts : exists y, join_els d (t :: ts) = t ++ y.
  Proof.
    destruct ts as [|t2 ts]; simpl.
    - exists []. rewrite app_nil_r. reflexivity.
    - eexists. reflexivity.
  Qed.

  Lemma join_els_2 (t t2 : list byte) ts : join_els d (t :: t2 :: ts) = t ++ d :: join_els d (t2 :: ts).
  Proof. reflexivity. Qed.

  (* numeric fields
     the elements are read one by one; [x] is what follows the last one, and what read_num leaves of it is [r] *)
  Lemma read_num_els_gen k x r : is_str k = false ->
    (forall pre tok, all_ws pre -> tok_ok (tk_of k) tok = true -> read_num (tk_of k) d (pre ++ tok ++ x) = Ok (tok, r)) ->
    forall els pre, els <> [] -> Forall (cell_good k) els -> all_ws pre ->
    read_num_els P k d (length els) (pre ++ join_els d (map (cell_text F k) els) ++ x) = Ok (map (rt_el F P k) els, r).
  Proof.
    intros Hk Hlast. induction els as [|e els IH]; intros pre Hne Hg Hpre; [contradiction|].
    pose proof (Forall_inv Hg) as He. pose proof (Forall_inv_tail Hg) as Hels.
    destruct (num_cell k e Hk He) as [Htok Hst].
    destruct els as [|e2 els].
    - cbn [map join_els length read_num_els]. rewrite (Hlast pre _ Hpre Htok). cbn [bind]. rewrite Hst. reflexivity.
    - change (length (e :: e2 :: els)) with (S (length (e2 :: els))).
      cbn [map]. rewrite join_els_2.
      change (cell_text F k e2 :: map (cell_text F k) els) with (map (cell_text F k) (e2 :: els)).
      rewrite <- app_assoc. cbn [app read_num_els].
      destruct (byte_eqb d space) eqn:Esp.
      + (* white-space mode: the separating blank is left for the next element to skip *)
        apply byte_eqb_eq in Esp. rewrite Esp in *.
        rewrite (read_num_space (tk_of k) pre _ _ Hpre Htok (eq_refl : ends_tok (space :: _))). cbn [bind].
        specialize (IH [space] ltac:(discriminate) Hels ltac:(repeat constructor)). cbn [app] in IH. rewrite IH. cbn [bind].
        rewrite Hst. reflexivity.
      + (* delimiter mode: the next element starts with a numeric character, so the delimiter is eaten exactly *)
        assert (Hsafe2 : safe_next d d (join_els d (map (cell_text F k) (e2 :: els)) ++ x)).
        { apply starts_safe_safe_next. destruct (num_cell k e2 Hk (Forall_inv Hels)) as [Htok2 _].
          cbn [map]. destruct (join_els_cons (cell_text F k e2) (map (cell_text F k) els)) as [y ->].
          rewrite <- app_assoc. eapply tok_head_safe. exact Htok2. }
        rewrite (read_num_delim (tk_of k) d pre _ d _ Esp Hpre Htok Hdn (fun _ => eq_refl) Hsafe2). cbn [bind].
        specialize (IH [] ltac:(discriminate) Hels ltac:(constructor)). cbn [app] in IH. rewrite IH. cbn [bind].
        rewrite Hst. reflexivity.
  Qed.

  Lemma take_bytes_app : forall e x, Forall (fun b => byte_eqb b xff = false) e ->
    take_bytes (length e) (e ++ x) = Ok (e, x).
  Proof.
    induction e as [|b e IH]; intros x H; [reflexivity|].
    inversion H as [|? ? Hb He]; subst. cbn [length take_bytes app]. rewrite Hb, (IH x He). reflexivity.
  Qed.

  (* one byte behind each element is dropped, also behind the last (nothing to drop at the end of the text) *)
  Lemma read_str_els_ok w : forall els x,
    els <> [] -> Forall (cell_good (KStr w)) els ->
    read_str_els w (length els) (join_els d els ++ x) = Ok (els, tl x).
  Proof.
    induction els as [|e els IH]; intros x Hne Hg; [contradiction|].
    inversion Hg as [|? ? [Hl He] Hels]; subst. simpl in Hl.
    destruct els as [|e2 els].
    - cbn [join_els length read_str_els]. rewrite <- Hl, (take_bytes_app e _ He). reflexivity.
    - change (length (e :: e2 :: els)) with (S (length (e2 :: els))).
      rewrite join_els_2. rewrite <- app_assoc. cbn [app read_str_els].
      rewrite <- Hl at 1. rewrite (take_bytes_app e _ He). cbn [bind tl].
      rewrite (IH x ltac:(discriminate) Hels). reflexivity.
  Qed.

  Lemma read_field_ok f els sep rest :
    fld_ok_b f = true -> length els = fnel f -> Forall (cell_good (fkind f)) els ->
    sep = d \/ sep = nl ->
    (is_str (fkind f) = false -> byte_eqb d space = false -> safe_next d sep rest) ->
    read_field P d f (join_els d (map (cell_text F (fkind f)) els) ++ sep :: rest)
    = Ok (map (rt_el F P (fkind f)) els, rest).
  Proof.
    intros Hf Hl Hg Hsep Hsafe.
    assert (Hne : els <> []).
    { unfold fld_ok_b in Hf. apply andb_true_iff in Hf. destruct Hf as [_ Hn].
      destruct els; [simpl in Hl; lia|discriminate]. }
    assert (Hsn : numchar sep = false) by (destruct Hsep as [->| ->]; [exact Hdn|reflexivity]).
    assert (Hsd : is_ws sep = false -> sep = d) by (destruct Hsep as [->| ->]; [reflexivity|discriminate]).
    assert (Hnum : is_str (fkind f) = false ->
              read_num_els P (fkind f) d (length els) (join_els d (map (cell_text F (fkind f)) els) ++ sep :: rest)
              = Ok (map (rt_el F P (fkind f)) els, if byte_eqb d space then sep :: rest else rest)).
    { intro Hk. destruct (byte_eqb d space) eqn:Esp.
      - apply byte_eqb_eq in Esp. apply (read_num_els_gen _ _ _ Hk) with (pre := []); [|assumption|assumption|constructor].
        intros pre tok Hp Ht. rewrite Esp. exact (read_num_space _ pre tok (sep :: rest) Hp Ht Hsn).
      - apply (read_num_els_gen _ _ _ Hk) with (pre := []); [|assumption|assumption|constructor].
        intros pre tok Hp Ht. apply read_num_delim; try assumption. apply Hsafe; [exact Hk|reflexivity]. }
    unfold read_field. rewrite <- Hl.
    destruct (fkind f) as [sg sz|sz|w] eqn:Ek.
    1, 2: rewrite (Hnum eq_refl); cbn [bind]; destruct (byte_eqb d space); reflexivity.
    rewrite (map_id_ext (cell_text F (KStr w))) by reflexivity.
    rewrite (map_id_ext (rt_el F P (KStr w))) by reflexivity.
    apply (read_str_els_ok w els (sep :: rest)); assumption.
  Qed.
End RT.

Lemma to_native_el_str f e : is_str (fkind f) = true -> to_native_el f e = e.
Proof. intro H. unfold to_native_el. rewrite H. destruct (forder f); reflexivity. Qed.

Lemma to_native_el_length f e : length (to_native_el f e) = length e.
Proof. unfold to_native_el. destruct (forder f); try reflexivity. destruct (is_str (fkind f)); [reflexivity|apply rev_length]. Qed.

Lemma head_unsafe_native d f els : head_unsafe d f (map (to_native_el f) els) = head_unsafe d f els.
Proof.
  unfold head_unsafe. destruct (fkind f) eqn:Ek; try reflexivity.
  rewrite (map_id_ext (to_native_el f)); [reflexivity|].
  intro e. apply to_native_el_str. rewrite Ek. reflexivity.
Qed.

Lemma row_head_unsafe_native d fs r : row_head_unsafe d fs (to_native_row fs r) = row_head_unsafe d fs r.
Proof. destruct fs as [|f fs]; destruct r as [|els r]; simpl; try reflexivity. apply head_unsafe_native. Qed.

Lemma kf_fields_native d : forall fs r nru, kf_fields d fs (to_native_row fs r) nru = kf_fields d fs r nru.
Proof.
  induction fs as [|f fs IH]; intros r nru; destruct r as [|els r]; simpl; try reflexivity.
  rewrite IH. destruct fs as [|f2 fs]; [reflexivity|]. rewrite row_head_unsafe_native. reflexivity.
Qed.

Lemma kf_rows_native d fs : forall rows, kf_rows d fs (map (to_native_row fs) rows) = kf_rows d fs rows.
Proof.
  induction rows as [|r rows IH]; simpl; [reflexivity|]. rewrite kf_fields_native, IH.
  destruct rows as [|r2 rows]; simpl; [reflexivity|]. rewrite row_head_unsafe_native. reflexivity.
Qed.

Lemma el_ok_native f e : el_ok_b f e = true -> el_ok_b f (to_native_el f e) = true.
Proof.
  unfold el_ok_b. rewrite to_native_el_length. destruct (is_str (fkind f)) eqn:E; [|auto].
  rewrite to_native_el_str by exact E. auto.
Qed.

Lemma row_ok_native : forall fs r, row_ok_b fs r = true -> row_ok_b fs (to_native_row fs r) = true.
Proof.
  induction fs as [|f fs IH]; intros r H; destruct r as [|els r]; simpl in *; try discriminate; [reflexivity|].
  apply andb_true_iff in H. destruct H as [H Hr]. apply andb_true_iff in H. destruct H as [Hl He].
  rewrite map_length, Hl, (IH r Hr). simpl. rewrite andb_true_r.
  exact (forallb_map_impl _ _ _ _ (el_ok_native f) He).
Qed.

(* the reader looks at kinds and shapes only *)
Section Native.
  Variable P : nat -> list byte -> list byte.
  Lemma read_field_native d f l : read_field P d (native_fld f) l = read_field P d f l.
  Proof. reflexivity. Qed.
  Lemma read_row_native d : forall fs keep l, read_row P d (map native_fld fs) keep l = read_row P d fs keep l.
  Proof.
    induction fs as [|f fs IH]; intros keep l; [reflexivity|].
    cbn [map read_row]. rewrite read_field_native. destruct (read_field P d f l) as [[els r]|e]; [|reflexivity].
    cbn [bind]. rewrite IH. reflexivity.
  Qed.
  Lemma read_rows_all_native d fs keep : forall n l,
    read_rows_all P d (map native_fld fs) keep n l = read_rows_all P d fs keep n l.
  Proof.
    induction n as [|n IH]; intro l; [reflexivity|]. cbn [read_rows_all]. rewrite read_row_native.
    destruct (read_row P d fs keep l) as [[r l2]|e]; [|reflexivity]. cbn [bind]. rewrite IH. reflexivity.
  Qed.
End Native.

Section RT2.
  Variable F P : nat -> list byte -> list byte.
  Variable d : byte.
  Hypothesis Hd : delim_ok d.

  Let Hdn : numchar d = false. Proof. exact (proj1 (delim_ok_facts d Hd)). Qed.

  Lemma row_facts f fs els r :
    row_ok_b (f :: fs) (els :: r) = true -> row_contract_b F P (f :: fs) (els :: r) = true ->
    length els = fnel f /\ Forall (cell_good F P (fkind f)) els
    /\ row_ok_b fs r = true /\ row_contract_b F P fs r = true.
  Proof using F P d.
  (* d is an argument only because callers pass it *)
    cbn [row_ok_b row_contract_b]. intros H1 H2.
    apply andb_true_iff in H1. destruct H1 as [H1 Hr]. apply andb_true_iff in H1. destruct H1 as [Hl He].
    apply andb_true_iff in H2. destruct H2 as [Hc Hcr].
    split; [apply Nat.eqb_eq; exact Hl|]. split; [|split; assumption].
    apply forallb_Forall in He. apply forallb_Forall in Hc.
    rewrite Forall_forall in *. intros e Hin. apply (cell_good_of F P); [apply He|apply Hc]; exact Hin.
  Qed.

  (* the text of a row starts with a byte the directive " <delim>" leaves alone, unless its first
     cell is an unsafe string *)
  Lemma write_fields_head fs r x :
    fs <> [] -> forallb fld_ok_b fs = true -> row_ok_b fs r = true -> row_contract_b F P fs r = true ->
    row_head_unsafe d fs r = false -> starts_safe d (write_fields F d fs r ++ x).
  Proof.
    intros Hne Hf Hr Hc Hu. destruct fs as [|f fs]; [contradiction|]. destruct r as [|els r]; [discriminate|].
    destruct (row_facts f fs els r Hr Hc) as [Hl [Hg _]].
    cbn [forallb] in Hf. apply andb_true_iff in Hf. destruct Hf as [Hf _].
    unfold fld_ok_b in Hf. apply andb_true_iff in Hf. destruct Hf as [Hk Hn].
    destruct els as [|e els]; [simpl in Hl; lia|].
    cbn [write_fields map]. destruct (join_els_cons d (cell_text F (fkind f) e) (map (cell_text F (fkind f)) els)) as [y ->].
    rewrite <- !app_assoc. pose proof (Forall_inv Hg) as He.
    destruct (is_str (fkind f)) eqn:Es.
    - destruct (fkind f) as [| |w] eqn:Ek; try discriminate. destruct He as [Hle _]. simpl in Hle, Hk.
      unfold row_head_unsafe, head_unsafe in Hu. rewrite Ek in Hu.
      destruct e as [|b e]; [simpl in Hle; rewrite <- Hle in Hk; discriminate Hk|]. simpl. apply orb_false_iff in Hu. destruct Hu as [Hw Hb].
      split; [exact Hw|]. apply byte_eqb_false. exact Hb.
    - destruct (num_cell F P (fkind f) e Es He) as [Htok _]. eapply (tok_head_safe d Hd); exact Htok.
  Qed.

  (* one row; [x] is what follows its last field and [rest] what reading that field leaves of it;
     [nru] says whether the text behind the row starts unsafely *)
  Lemma read_row_gen x rest nru :
    (forall f els, fld_ok_b f = true -> length els = fnel f -> Forall (cell_good F P (fkind f)) els ->
       (is_str (fkind f) = false -> byte_eqb d space = false -> nru = false) ->
       read_field P d f (join_els d (map (cell_text F (fkind f)) els) ++ x) = Ok (map (rt_el F P (fkind f)) els, rest)) ->
    forall fs r, fs <> [] -> forallb fld_ok_b fs = true -> row_ok_b fs r = true -> row_contract_b F P fs r = true ->
    (byte_eqb d space = false -> kf_fields d fs r nru = false) ->
    read_row P d fs (repeat true (length fs)) (write_fields F d fs r ++ x) = Ok (rt_row F P fs r, rest).
  Proof.
    intro Hlast. induction fs as [|f fs IH]; intros r Hne Hf Hr Hc Hkf; [contradiction|].
    destruct r as [|els r]; [discriminate|].
    destruct (row_facts f fs els r Hr Hc) as [Hl [Hg [Hr' Hc']]].
    cbn [forallb] in Hf. apply andb_true_iff in Hf. destruct Hf as [Hf Hfs].
    cbn [write_fields length repeat read_row rt_row hd tl].
    destruct fs as [|f2 fs].
    - destruct r as [|? ?]; [|discriminate]. cbn [write_fields app]. rewrite app_nil_r.
      rewrite (Hlast f els Hf Hl Hg); [reflexivity|].
      intros Es Esp. specialize (Hkf Esp). cbn [kf_fields] in Hkf. rewrite Es in Hkf. simpl in Hkf.
      rewrite orb_false_r in Hkf. exact Hkf.
    - rewrite <- !app_assoc. cbn [app].
      rewrite (read_field_ok F P d Hd f els d _ Hf Hl Hg (or_introl eq_refl)).
      + cbn [bind]. rewrite (IH r ltac:(discriminate) Hfs Hr' Hc'); [reflexivity|].
        intro Esp. specialize (Hkf Esp). cbn [kf_fields] in Hkf. apply orb_false_iff in Hkf. apply Hkf.
      + intros Es Esp. destruct (is_ws d) eqn:Ew; [|left; exact Ew].
        apply starts_safe_safe_next. apply write_fields_head; try assumption; [discriminate|].
        specialize (Hkf Esp). cbn [kf_fields] in Hkf. apply orb_false_iff in Hkf. destruct Hkf as [Hkf _].
        rewrite Es, Ew in Hkf. simpl in Hkf. exact Hkf.
  Qed.

  Lemma read_row_ok : forall fs r rest nru,
    fs <> [] -> forallb fld_ok_b fs = true -> row_ok_b fs r = true -> row_contract_b F P fs r = true ->
    (nru = false -> starts_safe d rest) ->
    (byte_eqb d space = false -> kf_fields d fs r nru = false) ->
    read_row P d fs (repeat true (length fs)) (write_fields F d fs r ++ nl :: rest) = Ok (rt_row F P fs r, rest).
  Proof.
    intros fs r rest nru Hne Hf Hr Hc Hrest Hkf. apply (read_row_gen (nl :: rest) rest nru); try assumption.
    intros f els Hf1 Hl Hg Hn. apply (read_field_ok F P d Hd f els nl rest Hf1 Hl Hg (or_intror eq_refl)).
    intros Es Esp. apply starts_safe_safe_next. apply Hrest. apply Hn; assumption.
  Qed.

  (* the first rows of a file (nrows= smaller than the file,
     or the first rows of a larger file) come back; the whole table is the case of all rows *)
  (* rows one after the other; [T] is the text behind them, from which [n2] more rows are read: it starts with the text
     of the first row of [rows2], if there is one, and has to start safely unless that row is unsafe *)
  Lemma read_rows_then fs : fs <> [] -> forallb fld_ok_b fs = true ->
    forall rows1 rows2 T n2 out2,
    forallb (row_ok_b fs) rows1 = true -> forallb (row_contract_b F P fs) rows1 = true ->
    (byte_eqb d space = false -> kf_rows d fs (rows1 ++ rows2) = false) ->
    (match rows2 with r2 :: _ => row_head_unsafe d fs r2 | [] => false end = false -> starts_safe d T) ->
    read_rows_all P d fs (repeat true (length fs)) n2 T = Ok out2 ->
    read_rows_all P d fs (repeat true (length fs)) (length rows1 + n2) (write_rows F d fs rows1 ++ T)
    = Ok (map (rt_row F P fs) rows1 ++ out2).
  Proof.
    intros Hne Hf. induction rows1 as [|r rows1 IH]; intros rows2 T n2 out2 Hr Hc Hkf HT H2; [exact H2|].
    cbn [forallb] in Hr, Hc. apply andb_true_iff in Hr. destruct Hr as [Hr Hrs].
    apply andb_true_iff in Hc. destruct Hc as [Hc Hcs].
    unfold write_rows. cbn [map concat length Nat.add read_rows_all]. unfold write_row at 1. rewrite <- !app_assoc. cbn [app].
    fold (write_rows F d fs rows1).
    rewrite (read_row_ok fs r (write_rows F d fs rows1 ++ T)
               (match rows1 ++ rows2 with r2 :: _ => row_head_unsafe d fs r2 | [] => false end) Hne Hf Hr Hc).
    - cbn [bind]. rewrite (IH rows2 T n2 out2); [reflexivity|assumption|assumption| |assumption|assumption].
      intro Esp. specialize (Hkf Esp). cbn [app kf_rows] in Hkf. apply orb_false_iff in Hkf. apply Hkf.
    - intro Hu. destruct rows1 as [|r2 rows1]; [apply HT; exact Hu|].
      cbn [forallb] in Hrs, Hcs. apply andb_true_iff in Hrs. apply andb_true_iff in Hcs.
      unfold write_rows. cbn [map concat]. unfold write_row at 1. rewrite <- !app_assoc.
      apply write_fields_head; try assumption; [apply Hrs|apply Hcs].
    - intro Esp. specialize (Hkf Esp). cbn [app kf_rows] in Hkf. apply orb_false_iff in Hkf. apply Hkf.
  Qed.

  Lemma read_rows_prefix fs : fs <> [] -> forallb fld_ok_b fs = true ->
    forall rows1 rows2,
    forallb (row_ok_b fs) (rows1 ++ rows2) = true -> forallb (row_contract_b F P fs) (rows1 ++ rows2) = true ->
    (byte_eqb d space = false -> kf_rows d fs (rows1 ++ rows2) = false) ->
    read_rows_all P d fs (repeat true (length fs)) (length rows1) (write_rows F d fs (rows1 ++ rows2))
    = Ok (map (rt_row F P fs) rows1).
  Proof.
    intros Hne Hf rows1 rows2 Hr Hc Hkf. rewrite forallb_app in Hr, Hc. apply andb_true_iff in Hr, Hc.
    destruct Hr as [Hr1 Hr2], Hc as [Hc1 Hc2].
    unfold write_rows. rewrite map_app, concat_app. fold (write_rows F d fs rows1) (write_rows F d fs rows2).
    rewrite <- (Nat.add_0_r (length rows1)), <- (app_nil_r (map _ rows1)).
    apply (read_rows_then fs Hne Hf rows1 rows2); try assumption; [|reflexivity].
    intro Hu. destruct rows2 as [|r2 rows2]; [exact I|]. cbn [forallb] in Hr2, Hc2. apply andb_true_iff in Hr2, Hc2.
    unfold write_rows. cbn [map concat]. unfold write_row at 1. rewrite <- app_assoc.
    apply write_fields_head; try assumption; [apply Hr2|apply Hc2].
  Qed.

  (* what the premises of the table theorems say about the native rows, which are what the writer sees *)
  Lemma native_rows_facts t : table_ok t -> fcontract F P t -> kf_leading_ws_after_numeric d t = false ->
    tdt t <> [] /\ forallb fld_ok_b (tdt t) = true /\ trows t <> []
    /\ forallb (row_ok_b (tdt t)) (map (to_native_row (tdt t)) (trows t)) = true
    /\ forallb (row_contract_b F P (tdt t)) (map (to_native_row (tdt t)) (trows t)) = true
    /\ (byte_eqb d space = false -> kf_rows d (tdt t) (map (to_native_row (tdt t)) (trows t)) = false).
  Proof.
    unfold table_ok, table_ok_b, fcontract, fcontract_b, kf_leading_ws_after_numeric. intros Hok Hc Hkf.
    apply andb_true_iff in Hok. destruct Hok as [Hok Hrows]. apply andb_true_iff in Hok. destruct Hok as [Hok Hr1].
    apply andb_true_iff in Hok. destruct Hok as [Hf Hf1].
    split; [destruct (tdt t); [discriminate Hf1|discriminate]|]. split; [exact Hf|].
    split; [destruct (trows t); [discriminate Hr1|discriminate]|].
    split; [exact (forallb_map_impl _ _ _ _ (row_ok_native (tdt t)) Hrows)|]. rewrite forallb_map'. split; [exact Hc|].
    intro Esp. rewrite kf_rows_native. rewrite Esp in Hkf. exact Hkf.
  Qed.

  Theorem read_first_rows t k :
    table_ok t -> fcontract F P t -> kf_leading_ws_after_numeric d t = false ->
    (1 <= k <= length (trows t))%nat ->
    read_text P d (tdt t) (Z.of_nat k) (write_text F d t)
    = Ok {| tdt := map native_fld (tdt t); trows := firstn k (trows (expected F P t)) |}.
  Proof.
    intros Hok Hc Hkf Hk. destruct (native_rows_facts t Hok Hc Hkf) as (Hne & Hf & _ & Hok' & Hc' & Hk').
    unfold read_text, write_text, expected. cbn [tdt trows].
    assert (Z.of_nat k <? 1 = false) as -> by lia.
    unfold read_text_columns. rewrite Nat2Z.id. unfold keep_flags. rewrite map_length. rewrite read_rows_all_native.
    set (fs := tdt t) in *. set (nrows := map (to_native_row fs) (trows t)) in *.
    assert (Hsplit : nrows = firstn k nrows ++ skipn k nrows) by (symmetry; apply firstn_skipn).
    assert (Hlen : length (firstn k nrows) = k) by (apply firstn_length_le; unfold nrows; rewrite map_length; lia).
    rewrite Hsplit at 1. rewrite <- Hlen at 1.
    rewrite (read_rows_prefix fs Hne Hf (firstn k nrows) (skipn k nrows)); rewrite <- ?Hsplit; try assumption.
    cbn [bind]. f_equal. f_equal. unfold nrows. rewrite <- (map_map (to_native_row fs) (rt_row F P fs)). rewrite !firstn_map. reflexivity.
  Qed.

  Theorem roundtrip_model t :
    table_ok t -> fcontract F P t -> kf_leading_ws_after_numeric d t = false ->
    read_text P d (tdt t) (Z.of_nat (length (trows t))) (write_text F d t) = Ok (expected F P t).
  Proof.
    intros Hok Hc Hkf. rewrite (read_first_rows t (length (trows t)) Hok Hc Hkf).
    - rewrite firstn_all2; [reflexivity|]. unfold expected. cbn [trows]. rewrite map_length. lia.
    - unfold table_ok, table_ok_b in Hok. destruct (trows t); [|simpl; lia].
      rewrite andb_false_r in Hok. discriminate.
  Qed.
End RT2.

(* Recfile._count_nrows on the written text *)
Definition noeol (l : list byte) : Prop := Forall (fun b => is_eol b = false) l.

Lemma count_lines_row : forall l p rest, noeol l ->
  count_lines_aux false p (l ++ nl :: rest) = 1 + count_lines rest.
Proof.
  induction l as [|b l IH]; intros p rest H.
  - reflexivity.
  - pose proof (Forall_inv H) as Hb. unfold is_eol in Hb. apply orb_false_iff in Hb. destruct Hb as [Hb1 Hb2].
    cbn [app count_lines_aux]. rewrite Hb1, Hb2. apply IH. exact (Forall_inv_tail H).
Qed.

Lemma numchar_noeol b : numchar b = true -> is_eol b = false.
Proof.
  intro H. unfold is_eol. rewrite !byte_eqb_bZ. change (bZ nl) with 10. change (bZ x0d) with 13.
  unfold numchar, is_digit, is_alpha in H. lia.
Qed.

Lemma tok_ok_noeol k tok : tok_ok k tok = true -> noeol tok.
Proof.
  intro H. destruct (tok_ok_run k tok H) as [s [R _]]. apply run_numchars in R.
  unfold noeol. eapply Forall_impl; [|exact R]. intros b Hb. apply numchar_noeol. exact Hb.
Qed.

Section Lines.
  Variable F P : nat -> list byte -> list byte.
  Variable d : byte.
  Hypothesis Hd : delim_ok d.

  Lemma delim_noeol : is_eol d = false.
  Proof.
    destruct (delim_ok_facts d Hd) as [_ [H1 H2]]. unfold is_eol. apply byte_eqb_false in H1, H2. rewrite H1, H2. reflexivity.
  Qed.

  Lemma join_els_noeol : forall ts, Forall noeol ts -> noeol (join_els d ts).
  Proof.
    induction ts as [|t ts IH]; intro H; [constructor|].
    destruct ts as [|t2 ts]; [exact (Forall_inv H)|].
    rewrite (join_els_2 d). apply Forall_app. split; [exact (Forall_inv H)|].
    constructor; [exact delim_noeol|]. apply IH. exact (Forall_inv_tail H).
  Qed.

  Lemma cell_noeol f e : cell_good F P (fkind f) e -> el_noeol_b f e = true -> noeol (cell_text F (fkind f) e).
  Proof.
    intros Hg Hn. unfold el_noeol_b in Hn. destruct (is_str (fkind f)) eqn:Es.
    - destruct (fkind f); try discriminate. simpl. apply forallb_Forall in Hn.
      eapply Forall_impl; [|exact Hn]. intros b Hb. simpl in Hb. apply negb_true_iff in Hb. exact Hb.
    - destruct (num_cell F P (fkind f) e Es Hg) as [Htok _]. eapply tok_ok_noeol. exact Htok.
  Qed.

  Lemma write_fields_noeol : forall fs r,
    row_ok_b fs r = true -> row_contract_b F P fs r = true -> row_noeol_b fs r = true ->
    noeol (write_fields F d fs r).
  Proof.
    induction fs as [|f fs IH]; intros r Hr Hc Hn; [constructor|].
    destruct r as [|els r]; [constructor|].
    destruct (row_facts F P d f fs els r Hr Hc) as [_ [Hg [Hr' Hc']]].
    cbn [row_noeol_b] in Hn. apply andb_true_iff in Hn. destruct Hn as [Hn Hn'].
    cbn [write_fields]. apply Forall_app. split; [|apply Forall_app; split].
    - apply join_els_noeol. apply forallb_Forall in Hn. rewrite Forall_forall in *.
      intros x Hx. apply in_map_iff in Hx. destruct Hx as [e [<- Hin]]. apply cell_noeol; [apply Hg|apply Hn]; exact Hin.
    - destruct fs; [constructor|]. constructor; [exact delim_noeol|constructor].
    - apply IH; assumption.
  Qed.

  Lemma count_lines_rows fs : forall rows,
    forallb (row_ok_b fs) rows = true -> forallb (row_contract_b F P fs) rows = true ->
    forallb (row_noeol_b fs) rows = true ->
    count_lines (write_rows F d fs rows) = Z.of_nat (length rows).
  Proof.
    induction rows as [|r rows IH]; intros Hr Hc Hn; [reflexivity|].
    cbn [forallb] in Hr, Hc, Hn. apply andb_true_iff in Hr, Hc, Hn.
    destruct Hr as [Hr Hrs], Hc as [Hc Hcs], Hn as [Hn Hns].
    unfold write_rows. cbn [map concat]. unfold write_row at 1. rewrite <- app_assoc. cbn [app].
    fold (write_rows F d fs rows). unfold count_lines at 1.
    rewrite count_lines_row by (apply write_fields_noeol; assumption).
    rewrite IH by assumption. cbn [length]. lia.
  Qed.

  Lemma row_noeol_native : forall fs r, row_noeol_b fs r = true -> row_noeol_b fs (to_native_row fs r) = true.
  Proof.
    induction fs as [|f fs IH]; intros [|els r] H; simpl in *; try reflexivity.
    apply andb_true_iff in H. destruct H as [H1 H2]. rewrite (IH r H2), andb_true_r.
    apply (forallb_map_impl (el_noeol_b f)); [|exact H1]. intros e He. unfold el_noeol_b in *.
    destruct (is_str (fkind f)) eqn:Es; [|reflexivity]. rewrite to_native_el_str by exact Es. exact He.
  Qed.

  Theorem count_lines_text t : table_ok t -> fcontract F P t -> strings_noeol t ->
    count_lines (write_text F d t) = Z.of_nat (length (trows t)).
  Proof.
    unfold table_ok, table_ok_b, fcontract, fcontract_b, strings_noeol, strings_noeol_b, write_text.
    intros Hok Hc Hn. apply andb_true_iff in Hok. destruct Hok as [_ Hrows].
    rewrite count_lines_rows.
    - rewrite map_length. reflexivity.
    - exact (forallb_map_impl _ _ _ _ (row_ok_native (tdt t)) Hrows).
    - rewrite forallb_map'. exact Hc.
    - exact (forallb_map_impl _ _ _ _ (row_noeol_native (tdt t)) Hn).
  Qed.
End Lines.

