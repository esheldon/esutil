(* C04 -- completeness of the round-trip checker where the property is decidable without real-number search: it decides
   roundtrip_ok exactly on tables without floating-point fields (integers and strings "exactly", names, shapes, native
   order).  (The header checker decides header_ok for every table: CheckProofs.header_check_iff.) *)
From EsVerif.Common Require Import Base Bytes.
From EsVerif.C04 Require Import TextModel Spec CheckProofs.
Open Scope Z_scope.

Definition float_free_fld (f : fld) : bool := match fkind f with KFlt _ => false | _ => true end.
Definition float_free (t : table) : bool := forallb float_free_fld (tdt t).

Lemma el_match_b_complete f ein eout : float_free_fld f = true -> el_match f ein eout -> el_match_b f ein eout = true.
Proof.
  unfold float_free_fld, el_match, el_match_b. intros Hf [Hl Hm]. rewrite Hl, Nat.eqb_refl. simpl.
  destruct (fkind f) as [sg sz|sz|w]; [|discriminate|].
  - apply Z.eqb_eq. exact Hm.
  - apply bytes_eqb_eq. exact Hm.
Qed.

Lemma row_match_b_complete : forall fs rin rout, forallb float_free_fld fs = true ->
  row_match fs rin rout -> row_match_b fs rin rout = true.
Proof.
  induction fs as [|f fs IH]; intros [|ei ri] [|eo ro] Hf H; simpl in *; try contradiction; try reflexivity.
  apply andb_true_iff in Hf. destruct Hf as [Hf Hfs]. destruct H as [H1 H2].
  rewrite (IH ri ro Hfs H2), andb_true_r.
  eapply forall2b_complete; [|exact H1]. intros a b. apply el_match_b_complete. exact Hf.
Qed.

Theorem roundtrip_check_complete tin out : float_free tin = true -> roundtrip_ok tin out -> roundtrip_check tin out = true.
Proof.
  intros Hf [tout [-> [H1 H2]]]. unfold roundtrip_check. apply andb_true_iff. split.
  - eapply forall2b_complete; [|exact H1]. apply fld_match_b_iff.
  - eapply forall2b_complete; [|exact H2]. intros a b. apply row_match_b_complete. exact Hf.
Qed.
