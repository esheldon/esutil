(* C04 -- bytes as numbers (Common/Bytes: bZ, Zb, byte_eqb); decimal printing/parsing and the little-endian integer image
   are inverse to each other. *)
From Coq Require Import ZifyNat.
From EsVerif.Common Require Import Base Bytes.
From EsVerif.C04 Require Import TextModel.

Lemma bZ_range b : 0 <= bZ b < 256.
Proof.
  unfold bZ. pose proof (Byte.to_N_bounded b) as H. lia.
Qed.

Lemma Zb_small z b : z mod 256 = bZ b -> Zb z = b.
Proof.
  intro H. unfold Zb. rewrite H. unfold bZ. rewrite N2Z.id. unfold byte_of_N. rewrite Byte.of_to_N. reflexivity.
Qed.

Lemma Zb_bZ b : Zb (bZ b) = b.
Proof. apply Zb_small. pose proof (bZ_range b). lia. Qed.

Lemma bZ_Zb z : bZ (Zb z) = z mod 256.
Proof.
  unfold Zb, bZ, byte_of_N.
  assert (R : 0 <= z mod 256 < 256) by lia.
  destruct (Byte.of_N (Z.to_N (z mod 256))) as [b|] eqn:E.
  - apply Byte.to_of_N in E. rewrite E. lia.
  - apply Byte.of_N_None_iff in E. lia.
Qed.

Lemma byte_eqb_refl b : byte_eqb b b = true.
Proof. apply byte_eqb_eq. reflexivity. Qed.

Lemma byte_eqb_false a b : byte_eqb a b = false <-> a <> b.
Proof.
  split.
  - intros H E. subst. rewrite byte_eqb_refl in H. discriminate.
  - intro H. destruct (byte_eqb a b) eqn:E; [|reflexivity]. apply byte_eqb_eq in E. contradiction.
Qed.

Lemma byte_eqb_bZ a b : byte_eqb a b = (bZ a =? bZ b).
Proof.
  unfold byte_eqb, bZ. destruct (N.eqb_spec (Byte.to_N a) (Byte.to_N b)) as [E|E].
  - rewrite E. symmetry. apply Z.eqb_refl.
  - symmetry. apply Z.eqb_neq. intro H. apply E. apply N2Z.inj. exact H.
Qed.

Lemma digit_byte_val d : 0 <= d < 10 -> bZ (digit_byte d) = 48 + d.
Proof. intro H. unfold digit_byte. rewrite bZ_Zb. lia. Qed.

Lemma digit_byte_is_digit d : 0 <= d < 10 -> is_digit (digit_byte d) = true.
Proof. intro H. unfold is_digit. rewrite digit_byte_val by exact H. lia. Qed.

Lemma dec_fuel_app f : forall n acc, dec_fuel f n acc = dec_fuel f n [] ++ acc.
Proof.
  induction f as [|f IH]; intros n acc; simpl; [reflexivity|].
  destruct (n <? 10); [reflexivity|].
  rewrite IH. rewrite (IH _ [_]). rewrite <- app_assoc. reflexivity.
Qed.

Lemma parse_digits_app a l1 l2 : parse_digits a (l1 ++ l2) = parse_digits (parse_digits a l1) l2.
Proof. unfold parse_digits. apply fold_left_app. Qed.

(* more fuel than the number of binary digits changes nothing *)
Lemma dec_fuel_more : forall f n acc, n < 2 ^ Z.of_nat (S f) -> forall f', (S f <= f')%nat ->
  dec_fuel f' n acc = dec_fuel (S f) n acc.
Proof.
  induction f as [|f IH]; intros n acc Hn f' Hf'; destruct f' as [|f']; try lia; cbn [dec_fuel].
  - change (2 ^ Z.of_nat 1) with 2 in Hn. assert (n <? 10 = true) as -> by lia. reflexivity.
  - destruct (n <? 10) eqn:E; [reflexivity|]. apply IH; [|lia].
    rewrite Nat2Z.inj_succ, Z.pow_succ_r in Hn by lia. apply Z.ltb_ge in E. apply Z.div_lt_upper_bound; lia.
Qed.

(* the decimal text without the fuel: one digit below 10, else the text of n / 10 followed by the last digit *)
Lemma dec_nat_small n : 0 <= n < 10 -> dec_nat n = [digit_byte n].
Proof.
  intro Hn. unfold dec_nat. cbn [dec_fuel]. assert (n <? 10 = true) as -> by lia.
  rewrite Z.mod_small by lia. reflexivity.
Qed.

Lemma dec_nat_step n : 10 <= n -> dec_nat n = dec_nat (n / 10) ++ [digit_byte (n mod 10)].
Proof.
  intro Hn. unfold dec_nat. cbn [dec_fuel]. assert (n <? 10 = false) as -> by lia.
  rewrite dec_fuel_app. f_equal.
  assert (Hq : 0 < n / 10) by (apply Z.div_str_pos; lia).
  (* n / 10 has fewer binary digits than n, so the fuel left is still enough *)
  assert (Hl : Z.log2 (n / 10) < Z.log2 n).
  { apply Z.log2_lt_pow2; [exact Hq|]. pose proof (Z.log2_spec n ltac:(lia)) as H.
    rewrite Z.pow_succ_r in H by apply Z.log2_nonneg. apply Z.div_lt_upper_bound; lia. }
  apply dec_fuel_more.
  - rewrite Nat2Z.inj_succ, Z2Nat.id by apply Z.log2_nonneg. apply Z.log2_spec. exact Hq.
  - pose proof (Z.log2_nonneg (n / 10)). lia.
Qed.

Lemma dec_fuel_digits : forall f n acc, Forall (fun b => is_digit b = true) acc -> Forall (fun b => is_digit b = true) (dec_fuel f n acc).
Proof.
  induction f as [|f IH]; intros n acc Ha; simpl; [exact Ha|].
  assert (Hd : Forall (fun b => is_digit b = true) (digit_byte (n mod 10) :: acc)).
  { constructor; [|exact Ha]. apply digit_byte_is_digit. lia. }
  destruct (n <? 10); [exact Hd|apply IH; exact Hd].
Qed.

Lemma dec_fuel_nonempty : forall f n acc, dec_fuel (S f) n acc <> [].
Proof.
  intros f n acc. simpl. destruct (n <? 10); [discriminate|].
  rewrite dec_fuel_app. intro H. apply app_eq_nil in H. destruct H as [_ H]. discriminate.
Qed.

Lemma dec_nat_shape n : Forall (fun b => is_digit b = true) (dec_nat n) /\ dec_nat n <> [].
Proof. unfold dec_nat. split; [apply dec_fuel_digits; constructor|apply dec_fuel_nonempty]. Qed.

Lemma dec_nat_parse n : 0 <= n -> parse_digits 0 (dec_nat n) = n.
Proof.
  intro Hn. pattern n. apply Zlt_0_ind; [|exact Hn]. clear n Hn. intros n IH Hn. destruct (Z.lt_ge_cases n 10) as [Hlt|Hge].
  - rewrite dec_nat_small by lia. unfold parse_digits; cbn [fold_left]. rewrite digit_byte_val by lia. lia.
  - rewrite dec_nat_step, parse_digits_app, (IH (n / 10)) by lia. unfold parse_digits; cbn [fold_left].
    rewrite digit_byte_val by lia. lia.
Qed.

Lemma dec_nat_mul_pow10 n j : 0 < n -> 0 <= j -> dec_nat (n * 10 ^ j) = dec_nat n ++ repeat (digit_byte 0) (Z.to_nat j).
Proof.
  intros Hn Hj. pattern j. apply natlike_ind; [| |exact Hj].
  - rewrite Z.mul_1_r, app_nil_r. reflexivity.
  - intros i Hi IH. rewrite Z2Nat.inj_succ, Z.pow_succ_r by lia. cbn [repeat]. rewrite repeat_cons, app_assoc, <- IH.
    assert (0 < 10 ^ i) by (apply Z.pow_pos_nonneg; lia).
    rewrite dec_nat_step by nia. replace (n * (10 * 10 ^ i)) with (n * 10 ^ i * 10) by ring.
    rewrite Z.div_mul, Z.mod_mul by lia. reflexivity.
Qed.

Lemma dec_nat_length L : 0 <= L -> forall n, 10 ^ L <= n < 10 ^ (L + 1) -> length (dec_nat n) = S (Z.to_nat L).
Proof.
  intro HL. pattern L. apply natlike_ind; [| |exact HL].
  - intros n Hn. rewrite dec_nat_small by (change (10 ^ (0 + 1)) with 10 in Hn; lia). reflexivity.
  - intros i Hi IH n Hn. rewrite Z.pow_succ_r in Hn by lia. replace (Z.succ i + 1) with (Z.succ (i + 1)) in Hn by lia.
    rewrite Z.pow_succ_r in Hn by lia. assert (0 < 10 ^ i) by (apply Z.pow_pos_nonneg; lia).
    rewrite dec_nat_step, app_length, IH, Z2Nat.inj_succ by lia. simpl. lia.
Qed.

Lemma is_digit_not_sign b : is_digit b = true -> byte_eqb b minus = false /\ byte_eqb b plus = false.
Proof.
  intro H. rewrite !byte_eqb_bZ. change (bZ minus) with 45. change (bZ plus) with 43.
  unfold is_digit in H. lia.
Qed.

Theorem dec_parse_roundtrip z : parse_dec (dec z) = z.
Proof.
  unfold dec. destruct (z <? 0) eqn:E.
  - unfold parse_dec. rewrite byte_eqb_refl.
    rewrite dec_nat_parse by lia. lia.
  - pose proof (dec_nat_parse z ltac:(lia)) as P. destruct (dec_nat_shape z) as [Fd Ne].
    destruct (dec_nat z) as [|b r] eqn:Ed; [contradiction|].
    unfold parse_dec. apply Forall_inv in Fd.
    destruct (is_digit_not_sign b Fd) as [-> ->]. exact P.
Qed.

(* the text of an integer: an optional '-' followed by at least one digit *)
Lemma dec_shape z : exists sg ds, dec z = sg ++ ds /\ (sg = [] \/ sg = [minus])
  /\ ds <> [] /\ Forall (fun b => is_digit b = true) ds.
Proof.
  unfold dec. destruct (z <? 0) eqn:E.
  - destruct (dec_nat_shape (- z)) as [Fd Ne].
    exists [minus], (dec_nat (- z)). auto.
  - destruct (dec_nat_shape z) as [Fd Ne].
    exists [], (dec_nat z). auto.
Qed.

Lemma encode_le_length n : forall z, length (encode_le n z) = n.
Proof. induction n as [|n IH]; intro z; simpl; [reflexivity|]. rewrite IH. reflexivity. Qed.

Lemma encode_le_unsigned e : encode_le (length e) (le_unsigned e) = e.
Proof.
  induction e as [|b e IH]; [reflexivity|].
  cbn [length encode_le le_unsigned fold_right]. fold (le_unsigned e).
  pose proof (bZ_range b) as R.
  f_equal.
  - apply Zb_small. lia.
  - replace ((bZ b + 256 * le_unsigned e) / 256) with (le_unsigned e) by lia. exact IH.
Qed.

Lemma le_unsigned_encode_le n : forall x, 0 <= x < 256 ^ Z.of_nat n -> le_unsigned (encode_le n x) = x.
Proof.
  induction n as [|n IH]; intros x Hx.
  - change (256 ^ Z.of_nat 0) with 1 in Hx. simpl. lia.
  - rewrite Nat2Z.inj_succ, Z.pow_succ_r in Hx by lia.
    change (le_unsigned (encode_le (S n) x)) with (bZ (Zb x) + 256 * le_unsigned (encode_le n (x / 256))).
    rewrite IH, bZ_Zb by lia. lia.
Qed.

Lemma encode_le_shift n : forall z k, encode_le n (z + k * 256 ^ Z.of_nat n) = encode_le n z.
Proof.
  induction n as [|n IH]; intros z k; [reflexivity|].
  cbn [encode_le]. rewrite Nat2Z.inj_succ, Z.pow_succ_r by lia.
  set (p := 256 ^ Z.of_nat n) in *.
  f_equal.
  - unfold Zb. f_equal. f_equal.
    replace (z + k * (256 * p)) with (z + (k * p) * 256) by ring. apply Z_mod_plus_full.
  - replace ((z + k * (256 * p)) / 256) with (z / 256 + k * p).
    + apply IH.
    + replace (z + k * (256 * p)) with (z + (k * p) * 256) by ring.
      rewrite Z_div_plus_full by lia. reflexivity.
Qed.

Theorem encode_decode_le sg e : encode_le (length e) (decode_le sg e) = e.
Proof.
  unfold decode_le.
  destruct (sg && (256 ^ Z.of_nat (length e) <=? 2 * le_unsigned e)).
  - replace (le_unsigned e - 256 ^ Z.of_nat (length e))
      with (le_unsigned e + (-1) * 256 ^ Z.of_nat (length e)) by ring.
    rewrite encode_le_shift. apply encode_le_unsigned.
  - apply encode_le_unsigned.
Qed.
