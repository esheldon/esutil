(* C04 -- the scanner: a well-formed numeric token followed by its separator is consumed exactly.
   (What the automaton [run] does on any input is FmtProofs.run_spec, stated with the fold [steps] defined there.) *)
From Coq.Strings Require Import Byte.
From EsVerif.Common Require Import Base Bytes.
From EsVerif.C04 Require Import TextModel Spec DecProofs FmtProofs.

Definition all_ws (l : list byte) : Prop := Forall (fun b => is_ws b = true) l.
(* nothing that could continue a numeric token *)
Definition ends_tok (x : list byte) : Prop := match x with [] => True | c :: _ => numchar c = false end.

Lemma numchar_not_ws b : numchar b = true -> is_ws b = false.
Proof. unfold numchar, is_ws, is_digit, is_alpha. set (n := bZ b). lia. Qed.

Lemma is_digit_numchar b : is_digit b = true -> numchar b = true.
Proof. unfold numchar. intros ->. reflexivity. Qed.

Lemma skip_ws_all_ws pre x : all_ws pre -> skip_ws (pre ++ x) = skip_ws x.
Proof.
  induction pre as [|b pre IH]; intro H; [reflexivity|].
  inversion H as [|? ? Hb Hp]; subst. simpl. rewrite Hb. apply IH. exact Hp.
Qed.

Lemma skip_ws_stop b r : is_ws b = false -> skip_ws (b :: r) = b :: r.
Proof. intro H. simpl. rewrite H. reflexivity. Qed.

Lemma run_split k l s s' t r : run k s l = (s', t, r) -> l = t ++ r.
Proof. intro H. apply run_spec in H. apply H. Qed.

Lemma run_ext k tok s s' t : run k s tok = (s', t, []) ->
  forall c rest, step k s' c = None -> run k s (tok ++ c :: rest) = (s', tok, c :: rest).
Proof.
  intros H c rest Hc. apply run_spec in H. destruct H as (E & Hs & _). rewrite app_nil_r in E. subst t.
  apply run_spec. auto.
Qed.

Lemma run_numchars k l s s' t r : run k s l = (s', t, r) -> Forall (fun b => numchar b = true) t.
Proof. intro H. apply run_spec in H. destruct H as (_ & Hs & _). exact (steps_numchars k t s s' Hs). Qed.

Lemma step_stop k s c : numchar c = false -> step k s c = None.
Proof. intro H. unfold step. rewrite H. reflexivity. Qed.

Lemma tok_ok_run k tok : tok_ok k tok = true ->
  exists s', run k Q0 tok = (s', tok, []) /\ accepting s' = true.
Proof.
  unfold tok_ok. destruct (run k Q0 tok) as [[s t] r] eqn:R. intro H.
  apply andb_true_iff in H. destruct H as [Ha Hr]. destruct r; [|discriminate].
  apply run_split in R as S. rewrite app_nil_r in S. subst t. exists s. split; [reflexivity|exact Ha].
Qed.

Lemma tok_ok_head k tok : tok_ok k tok = true -> exists b r, tok = b :: r /\ numchar b = true.
Proof.
  destruct tok as [|b r]; unfold tok_ok; simpl.
  - discriminate.
  - intro H. exists b, r. split; [reflexivity|].
    unfold step in H. destruct (numchar b); [reflexivity|]. simpl in H. discriminate.
Qed.

Lemma scan_tok_ext k tok c rest : tok_ok k tok = true -> numchar c = false ->
  scan_tok k (tok ++ c :: rest) = TOk tok (c :: rest).
Proof.
  intros H Hc. destruct (tok_ok_run k tok H) as [s [R A]].
  unfold scan_tok. rewrite (run_ext k tok Q0 s tok R c rest (step_stop k s c Hc)). rewrite A. reflexivity.
Qed.

Lemma scan_tok_eof k tok : tok_ok k tok = true -> scan_tok k tok = TOk tok [].
Proof.
  intro H. destruct (tok_ok_run k tok H) as [s [R A]]. unfold scan_tok. rewrite R, A. reflexivity.
Qed.

Lemma scan_tok_ends k tok x : tok_ok k tok = true -> ends_tok x -> scan_tok k (tok ++ x) = TOk tok x.
Proof.
  intros H Hx. destruct x as [|c rest].
  - rewrite app_nil_r. apply scan_tok_eof. exact H.
  - apply scan_tok_ext; assumption.
Qed.

(* bare conversion (white-space mode): nothing behind the token is touched *)
Lemma fscanf_num_bare k pre tok x : all_ws pre -> tok_ok k tok = true -> ends_tok x ->
  fscanf_num k None (pre ++ tok ++ x) = SOk tok x.
Proof.
  intros Hp H Hx. unfold fscanf_num. rewrite skip_ws_all_ws by exact Hp.
  destruct (tok_ok_head k tok H) as [b [r [-> Hb]]].
  change ((b :: r) ++ x) with (b :: (r ++ x)). rewrite skip_ws_stop by (apply numchar_not_ws; exact Hb).
  change (b :: (r ++ x)) with ((b :: r) ++ x). rewrite scan_tok_ends by assumption.
  simpl. reflexivity.
Qed.

(* conversion, blank, literal delimiter: the stream stops exactly behind the separator under [safe_next] *)
Lemma fscanf_num_delim k d pre tok sep rest :
  all_ws pre -> tok_ok k tok = true -> numchar sep = false -> (is_ws sep = false -> sep = d) ->
  safe_next d sep rest ->
  fscanf_num k (Some d) (pre ++ tok ++ sep :: rest) = SOk tok rest.
Proof.
  intros Hp H Hsep Hd Hs. unfold fscanf_num. rewrite skip_ws_all_ws by exact Hp.
  destruct (tok_ok_head k tok H) as [b [r [-> Hb]]].
  change ((b :: r) ++ sep :: rest) with (b :: (r ++ sep :: rest)).
  rewrite skip_ws_stop by (apply numchar_not_ws; exact Hb).
  change (b :: (r ++ sep :: rest)) with ((b :: r) ++ sep :: rest). rewrite scan_tok_ext by assumption.
  cbv beta iota.
  destruct (is_ws sep) eqn:Ews.
  - (* the separator is white space: the blank directive runs into [rest] *)
    destruct Hs as [Hs|Hs]; [congruence|].
    simpl skip_ws. rewrite Ews.
    destruct rest as [|b' r']; [reflexivity|].
    destruct Hs as [Hw Hne]. rewrite skip_ws_stop by exact Hw.
    apply byte_eqb_false in Hne. rewrite Hne. reflexivity.
  - rewrite skip_ws_stop by exact Ews. rewrite (Hd eq_refl), byte_eqb_refl. reflexivity.
Qed.

Lemma read_num_space k pre tok x : all_ws pre -> tok_ok k tok = true -> ends_tok x ->
  read_num k space (pre ++ tok ++ x) = Ok (tok, x).
Proof.
  intros. unfold read_num. rewrite byte_eqb_refl. rewrite fscanf_num_bare by assumption. reflexivity.
Qed.

Lemma read_num_delim k d pre tok sep rest :
  byte_eqb d space = false ->
  all_ws pre -> tok_ok k tok = true -> numchar sep = false -> (is_ws sep = false -> sep = d) ->
  safe_next d sep rest ->
  read_num k d (pre ++ tok ++ sep :: rest) = Ok (tok, rest).
Proof.
  intros Hd. intros. unfold read_num. rewrite Hd. rewrite fscanf_num_delim by assumption. reflexivity.
Qed.

Lemma run_int_digits ds : Forall (fun b => is_digit b = true) ds -> run TInt QInt ds = (QInt, ds, []).
Proof.
  induction ds as [|b ds IH]; intro H; [reflexivity|].
  inversion H as [|? ? Hb Hds]; subst. simpl.
  unfold step. rewrite (is_digit_numchar b Hb). simpl. rewrite Hb. rewrite (IH Hds). reflexivity.
Qed.

Lemma tok_ok_dec z : tok_ok TInt (dec z) = true.
Proof.
  destruct (dec_shape z) as [sg [ds [E [Hsg [Hne Hd]]]]]. rewrite E.
  destruct ds as [|b ds]; [contradiction|]. inversion Hd as [|? ? Hb Hds]; subst.
  unfold tok_ok. destruct Hsg as [->| ->]; simpl.
  - unfold step. rewrite (is_digit_numchar b Hb). simpl.
    assert (is_sign b = false) as -> by (unfold is_sign; unfold is_digit in Hb; lia).
    rewrite Hb. rewrite (run_int_digits ds Hds). reflexivity.
  - unfold step at 1. change (numchar minus) with true. simpl.
    unfold step. rewrite (is_digit_numchar b Hb). simpl. rewrite Hb.
    rewrite (run_int_digits ds Hds). reflexivity.
Qed.
