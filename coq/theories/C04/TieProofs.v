(* C04 -- the decisions of the hand model (TextModel.v) as closed terms, and the proofs that TextModel's functions are built
   from exactly these decisions.  The harness regenerates Gen.v from the source on every run and proves
   Gen.<x> = TieProofs.model_<x> (one obligation each); together with the lemmas below this says: the writer and the
   reader of TextModel.v are the loops of records.cpp with the conditions, characters and slice bounds the source has in the tree under check. *)
From Coq Require Import ZifyBool.
From Coq.Strings Require Import Byte.
From EsVerif.Common Require Import Base Bytes.
From EsVerif.C04 Require Import TextModel Spec.

(* model-side terms (what the translated source must be equal to) *)
Definition model_scan_conv_f4 : list byte := [x66].                         (* "f"  : scanf("%f")  *)
Definition model_scan_conv_f8 : list byte := [x6c; x66].                     (* "lf" : scanf("%lf") *)
Definition model_ws_mode (delim : byte) : bool := byte_eqb delim x20.
Definition model_elem_delim (el nel : Z) : bool := el <? (nel - 1).
Definition model_field_delim (fnum mNfields : Z) : bool := fnum <? (mNfields - 1).
Definition model_extra_getc (mReadAsWhitespace : bool) (colnum mNfields : Z) : bool := mReadAsWhitespace.
Definition model_str_loop (i size_per_el : Z) : bool := i <? size_per_el.
Definition model_strip : nat := 1%nat.
Definition model_count_increment : Z := 1.

(* the writer of TextModel.v is the double loop of WriteRows / WriteField with these conditions *)
Section Loops.
  Variable ec : Z -> Z -> bool.       (* delimiter behind element el of nel? *)
  Variable fc : Z -> Z -> bool.       (* delimiter behind field fnum of mNfields? *)
  Variable term : byte.
  Variable F : nat -> list byte -> list byte.

  (* for (el = k; el < nel; el++) { write text; if (ec el nel) write delim; } *)
  Fixpoint elem_loop (d : byte) (nel el : Z) (texts : list (list byte)) : list byte :=
    match texts with
    | [] => []
    | t :: r => t ++ (if ec el nel then [d] else []) ++ elem_loop d nel (el + 1) r
    end.

  (* for (fnum = k; fnum < mNfields; fnum++) WriteField(fnum) *)
  Fixpoint field_loop (d : byte) (nf fnum : Z) (fs : list fld) (r : row) : list byte :=
    match fs, r with
    | f :: fs', els :: r' =>
        elem_loop d (Z.of_nat (length els)) 0 (map (cell_text F (fkind f)) els)
        ++ (if fc fnum nf then [d] else []) ++ field_loop d nf (fnum + 1) fs' r'
    | _, _ => []
    end.

  Definition rows_loop (d : byte) (fs : list fld) (rows : list row) : list byte :=
    concat (map (fun r => field_loop d (Z.of_nat (length fs)) 0 fs r ++ [term]) rows).
End Loops.

Lemma elem_loop_join d : forall texts k,
  elem_loop model_elem_delim d (k + Z.of_nat (length texts)) k texts = join_els d texts.
Proof.
  induction texts as [|t texts IH]; intro k; [reflexivity|].
  cbn [elem_loop length]. destruct texts as [|t2 texts].
  - cbn [elem_loop join_els length]. unfold model_elem_delim.
    assert (k <? k + Z.of_nat 1 - 1 = false) as -> by lia. rewrite !app_nil_r. reflexivity.
  - specialize (IH (k + 1)).
    replace (k + 1 + Z.of_nat (length (t2 :: texts))) with (k + Z.of_nat (S (length (t2 :: texts)))) in IH by lia.
    rewrite IH. unfold model_elem_delim at 1.
    assert (k <? k + Z.of_nat (S (length (t2 :: texts))) - 1 = true) as -> by (cbn [length]; lia).
    reflexivity.
Qed.

Lemma field_loop_write_fields F d : forall fs r k, length r = length fs ->
  field_loop model_elem_delim model_field_delim F d (k + Z.of_nat (length fs)) k fs r = write_fields F d fs r.
Proof.
  induction fs as [|f fs IH]; intros r k Hl; destruct r as [|els r]; try reflexivity; try discriminate.
  cbn [field_loop write_fields length]. rewrite <- (map_length (cell_text F (fkind f)) els).
  pose proof (elem_loop_join d (map (cell_text F (fkind f)) els) 0) as E. rewrite Z.add_0_l in E. rewrite E. clear E. f_equal.
  specialize (IH r (k + 1) ltac:(simpl in Hl; lia)).
  replace (k + 1 + Z.of_nat (length fs)) with (k + Z.of_nat (S (length fs))) in IH by lia. rewrite IH.
  unfold model_field_delim. destruct fs as [|f2 fs].
  - assert (k <? k + Z.of_nat (S (length (@nil fld))) - 1 = false) as -> by (cbn [length]; lia). reflexivity.
  - assert (k <? k + Z.of_nat (S (length (f2 :: fs))) - 1 = true) as -> by (cbn [length]; lia). reflexivity.
Qed.

(* the text of TextModel.write_rows is the loop nest with the model-side conditions and the newline *)
Theorem write_rows_is_source_loop F d fs rows : Forall (fun r : row => length r = length fs) rows ->
  rows_loop model_elem_delim model_field_delim nl F d fs rows = write_rows F d fs rows.
Proof.
  intro H. unfold rows_loop, write_rows. f_equal. apply map_ext_in. intros r Hin. unfold write_row.
  rewrite Forall_forall in H. rewrite <- (field_loop_write_fields F d fs r 0 (H r Hin)). reflexivity.
Qed.

(* the reader: white-space mode, the extra fgetc, the byte loop of strings, the slice of the type strings *)
Lemma read_num_ws_mode k d l :
  read_num k d l =
  match fscanf_num k (if model_ws_mode d then None else Some d) l with
  | SOk t r => Ok (t, r)
  | SEof => Err ERuntime
  | SFail r => if model_ws_mode d then Err ERuntime
               else match r with
                    | c :: r' => if byte_eqb c d then match k with TFloat => Ok (nan_tok, r') | TInt => Err ERuntime end else Err ERuntime
                    | [] => Err ERuntime
                    end
  end.
Proof. reflexivity. Qed.

Lemma read_field_extra_getc P d f l :
  read_field P d f l =
  match fkind f with
  | KStr w => read_str_els w (fnel f) l
  | k => do (es, r) <- read_num_els P k d (fnel f) l;
         Ok (es, if model_extra_getc (model_ws_mode d) 0 0 then tl r else r)
  end.
Proof. reflexivity. Qed.

(* for (i = 0; str_loop i w; i++) fgetc : exactly w bytes *)
Fixpoint str_loop_count (fuel : nat) (i w : Z) : nat :=
  match fuel with O => O | S f => if model_str_loop i w then S (str_loop_count f (i + 1) w) else O end.
Lemma str_loop_takes_w : forall w : nat, str_loop_count (S w) 0 (Z.of_nat w) = w.
Proof.
  assert (G : forall fuel i w, 0 <= i <= Z.of_nat w -> (Z.to_nat (Z.of_nat w - i) < fuel)%nat ->
              str_loop_count fuel i (Z.of_nat w) = Z.to_nat (Z.of_nat w - i)).
  { induction fuel as [|fuel IH]; intros i w Hi Hf; [lia|]. cbn [str_loop_count]. unfold model_str_loop.
    destruct (i <? Z.of_nat w) eqn:E.
    - rewrite IH by lia. lia.
    - lia. }
  intro w. rewrite G by lia. lia.
Qed.

Lemma header_strip fs : header_dtype fs = map (fun f => (fname f, skipn model_strip (typestr f), fshape f)) fs.
Proof. reflexivity. Qed.

(* for the tables of the property: the whole text is the source's loop nest applied to the native image *)
Lemma row_ok_length : forall fs r, row_ok_b fs r = true -> length r = length fs.
Proof.
  induction fs as [|f fs IH]; intros [|els r] H; simpl in H; try discriminate; [reflexivity|].
  apply andb_true_iff in H. destruct H as [_ H]. simpl. f_equal. apply IH. exact H.
Qed.

Lemma to_native_row_length : forall fs r, length r = length fs -> length (to_native_row fs r) = length fs.
Proof.
  induction fs as [|f fs IH]; intros [|els r] H; simpl in *; try discriminate; [reflexivity|]. f_equal. apply IH. lia.
Qed.

Theorem write_text_is_source_loop F d t : table_ok t ->
  rows_loop model_elem_delim model_field_delim nl F d (tdt t) (map (to_native_row (tdt t)) (trows t)) = write_text F d t.
Proof.
  unfold table_ok, table_ok_b. intro H. apply andb_true_iff in H. destruct H as [_ Hrows].
  unfold write_text. apply write_rows_is_source_loop. rewrite Forall_forall. intros r Hin.
  apply in_map_iff in Hin. destruct Hin as [r0 [<- Hin0]]. apply to_native_row_length. apply row_ok_length.
  rewrite forallb_forall in Hrows. apply Hrows. exact Hin0.
Qed.
