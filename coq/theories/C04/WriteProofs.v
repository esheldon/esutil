(* C04 -- the text written depends only on the kinds of the fields and on the native image of the rows:
   tables holding the same values in different byte orders produce the same file. *)
From Coq.Strings Require Import Byte.
From EsVerif.Common Require Import Base.
From EsVerif.C04 Require Import TextModel.

Section W.
  Variable F : nat -> list byte -> list byte.

  Lemma write_fields_kinds d : forall fs fs' r, map fkind fs = map fkind fs' ->
    write_fields F d fs r = write_fields F d fs' r.
  Proof.
    induction fs as [|f fs IH]; intros [|f' fs'] r H; simpl in H; try discriminate; [reflexivity|].
    inversion H as [[Hk Hr]]. destruct r as [|els r]; [reflexivity|].
    cbn [write_fields]. rewrite Hk, (IH fs' r Hr).
    destruct fs, fs'; simpl in Hr; try discriminate; reflexivity.
  Qed.

  Lemma write_rows_kinds d fs fs' rows : map fkind fs = map fkind fs' ->
    write_rows F d fs rows = write_rows F d fs' rows.
  Proof.
    intro H. unfold write_rows. f_equal. apply map_ext. intro r. unfold write_row.
    rewrite (write_fields_kinds d fs fs' r H). reflexivity.
  Qed.

  Theorem same_values_same_text d t t' :
    map fkind (tdt t) = map fkind (tdt t') ->
    map (to_native_row (tdt t)) (trows t) = map (to_native_row (tdt t')) (trows t') ->
    write_text F d t = write_text F d t'.
  Proof.
    intros Hk Hv. unfold write_text. rewrite Hv. apply write_rows_kinds. exact Hk.
  Qed.

  Lemma to_native_el_native f e : to_native_el (native_fld f) e = e.
  Proof.
    unfold to_native_el, native_fld, native_order. simpl.
    destruct (fkind f) as [sg sz|sz|w]; simpl; try reflexivity; destruct (_ <=? 1)%nat; reflexivity.
  Qed.

  Lemma to_native_row_native : forall fs r,
    to_native_row (map native_fld fs) (to_native_row fs r) = to_native_row fs r.
  Proof.
    induction fs as [|f fs IH]; intros [|els r]; simpl; try reflexivity.
    rewrite IH. f_equal. rewrite map_map. apply map_ext. intro e. apply to_native_el_native.
  Qed.
End W.
