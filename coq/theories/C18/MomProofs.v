(* C18 — weighted moments and boxcar average: the model meets the definitions *)
From Coq Require Import QArith.
From EsVerif.Common Require Import Base.
From EsVerif.C18 Require Import Model Spec QLemmas.
Open Scope Q_scope.

Lemma werr2_calc_compat w x m m' : m == m' -> werr2_calc_def w x m == werr2_calc_def w x m'.
Proof.
  intro E. unfold werr2_calc_def. apply Qdiv_comp; [|reflexivity].
  apply Sum_map2_ext. intros a b. rewrite E. reflexivity.
Qed.

Lemma wvar_compat w x m m' : m == m' -> wvar_def w x m == wvar_def w x m'.
Proof.
  intro E. unfold wvar_def. apply Qdiv_comp; [|reflexivity].
  apply Sum_map2_ext. intros a b. rewrite E. reflexivity.
Qed.

Lemma wmom1_mean x w im ce sd :
  m_mean (wmom1 x w im ce sd) == match im with None => wmean_def w x | Some m0 => m0 end.
Proof.
  unfold wmom1; cbn [m_mean]. destruct im as [m0|]; [reflexivity|].
  rewrite Qred_correct, !qsum_Sum. reflexivity.
Qed.

(* the two sums of squared deviations, about ANY centre m (the routine's own mean included) *)
Lemma err2_calc_ok w x m :
  Qred (qsum (map2 (fun wi xi => sq wi * dev2 m xi) w x) / sq (qsum w)) == werr2_calc_def w x m.
Proof. unfold werr2_calc_def, dev2, sq. rewrite Qred_correct, !qsum_Sum. reflexivity. Qed.

Lemma var_ok w x m : Qred (qsum (map2 (fun wi xi => wi * dev2 m xi) w x) / qsum w) == wvar_def w x m.
Proof. unfold wvar_def, dev2, sq. rewrite Qred_correct, !qsum_Sum. reflexivity. Qed.

Lemma wmom1_spec x w im ce sd : mom_spec x w im ce sd (wmom1 x w im ce sd).
Proof.
  unfold mom_spec. split; [apply wmom1_mean|]. split.
  - destruct ce.
    + rewrite <- (werr2_calc_compat w x _ _ (wmom1_mean x w im true sd)). apply err2_calc_ok.
    + unfold wmom1, werr2_default_def; cbn [m_err2]. rewrite qsum_Sum. reflexivity.
  - destruct sd; cbn [wmom1 m_var]; [|reflexivity]. split; [reflexivity|].
    rewrite <- (wvar_compat w x _ _ (wmom1_mean x w im ce true)). apply var_ok.
Qed.

(* ---- the numpy-level entry point: 1-d data *)
Lemma wmom_1d x w im ce sd :
  length w = length x -> (forall v, im <> IVec v) ->
  exists o, wmom (V1 x) (V1 w) im ce sd = Ok o
            /\ out_col o 0 = wmom1 x w (im_col im 0) ce sd
            /\ (exists a b, o_mean o = S0 a /\ o_err2 o = S0 b).
Proof.
  intros L NV. unfold wmom. cbn [atleast_1d]. rewrite L, Nat.eqb_refl. cbn [negb].
  destruct im as [|m0|v].
  - eexists; split; [reflexivity|]. split; [|eexists; eexists; split; reflexivity].
    unfold out_col, wmom1. destruct sd; reflexivity.
  - eexists; split; [reflexivity|]. split; [|eexists; eexists; split; reflexivity].
    unfold out_col, wmom1. destruct sd; reflexivity.
  - exfalso. eapply NV. reflexivity.
Qed.

(* ---- N-by-d data: every column of the result is the 1-d computation on that column, with the
        1-d weights themselves (weights[:, newaxis]) or the matching column of N-by-d weights *)
Definition weights_fit (rows : list (list Q)) (d : nat) (wts : nd) : Prop :=
  match wts with
  | V1 w => length w = length rows
  | M2 ww => length ww = length rows /\ rect ww d = true
  | S0 _ => False
  end.

Definition im_fits (d : nat) (im : imean) : Prop :=
  match im with IVec v => length v = d | _ => True end.

(* the record wmom builds from the per-column computations *)
Definition wmom_cols (im : imean) (sd : bool) (cols : list mom) : wmom_out :=
  {| o_mean := match im with IScalar m => S0 m | _ => V1 (map m_mean cols) end;
     o_err2 := V1 (map m_err2 cols);
     o_var := if sd then Some (V1 (map (fun r => match m_var r with Some q => q | None => 0 end) cols)) else None |}.

Lemma out_col_wmom_cols im ce sd d (x w : nat -> list Q) j :
  (j < d)%nat ->
  out_col (wmom_cols im sd (map (fun j => wmom1 (x j) (w j) (im_col im j) ce sd) (seq 0 d))) j
  = wmom1 (x j) (w j) (im_col im j) ce sd.
Proof.
  intro Hj. unfold out_col, wmom_cols. cbn [o_mean o_err2 o_var].
  destruct im, sd; cbn [nd_get]; rewrite ?map_map, !nth_map_seq by exact Hj; reflexivity.
Qed.

(* the call evaluated: whatever weights and supplied mean pass the shape tests, the result is that record *)
Lemma wmom_M2 rows d wts im ce sd :
  ncols rows = d -> rect rows d = true -> weights_fit rows d wts -> im_fits d im ->
  wmom (M2 rows) wts im ce sd
  = Ok (wmom_cols im sd (map (fun j => wmom1 (col j rows) (wcol_of wts j) (im_col im j) ce sd) (seq 0 d))).
Proof.
  intros ND R WF IF. unfold wmom. cbn [atleast_1d]. rewrite ND, R. cbn [negb].
  destruct wts as [q|w|ww]; cbn [weights_fit atleast_1d] in *.
  - contradiction.
  - rewrite WF, Nat.eqb_refl. cbn [bind]. destruct im as [|m0|v]; cbn [im_fits bind] in *.
    + reflexivity.
    + reflexivity.
    + rewrite IF, Nat.eqb_refl. reflexivity.
  - destruct WF as [WL WR]. rewrite WL, Nat.eqb_refl, WR. cbn [andb bind].
    destruct im as [|m0|v]; cbn [im_fits bind] in *.
    + reflexivity.
    + reflexivity.
    + rewrite IF, Nat.eqb_refl. reflexivity.
Qed.

Lemma wmom_Nd rows d wts im ce sd :
  ncols rows = d -> rect rows d = true -> weights_fit rows d wts -> im_fits d im ->
  exists o, wmom (M2 rows) wts im ce sd = Ok o
            /\ (sd = true -> exists a, o_var o = Some a)
            /\ forall j, (j < d)%nat ->
                 out_col o j = wmom1 (col j rows) (wcol_of wts j) (im_col im j) ce sd.
Proof.
  intros ND R WF IF. rewrite (wmom_M2 rows d wts im ce sd ND R WF IF).
  eexists; split; [reflexivity|]. split.
  - intros ->. eexists; reflexivity.
  - intros j Hj. apply out_col_wmom_cols, Hj.
Qed.

Lemma absmean_q_ok w x : absmean_q w x == absmean_def w x.
Proof. unfold absmean_q, absmean_def. rewrite !qsum_Sum. reflexivity. Qed.

Lemma wmom_rejects_shape x w im ce sd :
  length w <> length x -> wmom (V1 x) (V1 w) im ce sd = Err EValue.
Proof.
  intro H. unfold wmom; simpl. rewrite (proj2 (Nat.eqb_neq _ _) H). reflexivity.
Qed.

Lemma wmom_rejects_weights_Nd rows w im ce sd :
  rect rows (ncols rows) = true -> length w <> length rows -> wmom (M2 rows) (V1 w) im ce sd = Err EValue.
Proof.
  intros R H. unfold wmom. cbn [atleast_1d]. rewrite R. cbn [negb].
  rewrite (proj2 (Nat.eqb_neq _ _) H). reflexivity.
Qed.

(* ---- the textbook radicands are non-negative, so that their square roots are meant *)
Lemma werr2_calc_nonneg w x m : 0 <= werr2_calc_def w x m.
Proof.
  unfold werr2_calc_def. apply Qdiv_nonneg; [|apply sq_nonneg].
  apply Sum_map2_nonneg. intros a b _. apply Qmult_le_0_compat; apply sq_nonneg.
Qed.

Lemma werr2_default_nonneg w : (forall a, In a w -> 0 <= a) -> 0 <= werr2_default_def w.
Proof.
  intro H. unfold werr2_default_def. apply Qdiv_nonneg; [discriminate|apply Sum_nonneg, H].
Qed.

Lemma wvar_nonneg w x m : (forall a, In a w -> 0 <= a) -> 0 <= wvar_def w x m.
Proof.
  intro H. unfold wvar_def. apply Qdiv_nonneg; [|apply Sum_nonneg, H].
  apply Sum_map2_nonneg. intros a b Ha. apply Qmult_le_0_compat; [apply H, Ha|apply sq_nonneg].
Qed.

Lemma boxcar_spec x N :
  (0 < N)%Z -> x <> [] ->
  exists out, boxcar_average x N = Ok out /\ length out = length x
              /\ forall k, (k < length x)%nat -> nth k out 0 == boxcar_def x N k.
Proof.
  intros HN HX. unfold boxcar_average.
  destruct (N <=? 0)%Z eqn:E; [lia|]. destruct x as [|a x]; [congruence|].
  eexists; split; [reflexivity|]. split; [rewrite map_length, seq_length; reflexivity|].
  intros k Hk. rewrite nth_map_seq by exact Hk. unfold boxcar_def. rewrite qsum_Sum. reflexivity.
Qed.

Lemma boxcar_rejects x N : (N <= 0)%Z \/ x = [] -> boxcar_average x N = Err EValue.
Proof.
  intros [H|H]; unfold boxcar_average.
  - destruct (N <=? 0)%Z eqn:E; [reflexivity|lia].
  - subst x. destruct (N <=? 0)%Z; reflexivity.
Qed.
