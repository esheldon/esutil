(* C18 — boxcar_average: numpy.convolve(x, kernel) in 'full' mode, written out as the textbook
   double sum, restricted to a constant kernel and sliced from an offset, is the window sum of the
   model. *)
From Coq Require Import QArith.
From EsVerif.Common Require Import Base.
From EsVerif.C18 Require Import Spec QLemmas.
Open Scope Q_scope.

(* numpy.convolve(x, k) (mode 'full'):  out[j] = sum_i x[i] * k[j - i]  over 0 <= j - i < len k *)
Definition conv_full (x ker : list Q) (j : nat) : Q :=
  Sum (map (fun i => if (i <=? j)%nat && (j - i <? length ker)%nat then nth i x 0 * nth (j - i) ker 0 else 0)
           (seq 0 (length x))).

Lemma nth_repeat_lt (c d : Q) n i : (i < n)%nat -> nth i (repeat c n) d = c.
Proof.
  revert i; induction n as [|n IH]; intros i H; [lia|].
  destruct i as [|i]; [reflexivity|]. simpl. apply IH. lia.
Qed.

Lemma window_sum c : forall x k n,
  Sum (map (fun i => if (k <=? i)%nat && (i <? k + n)%nat then nth i x 0 * c else 0) (seq 0 (length x)))
  == Sum (firstn n (skipn k x)) * c.
Proof.
  induction x as [|a t IH]; intros k n.
  - simpl. destruct k, n; simpl; ring.
  - cbn [length]. rewrite <- cons_seq, <- seq_shift. cbn [map Sum]. rewrite map_map.
    (* the summand at S i of the window (k, n) over a :: t is, by computation, the summand at i of the
       window over t -- (k-1, n), or (0, n-1) when k = 0 -- so every case ends by conversion *)
    destruct k as [|k]; [destruct n as [|n]|]; cbn [skipn firstn Sum].
    + transitivity (0 + Sum (map (fun _ => 0) (seq 0 (length t)))); [reflexivity|rewrite Sum_zeros; ring].
    + specialize (IH O n). cbn [skipn] in IH. rewrite Qmult_plus_distr_l, <- IH. reflexivity.
    + rewrite <- (IH k n). apply Qplus_0_l.
Qed.

Lemma conv_window x c n k :
  (1 <= n)%nat -> conv_full x (repeat c n) (k + (n - 1)) == Sum (firstn n (skipn k x)) * c.
Proof.
  intro Hn. unfold conv_full. rewrite repeat_length, <- window_sum.
  apply Sum_map_ext. intros i _.
  destruct ((i <=? k + (n - 1))%nat && (k + (n - 1) - i <? n)%nat) eqn:E1;
  destruct ((k <=? i)%nat && (i <? k + n)%nat) eqn:E2; try reflexivity.
  - apply andb_true_iff in E1, E2. destruct E1 as [A B]. apply Nat.ltb_lt in B.
    rewrite nth_repeat_lt by exact B. reflexivity.
  - exfalso. apply andb_true_iff in E1. destruct E1 as [A B]. apply Nat.leb_le in A. apply Nat.ltb_lt in B.
    apply andb_false_iff in E2. destruct E2 as [C|C]; [apply Nat.leb_gt in C|apply Nat.ltb_ge in C]; lia.
  - exfalso. apply andb_true_iff in E2. destruct E2 as [A B]. apply Nat.leb_le in A. apply Nat.ltb_lt in B.
    apply andb_false_iff in E1. destruct E1 as [C|C]; [apply Nat.leb_gt in C|apply Nat.ltb_ge in C]; lia.
Qed.

(* boxcar_def is the slice [skip:] of the full convolution with the kernel of N weights w = 1/N,
   for skip = N - 1 *)
Lemma boxcar_is_convolution x N k skip w :
  (0 < N)%Z -> skip = (N - 1)%Z -> w == 1 / inject_Z N ->
  conv_full x (repeat w (Z.to_nat N)) (k + Z.to_nat skip) == boxcar_def x N k.
Proof.
  intros HN Hs Hw. subst skip.
  replace (Z.to_nat (N - 1)) with (Z.to_nat N - 1)%nat by lia.
  rewrite conv_window by lia. unfold boxcar_def. rewrite Hw. unfold Qdiv. ring.
Qed.
