(* C18 — the boolean checkers of Spec.v with the rounding constant as a parameter.

   Spec.v fixes eps9 = 1e-9, which is right when the routine computes in binary64.  When a caller
   passes float32 arrays, some routines compute in float32 (numpy keeps the input precision:
   arr.mean()/arr.std() of a float32 array, float32 - python float, float32 scalar arithmetic in
   cov2cor / cor2cov / interplin); their results are right up to float32 rounding only.  The
   correspondence run then evaluates the SAME checker text at eps_f4 (Exec.v_*_e).  At eps9 every
   definition below is, by reflexivity, the verified checker of Spec.v (Properties.C18_tol_checkers_at_eps9). *)
From Coq Require Import QArith Qabs.
From EsVerif.Common Require Import Base.
From EsVerif.C18 Require Import Model Spec.
Open Scope Q_scope.

(* 64 units in the last place of binary32 (2^-24 * 64 = 2^-18 ~ 3.8e-6) *)
Definition eps_f4 : Q := 1 # 262144.

Definition mom_close_e (eps : Q) (r : mom) (A : Q) (im : option Q) (calcerr : bool) (mean err : Q) (sdev : option Q) : bool :=
  match im with None => close_lin_b mean (m_mean r) (eps * A) | Some m => Qeq_bool mean m end
  && (if calcerr then close_sqrt_b err (m_err2 r) (eps * (err + A)) else close_sqrt_b err (m_err2 r) (eps * err))
  && match sdev, m_var r with
     | None, _ => true
     | Some s, Some v => close_sqrt_b s v (eps * (s + A))
     | Some _, None => false
     end.

Definition wmom_check_e (eps : Q) (arr wts : nd) (im : imean) (ce sd : bool) (om oe : nd) (os : option nd) : bool :=
  match wmom arr wts im ce sd with
  | Err _ => false
  | Ok o =>
      nd_shape_eqb (o_mean o) om && nd_shape_eqb (o_err2 o) oe
      && match o_var o, os with Some a, Some b => nd_shape_eqb a b | None, None => true | _, _ => false end
      && forallb (fun j => let x := data_col arr j in let w := wcol_of wts j in let imj := im_col im j in
                           mom_close_e eps (out_col o j) (absmean_q w x + im_abs imj) imj ce
                                       (nd_get om j) (nd_get oe j) (opt_get os j))
                 (seq 0 (data_ncols arr))
  end.

Definition sigma_clip_check_e (eps : Q) (weighted : bool) (nsig : Q) (niter : nat) (all : list pt)
           (mean sdev err : Q) (idx : list Z) : bool :=
  let '(sub, st) := sc_loop niter weighted nsig all (sc_stats weighted all) in
  let A := sc_scale_q weighted sub in
  zlist_eqb (map p_idx sub) idx
  && close_lin_b mean (c_mean st) (eps * A)
  && close_sqrt_b sdev (c_var st) (eps * (sdev + A))
  && close_sqrt_b err (c_err2 st) (eps * (err + A)).

Definition interp_check_e (eps : Q) (v x : list Q) (u y : Q) : bool :=
  incr_b x && Nat.leb 2 (length x) && Nat.eqb (length v) (length x)
  && close_lin_b y (interp1 v x u) (eps * interp_scale v x u).

Definition cor_close_b_e (eps : Q) (c num den2 : Q) : bool :=
  (if Qle_bool 0 num then Qle_bool 0 c else true) && (if Qle_bool num 0 then Qle_bool c 0 else true)
  && close_sqrt_b (Qabs c) (num * num / den2) (eps * Qabs c).

Definition cov2cor_check_e (eps : Q) (cov cor : list (list Q)) : bool :=
  forallb (fun ij => cor_close_b_e eps (mget cor (fst ij) (snd ij)) (mget cov (fst ij) (snd ij))
                                   (mget cov (fst ij) (fst ij) * mget cov (snd ij) (snd ij))) (idx2 (length cov)).

Definition rel_close_b_e (eps : Q) (y v : Q) : bool := Qle_bool (Qabs (y - v)) (eps * Qabs v).
Definition mat_close_b_e (eps : Q) (n : nat) (a b : list (list Q)) : bool :=
  forallb (fun ij => rel_close_b_e eps (mget a (fst ij) (snd ij)) (mget b (fst ij) (snd ij))) (idx2 n).
