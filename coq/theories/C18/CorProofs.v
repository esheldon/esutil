(* C18 — covariance <-> correlation: what the two conversions return and which calls they refuse *)
From Coq Require Import QArith Lqa.
From EsVerif.Common Require Import Base.
From EsVerif.C18 Require Import Model Spec QLemmas.
Open Scope Q_scope.

Lemma rect_row m n i : rect m n = true -> (i < length m)%nat -> length (nth i m []) = n.
Proof.
  unfold rect. intros H Hi. rewrite forallb_forall in H.
  apply Nat.eqb_eq. apply H. apply nth_In. exact Hi.
Qed.

Lemma cov2cor_spec cov :
  rect cov (length cov) = true ->
  (forall i, (i < length cov)%nat -> 0 < mget cov i i) ->
  exists m, cov2cor cov = Ok m
    /\ forall i j, (i < length cov)%nat -> (j < length cov)%nat ->
         nth j (nth i m []) (0, 0) = (mget cov i j, mget cov i i * mget cov j j).
Proof.
  intros R P. unfold cov2cor. rewrite R. simpl negb. cbv iota.
  assert (E : forallb (fun i => Qlt_bool 0 (mget cov i i)) (seq 0 (length cov)) = true).
  { apply forallb_forall. intros i Hi. apply in_seq in Hi. apply Qlt_bool_iff, P. lia. }
  rewrite E. eexists; split; [reflexivity|]. intros i j Hi Hj.
  rewrite (nth_map_seq _ _ i [] Hi), (nth_map_seq _ _ j (0, 0) Hj). reflexivity.
Qed.

Lemma cov2cor_rejects cov i :
  rect cov (length cov) = true -> (i < length cov)%nat -> mget cov i i <= 0 ->
  cov2cor cov = Err EValue.
Proof.
  intros R Hi N. unfold cov2cor. rewrite R. simpl negb. cbv iota.
  destruct (forallb (fun i => Qlt_bool 0 (mget cov i i)) (seq 0 (length cov))) eqn:E; [|reflexivity].
  rewrite forallb_forall in E. assert (In i (seq 0 (length cov))) as I by (apply in_seq; lia).
  apply E in I. apply Qlt_bool_iff in I. exfalso. lra.
Qed.

Lemma rect_ncols m : rect m (length m) = true -> ncols m = length m.
Proof.
  intro R. destruct m as [|r t]; [reflexivity|]. apply (rect_row (r :: t) (length (r :: t)) O R). simpl; lia.
Qed.

Lemma cor2cov_spec cor d :
  rect cor (length cor) = true -> length d = length cor ->
  exists m, cor2cov cor d = Ok m
    /\ forall i j, (i < length cor)%nat -> (j < length cor)%nat ->
         mget m i j = mget cor i j * nth i d 0 * nth j d 0.
Proof.
  intros R L. unfold cor2cov.
  rewrite (rect_ncols cor R), R, Nat.eqb_refl, L, Nat.eqb_refl. simpl negb. cbv iota.
  eexists; split; [reflexivity|]. intros i j Hi Hj. unfold mget at 1.
  rewrite (nth_map_seq _ _ i [] Hi), (nth_map_seq _ _ j 0 Hj). reflexivity.
Qed.

Lemma cor2cov_rejects_size cor d :
  rect cor (length cor) = true -> length d <> length cor -> cor2cov cor d = Err EValue.
Proof.
  intros R H. unfold cor2cov. rewrite (rect_ncols cor R), R, Nat.eqb_refl. cbn [negb].
  destruct (Nat.eqb (length cor) (length d)) eqn:E; [apply Nat.eqb_eq in E; congruence|reflexivity].
Qed.

(* ---- round trip on squares, in Q:  cor[i,j]^2 * cov[i,i] * cov[j,j] = cov[i,j]^2 *)
Lemma roundtrip_squares c cii cjj :
  0 < cii -> 0 < cjj -> (c * c / (cii * cjj)) * cii * cjj == c * c.
Proof. intros A B. field. split; intro E; lra. Qed.

Lemma in_idx2 n i j : (i < n)%nat -> (j < n)%nat -> In (i, j) (idx2 n).
Proof.
  intros Hi Hj. unfold idx2. apply in_flat_map. exists i. split; [apply in_seq; lia|].
  apply in_map_iff. exists j. split; [reflexivity|apply in_seq; lia].
Qed.

