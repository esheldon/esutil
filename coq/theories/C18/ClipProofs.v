(* C18 — sigma clipping: the returned statistics are those of the reported subset, and the
   subset is the iterate of the clipping round.  Summary statistics: get_stats, with and without
   the calcerr keyword (ModelKw.get_stats_kw), on 1-d and N-by-d data. *)
From Coq Require Import QArith Lqa.
From EsVerif.Common Require Import Base.
From EsVerif.C18 Require Import Model Spec SpecStrict ModelKw QLemmas MomProofs.
Open Scope Q_scope.

Lemma sc_stats_def weighted cur :
  let '(m, e2, v) := stat_def weighted cur in
  c_mean (sc_stats weighted cur) == m /\ c_err2 (sc_stats weighted cur) == e2
  /\ c_var (sc_stats weighted cur) == v.
Proof.
  unfold stat_def, sc_stats. destruct weighted.
  - pose proof (wmom1_spec (map p_x cur) (map p_w cur) None true true) as [Sm [Se Sv]].
    cbn [c_mean c_err2 c_var]. destruct (m_var (wmom1 (map p_x cur) (map p_w cur) None true true)) as [v|] eqn:EV.
    + destruct Sv as [_ Sv]. split; [exact Sm|]. split; [exact Se|exact Sv].
    + discriminate.
  - cbn [c_mean c_err2 c_var].
    set (xs := map p_x cur). set (n := qlen cur).
    assert (Hm : Qred (qsum xs / n) == Sum xs / n) by (rewrite Qred_correct, qsum_Sum; reflexivity).
    assert (Hv : Qred (qsum (map (dev2 (Qred (qsum xs / n))) xs) / n)
                 == Sum (map (fun x => (x - Sum xs / n) * (x - Sum xs / n)) xs) / n).
    { rewrite Qred_correct, qsum_Sum.
      rewrite (Sum_map_ext (dev2 (Qred (qsum xs / n))) (fun x => (x - Sum xs / n) * (x - Sum xs / n)) xs); [reflexivity|].
      intros a _. unfold dev2, sq. rewrite Hm. reflexivity. }
    split; [exact Hm|]. split; [rewrite Hv; reflexivity|exact Hv].
Qed.

(* for nsig >= 0 the filter of the code is the comparison of squares *)
Lemma within_spec nsig st p :
  0 <= nsig -> within nsig st p = Qlt_bool (dev2 (c_mean st) (p_x p)) (sq nsig * c_var st).
Proof.
  intro Hn. unfold within. apply Qle_bool_iff in Hn. rewrite Hn. cbn [andb].
  apply Qlt_bool_comp; [reflexivity|apply Qred_correct].
Qed.

Lemma within_step weighted nsig cur :
  0 <= nsig ->
  filter (within nsig (sc_stats weighted cur)) cur = clip_step weighted nsig cur.
Proof.
  intro Hn. unfold clip_step. pose proof (sc_stats_def weighted cur) as H.
  destruct (stat_def weighted cur) as [[m e2] v]. destruct H as [Hm [_ Hv]].
  apply filter_ext_in_b. intros p _. rewrite (within_spec nsig _ p Hn).
  unfold dev2, sq. rewrite Hm, Hv. reflexivity.
Qed.

Lemma iterate_S {A} (f : A -> A) k a : iterate f (S k) a = iterate f k (f a).
Proof. reflexivity. Qed.

(* every iterate is a sub-multiset of the input: only discarding happens *)
Lemma iterate_incl weighted nsig k : forall cur p, In p (iterate (clip_step weighted nsig) k cur) -> In p cur.
Proof.
  induction k as [|k IH]; intros cur p H; [exact H|].
  rewrite iterate_S in H. apply IH in H. unfold clip_step in H.
  destruct (stat_def weighted cur) as [[m e2] v]. apply filter_In in H. tauto.
Qed.

Lemma clip_step_same weighted nsig cur :
  length (clip_step weighted nsig cur) = length cur -> clip_step weighted nsig cur = cur.
Proof. unfold clip_step. destruct (stat_def weighted cur) as [[m e2] v]. apply filter_length_eq. Qed.

(* one round of the code's loop and of its "everything clipped" test, in terms of the textbook round *)
Lemma sc_loop_S f weighted nsig cur :
  0 <= nsig ->
  sc_loop (S f) weighted nsig cur (sc_stats weighted cur) =
  match clip_step weighted nsig cur with
  | [] => (cur, sc_stats weighted cur)
  | p :: kept => if Nat.eqb (length (p :: kept)) (length cur) then (cur, sc_stats weighted cur)
                 else sc_loop f weighted nsig (p :: kept) (sc_stats weighted (p :: kept))
  end.
Proof.
  intro Hn. cbn [sc_loop]. rewrite (within_step weighted nsig cur Hn).
  destruct (clip_step weighted nsig cur); reflexivity.
Qed.

Lemma sc_all_clipped_S f weighted nsig cur :
  0 <= nsig ->
  sc_all_clipped (S f) weighted nsig cur (sc_stats weighted cur) =
  match clip_step weighted nsig cur with
  | [] => match cur with [] => false | _ :: _ => true end
  | p :: kept => if Nat.eqb (length (p :: kept)) (length cur) then false
                 else sc_all_clipped f weighted nsig (p :: kept) (sc_stats weighted (p :: kept))
  end.
Proof.
  intro Hn. cbn [sc_all_clipped]. rewrite (within_step weighted nsig cur Hn).
  destruct (clip_step weighted nsig cur); reflexivity.
Qed.

(* The run of the loop: k rounds, each of which discarded something but not everything; it ends on the
   k-th iterate with that subset's statistics, because the limit is reached, or nothing changes, or the
   next round would discard everything -- and the last is what sc_all_clipped reports. *)
Lemma sc_loop_run weighted nsig :
  0 <= nsig ->
  forall fuel cur,
    let step := clip_step weighted nsig in
    exists k, (k <= fuel)%nat
      /\ sc_loop fuel weighted nsig cur (sc_stats weighted cur)
         = (iterate step k cur, sc_stats weighted (iterate step k cur))
      /\ (forall j, (j < k)%nat -> let c := iterate step j cur in step c <> [] /\ length (step c) <> length c)
      /\ (k = fuel \/ step (iterate step k cur) = iterate step k cur
          \/ step (iterate step k cur) = []
             /\ sc_all_clipped fuel weighted nsig cur (sc_stats weighted cur) = true).
Proof.
  intros Hn fuel. induction fuel as [|f IH]; intros cur step.
  - exists O. split; [lia|]. split; [reflexivity|]. split; [intros j Hj; lia|]. left; reflexivity.
  - rewrite (sc_loop_S f weighted nsig cur Hn), (sc_all_clipped_S f weighted nsig cur Hn). fold step.
    destruct (step cur) as [|p kept] eqn:EK.
    + (* nothing is kept: no round; the third stop reason unless cur is empty already *)
      exists O. split; [lia|]. split; [reflexivity|]. split; [intros j Hj; lia|]. right. cbn [iterate].
      destruct cur; [left; exact EK|right; split; [exact EK|reflexivity]].
    + destruct (Nat.eqb (length (p :: kept)) (length cur)) eqn:EL.
      * (* nothing is discarded: no round; the second stop reason *)
        exists O. split; [lia|]. split; [reflexivity|]. split; [intros j Hj; lia|]. right; left. cbn [iterate].
        apply Nat.eqb_eq in EL. rewrite <- EK in EL. apply clip_step_same, EL.
      * destruct (IH (p :: kept)) as [k [Hk [E [Hall Hstop]]]]. fold step in E, Hall, Hstop.
        exists (S k). rewrite !iterate_S, EK. split; [lia|]. split; [exact E|]. split.
        -- intros [|j] Hj; simpl.
           ++ rewrite EK. split; [discriminate|]. apply Nat.eqb_neq, EL.
           ++ rewrite EK. apply Hall. lia.
        -- destruct Hstop as [Hs|Hs]; [left; lia|right; exact Hs].
Qed.

Lemma sc_loop_spec weighted nsig fuel cur :
  0 <= nsig ->
  exists sub, sc_loop fuel weighted nsig cur (sc_stats weighted cur) = (sub, sc_stats weighted sub)
              /\ clip_fixpoint weighted nsig fuel cur sub.
Proof.
  intro Hn. destruct (sc_loop_run weighted nsig Hn fuel cur) as [k [Hk [E [Hall Hstop]]]].
  eexists. split; [exact E|]. exists k. split; [exact Hk|]. split; [reflexivity|]. split; [exact Hall|tauto].
Qed.

Lemma index_from_maps i x w :
  length x = length w ->
  map p_idx (index_from i x w) = zseq i (length x)
  /\ map p_x (index_from i x w) = x /\ map p_w (index_from i x w) = w.
Proof.
  revert i w; induction x as [|a x IH]; intros i [|b w] L; simpl in *; try discriminate; [auto|].
  destruct (IH (i + 1)%Z w) as [Hi [Hx Hw]]; [lia|]. rewrite Hi, Hx, Hw. auto.
Qed.

Lemma index_from_x i x w : length x = length w -> map p_x (index_from i x w) = x.
Proof. intro L. apply (index_from_maps i x w L). Qed.
Lemma index_from_w i x w : length x = length w -> map p_w (index_from i x w) = w.
Proof. intro L. apply (index_from_maps i x w L). Qed.
Lemma index_from_idx i x w : length x = length w -> map p_idx (index_from i x w) = zseq i (length x).
Proof. intro L. apply (index_from_maps i x w L). Qed.

Lemma qlen_index_from i x w : length x = length w -> qlen (index_from i x w) = qlen x.
Proof. intro L. unfold qlen. rewrite <- (map_length p_x), (index_from_x i x w L). reflexivity. Qed.

(* on 1-d data with weights of the same length (or none) sigma_clip is the loop on the indexed input *)
Lemma sigma_clip_1d x weights niter nsig :
  length (sc_weights x weights) = length x ->
  sigma_clip (V1 x) (match weights with Some w => Some (V1 w) | None => None end) niter nsig =
  let '(sub, st) := sc_loop (Z.to_nat niter) (sc_weighted weights) nsig (index_from 0%Z x (sc_weights x weights))
                            (sc_stats (sc_weighted weights) (index_from 0%Z x (sc_weights x weights))) in
  Ok {| sc_mean := c_mean st; sc_var := c_var st; sc_err2 := c_err2 st; sc_idx := map p_idx sub |}.
Proof.
  intro L. unfold sigma_clip. cbn [atleast_1d]. destruct weights as [w|]; cbn [sc_weights] in L.
  - cbn [atleast_1d]. rewrite L, Nat.eqb_refl. reflexivity.
  - reflexivity.
Qed.

Lemma sigma_clip_spec x weights niter nsig :
  0 <= nsig -> length (sc_weights x weights) = length x ->
  let all := index_from 0%Z x (sc_weights x weights) in
  let wtd := sc_weighted weights in
  exists r sub,
    sigma_clip (V1 x) (match weights with Some w => Some (V1 w) | None => None end) niter nsig = Ok r
    /\ sc_idx r = map p_idx sub
    /\ (forall p, In p sub -> In p all)
    /\ clip_fixpoint wtd nsig (Z.to_nat niter) all sub
    /\ let '(m, e2, v) := stat_def wtd sub in
       sc_mean r == m /\ sc_err2 r == e2 /\ sc_var r == v.
Proof.
  intros Hn L all wtd. rewrite (sigma_clip_1d x weights niter nsig L). fold all wtd.
  destruct (sc_loop_spec wtd nsig (Z.to_nat niter) all Hn) as [sub [E F]]. rewrite E.
  eexists. exists sub. split; [reflexivity|]. split; [reflexivity|].
  split; [|split; [exact F|exact (sc_stats_def wtd sub)]].
  destruct F as [k [_ [-> _]]]. intro p. apply iterate_incl.
Qed.

(* the stopping index is unique, hence so is the subset *)
Lemma clip_fixpoint_unique weighted nsig niter all s1 s2 :
  clip_fixpoint weighted nsig niter all s1 -> clip_fixpoint weighted nsig niter all s2 -> s1 = s2.
Proof.
  unfold clip_fixpoint.
  intros [k1 [L1 [E1 [A1 S1]]]] [k2 [L2 [E2 [A2 S2]]]].
  assert (forall ka kb sa, (ka < kb)%nat -> (kb <= niter)%nat ->
            sa = iterate (clip_step weighted nsig) ka all ->
            (forall j, (j < kb)%nat -> let c := iterate (clip_step weighted nsig) j all in
                 clip_step weighted nsig c <> [] /\ length (clip_step weighted nsig c) <> length c) ->
            (ka = niter \/ clip_step weighted nsig sa = sa \/ clip_step weighted nsig sa = []) -> False) as X.
  { intros ka kb sa Hlt Hle Ea Ab Sa. specialize (Ab ka Hlt). simpl in Ab. rewrite <- Ea in Ab.
    destruct Ab as [Ab1 Ab2]. destruct Sa as [Sa|[Sa|Sa]]; [lia| |contradiction].
    rewrite Sa in Ab2. congruence. }
  destruct (Nat.lt_trichotomy k1 k2) as [H|[H|H]].
  - exfalso. eapply (X k1 k2 s1); eauto.
  - subst k2. congruence.
  - exfalso. eapply (X k2 k1 s2); eauto.
Qed.

Lemma sc_scale_q_ok weighted sub : sc_scale_q weighted sub == sc_scale weighted sub.
Proof. unfold sc_scale_q, sc_scale, absmean_def. rewrite !qsum_Sum. reflexivity. Qed.

Lemma sigma_clip_rejects_2d rows w niter nsig : sigma_clip (M2 rows) w niter nsig = Err EValue.
Proof. reflexivity. Qed.

Lemma sigma_clip_rejects_size x w niter nsig :
  length w <> length x -> sigma_clip (V1 x) (Some (V1 w)) niter nsig = Err EValue.
Proof.
  intro H. unfold sigma_clip. cbn [atleast_1d]. rewrite (proj2 (Nat.eqb_neq _ _) H). reflexivity.
Qed.

(* ---- the textbook variance and squared error of a subset are non-negative (non-negative weights) *)
Lemma mean_sq_nonneg m xs n : 0 <= n -> 0 <= Sum (map (fun x => (x - m) * (x - m)) xs) / n.
Proof.
  intro N. apply Qdiv_nonneg; [|exact N]. apply Sum_nonneg. intros y Hy. apply in_map_iff in Hy.
  destruct Hy as [a [E _]]. subst y. apply sq_nonneg.
Qed.

Lemma stat_def_nonneg weighted sub :
  (weighted = true -> forall p, In p sub -> 0 <= p_w p) ->
  let '(m, e2, v) := stat_def weighted sub in 0 <= e2 /\ 0 <= v.
Proof.
  intro Hw. unfold stat_def. destruct weighted.
  - assert (W : forall a, In a (map p_w sub) -> 0 <= a).
    { intros a Ha. apply in_map_iff in Ha. destruct Ha as [p [E Hp]]. subst a. apply Hw; [reflexivity|exact Hp]. }
    split; [apply werr2_calc_nonneg|apply wvar_nonneg, W].
  - assert (N : 0 <= qlen sub).
    { unfold qlen. change 0 with (inject_Z 0). rewrite <- Zle_Qle. apply Zle_0_nat. }
    split; [apply Qdiv_nonneg; [|exact N]|]; apply mean_sq_nonneg, N.
Qed.

Lemma sc_var_nonneg weighted cur :
  (weighted = true -> forall p, In p cur -> 0 <= p_w p) -> 0 <= c_var (sc_stats weighted cur).
Proof.
  intro Hw. pose proof (sc_stats_def weighted cur) as D. pose proof (stat_def_nonneg weighted cur Hw) as N.
  destruct (stat_def weighted cur) as [[m e2] v]. destruct D as [_ [_ Dv]]. rewrite Dv. apply N.
Qed.

(* minimum and maximum are left folds of a function that returns one of its two arguments *)
Lemma fold_pick (R : Q -> Q -> Prop) (f : Q -> Q -> Q) :
  (forall a, R a a) -> (forall a b c, R a b -> R b c -> R a c) ->
  (forall a b, (f a b = a \/ f a b = b) /\ R (f a b) a /\ R (f a b) b) ->
  forall t a, In (fold_left f t a) (a :: t) /\ forall y, In y (a :: t) -> R (fold_left f t a) y.
Proof.
  intros Rrefl Rtrans Hf. induction t as [|b t IH]; intro a; simpl.
  - split; [left; reflexivity|]. intros y [<-|[]]. apply Rrefl.
  - destruct (IH (f a b)) as [I A]. destruct (Hf a b) as [P [Ra Rb]]. split.
    + destruct I as [I|I]; [|right; right; exact I]. destruct P; [left|right; left]; congruence.
    + intros y [<-|[<-|I']].
      * eapply Rtrans; [apply A; left; reflexivity|exact Ra].
      * eapply Rtrans; [apply A; left; reflexivity|exact Rb].
      * apply A. right. exact I'.
Qed.

Lemma qmin_pick a b : (qmin a b = a \/ qmin a b = b) /\ qmin a b <= a /\ qmin a b <= b.
Proof.
  unfold qmin. destruct (Qle_bool a b) eqn:E; [apply Qle_bool_iff in E|apply Qle_bool_false in E];
    repeat split; auto; lra.
Qed.

Lemma qmax_pick a b : (qmax a b = a \/ qmax a b = b) /\ a <= qmax a b /\ b <= qmax a b.
Proof.
  unfold qmax. destruct (Qle_bool a b) eqn:E; [apply Qle_bool_iff in E|apply Qle_bool_false in E];
    repeat split; auto; lra.
Qed.

Lemma qmin_list_spec l : l <> [] -> is_min l (qmin_list l).
Proof.
  destruct l as [|a t]; [congruence|]. intros _.
  destruct (fold_pick Qle qmin Qle_refl Qle_trans qmin_pick t a) as [I A].
  split; [exists (qmin_list (a :: t)); split; [exact I|reflexivity]|exact A].
Qed.

Lemma qmax_list_spec l : l <> [] -> is_max l (qmax_list l).
Proof.
  destruct l as [|a t]; [congruence|]. intros _.
  destruct (fold_pick (fun a b => b <= a) qmax Qle_refl (fun a b c H1 H2 => Qle_trans c b a H2 H1) qmax_pick t a) as [I A].
  split; [exists (qmax_list (a :: t)); split; [exact I|reflexivity]|exact A].
Qed.

(* get_stats on 1-d data: min and max of the data; mean/deviation/error are those of
   sigma_clip (get_err=True) when nsig or niter is given, of wmom(calcerr=True, sdev=True) when
   weights are given, and the plain mean, std (ddof=0) and std/sqrt(N) otherwise *)
Lemma get_stats_1d_minmax x weights nsig niter g :
  x <> [] -> get_stats (V1 x) weights nsig niter = Ok g ->
  exists mn mx, g_min g = S0 mn /\ g_max g = S0 mx /\ is_min x mn /\ is_max x mx.
Proof.
  intros NE H. exists (qmin_list x), (qmax_list x).
  assert (E : g_min g = S0 (qmin_list x) /\ g_max g = S0 (qmax_list x)).
  { unfold get_stats in H. cbn [atleast_1d] in H.
    destruct (match nsig, niter with None, None => false | _, _ => true end).
    - destruct (sigma_clip _ _ _ _); cbn [bind] in H; [|discriminate]. injection H as <-. split; reflexivity.
    - destruct weights as [wn|].
      + destruct (atleast_1d wn); try discriminate. destruct (Nat.eqb _ _); [|discriminate].
        injection H as <-. split; reflexivity.
      + injection H as <-. split; reflexivity. }
  destruct E as [E1 E2]. split; [exact E1|]. split; [exact E2|].
  split; [apply qmin_list_spec|apply qmax_list_spec]; exact NE.
Qed.

Lemma get_stats_1d_clip x weights nsig niter :
  (nsig <> None \/ niter <> None) ->
  get_stats (V1 x) weights nsig niter =
  match sigma_clip (V1 x) weights (match niter with Some k => k | None => 4%Z end)
                   (match nsig with Some s => s | None => 4 end) with
  | Ok r => Ok {| g_min := S0 (qmin_list x); g_max := S0 (qmax_list x); g_mean := S0 (sc_mean r);
                  g_var := S0 (sc_var r); g_err2 := S0 (sc_err2 r) |}
  | Err e => Err e
  end.
Proof.
  intro H. unfold get_stats. simpl atleast_1d. cbv iota.
  assert (E : match nsig, niter with None, None => false | _, _ => true end = true).
  { destruct nsig, niter; try reflexivity. destruct H; congruence. }
  rewrite E. destruct (sigma_clip _ _ _ _); reflexivity.
Qed.

Lemma get_stats_kw_default arr weights nsig niter :
  get_stats_kw arr weights nsig niter None = get_stats arr weights nsig niter.
Proof.
  unfold get_stats_kw, get_stats, kw_calcerr.
  destruct nsig, niter, weights as [wn|]; try reflexivity.
  destruct (atleast_1d arr) as [q|x|rows]; reflexivity.
Qed.

(* weights, no clipping, 1-d data: wmom with sdev, and the error for the chosen calcerr *)
Lemma get_stats_kw_weighted_1d x w ce :
  length w = length x ->
  get_stats_kw (V1 x) (Some (V1 w)) None None ce =
  let r := wmom1 x w None (kw_calcerr ce) true in
  Ok {| g_min := S0 (qmin_list x); g_max := S0 (qmax_list x); g_mean := S0 (m_mean r);
        g_var := S0 (match m_var r with Some v => v | None => 0 end); g_err2 := S0 (m_err2 r) |}.
Proof.
  intro H. unfold get_stats_kw. cbn [atleast_1d]. apply Nat.eqb_eq in H. rewrite H. reflexivity.
Qed.

(* the reported numbers are the documented ones: mean, the error for the chosen setting (squared),
   the weighted variance *)
Lemma get_stats_kw_weighted_1d_spec x w ce :
  length w = length x ->
  exists g, get_stats_kw (V1 x) (Some (V1 w)) None None ce = Ok g
    /\ exists m e2 v, g_mean g = S0 m /\ g_err2 g = S0 e2 /\ g_var g = S0 v
       /\ mom_spec x w None (kw_calcerr ce) true {| m_mean := m; m_err2 := e2; m_var := Some v |}.
Proof.
  intro L. rewrite (get_stats_kw_weighted_1d x w ce L). cbv zeta.
  eexists; split; [reflexivity|]. cbn [g_mean g_err2 g_var].
  do 3 eexists. split; [reflexivity|]. split; [reflexivity|]. split; [reflexivity|].
  pose proof (wmom1_spec x w None (kw_calcerr ce) true) as S. unfold mom_spec in *. cbn [m_mean m_err2 m_var].
  destruct (m_var (wmom1 x w None (kw_calcerr ce) true)) as [v|] eqn:EV; [exact S|].
  destruct S as [_ [_ S]]; discriminate.
Qed.

Lemma get_stats_1d_plain x :
  exists g, get_stats (V1 x) None None None = Ok g
    /\ exists m e2 v, g_mean g = S0 m /\ g_err2 g = S0 e2 /\ g_var g = S0 v
       /\ m == Sum x / qlen x
       /\ v == Sum (map (fun y => (y - Sum x / qlen x) * (y - Sum x / qlen x)) x) / qlen x
       /\ e2 == v / qlen x.
Proof.
  unfold get_stats. simpl atleast_1d. cbv iota. eexists; split; [reflexivity|]. cbn [g_mean g_err2 g_var].
  unfold plain_stats.
  pose proof (sc_stats_def false (index_from 0%Z x x)) as D. unfold stat_def in D.
  rewrite (index_from_x 0%Z x x eq_refl) in D.
  rewrite (qlen_index_from 0%Z x x eq_refl) in D. destruct D as [Dm [De Dv]].
  do 3 eexists. split; [reflexivity|]. split; [reflexivity|]. split; [reflexivity|].
  split; [exact Dm|]. split; [exact Dv|]. rewrite De, Dv. reflexivity.
Qed.

Lemma col_nonempty j rows : rows <> [] -> col j rows <> [].
Proof. destruct rows; [congruence|discriminate]. Qed.

Lemma get_stats_Nd_plain rows d :
  rows <> [] -> ncols rows = d -> rect rows d = true ->
  exists g, get_stats (M2 rows) None None None = Ok g
    /\ forall j, (j < d)%nat ->
         let x := col j rows in
         is_min x (nd_get (g_min g) j) /\ is_max x (nd_get (g_max g) j)
         /\ nd_get (g_mean g) j = c_mean (plain_stats x)
         /\ nd_get (g_var g) j = c_var (plain_stats x)
         /\ nd_get (g_err2 g) j = c_err2 (plain_stats x).
Proof.
  intros NE ND R. unfold get_stats. cbn [atleast_1d]. cbv iota beta zeta. rewrite ND, R. cbn [negb].
  eexists; split; [reflexivity|]. intros j Hj. cbn [g_min g_max g_mean g_var g_err2 nd_get].
  rewrite ?map_map, !nth_map_seq by exact Hj.
  split; [apply qmin_list_spec, col_nonempty, NE|]. split; [apply qmax_list_spec, col_nonempty, NE|].
  repeat split.
Qed.

Lemma get_stats_kw_weighted_Nd rows d wts ce :
  rows <> [] -> ncols rows = d -> rect rows d = true -> weights_fit rows d wts ->
  exists g, get_stats_kw (M2 rows) (Some wts) None None ce = Ok g
    /\ forall j, (j < d)%nat ->
         let x := col j rows in
         let r := wmom1 x (wcol_of wts j) None (kw_calcerr ce) true in
         is_min x (nd_get (g_min g) j) /\ is_max x (nd_get (g_max g) j)
         /\ nd_get (g_mean g) j = m_mean r
         /\ Some (nd_get (g_var g) j) = m_var r
         /\ nd_get (g_err2 g) j = m_err2 r.
Proof.
  intros NE ND R WF. unfold get_stats_kw. cbn [atleast_1d]. cbv iota beta zeta. rewrite ND, R. cbn [negb].
  destruct (wmom_Nd rows d wts INone (kw_calcerr ce) true ND R WF I) as [o [E [V Ho]]].
  rewrite E. cbn [bind]. destruct (V eq_refl) as [a Va]. rewrite Va.
  eexists; split; [reflexivity|]. intros j Hj. cbn [g_min g_max g_mean g_var g_err2].
  specialize (Ho j Hj). unfold out_col in Ho. rewrite Va in Ho. cbn [im_col] in Ho.
  cbn [nd_get]. rewrite !nth_map_seq by exact Hj.
  split; [apply qmin_list_spec, col_nonempty, NE|]. split; [apply qmax_list_spec, col_nonempty, NE|].
  rewrite <- Ho. cbn [m_mean m_var m_err2]. repeat split.
Qed.
