(* C18 — the hand-written model (Model.v) IS the text of esutil/stat/util.py as read by the
   translator (Gen.v, regenerated on every run from the tree under check).  Every lemma here
   mentions a gen_* definition; when a constant, an operator or a formula of the source changes,
   Gen.v changes and these proofs are re-checked against the new text. *)
From Coq Require Import QArith Qabs Lqa.
From EsVerif.Common Require Import Base.
From EsVerif.C18 Require Import Model Spec QLemmas MomProofs ClipProofs CorProofs BoxProofs Gen.
Open Scope Q_scope.

(* ------------------------------------------------------------------ wmom *)
Definition mref (x w : list Q) (im : option Q) : Q := match im with None => wmean_def w x | Some m0 => m0 end.

Lemma gen_wmom_mean x w ce sd :
  m_mean (wmom1 x w None ce sd) == gen_wmom_mean_fin (Sum (map2 gen_wmom_mean_term w x)) (Sum w).
Proof.
  rewrite (wmom1_mean x w None ce sd). unfold gen_wmom_mean_fin.
  apply Qdiv_comp; [|reflexivity]. apply Sum_map2_ext. intros a b. unfold gen_wmom_mean_term. ring.
Qed.

Lemma gen_wmom_err_calc x w im sd :
  m_err2 (wmom1 x w im true sd)
  == gen_wmom_err2_calc (Sum (map2 (gen_wmom_err2_term (mref x w im)) w x)) (Sum w).
Proof.
  destruct (wmom1_spec x w im true sd) as [_ [H _]]. cbv beta iota in H. rewrite H.
  unfold werr2_calc_def, gen_wmom_err2_calc, mref.
  apply Qdiv_comp; [|reflexivity]. apply Sum_map2_ext. intros a b. unfold gen_wmom_err2_term. ring.
Qed.

Lemma gen_wmom_err_default x w im sd :
  m_err2 (wmom1 x w im false sd) == gen_wmom_err2_default (Sum w).
Proof.
  destruct (wmom1_spec x w im false sd) as [_ [H _]]. cbv beta iota in H. rewrite H.
  unfold werr2_default_def, gen_wmom_err2_default. apply Qdiv_comp; [ring|reflexivity].
Qed.

Lemma gen_wmom_var x w im ce :
  exists v, m_var (wmom1 x w im ce true) = Some v
            /\ v == gen_wmom_var_fin (Sum (map2 (gen_wmom_var_term (mref x w im)) w x)) (Sum w).
Proof.
  destruct (wmom1_spec x w im ce true) as [_ [_ H]].
  destruct (m_var (wmom1 x w im ce true)) as [v|]; [|discriminate].
  exists v. split; [reflexivity|]. destruct H as [_ H]. rewrite H.
  unfold wvar_def, gen_wmom_var_fin, mref.
  apply Qdiv_comp; [|reflexivity]. apply Sum_map2_ext. intros a b. unfold gen_wmom_var_term. ring.
Qed.

(* the documented defaults: error 1/sqrt(sum w), no deviation *)
Lemma gen_wmom_defaults : gen_wmom_calcerr_default = false /\ gen_wmom_sdev_default = false.
Proof. split; reflexivity. Qed.

(* ------------------------------------------------------------------ wmedian *)
Lemma gen_wm_loop rest cur sum h :
  wm_loop rest cur sum h =
  if gen_wm_continue sum h
  then match rest with [] => Err EIndex | (xk, wk) :: t => wm_loop t xk (gen_wm_step sum wk) h end
  else Ok cur.
Proof. destruct rest as [|[xk wk] t]; reflexivity. Qed.

Lemma gen_wm_start l :
  wmedian_pairs l =
  match isort_p l with
  | [] => Err EIndex
  | (x0, w0) :: t => wm_loop t x0 (gen_wm_init (qsum (map snd l)) w0) (gen_wm_half (qsum (map snd l)))
  end.
Proof. reflexivity. Qed.

(* ------------------------------------------------------------------ sigma_clip *)
Lemma Qlt_bool_squares a t : 0 <= a -> 0 <= t -> Qlt_bool a t = Qlt_bool (a * a) (t * t).
Proof.
  intros Ha Ht. destruct (Qlt_bool a t) eqn:E; symmetry.
  - apply Qlt_bool_iff in E. apply Qlt_bool_iff. nra.
  - apply Qlt_bool_false in E. apply Qlt_bool_false. nra.
Qed.

Lemma Qabs_sq a : Qabs a * Qabs a == a * a.
Proof.
  apply Qabs_case; intro H; ring.
Qed.

(* the float code compares |x - m| with nsig * s, s = sqrt(var); the model compares squares *)
Lemma gen_clip_rule nsig m s v x :
  0 <= nsig -> 0 <= s -> s * s == v ->
  gen_clip_keep nsig m s x = Qlt_bool (dev2 m x) (sq nsig * v).
Proof.
  intros Hn Hs Hv. unfold gen_clip_keep.
  rewrite Qlt_bool_squares; [|apply Qabs_nonneg|nra].
  apply Qlt_bool_comp.
  - rewrite Qabs_sq. unfold dev2, sq. reflexivity.
  - unfold sq. rewrite <- Hv. ring.
Qed.

Lemma gen_within nsig st s p :
  0 <= nsig -> 0 <= s -> s * s == c_var st ->
  within nsig st p = gen_clip_keep nsig (c_mean st) s (p_x p).
Proof.
  intros Hn Hs Hv. rewrite (within_spec nsig st p Hn). symmetry. apply gen_clip_rule; assumption.
Qed.

Lemma gen_sc_rounds_ok niter : Z.to_nat (gen_sc_rounds niter) = Z.to_nat niter.
Proof. unfold gen_sc_rounds. f_equal. lia. Qed.

Lemma nat_eqb_Z a b : Nat.eqb a b = (Z.of_nat a =? Z.of_nat b)%Z.
Proof.
  destruct (Nat.eqb a b) eqn:E; symmetry.
  - apply Nat.eqb_eq in E. subst. apply Z.eqb_refl.
  - apply Nat.eqb_neq in E. apply Z.eqb_neq. lia.
Qed.

Lemma gen_sc_loop_step f wtd nsig cur st :
  sc_loop (S f) wtd nsig cur st =
  let kept := filter (within nsig st) cur in
  if gen_sc_stop_empty (Z.of_nat (length kept)) then (cur, st)
  else if gen_sc_stop_same (Z.of_nat (length kept)) (Z.of_nat (length cur)) then (cur, st)
  else sc_loop f wtd nsig kept (sc_stats wtd kept).
Proof.
  cbn [sc_loop]. cbv zeta. unfold gen_sc_stop_empty, gen_sc_stop_same.
  rewrite <- nat_eqb_Z.
  destruct (filter (within nsig st) cur) as [|a k] eqn:E; [reflexivity|].
  replace (Z.of_nat (length (a :: k)) =? 0)%Z with false; [reflexivity|].
  symmetry. apply Z.eqb_neq. cbn [length]. lia.
Qed.

Lemma gen_sc_stats_weighted cur :
  sc_stats true cur =
  let r := wmom1 (map p_x cur) (map p_w cur) None gen_scstats_calcerr gen_scstats_sdev in
  {| c_mean := m_mean r; c_err2 := m_err2 r; c_var := match m_var r with Some v => v | None => 0 end |}.
Proof. reflexivity. Qed.

Lemma gen_sc_stats_plain cur :
  c_err2 (sc_stats false cur) = gen_plain_err2 (c_var (sc_stats false cur)) (qlen cur).
Proof. reflexivity. Qed.

(* ------------------------------------------------------------------ interplin *)
Lemma gen_interp_index_ok x u :
  interp_index x u = gen_interp_index (Z.of_nat (length x)) (searchsorted x u).
Proof.
  unfold interp_index, gen_interp_index. cbv zeta. rewrite Z.geb_leb. reflexivity.
Qed.

Lemma gen_interp_formula_ok x0 v0 x1 v1 u : line x0 v0 x1 v1 u = gen_interp_formula x0 v0 x1 v1 u.
Proof. reflexivity. Qed.

Lemma gen_interp_next_ok k : Z.to_nat (gen_interp_next (Z.of_nat k)) = S k.
Proof. unfold gen_interp_next. lia. Qed.

(* ------------------------------------------------------------------ get_stats *)
Lemma gen_get_stats_weighted x w :
  length w = length x ->
  get_stats (V1 x) (Some (V1 w)) None None =
  let r := wmom1 x w None gen_gs_calcerr gen_gs_sdev in
  Ok {| g_min := S0 (qmin_list x); g_max := S0 (qmax_list x); g_mean := S0 (m_mean r);
        g_var := S0 (match m_var r with Some v => v | None => 0 end); g_err2 := S0 (m_err2 r) |}.
Proof. intro H. rewrite <- get_stats_kw_default. exact (get_stats_kw_weighted_1d x w None H). Qed.

Lemma gen_get_stats_plain x :
  exists g, get_stats (V1 x) None None None = Ok g
    /\ exists m e2 v, g_mean g = S0 m /\ g_err2 g = S0 e2 /\ g_var g = S0 v
       /\ e2 = gen_gs_plain_err2 v (qlen x).
Proof.
  eexists. split; [reflexivity|]. cbn [g_mean g_err2 g_var].
  do 3 eexists. split; [reflexivity|]. split; [reflexivity|]. split; [reflexivity|].
  rewrite <- (qlen_index_from 0%Z x x eq_refl). reflexivity.
Qed.

(* ------------------------------------------------------------------ cov2cor / cor2cov *)
Lemma gen_cov_diag_rule c : Qlt_bool 0 c = negb (gen_cov_diag_bad c).
Proof. reflexivity. Qed.

Lemma gen_cov2cor_entries cov :
  rect cov (length cov) = true -> (forall i, (i < length cov)%nat -> gen_cov_diag_bad (mget cov i i) = false) ->
  exists m, cov2cor cov = Ok m
    /\ forall i j, (i < length cov)%nat -> (j < length cov)%nat ->
         nth j (nth i m []) (0, 0)
         = (gen_cor_num (mget cov i j) (mget cov i i) (mget cov j j),
            gen_cor_den2 (mget cov i j) (mget cov i i) (mget cov j j)).
Proof.
  intros Hr Hd. apply cov2cor_spec; [exact Hr|].
  intros i Hi. specialize (Hd i Hi). apply Qlt_bool_iff. rewrite gen_cov_diag_rule, Hd. reflexivity.
Qed.

(* ------------------------------------------------------------------ boxcar_average *)
(* the model's window mean is numpy's full convolution with the kernel ones(N)/N, sliced at the
   source's offset *)
Lemma gen_boxcar_convolution x N :
  (0 < N)%Z -> x <> [] ->
  exists out, boxcar_average x N = Ok out /\ length out = length x
    /\ forall k, (k < length x)%nat ->
         nth k out 0 == conv_full x (repeat (gen_boxcar_weight (inject_Z N)) (Z.to_nat N))
                                  (k + Z.to_nat (gen_boxcar_skip N)).
Proof.
  intros HN Hx. destruct (boxcar_spec x N HN Hx) as [out [E [L H]]].
  exists out. split; [exact E|]. split; [exact L|]. intros k Hk. rewrite (H k Hk).
  symmetry. apply boxcar_is_convolution; [exact HN|reflexivity|reflexivity].
Qed.

(* ------------------------------------------------------------------ result / working dtypes *)
(* the statements that make the precision of the results independent of the dtype of the inputs
   (weights and get_stats data forced to float64; result matrices allocated as float64) are present *)
Lemma gen_result_dtypes :
  gen_wmom_weights_f64 = true /\ gen_wmedian_weights_f64 = true /\ gen_sigma_clip_weights_f64 = true
  /\ gen_get_stats_data_f64 = true /\ gen_cov2cor_result_f64 = true /\ gen_cor2cov_result_f64 = true.
Proof. repeat split; reflexivity. Qed.

(* ------------------------------------------------------------------ rejections: test and error class *)
Lemma gen_rejections :
  (forall x w im ce sd, length w <> length x -> wmom (V1 x) (V1 w) im ce sd = Err gen_wmom_shape_error)
  /\ (forall rows w niter nsig, gen_sc_rejects_ndim 2 = true /\ gen_sc_rejects_ndim 1 = false
        /\ sigma_clip (M2 rows) w niter nsig = Err gen_sc_ndim_error)
  /\ (forall x w niter nsig,
        sigma_clip (V1 x) (Some (V1 w)) niter nsig =
        if gen_sc_rejects_size (Z.of_nat (length w)) (Z.of_nat (length x)) then Err gen_sc_size_error
        else sigma_clip (V1 x) (Some (V1 w)) niter nsig)
  /\ (forall cov i, rect cov (length cov) = true -> (i < length cov)%nat -> gen_cov_diag_bad (mget cov i i) = true ->
        cov2cor cov = Err gen_cov_diag_error).
Proof.
  split; [exact wmom_rejects_shape|]. split; [|split].
  - intros. split; [reflexivity|]. split; reflexivity.
  - intros x w niter nsig. unfold gen_sc_rejects_size. rewrite <- nat_eqb_Z.
    destruct (Nat.eqb (length w) (length x)) eqn:E; [reflexivity|].
    apply sigma_clip_rejects_size. apply Nat.eqb_neq, E.
  - intros cov i R Hi H. apply (cov2cor_rejects cov i R Hi). apply Qle_bool_iff. exact H.
Qed.

(* ------------------------------------------------------------------ who returns what in which position *)
(* wmom returns (mean, error[, deviation]); _get_sigma_clip_stats unpacks wmom and returns in that order;
   sigma_clip appends mean, deviation, error, indices; get_stats unpacks sigma_clip as (mean, deviation, error) and wmom
   as (mean, error, deviation): every unpacking agrees with the order of the producer *)
Lemma gen_result_orders :
  gen_wmom_return_sdev = [SMean; SErr; SStd] /\ gen_wmom_return = [SMean; SErr]
  /\ gen_scstats_unpack = gen_wmom_return_sdev /\ gen_scstats_return = [SMean; SErr; SStd]
  /\ gen_sc_return_full = [SMean; SStd; SErr; SIdx]
  /\ gen_gs_clip_unpack = firstn 3 gen_sc_return_full
  /\ gen_gs_wmom_unpack = gen_wmom_return_sdev.
Proof. repeat split; reflexivity. Qed.
