(* C18 — the property as Props over plain textbook definitions (sums written with the naive
   recursion [Sum]), and the boolean checkers that the correspondence run evaluates on the
   implementation's outputs (soundness: TolSound.v, collected in Properties.v).

   Square roots.  "s is the square root of V up to tol" is expressed on squares by [close_sqrt]
   (RealReading.close_sqrt_real shows it implies |s - sqrt V| <= tol over the reals).

   Tolerances.  The property allows rounding only.  All comparisons use the relative constant
   eps9 = 1e-9 against a condition-aware scale:
     mean            eps9 * A,  A = sum|w x| / sum w  (+ |inputmean|)
     error, sdev     eps9 * (value + A)   (a perturbation d of the mean moves
                     sqrt(sum w^2 (x-m)^2)/sum w and sqrt(sum w (x-m)^2/sum w) by at most |d|,
                     because ||w||_2 <= ||w||_1; everything else is relative rounding)
     1/sqrt(sum w), correlation coefficients, cor2cov products: eps9 * |value|
     interpolation   eps9 * (|slope term| + |v_k|)
   binary64 summation of N <= 2000 terms has a relative error below 2.3e-13 of the sum of
   absolute values, so 1e-9 leaves three orders of magnitude for the error propagation through
   sqrt and the division, while a wrong definition (n vs n-1, w vs w^2, wrong segment) is off by
   at least ~1/N relative. *)
From Coq Require Import QArith Qabs.
From EsVerif.Common Require Import Base.
From EsVerif.C18 Require Import Model.
Open Scope Q_scope.

Definition eps9 : Q := 1 # 1000000000.

Fixpoint Sum (l : list Q) : Q := match l with [] => 0 | x :: t => x + Sum t end.

(* ------------------------------------------------------------------ closeness *)
Definition close_lin (y v tol : Q) : Prop := Qabs (y - v) <= tol.
Definition close_lin_b (y v tol : Q) : bool := Qle_bool (Qabs (y - v)) tol.

(* 0 <= s and  max(0, s - tol)^2 <= V <= (s + tol)^2 *)
Definition close_sqrt (s V tol : Q) : Prop :=
  0 <= s /\ 0 <= tol /\ (s <= tol \/ (s - tol) * (s - tol) <= V) /\ V <= (s + tol) * (s + tol).
Definition close_sqrt_b (s V tol : Q) : bool :=
  Qle_bool 0 s && Qle_bool 0 tol && (Qle_bool s tol || Qle_bool ((s - tol) * (s - tol)) V)
  && Qle_bool V ((s + tol) * (s + tol)).

(* ------------------------------------------------------------------ weighted moments *)
Definition wmean_def (w x : list Q) : Q := Sum (map2 Qmult w x) / Sum w.
(* squares of the documented errors: 1/sqrt(sum w)  and  sqrt(sum w^2 (x-m)^2)/sum w *)
Definition werr2_default_def (w : list Q) : Q := 1 / Sum w.
Definition werr2_calc_def (w x : list Q) (m : Q) : Q :=
  Sum (map2 (fun wi xi => wi * wi * ((xi - m) * (xi - m))) w x) / (Sum w * Sum w).
(* square of the weighted deviation sqrt(sum w (x-m)^2 / sum w) *)
Definition wvar_def (w x : list Q) (m : Q) : Q :=
  Sum (map2 (fun wi xi => wi * ((xi - m) * (xi - m))) w x) / Sum w.
Definition absmean_def (w x : list Q) : Q := Sum (map2 (fun wi xi => Qabs (wi * xi)) w x) / Sum w.

(* what the model's record for one column must contain: the mean (or the supplied mean), the
   square of the documented error for the chosen setting, the square of the weighted deviation
   exactly when sdev is requested *)
Definition mom_spec (x w : list Q) (im : option Q) (calcerr sdev : bool) (r : mom) : Prop :=
  let m := match im with None => wmean_def w x | Some m0 => m0 end in
  m_mean r == m
  /\ m_err2 r == (if calcerr then werr2_calc_def w x m else werr2_default_def w)
  /\ match m_var r with
     | Some v => sdev = true /\ v == wvar_def w x m
     | None => sdev = false
     end.

(* column j of a returned value (a 0-d value is the same for every column) *)
Definition nd_get (a : nd) (j : nat) : Q :=
  match a with S0 q => q | V1 v => nth j v 0 | M2 _ => 0 end.
Definition out_col (o : wmom_out) (j : nat) : mom :=
  {| m_mean := nd_get (o_mean o) j; m_err2 := nd_get (o_err2 o) j;
     m_var := match o_var o with Some a => Some (nd_get a j) | None => None end |}.
Definition im_col (im : imean) (j : nat) : option Q :=
  match im with INone => None | IScalar m => Some m | IVec v => Some (nth j v 0) end.

Definition im_abs (im : option Q) : Q := match im with Some m => Qabs m | None => 0 end.

(* the three numbers (mean, err, sdev) reported for one column are right up to rounding *)
Definition wmom1_ok (x w : list Q) (im : option Q) (calcerr : bool) (mean err : Q) (sdev : option Q) : Prop :=
  let A := absmean_def w x + im_abs im in
  let mref := match im with None => wmean_def w x | Some m => m end in
  match im with None => close_lin mean mref (eps9 * A) | Some m => mean == m end
  /\ (if calcerr then close_sqrt err (werr2_calc_def w x mref) (eps9 * (err + A))
      else close_sqrt err (werr2_default_def w) (eps9 * err))
  /\ match sdev with None => True | Some s => close_sqrt s (wvar_def w x mref) (eps9 * (s + A)) end.

Definition absmean_q (w x : list Q) : Q := qsum (map2 (fun wi xi => Qabs (wi * xi)) w x) / qsum w.

(* the implementation's numbers against one column record of the model *)
Definition mom_close (r : mom) (A : Q) (im : option Q) (calcerr : bool) (mean err : Q) (sdev : option Q) : bool :=
  match im with None => close_lin_b mean (m_mean r) (eps9 * A) | Some m => Qeq_bool mean m end
  && (if calcerr then close_sqrt_b err (m_err2 r) (eps9 * (err + A)) else close_sqrt_b err (m_err2 r) (eps9 * err))
  && match sdev, m_var r with
     | None, _ => true
     | Some s, Some v => close_sqrt_b s v (eps9 * (s + A))
     | Some _, None => false
     end.

Definition wmom1_check (x w : list Q) (im : option Q) (calcerr : bool) (mean err : Q) (sdev : option Q) : bool :=
  mom_close (wmom1 x w im calcerr true) (absmean_q w x + im_abs im) im calcerr mean err sdev.

(* numpy-level checker: shapes of the three returned values, then every column *)
Definition nd_shape_eqb (a b : nd) : bool :=
  match a, b with
  | S0 _, S0 _ => true
  | V1 u, V1 v => Nat.eqb (length u) (length v)
  | _, _ => false
  end.
Definition data_col (arr : nd) (j : nat) : list Q :=
  match arr with V1 x => x | M2 rows => col j rows | S0 q => [q] end.
Definition data_ncols (arr : nd) : nat := match arr with M2 rows => ncols rows | _ => 1%nat end.
(* the weights that act on column j: 1-d weights themselves (weights[:, newaxis]) or column j *)
Definition wcol_of (wts : nd) (j : nat) : list Q :=
  match wts with V1 w => w | M2 ww => col j ww | S0 q => [q] end.
Definition opt_get (os : option nd) (j : nat) : option Q :=
  match os with Some b => Some (nd_get b j) | None => None end.

Definition wmom_check (arr wts : nd) (im : imean) (ce sd : bool) (om oe : nd) (os : option nd) : bool :=
  match wmom arr wts im ce sd with
  | Err _ => false
  | Ok o =>
      nd_shape_eqb (o_mean o) om && nd_shape_eqb (o_err2 o) oe
      && match o_var o, os with Some a, Some b => nd_shape_eqb a b | None, None => true | _, _ => false end
      && forallb (fun j => let x := data_col arr j in let w := wcol_of wts j in let imj := im_col im j in
                           mom_close (out_col o j) (absmean_q w x + im_abs imj) imj ce
                                     (nd_get om j) (nd_get oe j) (opt_get os j))
                 (seq 0 (data_ncols arr))
  end.

(* ------------------------------------------------------------------ weighted median *)
Definition cumw (l : list (Q * Q)) (v : Q) : Q :=
  Sum (map snd (filter (fun p => Qle_bool (fst p) v) l)).
Definition totw (l : list (Q * Q)) : Q := Sum (map snd l).

(* v is the smallest data value whose cumulative weight reaches half the total *)
Definition wmedian_ok (l : list (Q * Q)) (v : Q) : Prop :=
  (exists p, In p l /\ fst p == v)
  /\ totw l / 2 <= cumw l v
  /\ (forall p, In p l -> fst p < v -> cumw l (fst p) < totw l / 2).

Definition cumw_q (l : list (Q * Q)) (v : Q) : Q :=
  qsum (map snd (filter (fun p => Qle_bool (fst p) v) l)).
Definition wmedian_check (l : list (Q * Q)) (v : Q) : bool :=
  let h := qsum (map snd l) / 2 in
  existsb (fun p => Qeq_bool (fst p) v) l
  && Qle_bool h (cumw_q l v)
  && forallb (fun p => if Qlt_bool (fst p) v then Qlt_bool (cumw_q l (fst p)) h else true) l.

(* ------------------------------------------------------------------ sigma clipping *)
(* statistics of a subset by the textbook definitions: (mean, err^2, var) *)
Definition stat_def (weighted : bool) (cur : list pt) : Q * Q * Q :=
  let xs := map p_x cur in
  if weighted then
    let ws := map p_w cur in
    let m := wmean_def ws xs in (m, werr2_calc_def ws xs m, wvar_def ws xs m)
  else
    let n := qlen cur in
    let m := Sum xs / n in
    let v := Sum (map (fun x => (x - m) * (x - m)) xs) / n in (m, v / n, v).

(* one round: keep the points strictly within nsig deviations of the current mean,
   |x - m| < nsig * sqrt(var), i.e. (x-m)^2 < nsig^2 var for nsig >= 0 *)
Definition clip_step (weighted : bool) (nsig : Q) (cur : list pt) : list pt :=
  let '(m, _, v) := stat_def weighted cur in
  filter (fun p => Qlt_bool ((p_x p - m) * (p_x p - m)) (nsig * nsig * v)) cur.

Fixpoint iterate {A} (f : A -> A) (k : nat) (a : A) : A :=
  match k with O => a | S j => iterate f j (f a) end.

(* sub is the k-th iterate of the clipping round; every earlier round discarded something but
   not everything; the iteration stopped because the limit was reached, or nothing changes any
   more, or the next round would discard everything (the code then keeps the last subset and
   reports "nsig too small") *)
Definition clip_fixpoint (weighted : bool) (nsig : Q) (niter : nat) (all sub : list pt) : Prop :=
  let step := clip_step weighted nsig in
  exists k, (k <= niter)%nat
    /\ sub = iterate step k all
    /\ (forall j, (j < k)%nat -> let c := iterate step j all in
                                 step c <> [] /\ length (step c) <> length c)
    /\ (k = niter \/ step sub = sub \/ step sub = []).

Definition sc_scale (weighted : bool) (sub : list pt) : Q :=
  absmean_def (map (fun p => if weighted then p_w p else 1) sub) (map p_x sub).

(* the reported mean, deviation, error are those of exactly the reported subset (up to
   rounding), and that subset is the clipping fixpoint *)
Definition sigma_clip_ok (weighted : bool) (nsig : Q) (niter : nat) (all : list pt)
           (mean sdev err : Q) (idx : list Z) : Prop :=
  exists sub, map p_idx sub = idx
    /\ clip_fixpoint weighted nsig niter all sub
    /\ let '(m, e2, v) := stat_def weighted sub in
       let A := sc_scale weighted sub in
       close_lin mean m (eps9 * A)
       /\ close_sqrt sdev v (eps9 * (sdev + A))
       /\ close_sqrt err e2 (eps9 * (err + A)).

Definition sc_scale_q (weighted : bool) (sub : list pt) : Q :=
  qsum (map2 (fun wi xi => Qabs (wi * xi)) (map (fun p => if weighted then p_w p else 1) sub) (map p_x sub))
  / qsum (map (fun p => if weighted then p_w p else 1) sub).

Definition sigma_clip_check (weighted : bool) (nsig : Q) (niter : nat) (all : list pt)
           (mean sdev err : Q) (idx : list Z) : bool :=
  let '(sub, st) := sc_loop niter weighted nsig all (sc_stats weighted all) in
  let A := sc_scale_q weighted sub in
  zlist_eqb (map p_idx sub) idx
  && close_lin_b mean (c_mean st) (eps9 * A)
  && close_sqrt_b sdev (c_var st) (eps9 * (sdev + A))
  && close_sqrt_b err (c_err2 st) (eps9 * (err + A)).

(* ------------------------------------------------------------------ interpolation *)
Fixpoint incr (l : list Q) : Prop :=
  match l with
  | x :: t => match t with [] => True | y :: _ => x < y end /\ incr t
  | [] => True
  end.
Fixpoint incr_b (l : list Q) : bool :=
  match l with
  | x :: t => match t with [] => true | y :: _ => Qlt_bool x y end && incr_b t
  | [] => true
  end.

(* the chord through (x_k, v_k) and (x_{k+1}, v_{k+1}), evaluated at u *)
Definition chord (v x : list Q) (k : nat) (u : Q) : Q :=
  nth k v 0 + (nth (S k) v 0 - nth k v 0) / (nth (S k) x 0 - nth k x 0) * (u - nth k x 0).

(* y is, up to tol, the piecewise-linear interpolant inside the table and the straight-line
   extension of the first / last segment outside it *)
Definition interp_ok (v x : list Q) (u y tol : Q) : Prop :=
  (forall k, (S k < length x)%nat -> nth k x 0 <= u <= nth (S k) x 0 -> Qabs (y - chord v x k u) <= tol)
  /\ (u < nth 0 x 0 -> Qabs (y - chord v x 0 u) <= tol)
  /\ (nth (length x - 1) x 0 < u -> Qabs (y - chord v x (length x - 2) u) <= tol).

Definition interp_scale (v x : list Q) (u : Q) : Q :=
  let k := Z.to_nat (interp_index x u) in
  Qabs (interp1 v x u - nth k v 0) + Qabs (nth k v 0).

Definition interp_check (v x : list Q) (u y : Q) : bool :=
  incr_b x && Nat.leb 2 (length x) && Nat.eqb (length v) (length x)
  && close_lin_b y (interp1 v x u) (eps9 * interp_scale v x u).

(* ------------------------------------------------------------------ summary statistics *)
Definition is_min (l : list Q) (m : Q) : Prop := (exists y, In y l /\ y == m) /\ forall y, In y l -> m <= y.
Definition is_max (l : list Q) (m : Q) : Prop := (exists y, In y l /\ y == m) /\ forall y, In y l -> y <= m.
Definition is_min_b (l : list Q) (m : Q) : bool := existsb (fun y => Qeq_bool y m) l && forallb (fun y => Qle_bool m y) l.
Definition is_max_b (l : list Q) (m : Q) : bool := existsb (fun y => Qeq_bool y m) l && forallb (fun y => Qle_bool y m) l.

Definition sc_weights (x : list Q) (weights : option (list Q)) : list Q :=
  match weights with Some w => w | None => map (fun _ => 1) x end.
Definition sc_weighted (weights : option (list Q)) : bool :=
  match weights with Some _ => true | None => false end.

(* one column of get_stats: min and max of the data; mean / deviation / error are those of
   sigma_clip when clipping is requested (nsig, niter), of wmom(calcerr=True, sdev=True) when
   weights are given, and otherwise the plain mean, std (ddof=0) and std/sqrt(N) of all points
   (= the statistics sigma_clip computes with zero rounds) *)
Definition gs_col_ok (x : list Q) (w : option (list Q)) (clip : option (Q * nat))
           (mn mx mean std err : Q) (idx : list Z) : Prop :=
  is_min x mn /\ is_max x mx /\
  match clip with
  | Some (nsig, niter) =>
      0 <= nsig /\ sigma_clip_ok (sc_weighted w) nsig niter (index_from 0%Z x (sc_weights x w)) mean std err idx
  | None =>
      match w with
      | Some w => wmom1_ok x w None true mean err (Some std)
      | None => sigma_clip_ok false 1 0 (index_from 0%Z x x) mean std err (zseq 0 (length x))
      end
  end.

Definition gs_col_check (x : list Q) (w : option (list Q)) (clip : option (Q * nat))
           (mn mx mean std err : Q) (idx : list Z) : bool :=
  is_min_b x mn && is_max_b x mx &&
  match clip with
  | Some (nsig, niter) =>
      Qle_bool 0 nsig
      && sigma_clip_check (sc_weighted w) nsig niter (index_from 0%Z x (sc_weights x w)) mean std err idx
  | None =>
      match w with
      | Some w => wmom1_check x w None true mean err (Some std)
      | None => sigma_clip_check false 1 0 (index_from 0%Z x x) mean std err (zseq 0 (length x))
      end
  end.

(* ------------------------------------------------------------------ covariance / correlation *)
(* c = num / sqrt(den2) up to relative eps9, on squares, with the sign of num *)
Definition cor_close (c num den2 : Q) : Prop :=
  (0 <= num -> 0 <= c) /\ (num <= 0 -> c <= 0) /\ close_sqrt (Qabs c) (num * num / den2) (eps9 * Qabs c).
Definition cor_close_b (c num den2 : Q) : bool :=
  (if Qle_bool 0 num then Qle_bool 0 c else true) && (if Qle_bool num 0 then Qle_bool c 0 else true)
  && close_sqrt_b (Qabs c) (num * num / den2) (eps9 * Qabs c).

Definition rel_close (y v : Q) : Prop := Qabs (y - v) <= eps9 * Qabs v.
Definition rel_close_b (y v : Q) : bool := Qle_bool (Qabs (y - v)) (eps9 * Qabs v).

Definition idx2 (n : nat) : list (nat * nat) := flat_map (fun i => map (fun j => (i, j)) (seq 0 n)) (seq 0 n).

(* every entry of the reported correlation matrix is cov[i,j]/sqrt(cov[i,i] cov[j,j]) *)
Definition cov2cor_ok (cov cor : list (list Q)) : Prop :=
  forall i j, (i < length cov)%nat -> (j < length cov)%nat ->
    cor_close (mget cor i j) (mget cov i j) (mget cov i i * mget cov j j).
Definition cov2cor_check (cov cor : list (list Q)) : bool :=
  forallb (fun ij => cor_close_b (mget cor (fst ij) (snd ij)) (mget cov (fst ij) (snd ij))
                                 (mget cov (fst ij) (fst ij) * mget cov (snd ij) (snd ij))) (idx2 (length cov)).

(* entrywise relative agreement of two matrices (cor2cov against cor*d*d; round trip against cov) *)
Definition mat_close (n : nat) (a b : list (list Q)) : Prop :=
  forall i j, (i < n)%nat -> (j < n)%nat -> rel_close (mget a i j) (mget b i j).
Definition mat_close_b (n : nat) (a b : list (list Q)) : bool :=
  forallb (fun ij => rel_close_b (mget a (fst ij) (snd ij)) (mget b (fst ij) (snd ij))) (idx2 n).

(* ------------------------------------------------------------------ boxcar average *)
Definition boxcar_def (x : list Q) (N : Z) (k : nat) : Q := Sum (firstn (Z.to_nat N) (skipn k x)) / inject_Z N.
Definition boxcar_scale (x : list Q) (N : Z) (k : nat) : Q :=
  qsum (map Qabs (firstn (Z.to_nat N) (skipn k x))) / inject_Z N.
