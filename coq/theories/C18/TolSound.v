(* C18 — the boolean checkers are sound.  Every checker of Spec.v is, by definition, the checker of
   SpecTol.v at eps9, and every statement of Spec.v the statement below at eps9, so soundness is proved
   once, for EVERY rounding constant: what the correspondence run evaluates at eps_f4 for the calls that
   compute in float32 is a verified checker too, not only its eps9 instance. *)
From Coq Require Import QArith Qabs Lqa.
From EsVerif.Common Require Import Base.
From EsVerif.C18 Require Import Model Spec SpecTol SpecStrict ModelKw QLemmas MomProofs ClipProofs ClipStrict InterpProofs CorProofs.
Open Scope Q_scope.

(* ---------------------------------------------------------------- specifications at eps *)
Definition wmom1_ok_e (eps : Q) (x w : list Q) (im : option Q) (calcerr : bool) (mean err : Q) (sdev : option Q) : Prop :=
  let A := absmean_def w x + im_abs im in
  let mref := match im with None => wmean_def w x | Some m => m end in
  match im with None => close_lin mean mref (eps * A) | Some m => mean == m end
  /\ (if calcerr then close_sqrt err (werr2_calc_def w x mref) (eps * (err + A))
      else close_sqrt err (werr2_default_def w) (eps * err))
  /\ match sdev with None => True | Some s => close_sqrt s (wvar_def w x mref) (eps * (s + A)) end.

Definition sigma_clip_ok_e (eps : Q) (weighted : bool) (nsig : Q) (niter : nat) (all : list pt)
           (mean sdev err : Q) (idx : list Z) : Prop :=
  exists sub, map p_idx sub = idx
    /\ clip_fixpoint weighted nsig niter all sub
    /\ let '(m, e2, v) := stat_def weighted sub in
       let A := sc_scale weighted sub in
       close_lin mean m (eps * A)
       /\ close_sqrt sdev v (eps * (sdev + A))
       /\ close_sqrt err e2 (eps * (err + A)).

Definition cor_close_e (eps : Q) (c num den2 : Q) : Prop :=
  (0 <= num -> 0 <= c) /\ (num <= 0 -> c <= 0) /\ close_sqrt (Qabs c) (num * num / den2) (eps * Qabs c).
Definition cov2cor_ok_e (eps : Q) (cov cor : list (list Q)) : Prop :=
  forall i j, (i < length cov)%nat -> (j < length cov)%nat ->
    cor_close_e eps (mget cor i j) (mget cov i j) (mget cov i i * mget cov j j).
Definition mat_close_e (eps : Q) (n : nat) (a b : list (list Q)) : Prop :=
  forall i j, (i < n)%nat -> (j < n)%nat -> Qabs (mget a i j - mget b i j) <= eps * Qabs (mget b i j).

(* ---------------------------------------------------------------- weighted moments *)
Lemma mom_close_e_sound eps x w im ce sd r mean err sdev :
  mom_spec x w im ce sd r ->
  mom_close_e eps r (absmean_q w x + im_abs im) im ce mean err sdev = true ->
  wmom1_ok_e eps x w im ce mean err sdev.
Proof.
  unfold mom_close_e, wmom1_ok_e. intros [Sm [Se Sv]] H.
  apply andb_true_iff in H as [H H3]. apply andb_true_iff in H as [H1 H2].
  pose proof (absmean_q_ok w x) as EA.
  split; [|split].
  - destruct im as [m0|].
    + apply Qeq_bool_iff in H1. exact H1.
    + apply close_lin_b_iff in H1. eapply close_lin_compat; [exact Sm| |exact H1].
      rewrite EA. reflexivity.
  - destruct ce; apply close_sqrt_b_iff in H2.
    + eapply close_sqrt_compat; [exact Se| |exact H2]. rewrite EA. reflexivity.
    + eapply close_sqrt_compat; [exact Se| |exact H2]. reflexivity.
  - destruct sdev as [s|]; [|exact I].
    destruct (m_var r) as [v|] eqn:EV; [|discriminate].
    destruct Sv as [_ Sv]. apply close_sqrt_b_iff in H3.
    eapply close_sqrt_compat; [exact Sv| |exact H3]. rewrite EA. reflexivity.
Qed.

Lemma wmom1_check_sound x w im ce mean err sdev :
  wmom1_check x w im ce mean err sdev = true -> wmom1_ok x w im ce mean err sdev.
Proof. exact (mom_close_e_sound eps9 x w im ce true _ mean err sdev (wmom1_spec x w im ce true)). Qed.

Lemma wmom_check_e_sound_Nd eps rows d wts im ce sd om oe os :
  rows <> [] -> ncols rows = d -> rect rows d = true -> weights_fit rows d wts -> im_fits d im ->
  wmom_check_e eps (M2 rows) wts im ce sd om oe os = true ->
  forall j, (j < d)%nat ->
    wmom1_ok_e eps (col j rows) (wcol_of wts j) (im_col im j) ce (nd_get om j) (nd_get oe j) (opt_get os j).
Proof.
  intros NE ND R WF IF H j Hj. unfold wmom_check_e in H.
  destruct (wmom_Nd rows d wts im ce sd ND R WF IF) as [o [E [_ Hc]]]. rewrite E in H.
  apply andb_true_iff in H as [_ H]. rewrite forallb_forall in H.
  assert (I : In j (seq 0 (data_ncols (M2 rows)))) by (simpl; rewrite ND; apply in_seq; lia).
  specialize (H j I). cbv zeta in H. simpl data_col in H. rewrite (Hc j Hj) in H.
  eapply mom_close_e_sound; [apply wmom1_spec|exact H].
Qed.

Lemma wmom_check_e_sound_1d eps x w im ce sd om oe os :
  length w = length x -> (forall v, im <> IVec v) ->
  wmom_check_e eps (V1 x) (V1 w) im ce sd om oe os = true ->
  wmom1_ok_e eps x w (im_col im 0) ce (nd_get om 0) (nd_get oe 0) (opt_get os 0).
Proof.
  intros L NV H. unfold wmom_check_e in H.
  destruct (wmom_1d x w im ce sd L NV) as [o [E [Hc _]]]. rewrite E in H.
  apply andb_true_iff in H as [_ H]. simpl in H. rewrite andb_true_r in H. rewrite Hc in H.
  eapply mom_close_e_sound; [apply wmom1_spec|exact H].
Qed.

(* ---------------------------------------------------------------- sigma clipping *)
(* what an accepted output says about the subset on which the loop of the code ends *)
Lemma sigma_clip_check_e_stats eps weighted nsig niter all mean sdev err idx sub :
  sc_loop niter weighted nsig all (sc_stats weighted all) = (sub, sc_stats weighted sub) ->
  sigma_clip_check_e eps weighted nsig niter all mean sdev err idx = true ->
  map p_idx sub = idx
  /\ let '(m, e2, v) := stat_def weighted sub in
     let A := sc_scale weighted sub in
     close_lin mean m (eps * A) /\ close_sqrt sdev v (eps * (sdev + A)) /\ close_sqrt err e2 (eps * (err + A)).
Proof.
  intros EL H. unfold sigma_clip_check_e in H. rewrite EL in H.
  apply andb_true_iff in H as [H H4]. apply andb_true_iff in H as [H H3]. apply andb_true_iff in H as [H1 H2].
  split; [apply zlist_eqb_spec; exact H1|].
  pose proof (sc_stats_def weighted sub) as D.
  destruct (stat_def weighted sub) as [[m e2] v]. destruct D as [Dm [De Dv]].
  pose proof (sc_scale_q_ok weighted sub) as EA.
  apply close_lin_b_iff in H2. apply close_sqrt_b_iff in H3. apply close_sqrt_b_iff in H4.
  split; [|split].
  - eapply close_lin_compat; [exact Dm| |exact H2]. rewrite EA. reflexivity.
  - eapply close_sqrt_compat; [exact Dv| |exact H3]. rewrite EA. reflexivity.
  - eapply close_sqrt_compat; [exact De| |exact H4]. rewrite EA. reflexivity.
Qed.

Lemma sigma_clip_check_e_sound eps weighted nsig niter all mean sdev err idx :
  0 <= nsig ->
  sigma_clip_check_e eps weighted nsig niter all mean sdev err idx = true ->
  sigma_clip_ok_e eps weighted nsig niter all mean sdev err idx.
Proof.
  intros Hn H. destruct (sc_loop_spec weighted nsig niter all Hn) as [sub [E F]].
  destruct (sigma_clip_check_e_stats eps _ _ _ _ _ _ _ _ sub E H) as [Hi Hs].
  exists sub. split; [exact Hi|]. split; [exact F|exact Hs].
Qed.

Lemma sigma_clip_check_sound weighted nsig niter all mean sdev err idx :
  0 <= nsig ->
  sigma_clip_check weighted nsig niter all mean sdev err idx = true ->
  sigma_clip_ok weighted nsig niter all mean sdev err idx.
Proof. exact (sigma_clip_check_e_sound eps9 weighted nsig niter all mean sdev err idx). Qed.

(* the checker of the clause as stated: accepted by the faithful checker, outside the known class *)
Lemma sigma_clip_strict_check_sound weighted nsig niter all mean sdev err idx :
  0 <= nsig ->
  sigma_clip_strict_check weighted nsig niter all mean sdev err idx = true ->
  sigma_clip_strict_ok weighted nsig niter all mean sdev err idx.
Proof.
  intros Hn H. unfold sigma_clip_strict_check in H. apply andb_true_iff in H as [H K].
  apply negb_true_iff in K. destruct (sc_loop_strict weighted nsig niter all Hn K) as [sub [E F]].
  destruct (sigma_clip_check_e_stats eps9 _ _ _ _ _ _ _ _ sub E H) as [Hi Hs].
  exists sub. split; [exact Hi|]. split; [exact F|exact Hs].
Qed.

(* ---------------------------------------------------------------- interpolation, covariance / correlation *)
Lemma interp_check_e_sound eps v x u y :
  interp_check_e eps v x u y = true -> interp_ok v x u y (eps * interp_scale v x u).
Proof.
  unfold interp_check_e. intro H.
  apply andb_true_iff in H as [H H4]. apply andb_true_iff in H as [H H3]. apply andb_true_iff in H as [H1 H2].
  apply incr_b_sound in H1. apply Nat.leb_le in H2. apply close_lin_b_iff in H4. unfold close_lin in H4.
  split; [|split].
  - intros k Hk Hu. rewrite <- (interp1_piecewise v x H1 H2 k u Hk Hu). exact H4.
  - intro Hu. rewrite <- (interp1_below v x H1 H2 u Hu). exact H4.
  - intro Hu. rewrite <- (interp1_above v x H1 H2 u Hu). exact H4.
Qed.

Lemma cor_close_b_e_sound eps c num den2 : cor_close_b_e eps c num den2 = true -> cor_close_e eps c num den2.
Proof.
  unfold cor_close_b_e, cor_close_e. intro H.
  apply andb_true_iff in H as [H H3]. apply andb_true_iff in H as [H1 H2].
  split; [|split].
  - intro A. apply Qle_bool_iff in A. rewrite A in H1. apply Qle_bool_iff, H1.
  - intro A. apply Qle_bool_iff in A. rewrite A in H2. apply Qle_bool_iff, H2.
  - apply close_sqrt_b_iff, H3.
Qed.

Lemma cov2cor_check_e_sound eps cov cor : cov2cor_check_e eps cov cor = true -> cov2cor_ok_e eps cov cor.
Proof.
  unfold cov2cor_check_e, cov2cor_ok_e. intros H i j Hi Hj. rewrite forallb_forall in H.
  apply cor_close_b_e_sound. apply (H (i, j)). apply in_idx2; assumption.
Qed.

Lemma mat_close_b_e_sound eps n a b : mat_close_b_e eps n a b = true -> mat_close_e eps n a b.
Proof.
  unfold mat_close_b_e, mat_close_e. intros H i j Hi Hj. rewrite forallb_forall in H.
  apply Qle_bool_iff. apply (H (i, j)). apply in_idx2; assumption.
Qed.

(* ---------------------------------------------------------------- summary statistics *)
Lemma is_min_b_iff l m : is_min_b l m = true <-> is_min l m.
Proof.
  unfold is_min_b, is_min. rewrite andb_true_iff, existsb_exists, forallb_forall.
  setoid_rewrite Qeq_bool_iff. setoid_rewrite Qle_bool_iff. reflexivity.
Qed.

Lemma is_max_b_iff l m : is_max_b l m = true <-> is_max l m.
Proof.
  unfold is_max_b, is_max. rewrite andb_true_iff, existsb_exists, forallb_forall.
  setoid_rewrite Qeq_bool_iff. setoid_rewrite Qle_bool_iff. reflexivity.
Qed.

Lemma minmax_b_sound x mn mx c :
  is_min_b x mn && is_max_b x mx && c = true -> is_min x mn /\ is_max x mx /\ c = true.
Proof.
  intro H. apply andb_true_iff in H as [H H3]. apply andb_true_iff in H as [H1 H2].
  split; [apply is_min_b_iff, H1|]. split; [apply is_max_b_iff, H2|exact H3].
Qed.

Lemma gs_col_check_sound x w clip mn mx mean std err idx :
  gs_col_check x w clip mn mx mean std err idx = true -> gs_col_ok x w clip mn mx mean std err idx.
Proof.
  unfold gs_col_check, gs_col_ok. intro H. apply minmax_b_sound in H as [H1 [H2 H3]].
  split; [exact H1|]. split; [exact H2|]. destruct clip as [[nsig niter]|]; [|destruct w as [wl|]].
  - apply andb_true_iff in H3 as [Hn H3]. apply Qle_bool_iff in Hn. split; [exact Hn|].
    apply sigma_clip_check_sound; assumption.
  - apply wmom1_check_sound, H3.
  - apply sigma_clip_check_sound; [lra|exact H3].
Qed.

(* with the calcerr keyword only the weighted, unclipped case differs *)
Lemma gs_col_check_kw_sound ce x w clip mn mx mean std err idx :
  gs_col_check_kw ce x w clip mn mx mean std err idx = true -> gs_col_ok_kw ce x w clip mn mx mean std err idx.
Proof.
  unfold gs_col_check_kw, gs_col_ok_kw. destruct clip as [p|]; [apply gs_col_check_sound|].
  destruct w as [wl|]; [|apply gs_col_check_sound].
  intro H. apply minmax_b_sound in H as [H1 [H2 H3]].
  split; [exact H1|]. split; [exact H2|]. apply wmom1_check_sound, H3.
Qed.
