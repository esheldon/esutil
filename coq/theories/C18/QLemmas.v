(* C18 — basic facts about the helpers of Model.v / Spec.v *)
From Coq Require Import QArith Lqa Sorting.Permutation.
From EsVerif.Common Require Import Base.
From EsVerif.C18 Require Import Model Spec.
Open Scope Q_scope.

Lemma Qlt_bool_iff x y : Qlt_bool x y = true <-> x < y.
Proof.
  unfold Qlt_bool. rewrite negb_true_iff. split; intro H.
  - apply Qnot_le_lt. intro L. apply Qle_bool_iff in L. congruence.
  - destruct (Qle_bool y x) eqn:E; auto. apply Qle_bool_iff in E.
    exfalso. apply (Qlt_not_le _ _ H E).
Qed.

Lemma Qlt_bool_false x y : Qlt_bool x y = false <-> y <= x.
Proof.
  unfold Qlt_bool. rewrite negb_false_iff. apply Qle_bool_iff.
Qed.

Lemma Qle_bool_false x y : Qle_bool x y = false <-> y < x.
Proof.
  rewrite <- Qlt_bool_iff. unfold Qlt_bool. rewrite negb_true_iff. reflexivity.
Qed.

Global Instance Qlt_bool_comp : Proper (Qeq ==> Qeq ==> eq) Qlt_bool.
Proof. intros a b E c d F. unfold Qlt_bool. rewrite E, F. reflexivity. Qed.

Lemma Qeq_bool_true x y : Qeq_bool x y = true <-> x == y.
Proof. apply Qeq_bool_iff. Qed.

Lemma qadd_ok p q : qadd p q == p + q.
Proof.
  unfold qadd. destruct (Pos.eqb (Qden p) (Qden q)) eqn:E.
  - apply Pos.eqb_eq in E. destruct p as [a b], q as [c d]; simpl in *. subst d.
    unfold Qeq, Qplus; simpl. rewrite Pos2Z.inj_mul. ring.
  - apply Qred_correct.
Qed.

Lemma fold_qadd t : forall a, fold_left qadd t a == a + Sum t.
Proof.
  induction t as [|x t IH]; intro a; simpl.
  - ring.
  - rewrite IH, qadd_ok. ring.
Qed.

Lemma qsum_Sum l : qsum l == Sum l.
Proof.
  destruct l as [|x t]; simpl; [reflexivity|]. apply fold_qadd.
Qed.

Lemma Sum_app a b : Sum (a ++ b) == Sum a + Sum b.
Proof. induction a as [|x a IH]; simpl; [ring|]. rewrite IH. ring. Qed.

Lemma Sum_zeros {A} (l : list A) : Sum (map (fun _ => 0) l) == 0.
Proof. induction l as [|a l IH]; simpl; [reflexivity|]. rewrite IH. ring. Qed.

Lemma Sum_perm a b : Permutation a b -> Sum a == Sum b.
Proof.
  induction 1; simpl; try reflexivity.
  - rewrite IHPermutation. reflexivity.
  - ring.
  - rewrite IHPermutation1. exact IHPermutation2.
Qed.

Lemma Sum_map_ext {A} (f g : A -> Q) l : (forall a, In a l -> f a == g a) -> Sum (map f l) == Sum (map g l).
Proof.
  induction l as [|a l IH]; intro H; simpl; [reflexivity|].
  rewrite (H a (or_introl eq_refl)), IH; [reflexivity|]. intros; apply H; right; assumption.
Qed.

Lemma Sum_map2_ext (f g : Q -> Q -> Q) w x : (forall a b, f a b == g a b) -> Sum (map2 f w x) == Sum (map2 g w x).
Proof.
  intro H. revert x; induction w as [|a w IH]; intros [|b x]; simpl; try reflexivity.
  rewrite H, IH. reflexivity.
Qed.

Lemma Sum_nonneg l : (forall y, In y l -> 0 <= y) -> 0 <= Sum l.
Proof.
  induction l as [|a l IH]; intro H; simpl; [apply Qle_refl|].
  assert (0 <= a) by (apply H; left; reflexivity).
  assert (0 <= Sum l) by (apply IH; intros; apply H; right; assumption). lra.
Qed.

Lemma Sum_map2_nonneg (f : Q -> Q -> Q) w x :
  (forall a b, In a w -> 0 <= f a b) -> 0 <= Sum (map2 f w x).
Proof.
  revert x; induction w as [|a w IH]; intros [|b x] H; simpl; try apply Qle_refl.
  assert (0 <= f a b) by (apply H; left; reflexivity).
  assert (0 <= Sum (map2 f w x)) by (apply IH; intros; apply H; right; assumption). lra.
Qed.

Lemma sq_nonneg a : 0 <= a * a.
Proof. nra. Qed.

Lemma Qdiv_nonneg a b : 0 <= a -> 0 <= b -> 0 <= a / b.
Proof.
  intros Ha Hb. unfold Qdiv. apply Qmult_le_0_compat; [exact Ha|apply Qinv_le_0_compat; exact Hb].
Qed.

Lemma map2_length {A B C} (f : A -> B -> C) a b : length a = length b -> length (map2 f a b) = length a.
Proof. revert b; induction a as [|x a IH]; intros [|y b] H; simpl in *; try lia. f_equal. apply IH. lia. Qed.

Lemma close_lin_b_iff y v tol : close_lin_b y v tol = true <-> close_lin y v tol.
Proof. apply Qle_bool_iff. Qed.

Lemma close_sqrt_b_iff s V tol : close_sqrt_b s V tol = true <-> close_sqrt s V tol.
Proof.
  unfold close_sqrt_b, close_sqrt.
  rewrite !andb_true_iff, orb_true_iff, !Qle_bool_iff. tauto.
Qed.

Lemma close_lin_compat y v v' tol tol' : v == v' -> tol == tol' -> close_lin y v tol -> close_lin y v' tol'.
Proof. unfold close_lin. intros E F H. rewrite <- E, <- F. exact H. Qed.

Lemma close_sqrt_compat s V V' tol tol' : V == V' -> tol == tol' -> close_sqrt s V tol -> close_sqrt s V' tol'.
Proof. unfold close_sqrt. intros E F H. rewrite <- E, <- F. exact H. Qed.

Lemma rel_close_b_iff y v : rel_close_b y v = true <-> rel_close y v.
Proof. apply Qle_bool_iff. Qed.

Lemma filter_len_le {A} (f : A -> bool) l : (length (filter f l) <= length l)%nat.
Proof. induction l as [|a l IH]; simpl; [lia|]. destruct (f a); simpl; lia. Qed.

Lemma filter_length_eq {A} (f : A -> bool) l : length (filter f l) = length l -> filter f l = l.
Proof.
  induction l as [|a l IH]; simpl; intro H; [reflexivity|].
  destruct (f a); simpl in H.
  - f_equal. apply IH. lia.
  - pose proof (filter_len_le f l). lia.
Qed.

Lemma filter_ext_in_b {A} (f g : A -> bool) l : (forall a, In a l -> f a = g a) -> filter f l = filter g l.
Proof.
  induction l as [|a l IH]; intro H; simpl; [reflexivity|].
  rewrite (H a (or_introl eq_refl)), IH; [reflexivity|]. intros; apply H; right; assumption.
Qed.

Lemma nth_map_seq {A} (g : nat -> A) d j dflt : (j < d)%nat -> nth j (map g (seq 0 d)) dflt = g j.
Proof.
  intro H. rewrite (nth_indep _ dflt (g O)) by (rewrite map_length, seq_length; exact H).
  rewrite map_nth, seq_nth by exact H. reflexivity.
Qed.
