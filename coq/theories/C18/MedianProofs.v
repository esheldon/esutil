(* C18 — weighted median: the subtract-until loop over the sorted data returns the smallest
   value whose cumulative weight reaches half the total (non-negative weights). *)
From Coq Require Import QArith Qabs Lqa Setoid Morphisms Sorting.Permutation Sorting.Sorted.
From EsVerif.Common Require Import Base.
From EsVerif.C18 Require Import Model Spec QLemmas.
Open Scope Q_scope.

Definition fle (p q : Q * Q) : Prop := fst p <= fst q.
Definition nonnegw (l : list (Q * Q)) : Prop := forall p, In p l -> 0 <= snd p.

(* ---- insertion sort: a sorted permutation *)
Lemma insert_perm p l : Permutation (p :: l) (insert_p p l).
Proof.
  induction l as [|q l IH]; simpl; [apply Permutation_refl|].
  destruct (Qle_bool (fst p) (fst q)); [apply Permutation_refl|].
  eapply perm_trans; [apply perm_swap|]. apply perm_skip. exact IH.
Qed.

Lemma isort_perm l : Permutation l (isort_p l).
Proof.
  induction l as [|p l IH]; simpl; [apply perm_nil|].
  eapply perm_trans; [apply perm_skip; exact IH|]. apply insert_perm.
Qed.

Lemma insert_sorted p l : StronglySorted fle l -> StronglySorted fle (insert_p p l).
Proof.
  induction l as [|q l IH]; intro S; simpl.
  - constructor; [constructor|constructor].
  - destruct (Qle_bool (fst p) (fst q)) eqn:E.
    + apply Qle_bool_iff in E. constructor; [exact S|].
      constructor; [exact E|]. inversion S as [|? ? S' F]; subst.
      eapply Forall_impl; [|exact F]. intros a Ha. unfold fle in *. lra.
    + apply Qle_bool_false in E. inversion S as [|? ? S' F]; subst.
      constructor; [apply IH; exact S'|].
      apply (Permutation_Forall (insert_perm p l)). constructor; [|exact F].
      unfold fle. lra.
Qed.

Lemma isort_sorted l : StronglySorted fle (isort_p l).
Proof. induction l as [|p l IH]; simpl; [constructor|]. apply insert_sorted. exact IH. Qed.

Lemma cumw_cons p l v :
  cumw (p :: l) v = if Qle_bool (fst p) v then snd p + cumw l v else cumw l v.
Proof. unfold cumw; simpl. destruct (Qle_bool (fst p) v); reflexivity. Qed.

Lemma cumw_app a b v : cumw (a ++ b) v == cumw a v + cumw b v.
Proof.
  induction a as [|p a IH]; [unfold cumw; simpl; ring|].
  rewrite <- app_comm_cons, !cumw_cons. destruct (Qle_bool (fst p) v); rewrite IH; ring.
Qed.

Lemma cumw_all a v : (forall p, In p a -> fst p <= v) -> cumw a v == Sum (map snd a).
Proof.
  induction a as [|p a IH]; intro H; [reflexivity|]. rewrite cumw_cons.
  assert (E : Qle_bool (fst p) v = true) by (apply Qle_bool_iff, H; left; reflexivity).
  rewrite E, IH; [reflexivity|]. intros; apply H; right; assumption.
Qed.

Lemma cumw_none a v : (forall p, In p a -> v < fst p) -> cumw a v == 0.
Proof.
  induction a as [|p a IH]; intro H; [reflexivity|]. rewrite cumw_cons.
  assert (E : Qle_bool (fst p) v = false) by (apply Qle_bool_false, H; left; reflexivity).
  rewrite E. apply IH. intros; apply H; right; assumption.
Qed.

Lemma cumw_bounds a v : nonnegw a -> 0 <= cumw a v /\ cumw a v <= Sum (map snd a).
Proof.
  induction a as [|p a IH]; intro N; [unfold cumw; simpl; lra|]. rewrite cumw_cons.
  assert (0 <= snd p) by (apply N; left; reflexivity).
  assert (nonnegw a) as Na by (intros q Hq; apply N; right; assumption).
  destruct (IH Na) as [L U]. simpl. destruct (Qle_bool (fst p) v); lra.
Qed.

Lemma cumw_perm a b v : Permutation a b -> cumw a v == cumw b v.
Proof.
  induction 1.
  - reflexivity.
  - rewrite !cumw_cons. destruct (Qle_bool (fst x) v); rewrite IHPermutation; reflexivity.
  - rewrite !cumw_cons. destruct (Qle_bool (fst x) v), (Qle_bool (fst y) v); ring.
  - rewrite IHPermutation1. exact IHPermutation2.
Qed.

Lemma totw_perm a b : Permutation a b -> totw a == totw b.
Proof. intro P. unfold totw. apply Sum_perm, Permutation_map, P. Qed.

Lemma wmedian_ok_perm a b v : Permutation a b -> wmedian_ok b v -> wmedian_ok a v.
Proof.
  intros P [[p [I E]] [H1 H2]]. split; [|split].
  - exists p. split; [|exact E]. eapply Permutation_in; [apply Permutation_sym, P|exact I].
  - rewrite (totw_perm a b P), (cumw_perm a b v P). exact H1.
  - intros q Iq L. rewrite (totw_perm a b P), (cumw_perm a b (fst q) P). apply H2; [|exact L].
    eapply Permutation_in; [exact P|exact Iq].
Qed.

(* ---- sorted lists split at a position *)
Lemma sorted_split pre x rest :
  StronglySorted fle (pre ++ x :: rest) ->
  (forall p, In p pre -> fst p <= fst x) /\ (forall q, In q rest -> fst x <= fst q).
Proof.
  induction pre as [|a pre IH]; simpl; intro S.
  - split; [intros p []|]. inversion S as [|? ? S' F]; subst.
    intros q Hq. rewrite Forall_forall in F. apply (F q Hq).
  - inversion S as [|? ? S' F]; subst. destruct (IH S') as [A B]. split; [|exact B].
    intros p [E|I]; [subst p|apply A, I]. rewrite Forall_forall in F.
    apply (F x). apply in_or_app. right. left. reflexivity.
Qed.

Section Loop.
  Variable s : list (Q * Q).
  Variable h : Q.
  Hypothesis Hh : 2 * h == totw s.
  Hypothesis Hnn : nonnegw s.

  Lemma totw_nonneg : 0 <= totw s.
  Proof. apply Sum_nonneg. intros y Hy. apply in_map_iff in Hy as [p [E I]]. subst y. apply Hnn, I. Qed.

  Lemma wm_loop_spec : forall rest pre cur wc sum,
    s = pre ++ (cur, wc) :: rest ->
    sum == totw s - Sum (map snd pre) - wc ->
    (pre = [] \/ Sum (map snd pre) < h) ->
    exists v pre' wv rest',
      wm_loop rest cur sum h = Ok v /\ s = pre' ++ (v, wv) :: rest'
      /\ (pre' = [] \/ Sum (map snd pre') < h) /\ h <= Sum (map snd pre') + wv.
  Proof.
    induction rest as [|[xk wk] t IH]; intros pre cur wc sum Es Hsum Inv; simpl.
    - destruct (Qlt_bool h sum) eqn:E.
      + exfalso. apply Qlt_bool_iff in E. pose proof totw_nonneg as T.
        assert (totw s == Sum (map snd pre) + wc).
        { rewrite Es. unfold totw. rewrite map_app, Sum_app. simpl. ring. }
        lra.
      + apply Qlt_bool_false in E. exists cur, pre, wc, []. repeat split; auto. lra.
    - destruct (Qlt_bool h sum) eqn:E.
      + apply Qlt_bool_iff in E.
        apply (IH (pre ++ [(cur, wc)]) xk wk (sum - wk)).
        * rewrite <- app_assoc. exact Es.
        * rewrite map_app, Sum_app. simpl. lra.
        * right. rewrite map_app, Sum_app. simpl. lra.
      + apply Qlt_bool_false in E. exists cur, pre, wc, ((xk, wk) :: t). repeat split; auto. lra.
  Qed.

  Lemma decomposition_ok pre v wv rest :
    StronglySorted fle s ->
    s = pre ++ (v, wv) :: rest ->
    (pre = [] \/ Sum (map snd pre) < h) -> h <= Sum (map snd pre) + wv ->
    wmedian_ok s v.
  Proof.
    intros SS Es Inv Hge.
    assert (SP := SS). rewrite Es in SP. apply sorted_split in SP as [Ppre Prest]. simpl in *.
    assert (Npre : nonnegw pre) by (intros p Hp; apply Hnn; rewrite Es; apply in_or_app; left; exact Hp).
    assert (Nrest : nonnegw rest) by (intros p Hp; apply Hnn; rewrite Es; apply in_or_app; right; right; exact Hp).
    assert (Hh' : totw s / 2 == h) by (rewrite <- Hh; field).
    assert (C : forall u, cumw s u == cumw pre u + cumw ((v, wv) :: rest) u) by (intro u; rewrite Es; apply cumw_app).
    split; [|split].
    - exists (v, wv). split; [|reflexivity]. rewrite Es. apply in_or_app. right. left. reflexivity.
    - (* everything in pre counts, (v, wv) counts, the rest adds something non-negative *)
      specialize (C v). rewrite cumw_cons in C. simpl in C.
      assert (E : Qle_bool v v = true) by (apply Qle_bool_iff, Qle_refl). rewrite E in C.
      pose proof (cumw_all pre v Ppre). destruct (cumw_bounds rest v Nrest). lra.
    - (* a smaller value lies in pre, nothing from (v, wv) on counts, and pre weighs less than h *)
      intros p Ip Lp.
      assert (Ipre : In p pre).
      { rewrite Es in Ip. apply in_app_or in Ip as [I|[I|I]]; [exact I| |].
        - subst p. simpl in Lp. exfalso. lra.
        - specialize (Prest p I). exfalso. lra. }
      destruct Inv as [Inv|Inv]; [subst pre; destruct Ipre|].
      assert (Z : cumw ((v, wv) :: rest) (fst p) == 0).
      { apply cumw_none. intros q [Eq|Iq]; [subst q; exact Lp|]. specialize (Prest q Iq). simpl. lra. }
      specialize (C (fst p)). destruct (cumw_bounds pre (fst p) Npre). lra.
  Qed.
End Loop.

(* The loop run on ANY sorted permutation of the data -- arr.argsort() may order ties as it likes --
   returns a value that meets the specification; by uniqueness the value does not depend on the order. *)
Lemma wm_loop_any_sort l x0 w0 t :
  nonnegw l -> Permutation l ((x0, w0) :: t) -> StronglySorted fle ((x0, w0) :: t) ->
  exists v, wm_loop t x0 (qsum (map snd l) - w0) (qsum (map snd l) / 2) = Ok v /\ wmedian_ok l v.
Proof.
  intros NN P S. set (s := (x0, w0) :: t) in *.
  assert (Hh : 2 * (qsum (map snd l) / 2) == totw s).
  { rewrite qsum_Sum. rewrite <- (totw_perm l s P). unfold totw. field. }
  assert (Hnn : nonnegw s) by (intros p Hp; apply NN; eapply Permutation_in; [apply Permutation_sym, P|exact Hp]).
  destruct (wm_loop_spec s _ Hh Hnn t [] x0 w0 (qsum (map snd l) - w0)) as [v [pre [wv [rest [E1 [E2 [E3 E4]]]]]]].
  - reflexivity.
  - rewrite qsum_Sum. rewrite <- (totw_perm l s P). unfold totw. simpl. ring.
  - left. reflexivity.
  - exists v. split; [exact E1|]. apply (wmedian_ok_perm l s v P).
    eapply decomposition_ok; eauto.
Qed.

Lemma wmedian_pairs_correct l :
  l <> [] -> nonnegw l -> exists v, wmedian_pairs l = Ok v /\ wmedian_ok l v.
Proof.
  intros NE NN. unfold wmedian_pairs.
  pose proof (isort_perm l) as P. pose proof (isort_sorted l) as S.
  destruct (isort_p l) as [|[x0 w0] t].
  - apply Permutation_sym, Permutation_nil in P. contradiction.
  - exact (wm_loop_any_sort l x0 w0 t NN P S).
Qed.

Lemma wmedian_correct x w :
  length x = length w -> x <> [] -> (forall y, In y w -> 0 <= y) ->
  exists v, wmedian x w = Ok v /\ wmedian_ok (combine x w) v.
Proof.
  intros L NE NN. unfold wmedian. rewrite L, Nat.eqb_refl.
  apply wmedian_pairs_correct.
  - destruct x as [|a x]; [congruence|]. destruct w as [|b w]; [discriminate|]. simpl. discriminate.
  - intros [a b] Hp. apply NN. exact (in_combine_r _ _ _ _ Hp).
Qed.

(* ---- the checker decides the specification *)
Lemma cumw_q_ok l v : cumw_q l v == cumw l v.
Proof. unfold cumw_q, cumw. apply qsum_Sum. Qed.

Lemma wmedian_check_iff l v : wmedian_check l v = true <-> wmedian_ok l v.
Proof.
  unfold wmedian_check, wmedian_ok.
  assert (Eh : qsum (map snd l) / 2 == totw l / 2) by (rewrite qsum_Sum; reflexivity).
  split.
  - intro H. apply andb_true_iff in H as [H H3]. apply andb_true_iff in H as [H1 H2]. split; [|split].
    + apply existsb_exists in H1 as [p [I E]]. exists p. split; [exact I|apply Qeq_bool_iff, E].
    + apply Qle_bool_iff in H2. rewrite cumw_q_ok, Eh in H2. exact H2.
    + intros p Ip Lp. rewrite forallb_forall in H3. specialize (H3 p Ip).
      apply Qlt_bool_iff in Lp. rewrite Lp in H3. apply Qlt_bool_iff in H3.
      rewrite cumw_q_ok, Eh in H3. exact H3.
  - intros [[p [Ip Ep]] [H2 H3]]. apply andb_true_iff. split; [apply andb_true_iff; split|].
    + apply existsb_exists. exists p. split; [exact Ip|apply Qeq_bool_iff, Ep].
    + apply Qle_bool_iff. rewrite cumw_q_ok, Eh. exact H2.
    + apply forallb_forall. intros q Iq. destruct (Qlt_bool (fst q) v) eqn:E; [|reflexivity].
      apply Qlt_bool_iff in E. apply Qlt_bool_iff. rewrite cumw_q_ok, Eh. apply H3; assumption.
Qed.

(* ---- the answer is unique (up to ==) *)
Global Instance cumw_comp l : Proper (Qeq ==> Qeq) (cumw l).
Proof.
  intros v v' E. unfold cumw.
  rewrite (filter_ext_in_b (fun r => Qle_bool (fst r) v) (fun r => Qle_bool (fst r) v')); [reflexivity|].
  intros a _. rewrite E. reflexivity.
Qed.

(* of two values that satisfy the specification the second is not the larger: the first, being a data
   value below it, would have to have a cumulative weight under half the total *)
Lemma wmedian_ok_le l v v' : wmedian_ok l v -> wmedian_ok l v' -> v' <= v.
Proof.
  intros [[p [Ip Ep]] [A _]] [_ [_ B]]. apply Qnot_lt_le. intro L.
  rewrite <- Ep in L. specialize (B p Ip L). rewrite Ep in B. lra.
Qed.

Lemma wmedian_ok_unique l v v' : wmedian_ok l v -> wmedian_ok l v' -> v == v'.
Proof. intros A B. apply Qle_antisym; [exact (wmedian_ok_le l v' v B A)|exact (wmedian_ok_le l v v' A B)]. Qed.
