(* C18 — two other readings of the clipping loop.  The clause as stated (two stop rules) holds outside
   the class kf_everything_clipped and fails inside it.  With undefinedness explicit (UndefModel.v): a run
   that ends Defined is Model.sc_loop and every subset whose statistics were used had them; a run that
   ends Undefined reports one more application of the discard rule to the last subset that had them. *)
From Coq Require Import QArith.
From EsVerif.Common Require Import Base.
From EsVerif.C18 Require Import Model Spec ClipProofs SpecStrict UndefModel.
Open Scope Q_scope.

Lemma sc_loop_strict weighted nsig fuel cur :
  0 <= nsig -> sc_all_clipped fuel weighted nsig cur (sc_stats weighted cur) = false ->
  exists sub, sc_loop fuel weighted nsig cur (sc_stats weighted cur) = (sub, sc_stats weighted sub)
              /\ clip_fixpoint_strict weighted nsig fuel cur sub.
Proof.
  intros Hn K. destruct (sc_loop_run weighted nsig Hn fuel cur) as [k [Hk [E [Hall Hstop]]]].
  eexists. split; [exact E|]. exists k. split; [exact Hk|]. split; [reflexivity|].
  split; [intros j Hj; apply Hall, Hj|].
  destruct Hstop as [H|[H|[_ H]]]; [left; exact H|right; exact H|congruence].
Qed.

Lemma clip_step_nil weighted nsig : clip_step weighted nsig [] = [].
Proof. unfold clip_step. destruct (stat_def weighted []) as [[m e] v]. reflexivity. Qed.

Lemma iterate_nil weighted nsig k : iterate (clip_step weighted nsig) k [] = [].
Proof. induction k as [|k IH]; [reflexivity|]. rewrite iterate_S, clip_step_nil. exact IH. Qed.

(* the stated clause fails on the smallest input of the class: two points, nsig = 1/2 *)
Lemma sigma_clip_strict_refuted :
  exists x niter nsig,
    0 <= nsig /\ x <> [] /\
    exists r, sigma_clip (V1 x) None niter nsig = Ok r
      /\ ~ exists sub, sc_idx r = map p_idx sub
             /\ clip_fixpoint_strict false nsig (Z.to_nat niter) (index_from 0%Z x (map (fun _ => 1) x)) sub.
Proof.
  exists [-1; 1], 4%Z, (1 # 2). split; [discriminate|]. split; [discriminate|].
  eexists. split; [vm_compute; reflexivity|].
  intros [sub [Hidx [k [Hk [Hsub [_ Hstop]]]]]]. cbn [sc_idx] in Hidx.
  set (all := index_from 0%Z [-1; 1] (map (fun _ : Q => 1) [-1; 1])) in *.
  assert (E : clip_step false (1 # 2) all = []) by (vm_compute; reflexivity).
  destruct k as [|k].
  - simpl in Hsub. subst sub. destruct Hstop as [Hs|Hs]; [discriminate|].
    rewrite E in Hs. discriminate.
  - rewrite iterate_S, E, iterate_nil in Hsub. subst sub. discriminate.
Qed.

(* the class is not empty: that input belongs to it *)
Lemma kf_witness : kf_everything_clipped false (1 # 2) 4 (index_from 0%Z [-1; 1] [1; 1]) = true.
Proof. vm_compute. reflexivity. Qed.

Lemma sc_loop_u_S f weighted nsig cur :
  0 <= nsig ->
  sc_loop_u (S f) weighted nsig cur (sc_stats weighted cur) =
  match clip_step weighted nsig cur with
  | [] => ScDefined cur (sc_stats weighted cur)
  | p :: kept => if Nat.eqb (length (p :: kept)) (length cur) then ScDefined cur (sc_stats weighted cur)
                 else if stats_defined weighted (p :: kept)
                      then sc_loop_u f weighted nsig (p :: kept) (sc_stats weighted (p :: kept))
                      else ScUndefined cur (p :: kept)
  end.
Proof.
  intro Hn. cbn [sc_loop_u]. rewrite (within_step weighted nsig cur Hn).
  destruct (clip_step weighted nsig cur); reflexivity.
Qed.

Lemma sc_loop_u_run weighted nsig :
  0 <= nsig ->
  forall fuel cur,
    let step := clip_step weighted nsig in
    match sc_loop_u fuel weighted nsig cur (sc_stats weighted cur) with
    | ScDefined sub st =>
        sc_loop fuel weighted nsig cur (sc_stats weighted cur) = (sub, st)
        /\ exists k, (k <= fuel)%nat /\ sub = iterate step k cur
             /\ forall j, (1 <= j <= k)%nat -> stats_defined weighted (iterate step j cur) = true
    | ScUndefined prev kept =>
        exists k, (k < fuel)%nat /\ prev = iterate step k cur /\ kept = iterate step (S k) cur
          /\ stats_defined weighted kept = false
          /\ forall j, (1 <= j <= k)%nat -> stats_defined weighted (iterate step j cur) = true
    end.
Proof.
  intros Hn fuel. induction fuel as [|f IH]; intros cur step.
  - split; [reflexivity|]. exists O. split; [lia|]. split; [reflexivity|]. intros j Hj; lia.
  - rewrite (sc_loop_u_S f weighted nsig cur Hn), (sc_loop_S f weighted nsig cur Hn). fold step.
    destruct (step cur) as [|p kept] eqn:EK.
    + (* nothing is kept: Defined on cur, no round *)
      split; [reflexivity|]. exists O. split; [lia|]. split; [reflexivity|]. intros j Hj; lia.
    + destruct (Nat.eqb (length (p :: kept)) (length cur)).
      * (* nothing is discarded: likewise *)
        split; [reflexivity|]. exists O. split; [lia|]. split; [reflexivity|]. intros j Hj; lia.
      * destruct (stats_defined weighted (p :: kept)) eqn:D.
        -- (* one round, then the run from the kept subset, whose iterates are those of cur shifted by one *)
           specialize (IH (p :: kept)). fold step in IH.
           assert (Hd' : forall k, (forall j, (1 <= j <= k)%nat -> stats_defined weighted (iterate step j (p :: kept)) = true) ->
                           forall j, (1 <= j <= S k)%nat -> stats_defined weighted (iterate step j cur) = true).
           { intros k Hd [|j] Hj; [lia|]. rewrite iterate_S. fold step. rewrite EK. destruct j; [exact D|apply Hd; lia]. }
           destruct (sc_loop_u f weighted nsig (p :: kept) (sc_stats weighted (p :: kept))) as [sub st|prev kp].
           ++ destruct IH as [E [k [Hk [Hs Hd]]]]. split; [exact E|]. exists (S k).
              rewrite iterate_S. fold step. rewrite EK. split; [lia|]. split; [exact Hs|apply Hd', Hd].
           ++ destruct IH as [k [Hk [Hp [Hkept [U Hd]]]]]. exists (S k).
              rewrite !(iterate_S _ _ cur). fold step. rewrite EK.
              split; [lia|]. split; [exact Hp|]. split; [exact Hkept|]. split; [exact U|apply Hd', Hd].
        -- (* the kept subset has no statistics: Undefined after zero defined rounds *)
           exists O. split; [lia|]. split; [reflexivity|]. split; [symmetry; exact EK|]. split; [exact D|].
           intros j Hj; lia.
Qed.

(* the routine: a defined outcome is Model.sigma_clip's, and then the initial subset and every later one
   had statistics; an undefined outcome reports the subset on which the statistics ceased to exist *)
Lemma sigma_clip_u_ok x w niter nsig r :
  0 <= nsig -> length (sc_weights x w) = length x ->
  sigma_clip_u x w (Z.to_nat niter) nsig = ScOk r ->
  sigma_clip (V1 x) (match w with Some l => Some (V1 l) | None => None end) niter nsig = Ok r
  /\ stats_defined (sc_weighted w) (index_from 0%Z x (sc_weights x w)) = true
  /\ exists k, (k <= Z.to_nat niter)%nat
       /\ sc_idx r = map p_idx (iterate (clip_step (sc_weighted w) nsig) k (index_from 0%Z x (sc_weights x w)))
       /\ forall j, (j <= k)%nat ->
            stats_defined (sc_weighted w) (iterate (clip_step (sc_weighted w) nsig) j (index_from 0%Z x (sc_weights x w))) = true.
Proof.
  intros Hn L H. unfold sigma_clip_u in H.
  set (all := index_from 0%Z x (sc_weights x w)) in *. set (wtd := sc_weighted w) in *.
  destruct (stats_defined wtd all) eqn:D0; [|discriminate].
  pose proof (sc_loop_u_run wtd nsig Hn (Z.to_nat niter) all) as R. cbv zeta in R.
  destruct (sc_loop_u (Z.to_nat niter) wtd nsig all (sc_stats wtd all)) as [sub st|p k]; [|discriminate].
  inversion H; subst r. clear H. destruct R as [E [k [Hk [Hs Hd]]]].
  split.
  - rewrite (sigma_clip_1d x w niter nsig L). fold all wtd. rewrite E. reflexivity.
  - split; [reflexivity|]. exists k. split; [exact Hk|]. split; [cbn [sc_idx]; rewrite Hs; reflexivity|].
    intros [|j] Hj; [exact D0|apply Hd; lia].
Qed.

Lemma sigma_clip_u_undef x w niter nsig idx :
  0 <= nsig ->
  sigma_clip_u x w niter nsig = ScUndef idx ->
  let all := index_from 0%Z x (sc_weights x w) in
  let wtd := sc_weighted w in
  exists k, (k <= niter)%nat
    /\ idx = map p_idx (iterate (clip_step wtd nsig) k all)
    /\ stats_defined wtd (iterate (clip_step wtd nsig) k all) = false
    /\ forall j, (j < k)%nat -> stats_defined wtd (iterate (clip_step wtd nsig) j all) = true.
Proof.
  intros Hn H all wtd. unfold sigma_clip_u in H. fold all wtd in H.
  destruct (stats_defined wtd all) eqn:D0.
  - pose proof (sc_loop_u_run wtd nsig Hn niter all) as R. cbv zeta in R.
    destruct (sc_loop_u niter wtd nsig all (sc_stats wtd all)) as [sub st|p kp]; [discriminate|].
    inversion H; subst idx. clear H. destruct R as [k [Hk [_ [-> [U Hd]]]]].
    exists (S k). split; [lia|]. split; [reflexivity|]. split; [exact U|].
    intros [|j] Hj; [exact D0|apply Hd; lia].
  - inversion H; subst idx. exists O. split; [lia|]. split; [reflexivity|]. split; [exact D0|]. intros j Hj; lia.
Qed.
