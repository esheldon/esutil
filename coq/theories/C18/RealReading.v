(* C18 — the square-root-free statements read over the reals (standard-library real-number axioms only).
   [close_sqrt s V tol] says |s - sqrt V| <= tol; the model's clip decision on squares is the float code's
   |x - m| < nsig * sqrt(var), strictness at a tie included; per routine that returns a square root (wmom,
   sigma_clip / get_stats, cov2cor) the checked statement gives the distance to the documented root; and
   the documented cov2cor followed by cor2cov reproduces the covariance. *)
From Coq Require Import QArith Qabs Reals Qreals Lra.
From EsVerif.Common Require Import Base.
From EsVerif.C18 Require Import Model Spec QLemmas MomProofs ClipProofs CorProofs.
Open Scope R_scope.

Lemma Q2R_Qabs q : Q2R (Qabs q) = Rabs (Q2R q).
Proof.
  apply Qabs_case; intro S; apply Qle_Rle in S; rewrite RMicromega.Q2R_0 in S.
  - rewrite Rabs_right; [reflexivity|apply Rle_ge, S].
  - rewrite Q2R_opp, Rabs_left1; [reflexivity|exact S].
Qed.

(* [close_sqrt s V tol] really says that s is within tol of the square root of V *)
Lemma close_sqrt_real s V tol :
  close_sqrt s V tol -> (0 <= V)%Q -> Rabs (Q2R s - sqrt (Q2R V)) <= Q2R tol.
Proof.
  intros [Hs [Ht [Hlo Hhi]]] HV.
  apply Qle_Rle in Hs, Ht, Hhi, HV. rewrite RMicromega.Q2R_0 in *.
  rewrite Q2R_mult, Q2R_plus in Hhi.
  set (S := Q2R s) in *. set (T := Q2R tol) in *. set (W := Q2R V) in *.
  pose proof (sqrt_pos W) as Rp. pose proof (sqrt_sqrt W HV) as Rs.
  set (r := sqrt W) in *.
  assert (U : r <= S + T) by nra.
  assert (L : S - T <= r).
  { destruct Hlo as [Hlo|Hlo].
    - apply Qle_Rle in Hlo. fold S T in Hlo. lra.
    - apply Qle_Rle in Hlo. rewrite Q2R_mult, Q2R_minus in Hlo. fold S T W in Hlo.
      destruct (Rle_lt_dec (S - T) 0); [lra|nra]. }
  apply Rabs_le. lra.
Qed.

(* the documented formula followed by the inverse conversion reproduces the covariance:
   (c / sqrt(cii cjj)) * sqrt cii * sqrt cjj = c *)
Lemma roundtrip_real c cii cjj :
  0 < cii -> 0 < cjj -> c / sqrt (cii * cjj) * sqrt cii * sqrt cjj = c.
Proof.
  intros A B. rewrite sqrt_mult by lra.
  pose proof (sqrt_lt_R0 cii A). pose proof (sqrt_lt_R0 cjj B). field. split; lra.
Qed.

(* matrix form: feed the pairs (num, den2) returned by the model of cov2cor, read as
   num/sqrt(den2), and the errors sqrt(cov[i,i]) into the formula of cor2cov *)
Lemma cor_cov_roundtrip_real cov m :
  cov2cor cov = Ok m ->
  rect cov (length cov) = true ->
  forall i j, (i < length cov)%nat -> (j < length cov)%nat ->
    let '(num, den2) := nth j (nth i m []) (0%Q, 0%Q) in
    Q2R num / sqrt (Q2R den2) * sqrt (Q2R (mget cov i i)) * sqrt (Q2R (mget cov j j))
    = Q2R (mget cov i j).
Proof.
  intros E R i j Hi Hj.
  assert (P : forall k, (k < length cov)%nat -> (0 < mget cov k k)%Q).
  { intros k Hk. destruct (Qlt_le_dec 0 (mget cov k k)) as [L|L]; [exact L|].
    rewrite (cov2cor_rejects cov k R Hk L) in E. discriminate. }
  destruct (cov2cor_spec cov R P) as [m' [E' Hm]]. rewrite E in E'. inversion E'; subst m'.
  rewrite (Hm i j Hi Hj). rewrite Q2R_mult.
  apply roundtrip_real; [pose proof (Qlt_Rlt _ _ (P i Hi)) as X|pose proof (Qlt_Rlt _ _ (P j Hj)) as X];
    rewrite RMicromega.Q2R_0 in X; exact X.
Qed.

Open Scope Q_scope.

Lemma clip_decision_real (nsig m v x : Q) :
  (0 <= nsig)%Q -> (0 <= v)%Q ->
  (Qlt_bool (dev2 m x) (sq nsig * v) = true
   <-> (Rabs (Q2R x - Q2R m) < Q2R nsig * sqrt (Q2R v))%R).
Proof.
  intros Hn Hv. rewrite Qlt_bool_iff.
  apply Qle_Rle in Hn, Hv. rewrite RMicromega.Q2R_0 in *.
  pose proof (sqrt_pos (Q2R v)) as Rp. pose proof (sqrt_sqrt (Q2R v) Hv) as Rs.
  set (r := sqrt (Q2R v)) in *.
  assert (E1 : Q2R (dev2 m x) = ((Q2R x - Q2R m) * (Q2R x - Q2R m))%R).
  { unfold dev2, sq. rewrite Q2R_mult, Q2R_minus. reflexivity. }
  assert (E2 : Q2R (sq nsig * v) = ((Q2R nsig * r) * (Q2R nsig * r))%R).
  { unfold sq. rewrite !Q2R_mult. rewrite <- Rs. ring. }
  assert (T : (0 <= Q2R nsig * r)%R) by (apply Rmult_le_pos; assumption).
  set (a := (Q2R x - Q2R m)%R) in *. set (t := (Q2R nsig * r)%R) in *.
  split; intro H.
  - apply Qlt_Rlt in H. rewrite E1, E2 in H.
    unfold Rabs. destruct (Rcase_abs a); nra.
  - apply Rlt_Qlt. rewrite E1, E2.
    unfold Rabs in H. destruct (Rcase_abs a); nra.
Qed.

(* the model's filter [within] is that decision *)
Lemma within_real nsig st p :
  (0 <= nsig)%Q -> (0 <= c_var st)%Q ->
  (within nsig st p = true
   <-> (Rabs (Q2R (p_x p) - Q2R (c_mean st)) < Q2R nsig * sqrt (Q2R (c_var st)))%R).
Proof.
  intros Hn Hv. rewrite (within_spec nsig st p Hn). apply clip_decision_real; assumption.
Qed.

(* wmom: the reported error and deviation are within the tolerance of the documented square roots *)
Lemma wmom1_ok_real x w im ce mean err sdev :
  (forall a, In a w -> (0 <= a)%Q) ->
  wmom1_ok x w im ce mean err sdev ->
  let mref := match im with None => wmean_def w x | Some m => m end in
  let A := (absmean_def w x + im_abs im)%Q in
  (if ce then (Rabs (Q2R err - sqrt (Q2R (werr2_calc_def w x mref))) <= Q2R (eps9 * (err + A)))%R
   else (Rabs (Q2R err - sqrt (Q2R (werr2_default_def w))) <= Q2R (eps9 * err))%R)
  /\ match sdev with
     | Some s => (Rabs (Q2R s - sqrt (Q2R (wvar_def w x mref))) <= Q2R (eps9 * (s + A)))%R
     | None => True
     end.
Proof.
  intros Hw [_ [He Hs]] mref A. split.
  - destruct ce.
    + apply close_sqrt_real; [exact He|apply werr2_calc_nonneg].
    + apply close_sqrt_real; [exact He|apply werr2_default_nonneg, Hw].
  - destruct sdev as [s|]; [|exact I].
    apply close_sqrt_real; [exact Hs|apply wvar_nonneg, Hw].
Qed.

(* sigma_clip / get_stats: the reported deviation and error against the square roots of the
   subset's variance and squared error *)
Lemma sigma_clip_ok_real weighted nsig niter all mean sdev err idx :
  (weighted = true -> forall p, In p all -> (0 <= p_w p)%Q) ->
  sigma_clip_ok weighted nsig niter all mean sdev err idx ->
  exists sub, map p_idx sub = idx /\ clip_fixpoint weighted nsig niter all sub
    /\ let '(m, e2, v) := stat_def weighted sub in
       let A := sc_scale weighted sub in
       (Rabs (Q2R mean - Q2R m) <= Q2R (eps9 * A))%R
       /\ (Rabs (Q2R sdev - sqrt (Q2R v)) <= Q2R (eps9 * (sdev + A)))%R
       /\ (Rabs (Q2R err - sqrt (Q2R e2)) <= Q2R (eps9 * (err + A)))%R.
Proof.
  intros Hw [sub [Hi [Hf Hs]]]. exists sub. split; [exact Hi|]. split; [exact Hf|].
  assert (Hsub : weighted = true -> forall p, In p sub -> (0 <= p_w p)%Q).
  { intros E p Hp. apply (Hw E). destruct Hf as [k [_ [Ek _]]]. rewrite Ek in Hp. eapply iterate_incl, Hp. }
  pose proof (stat_def_nonneg weighted sub Hsub) as NN.
  destruct (stat_def weighted sub) as [[m e2] v]. destruct NN as [Ne Nv]. destruct Hs as [Hm [Hv He]].
  split; [|split].
  - rewrite <- Q2R_minus, <- Q2R_Qabs. apply Qle_Rle, Hm.
  - apply close_sqrt_real; assumption.
  - apply close_sqrt_real; assumption.
Qed.

(* cov2cor: the reported coefficient against cov[i,j] / sqrt(cov[i,i] cov[j,j]) *)
Lemma cor_close_real c num den2 :
  (0 < den2)%Q -> cor_close c num den2 ->
  (Rabs (Q2R c - Q2R num / sqrt (Q2R den2)) <= Q2R (eps9 * Qabs c))%R.
Proof.
  intros Hd [Hp [Hn Hc]].
  assert (V : (0 <= num * num / den2)%Q) by (apply Qdiv_nonneg; [apply sq_nonneg|apply Qlt_le_weak, Hd]).
  pose proof (close_sqrt_real _ _ _ Hc V) as H.
  apply Qlt_Rlt in Hd. rewrite RMicromega.Q2R_0 in Hd.
  rewrite Q2R_Qabs in H. rewrite Q2R_div in H by (intro E; rewrite E in Hd; unfold Q2R in Hd; simpl in Hd; lra).
  rewrite Q2R_mult in H.
  set (C := Q2R c) in *. set (N := Q2R num) in *. set (D := Q2R den2) in *.
  assert (Hr : (0 < sqrt D)%R) by (apply sqrt_lt_R0; exact Hd).
  assert (E : sqrt (N * N / D) = (Rabs N / sqrt D)%R).
  { unfold Rdiv at 1. rewrite sqrt_mult_alt by (apply Rle_0_sqr).
    fold (Rsqr N). rewrite sqrt_Rsqr_abs. rewrite sqrt_inv_depr || rewrite sqrt_inv; try exact Hd; reflexivity. }
  rewrite E in H.
  destruct (Qlt_le_dec num 0) as [S|S].
  - assert (Cn := Hn (Qlt_le_weak _ _ S)). apply Qlt_Rlt in S. apply Qle_Rle in Cn.
    rewrite RMicromega.Q2R_0 in S, Cn.
    rewrite (Rabs_left1 C), (Rabs_left N) in H by assumption.
    replace (C - N / sqrt D)%R with (- (- C - - N / sqrt D))%R by (field; apply Rgt_not_eq; exact Hr).
    rewrite Rabs_Ropp. exact H.
  - assert (Cp := Hp S). apply Qle_Rle in S, Cp. rewrite RMicromega.Q2R_0 in S, Cp.
    rewrite (Rabs_right C), (Rabs_right N) in H by (apply Rle_ge; assumption). exact H.
Qed.
