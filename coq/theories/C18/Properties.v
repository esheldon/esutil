(* C18 — the property theorems.  The longer bodies live in the *Proofs files, one per routine;
   TolSound has the checkers, RealReading the readings over the reals.  Conventions (Model.v): a float is the exact rational it denotes;
   where the code returns sqrt(V) the model returns V (fields ..._err2, ..._var, den2), and
   C18_close_sqrt_real gives the reading over the reals. *)
From Coq Require Import QArith Qabs Reals.
From EsVerif.Common Require Import Base.
From EsVerif.C18 Require Import Model Spec MomProofs MedianProofs ClipProofs InterpProofs CorProofs SpecTol SpecStrict ClipStrict BoxProofs Gen GenProofs TolSound ModelKw RealReading FrameProofs UndefModel Exec ExecProofs.
Open Scope Q_scope.

(* ------------------------------------------------------------------ weighted moments *)
(* The per-column computation [wmom1 x w inputmean calcerr sdev] (x data, w weights):        *)

(* mean = sum(w x)/sum(w), or the supplied mean *)
Theorem C18_wmom_mean : forall x w im calcerr sdev, 0 < Sum w ->
  m_mean (wmom1 x w im calcerr sdev) == match im with None => Sum (map2 Qmult w x) / Sum w | Some m => m end.
Proof. intros x w im ce sd _. apply wmom1_mean. Qed.

(* default error: 1/sqrt(sum w), i.e. err^2 = 1/sum w *)
Theorem C18_wmom_err_default : forall x w im sdev, 0 < Sum w ->
  m_err2 (wmom1 x w im false sdev) == 1 / Sum w.
Proof. intros x w im sd _. destruct (wmom1_spec x w im false sd) as [_ [H _]]. exact H. Qed.

(* calcerr=True: sqrt(sum(w^2 (x-mean)^2))/sum(w), i.e. err^2 = sum(w^2 (x-mean)^2)/(sum w)^2,
   about the mean the routine reports *)
Theorem C18_wmom_err_calc : forall x w im sdev, 0 < Sum w ->
  let m := match im with None => wmean_def w x | Some m0 => m0 end in
  m_err2 (wmom1 x w im true sdev) == Sum (map2 (fun wi xi => wi * wi * ((xi - m) * (xi - m))) w x) / (Sum w * Sum w).
Proof. intros x w im sd _. destruct (wmom1_spec x w im true sd) as [_ [H _]]. exact H. Qed.

(* sdev=True: weighted deviation sqrt(sum(w (x-mean)^2)/sum w); absent otherwise *)
Theorem C18_wmom_sdev : forall x w im calcerr, 0 < Sum w ->
  let m := match im with None => wmean_def w x | Some m0 => m0 end in
  (exists v, m_var (wmom1 x w im calcerr true) = Some v
             /\ v == Sum (map2 (fun wi xi => wi * ((xi - m) * (xi - m))) w x) / Sum w)
  /\ m_var (wmom1 x w im calcerr false) = None.
Proof.
  intros x w im ce _ m. split; [|reflexivity].
  destruct (wmom1_spec x w im ce true) as [_ [_ H]].
  destruct (m_var (wmom1 x w im ce true)) as [v|]; [|discriminate].
  exists v. split; [reflexivity|]. apply H.
Qed.

(* The numpy-level routine on 1-d data returns scalars that are exactly that computation *)
Theorem C18_wmom_1d : forall x w im calcerr sdev,
  length w = length x -> (forall v, im <> IVec v) ->
  exists o, wmom (V1 x) (V1 w) im calcerr sdev = Ok o
            /\ out_col o 0 = wmom1 x w (im_col im 0) calcerr sdev
            /\ (exists a b, o_mean o = S0 a /\ o_err2 o = S0 b).
Proof. exact wmom_1d. Qed.

(* ... with the documented array form of inputmean (one element for 1-d data) *)
Theorem C18_wmom_1d_array_mean : forall x w m calcerr sdev,
  length w = length x ->
  exists o, wmom (V1 x) (V1 w) (IVec [m]) calcerr sdev = Ok o
            /\ o_mean o = V1 [m] /\ out_col o 0 = wmom1 x w (Some m) calcerr sdev.
Proof.
  intros x w m ce sd L. unfold wmom; simpl. rewrite L, Nat.eqb_refl; simpl.
  eexists; split; [reflexivity|]. split; [reflexivity|].
  unfold out_col; simpl. unfold wmom1; simpl. destruct sd; reflexivity.
Qed.

(* ... and on N-by-d data, with 1-d weights (broadcast to every column) or N-by-d weights, and
   inputmean absent, scalar or an [ndim] array: column j of every returned value is the 1-d
   computation on column j *)
Theorem C18_wmom_Nd : forall rows d wts im calcerr sdev,
  rows <> [] -> ncols rows = d -> rect rows d = true -> weights_fit rows d wts -> im_fits d im ->
  exists o, wmom (M2 rows) wts im calcerr sdev = Ok o
            /\ forall j, (j < d)%nat ->
                 out_col o j = wmom1 (col j rows) (wcol_of wts j) (im_col im j) calcerr sdev.
Proof.
  intros rows d wts im ce sd NE ND R WF IF.
  destruct (wmom_Nd rows d wts im ce sd ND R WF IF) as [o [E [_ H]]]. exists o. split; assumption.
Qed.

(* 1-d data with weights of another shape are rejected *)
Theorem C18_wmom_rejects_shape : forall x w im calcerr sdev,
  length w <> length x -> wmom (V1 x) (V1 w) im calcerr sdev = Err EValue.
Proof. exact wmom_rejects_shape. Qed.

(* ------------------------------------------------------------------ weighted median *)
(* non-negative weights: the loop returns the smallest data value whose cumulative weight
   (total weight of all data <= that value) reaches (>=) half the total; that value is unique *)
Theorem C18_wmedian_spec : forall x w,
  length x = length w -> x <> [] -> (forall y, In y w -> 0 <= y) ->
  exists v, wmedian x w = Ok v /\ wmedian_ok (combine x w) v.
Proof. exact wmedian_correct. Qed.

Theorem C18_wmedian_unique : forall l v v', wmedian_ok l v -> wmedian_ok l v' -> v == v'.
Proof. exact wmedian_ok_unique. Qed.

(* ------------------------------------------------------------------ sigma clipping *)
(* The reported indices are those of a subset [sub] of the input points such that
   - sub is the k-th iterate of "keep the points with (x-m)^2 < nsig^2 var" (m, var of the
     current subset), every earlier round discarded something but not everything, and the
     iteration stopped because k = niter, or nothing changes, or the next round would discard
     everything (the code then keeps the last subset: "nsig too small");
   - the reported mean, deviation^2, error^2 are exactly those of sub. *)
Theorem C18_sigma_clip_fixpoint : forall x weights niter nsig,
  0 <= nsig -> length (sc_weights x weights) = length x ->
  let all := index_from 0%Z x (sc_weights x weights) in
  let wtd := sc_weighted weights in
  exists r sub,
    sigma_clip (V1 x) (match weights with Some w => Some (V1 w) | None => None end) niter nsig = Ok r
    /\ sc_idx r = map p_idx sub
    /\ (forall p, In p sub -> In p all)
    /\ clip_fixpoint wtd nsig (Z.to_nat niter) all sub
    /\ let '(m, e2, v) := stat_def wtd sub in
       sc_mean r == m /\ sc_err2 r == e2 /\ sc_var r == v.
Proof. exact sigma_clip_spec. Qed.

(* THE CLAUSE AS STATED has two stop rules only ("until nothing changes or the iteration limit is
   reached", SpecStrict.clip_fixpoint_strict).  C18_sigma_clip_fixpoint above describes the code,
   which has a third exit: when a round would discard every remaining point it stops and reports
   the last non-empty subset ("nsig too small").  Hence the stated clause is refuted ... *)
Theorem C18_sigma_clip_fixpoint_refuted :
  exists x niter nsig,
    0 <= nsig /\ x <> [] /\
    exists r, sigma_clip (V1 x) None niter nsig = Ok r
      /\ ~ exists sub, sc_idx r = map p_idx sub
             /\ clip_fixpoint_strict false nsig (Z.to_nat niter) (index_from 0%Z x (map (fun _ => 1) x)) sub.
Proof. exact sigma_clip_strict_refuted. Qed.

(* ... and holds for every input outside the decidable class kf_everything_clipped (the loop of the
   code reaches its "everything clipped" exit on a non-empty subset) *)
Theorem C18_sigma_clip_fixpoint_outside_known : forall x weights niter nsig,
  0 <= nsig -> length (sc_weights x weights) = length x ->
  let all := index_from 0%Z x (sc_weights x weights) in
  let wtd := sc_weighted weights in
  kf_everything_clipped wtd nsig (Z.to_nat niter) all = false ->
  exists r sub,
    sigma_clip (V1 x) (match weights with Some w => Some (V1 w) | None => None end) niter nsig = Ok r
    /\ sc_idx r = map p_idx sub
    /\ clip_fixpoint_strict wtd nsig (Z.to_nat niter) all sub
    /\ let '(m, e2, v) := stat_def wtd sub in
       sc_mean r == m /\ sc_err2 r == e2 /\ sc_var r == v.
Proof.
  intros x weights niter nsig Hn L all wtd K. rewrite (sigma_clip_1d x weights niter nsig L). fold all wtd.
  destruct (sc_loop_strict wtd nsig (Z.to_nat niter) all Hn K) as [sub [E F]]. rewrite E.
  eexists. exists sub. split; [reflexivity|]. split; [reflexivity|]. split; [exact F|exact (sc_stats_def wtd sub)].
Qed.

(* when the next round would not discard everything, the stop rule is exactly the stated one:
   nothing changes or the iteration limit is reached *)
Theorem C18_sigma_clip_fixpoint_pure : forall weighted nsig niter all sub,
  clip_fixpoint weighted nsig niter all sub ->
  clip_step weighted nsig sub <> [] ->
  exists k, (k <= niter)%nat /\ sub = iterate (clip_step weighted nsig) k all
            /\ (k = niter \/ clip_step weighted nsig sub = sub).
Proof.
  intros weighted nsig niter all sub [k [Hk [Hs [_ Hstop]]]] NE. exists k. split; [exact Hk|]. split; [exact Hs|].
  destruct Hstop as [H|[H|H]]; [left; exact H|right; exact H|contradiction].
Qed.

Theorem C18_sigma_clip_subset_unique : forall weighted nsig niter all s1 s2,
  clip_fixpoint weighted nsig niter all s1 -> clip_fixpoint weighted nsig niter all s2 -> s1 = s2.
Proof. exact clip_fixpoint_unique. Qed.

(* over the reals: one round keeps exactly the points STRICTLY within nsig deviations
   (deviation = sqrt of the subset's variance) of the subset's mean *)
Theorem C18_sigma_clip_round_real : forall weighted nsig cur p,
  0 <= nsig -> (weighted = true -> forall q, In q cur -> 0 <= p_w q) ->
  let st := sc_stats weighted cur in
  (In p (filter (within nsig st) cur)
   <-> In p cur /\ (Rabs (Q2R (p_x p) - Q2R (c_mean st)) < Q2R nsig * sqrt (Q2R (c_var st)))%R).
Proof.
  intros weighted nsig cur p Hn Hw st. rewrite filter_In.
  rewrite (within_real nsig st p Hn (sc_var_nonneg weighted cur Hw)). reflexivity.
Qed.

(* ------------------------------------------------------------------ interpolation *)
(* strictly increasing table x of >= 2 points, values v *)
Theorem C18_interplin_piecewise : forall v x, incr x -> (2 <= length x)%nat ->
  forall k u, (S k < length x)%nat -> nth k x 0 <= u <= nth (S k) x 0 ->
    interp1 v x u == chord v x k u.
Proof. exact interp1_piecewise. Qed.

Theorem C18_interplin_nodes : forall v x, incr x -> (2 <= length x)%nat ->
  forall k, (k < length x)%nat -> interp1 v x (nth k x 0) == nth k v 0.
Proof. intros v x Hi Hn k Hk. apply interp1_node; auto. reflexivity. Qed.

Theorem C18_interplin_extrapolates : forall v x, incr x -> (2 <= length x)%nat ->
  forall u, (u < nth 0 x 0 -> interp1 v x u == chord v x 0 u)
            /\ (nth (length x - 1) x 0 < u -> interp1 v x u == chord v x (length x - 2) u).
Proof. intros v x Hi Hn u. split; [apply interp1_below|apply interp1_above]; assumption. Qed.

Theorem C18_interplin_total : forall v x u,
  (2 <= length x)%nat -> (length x <= length v)%nat -> interplin v x u = Ok (map (interp1 v x) u).
Proof. exact interplin_total. Qed.

(* ------------------------------------------------------------------ summary statistics *)
Theorem C18_get_stats_minmax : forall x weights nsig niter g,
  x <> [] -> get_stats (V1 x) weights nsig niter = Ok g ->
  exists mn mx, g_min g = S0 mn /\ g_max g = S0 mx /\ is_min x mn /\ is_max x mx.
Proof. exact get_stats_1d_minmax. Qed.

Theorem C18_get_stats_clip : forall x weights nsig niter,
  (nsig <> None \/ niter <> None) ->
  get_stats (V1 x) weights nsig niter =
  match sigma_clip (V1 x) weights (match niter with Some k => k | None => 4%Z end)
                   (match nsig with Some s => s | None => 4 end) with
  | Ok r => Ok {| g_min := S0 (qmin_list x); g_max := S0 (qmax_list x); g_mean := S0 (sc_mean r);
                  g_var := S0 (sc_var r); g_err2 := S0 (sc_err2 r) |}
  | Err e => Err e
  end.
Proof. exact get_stats_1d_clip. Qed.

Theorem C18_get_stats_weighted : forall x w,
  length w = length x ->
  exists g, get_stats (V1 x) (Some (V1 w)) None None = Ok g
    /\ exists m e2 v, g_mean g = S0 m /\ g_err2 g = S0 e2 /\ g_var g = S0 v
       /\ mom_spec x w None true true {| m_mean := m; m_err2 := e2; m_var := Some v |}.
Proof.
  intros x w L. rewrite <- get_stats_kw_default. exact (get_stats_kw_weighted_1d_spec x w None L).
Qed.

Theorem C18_get_stats_plain : forall x,
  exists g, get_stats (V1 x) None None None = Ok g
    /\ exists m e2 v, g_mean g = S0 m /\ g_err2 g = S0 e2 /\ g_var g = S0 v
       /\ m == Sum x / qlen x
       /\ v == Sum (map (fun y => (y - Sum x / qlen x) * (y - Sum x / qlen x)) x) / qlen x
       /\ e2 == v / qlen x.
Proof. exact get_stats_1d_plain. Qed.

(* N-by-d data: every column of every reported value is the 1-d summary of that column *)
Theorem C18_get_stats_Nd_plain : forall rows d,
  rows <> [] -> ncols rows = d -> rect rows d = true ->
  exists g, get_stats (M2 rows) None None None = Ok g
    /\ forall j, (j < d)%nat ->
         let x := col j rows in
         is_min x (nd_get (g_min g) j) /\ is_max x (nd_get (g_max g) j)
         /\ nd_get (g_mean g) j = c_mean (plain_stats x)
         /\ nd_get (g_var g) j = c_var (plain_stats x)
         /\ nd_get (g_err2 g) j = c_err2 (plain_stats x).
Proof. exact get_stats_Nd_plain. Qed.

Theorem C18_get_stats_Nd_weighted : forall rows d wts,
  rows <> [] -> ncols rows = d -> rect rows d = true -> weights_fit rows d wts ->
  exists g, get_stats (M2 rows) (Some wts) None None = Ok g
    /\ forall j, (j < d)%nat ->
         let x := col j rows in
         let r := wmom1 x (wcol_of wts j) None true true in
         is_min x (nd_get (g_min g) j) /\ is_max x (nd_get (g_max g) j)
         /\ nd_get (g_mean g) j = m_mean r
         /\ Some (nd_get (g_var g) j) = m_var r
         /\ nd_get (g_err2 g) j = m_err2 r.
Proof.
  intros rows d wts NE ND R WF. rewrite <- get_stats_kw_default.
  exact (get_stats_kw_weighted_Nd rows d wts None NE ND R WF).
Qed.

(* ------------------------------------------------------------------ covariance <-> correlation *)
(* cor[i,j] = cov[i,j]/sqrt(cov[i,i] cov[j,j]), returned as the pair (cov[i,j], cov[i,i] cov[j,j]) *)
Theorem C18_cov2cor_def : forall cov,
  rect cov (length cov) = true -> (forall i, (i < length cov)%nat -> 0 < mget cov i i) ->
  exists m, cov2cor cov = Ok m
    /\ forall i j, (i < length cov)%nat -> (j < length cov)%nat ->
         nth j (nth i m []) (0, 0) = (mget cov i j, mget cov i i * mget cov j j).
Proof. exact cov2cor_spec. Qed.

Theorem C18_cov2cor_rejects : forall cov i,
  rect cov (length cov) = true -> (i < length cov)%nat -> mget cov i i <= 0 -> cov2cor cov = Err EValue.
Proof. exact cov2cor_rejects. Qed.

Theorem C18_cor2cov_def : forall cor d,
  rect cor (length cor) = true -> length d = length cor ->
  exists m, cor2cov cor d = Ok m
    /\ forall i j, (i < length cor)%nat -> (j < length cor)%nat ->
         mget m i j = mget cor i j * nth i d 0 * nth j d 0.
Proof. exact cor2cov_spec. Qed.

(* covariance -> correlation -> covariance (errors sqrt(cov[i,i])) reproduces the covariance;
   over the reals, with the model's pairs read as num/sqrt(den2) *)
Theorem C18_cor_cov_roundtrip : forall cov m,
  cov2cor cov = Ok m -> rect cov (length cov) = true ->
  forall i j, (i < length cov)%nat -> (j < length cov)%nat ->
    let '(num, den2) := nth j (nth i m []) (0, 0) in
    (Q2R num / sqrt (Q2R den2) * sqrt (Q2R (mget cov i i)) * sqrt (Q2R (mget cov j j)))%R
    = Q2R (mget cov i j).
Proof. exact cor_cov_roundtrip_real. Qed.

(* the same on squares, inside Q: cor[i,j]^2 cov[i,i] cov[j,j] = cov[i,j]^2 *)
Theorem C18_cor_cov_roundtrip_squares : forall c cii cjj,
  0 < cii -> 0 < cjj -> (c * c / (cii * cjj)) * cii * cjj == c * c.
Proof. exact roundtrip_squares. Qed.

(* ------------------------------------------------------------------ boxcar average *)
Theorem C18_boxcar_def : forall x N, (0 < N)%Z -> x <> [] ->
  exists out, boxcar_average x N = Ok out /\ length out = length x
              /\ forall k, (k < length x)%nat -> nth k out 0 == boxcar_def x N k.
Proof. exact boxcar_spec. Qed.

(* ------------------------------------------------------------------ meaning of close_sqrt *)
Theorem C18_close_sqrt_real : forall s V tol,
  close_sqrt s V tol -> 0 <= V -> (Rabs (Q2R s - sqrt (Q2R V)) <= Q2R tol)%R.
Proof. exact close_sqrt_real. Qed.

(* ------------------------------------------------------------------ checker soundness *)
(* what the correspondence run evaluates on the implementation's outputs *)
Theorem C18_checkers_sound :
  (forall x w im ce mean err sdev, wmom1_check x w im ce mean err sdev = true -> wmom1_ok x w im ce mean err sdev)
  /\ (forall rows d wts im ce sd om oe os,
        rows <> [] -> ncols rows = d -> rect rows d = true -> weights_fit rows d wts -> im_fits d im ->
        wmom_check (M2 rows) wts im ce sd om oe os = true ->
        forall j, (j < d)%nat ->
          wmom1_ok (col j rows) (wcol_of wts j) (im_col im j) ce (nd_get om j) (nd_get oe j) (opt_get os j))
  /\ (forall x w im ce sd om oe os,
        length w = length x -> (forall v, im <> IVec v) ->
        wmom_check (V1 x) (V1 w) im ce sd om oe os = true ->
        wmom1_ok x w (im_col im 0) ce (nd_get om 0) (nd_get oe 0) (opt_get os 0))
  /\ (forall l v, wmedian_check l v = true -> wmedian_ok l v)
  /\ (forall weighted nsig niter all mean sdev err idx, 0 <= nsig ->
        sigma_clip_check weighted nsig niter all mean sdev err idx = true ->
        sigma_clip_ok weighted nsig niter all mean sdev err idx)
  /\ (forall v x u y, interp_check v x u y = true -> interp_ok v x u y (eps9 * interp_scale v x u))
  /\ (forall x w clip mn mx mean std err idx,
        gs_col_check x w clip mn mx mean std err idx = true -> gs_col_ok x w clip mn mx mean std err idx)
  /\ (forall cov cor, cov2cor_check cov cor = true -> cov2cor_ok cov cor)
  /\ (forall n a b, mat_close_b n a b = true -> mat_close n a b).
Proof.
  split; [exact wmom1_check_sound|]. split; [exact (wmom_check_e_sound_Nd eps9)|].
  split; [exact (wmom_check_e_sound_1d eps9)|]. split; [intros l v; apply wmedian_check_iff|].
  split; [exact sigma_clip_check_sound|]. split; [exact (interp_check_e_sound eps9)|].
  split; [exact gs_col_check_sound|]. split; [exact (cov2cor_check_e_sound eps9)|exact (mat_close_b_e_sound eps9)].
Qed.

(* the checker of the sigma-clipping clause as stated (evaluated by Exec.v_sigma_clip) *)
Theorem C18_strict_checker_sound : forall weighted nsig niter all mean sdev err idx,
  0 <= nsig ->
  sigma_clip_strict_check weighted nsig niter all mean sdev err idx = true ->
  sigma_clip_strict_ok weighted nsig niter all mean sdev err idx.
Proof. exact sigma_clip_strict_check_sound. Qed.

(* the parametrised checkers used for calls that compute in float32 (SpecTol.v, evaluated at eps_f4)
   are, at eps9, the verified checkers above *)
Theorem C18_tol_checkers_at_eps9 :
  (forall r A im ce mean err sdev, mom_close_e eps9 r A im ce mean err sdev = mom_close r A im ce mean err sdev)
  /\ (forall arr wts im ce sd om oe os, wmom_check_e eps9 arr wts im ce sd om oe os = wmom_check arr wts im ce sd om oe os)
  /\ (forall wtd nsig niter all mean sdev err idx,
        sigma_clip_check_e eps9 wtd nsig niter all mean sdev err idx = sigma_clip_check wtd nsig niter all mean sdev err idx)
  /\ (forall v x u y, interp_check_e eps9 v x u y = interp_check v x u y)
  /\ (forall c num den2, cor_close_b_e eps9 c num den2 = cor_close_b c num den2)
  /\ (forall cov cor, cov2cor_check_e eps9 cov cor = cov2cor_check cov cor)
  /\ (forall n a b, mat_close_b_e eps9 n a b = mat_close_b n a b).
Proof. repeat split; intros; reflexivity. Qed.

(* ------------------------------------------------------------------ tie to the source text *)
(* Gen.v is printed from esutil/stat/util.py of the tree under check on every run
   (harness/props/c18_translate.py).  The theorems below say that the model the theorems above are
   about consists of exactly the formulas, comparisons, defaults and index arithmetic that the
   source contains (gen_* names); they are re-checked whenever that text changes. *)

(* wmom: the terms under .sum(axis=0), the final divisions, the two error formulas (squared) *)
Theorem C18_gen_wmom_mean : forall x w ce sd,
  m_mean (wmom1 x w None ce sd) == gen_wmom_mean_fin (Sum (map2 gen_wmom_mean_term w x)) (Sum w).
Proof. exact gen_wmom_mean. Qed.

Theorem C18_gen_wmom_err : forall x w im sd,
  m_err2 (wmom1 x w im true sd) == gen_wmom_err2_calc (Sum (map2 (gen_wmom_err2_term (mref x w im)) w x)) (Sum w)
  /\ m_err2 (wmom1 x w im false sd) == gen_wmom_err2_default (Sum w)
  /\ gen_wmom_calcerr_default = false /\ gen_wmom_sdev_default = false.
Proof.
  intros x w im sd. split; [apply gen_wmom_err_calc|]. split; [apply gen_wmom_err_default|]. exact gen_wmom_defaults.
Qed.

Theorem C18_gen_wmom_sdev : forall x w im ce,
  exists v, m_var (wmom1 x w im ce true) = Some v
            /\ v == gen_wmom_var_fin (Sum (map2 (gen_wmom_var_term (mref x w im)) w x)) (Sum w).
Proof. exact gen_wmom_var. Qed.

(* wmedian: initial value, half total, loop test (strict) and update of the subtract-until loop *)
Theorem C18_gen_wmedian_loop :
  (forall l, wmedian_pairs l =
     match isort_p l with
     | [] => Err EIndex
     | (x0, w0) :: t => wm_loop t x0 (gen_wm_init (qsum (map snd l)) w0) (gen_wm_half (qsum (map snd l)))
     end)
  /\ (forall rest cur sum h, wm_loop rest cur sum h =
        if gen_wm_continue sum h
        then match rest with [] => Err EIndex | (xk, wk) :: t => wm_loop t xk (gen_wm_step sum wk) h end
        else Ok cur).
Proof. split; [exact gen_wm_start|exact gen_wm_loop]. Qed.

(* sigma_clip: the model's decision on squares is the source's comparison |x - m| < nsig * s with
   s = sqrt(var); number of rounds; the two stop tests in the source's order; which statistics *)
Theorem C18_gen_clip_decision : forall nsig st s p,
  0 <= nsig -> 0 <= s -> s * s == c_var st ->
  within nsig st p = gen_clip_keep nsig (c_mean st) s (p_x p).
Proof. exact gen_within. Qed.

Theorem C18_gen_clip_loop :
  (forall niter, Z.to_nat (gen_sc_rounds niter) = Z.to_nat niter)
  /\ (forall f wtd nsig cur st, sc_loop (S f) wtd nsig cur st =
        let kept := filter (within nsig st) cur in
        if gen_sc_stop_empty (Z.of_nat (length kept)) then (cur, st)
        else if gen_sc_stop_same (Z.of_nat (length kept)) (Z.of_nat (length cur)) then (cur, st)
        else sc_loop f wtd nsig kept (sc_stats wtd kept))
  /\ (forall cur, sc_stats true cur =
        let r := wmom1 (map p_x cur) (map p_w cur) None gen_scstats_calcerr gen_scstats_sdev in
        {| c_mean := m_mean r; c_err2 := m_err2 r; c_var := match m_var r with Some v => v | None => 0 end |})
  /\ (forall cur, c_err2 (sc_stats false cur) = gen_plain_err2 (c_var (sc_stats false cur)) (qlen cur)).
Proof.
  split; [exact gen_sc_rounds_ok|]. split; [exact gen_sc_loop_step|].
  split; [exact gen_sc_stats_weighted|exact gen_sc_stats_plain].
Qed.

(* interplin: searchsorted - 1 with the two clamps, the neighbour index, the returned formula *)
Theorem C18_gen_interplin :
  (forall x u, interp_index x u = gen_interp_index (Z.of_nat (length x)) (searchsorted x u))
  /\ (forall k, Z.to_nat (gen_interp_next (Z.of_nat k)) = S k)
  /\ (forall x0 v0 x1 v1 u, line x0 v0 x1 v1 u = gen_interp_formula x0 v0 x1 v1 u).
Proof. split; [exact gen_interp_index_ok|]. split; [exact gen_interp_next_ok|exact gen_interp_formula_ok]. Qed.

(* get_stats: defaults of sigma_clip reached through **kw; keywords forced in the weighted branch;
   err = std/sqrt(N) in the plain branch *)
Theorem C18_gen_get_stats :
  (forall x weights nsig niter, (nsig <> None \/ niter <> None) ->
     get_stats (V1 x) weights nsig niter =
     match sigma_clip (V1 x) weights (match niter with Some k => k | None => gen_sc_niter_default end)
                      (match nsig with Some s => s | None => gen_sc_nsig_default end) with
     | Ok r => Ok {| g_min := S0 (qmin_list x); g_max := S0 (qmax_list x); g_mean := S0 (sc_mean r);
                     g_var := S0 (sc_var r); g_err2 := S0 (sc_err2 r) |}
     | Err e => Err e
     end)
  /\ (forall x w, length w = length x ->
        get_stats (V1 x) (Some (V1 w)) None None =
        let r := wmom1 x w None gen_gs_calcerr gen_gs_sdev in
        Ok {| g_min := S0 (qmin_list x); g_max := S0 (qmax_list x); g_mean := S0 (m_mean r);
              g_var := S0 (match m_var r with Some v => v | None => 0 end); g_err2 := S0 (m_err2 r) |})
  /\ (forall x, exists g, get_stats (V1 x) None None None = Ok g
        /\ exists m e2 v, g_mean g = S0 m /\ g_err2 g = S0 e2 /\ g_var g = S0 v
           /\ e2 = gen_gs_plain_err2 v (qlen x)).
Proof.
  split; [exact get_stats_1d_clip|]. split; [exact gen_get_stats_weighted|exact gen_get_stats_plain].
Qed.

(* cov2cor / cor2cov: the diagonal test, numerator and squared denominator, the product *)
Theorem C18_gen_cov :
  (forall cov, rect cov (length cov) = true ->
     (forall i, (i < length cov)%nat -> gen_cov_diag_bad (mget cov i i) = false) ->
     exists m, cov2cor cov = Ok m
       /\ forall i j, (i < length cov)%nat -> (j < length cov)%nat ->
            nth j (nth i m []) (0, 0)
            = (gen_cor_num (mget cov i j) (mget cov i i) (mget cov j j),
               gen_cor_den2 (mget cov i j) (mget cov i i) (mget cov j j)))
  /\ (forall c, Qlt_bool 0 c = negb (gen_cov_diag_bad c))
  /\ (forall cor d, rect cor (length cor) = true -> length d = length cor ->
        exists m, cor2cov cor d = Ok m
          /\ forall i j, (i < length cor)%nat -> (j < length cor)%nat ->
               mget m i j = gen_cor2cov_entry (mget cor i j) (nth i d 0) (nth j d 0)).
Proof.
  split; [exact gen_cov2cor_entries|]. split; [exact gen_cov_diag_rule|exact cor2cov_spec].
Qed.

(* boxcar_average: the model's window mean is numpy's 'full' convolution (conv_full: out[j] =
   sum_i x[i] k[j-i]) with the kernel of N weights 1/N, sliced at the source's offset N-1 *)
Theorem C18_gen_boxcar : forall x N,
  (0 < N)%Z -> x <> [] ->
  exists out, boxcar_average x N = Ok out /\ length out = length x
    /\ forall k, (k < length x)%nat ->
         nth k out 0 == conv_full x (repeat (gen_boxcar_weight (inject_Z N)) (Z.to_nat N))
                                  (k + Z.to_nat (gen_boxcar_skip N)).
Proof. exact gen_boxcar_convolution. Qed.

(* dtype pins: weights (wmom, wmedian, sigma_clip) and get_stats data are cast to float64, the result
   matrices of cov2cor / cor2cov are allocated as float64 whatever the dtype of the input *)
Theorem C18_gen_result_dtypes :
  gen_wmom_weights_f64 = true /\ gen_wmedian_weights_f64 = true /\ gen_sigma_clip_weights_f64 = true
  /\ gen_get_stats_data_f64 = true /\ gen_cov2cor_result_f64 = true /\ gen_cor2cov_result_f64 = true.
Proof. exact gen_result_dtypes. Qed.

(* ------------------------------------------------------------------ non-vacuity *)
Fixpoint forallb2_eq (a b : list Q) : bool :=
  match a, b with
  | [], [] => true
  | x :: s, y :: t => Qeq_bool x y && forallb2_eq s t
  | _, _ => false
  end.

Definition ex_x : list Q := [-2; 2; -1; 1; 0; 0; 0; 0; 0; 0].

Example C18_nonvacuous :
  (* weighted mean 9/4, calcerr error^2 = 9/32... computed by the model *)
  (exists o, wmom (V1 [1; 2; 3]) (V1 [1; 1; 2]) INone true true = Ok o
             /\ Qeq_bool (nd_get (o_mean o) 0) (9 # 4) = true)
  /\ (exists o, wmom (M2 [[1; 10]; [2; 20]; [3; 40]]) (V1 [1; 1; 2]) (IVec [2; 20]) false true = Ok o
                /\ o_mean o = V1 [2; 20])
  (* equal weights: the lower median; cumulative weight reaches exactly half at 2 *)
  /\ wmedian [3; 1; 2; 4] [1; 1; 1; 1] = Ok 2
  /\ wmedian_check (combine [3; 1; 2; 4] [1; 1; 1; 1]) 2 = true
  /\ wmedian_check (combine [3; 1; 2; 4] [1; 1; 1; 1]) 3 = false
  (* strict comparison: with nsig = 2 and s = 1 the points at exactly 2 deviations go first,
     then (s = 1/2) those at +-1, then everything would go: the zeros are reported *)
  /\ (exists r, sigma_clip (V1 ex_x) None 4 2 = Ok r /\ sc_idx r = [4; 5; 6; 7; 8; 9]%Z)
  (* a run that ends because nothing changes (hypothesis of the pure form is satisfiable) *)
  /\ (exists r, sigma_clip (V1 [0; 1; -1; 0; 1; -1; 0; 50]) None 4 2 = Ok r
                /\ sc_idx r = [0; 1; 2; 3; 4; 5; 6]%Z
                /\ clip_step false 2 (index_from 0%Z [0; 1; -1; 0; 1; -1; 0] [1; 1; 1; 1; 1; 1; 1]) <> [])
  (* interpolation inside, at a node, and extrapolation on both sides *)
  /\ incr [0; 1; 2]
  /\ (exists o, interplin [1; 3; 2] [0; 1; 2] [-1; 1 # 2; 1; 3] = Ok o
                /\ forallb2_eq o [-1; 2; 3; 1] = true)
  /\ (exists m, cov2cor [[4; 1]; [1; 9]] = Ok m /\ nth 1 (nth 0 m []) (0, 0) = (1, 4 * 9))
  /\ cov2cor [[4; 1]; [1; 0]] = Err EValue
  /\ (exists o, boxcar_average [0; 1; 2; 3; 4; 5] 3 = Ok o /\ forallb2_eq o [1; 2; 3; 4; 3; 5 # 3] = true)
  (* known class: inhabited (two points, nsig 1/2), and its complement contains a run in which a point
     exactly at 2 deviations is discarded and the loop ends because nothing changes *)
  /\ kf_everything_clipped false (1 # 2) 4 (index_from 0%Z [-1; 1] [1; 1]) = true
  /\ kf_everything_clipped false 2 4 (index_from 0%Z [-4; -1; -1; -1; -1; 1; 1; 1; 1; 4] [1; 1; 1; 1; 1; 1; 1; 1; 1; 1]) = false
  /\ (exists r, sigma_clip (V1 [-4; -1; -1; -1; -1; 1; 1; 1; 1; 4]) None 4 2 = Ok r /\ sc_idx r = [1; 2; 3; 4; 5; 6; 7; 8]%Z).
Proof.
  split; [eexists; split; [vm_compute; reflexivity|vm_compute; reflexivity]|].
  split; [eexists; split; [vm_compute; reflexivity|reflexivity]|].
  split; [vm_compute; reflexivity|].
  split; [vm_compute; reflexivity|].
  split; [vm_compute; reflexivity|].
  split; [eexists; split; [vm_compute; reflexivity|reflexivity]|].
  split; [eexists; split; [vm_compute; reflexivity|]; split; [reflexivity|vm_compute; discriminate]|].
  split; [simpl; repeat split; reflexivity|].
  split; [eexists; split; [vm_compute; reflexivity|vm_compute; reflexivity]|].
  split; [eexists; split; [vm_compute; reflexivity|reflexivity]|].
  split; [vm_compute; reflexivity|].
  split; [eexists; split; [vm_compute; reflexivity|vm_compute; reflexivity]|].
  split; [exact kf_witness|]. split; [vm_compute; reflexivity|].
  eexists; split; [vm_compute; reflexivity|reflexivity].
Qed.

(* ---- the parametrised checkers are sound at EVERY rounding constant (in particular at eps_f4, used for
        the calls that compute in float32); at eps9 the parametrised statements are those of Spec.v *)
Theorem C18_tol_checkers_sound :
  forall eps,
  (forall rows d wts im ce sd om oe os,
      rows <> [] -> ncols rows = d -> rect rows d = true -> weights_fit rows d wts -> im_fits d im ->
      wmom_check_e eps (M2 rows) wts im ce sd om oe os = true ->
      forall j, (j < d)%nat ->
        wmom1_ok_e eps (col j rows) (wcol_of wts j) (im_col im j) ce (nd_get om j) (nd_get oe j) (opt_get os j))
  /\ (forall x w im ce sd om oe os,
        length w = length x -> (forall v, im <> IVec v) ->
        wmom_check_e eps (V1 x) (V1 w) im ce sd om oe os = true ->
        wmom1_ok_e eps x w (im_col im 0) ce (nd_get om 0) (nd_get oe 0) (opt_get os 0))
  /\ (forall weighted nsig niter all mean sdev err idx, 0 <= nsig ->
        sigma_clip_check_e eps weighted nsig niter all mean sdev err idx = true ->
        sigma_clip_ok_e eps weighted nsig niter all mean sdev err idx)
  /\ (forall v x u y, interp_check_e eps v x u y = true -> interp_ok v x u y (eps * interp_scale v x u))
  /\ (forall cov cor, cov2cor_check_e eps cov cor = true -> cov2cor_ok_e eps cov cor)
  /\ (forall n a b, mat_close_b_e eps n a b = true -> mat_close_e eps n a b).
Proof.
  intro eps. split; [apply wmom_check_e_sound_Nd|]. split; [apply wmom_check_e_sound_1d|].
  split; [apply sigma_clip_check_e_sound|]. split; [apply interp_check_e_sound|].
  split; [apply cov2cor_check_e_sound|apply mat_close_b_e_sound].
Qed.

Theorem C18_tol_spec_at_eps9 :
  (forall x w im ce mean err sdev, wmom1_ok_e eps9 x w im ce mean err sdev = wmom1_ok x w im ce mean err sdev)
  /\ (forall wtd nsig niter all mean sdev err idx,
        sigma_clip_ok_e eps9 wtd nsig niter all mean sdev err idx = sigma_clip_ok wtd nsig niter all mean sdev err idx)
  /\ (forall cov cor, cov2cor_ok_e eps9 cov cor = cov2cor_ok cov cor)
  /\ (forall n a b, mat_close_e eps9 n a b = mat_close n a b).
Proof. repeat split; reflexivity. Qed.

(* ---- meaning of the verdicts of Exec.v_sigma_clip.  Verdict 12 (known class C18.kf_everything_clipped) is
        given only to an output that IS the code-faithful answer — the last non-empty subset with its own
        indices and its own statistics — on an input of the class; verdict 0 certifies the clause as stated.
        Anything else on an input of the class is verdict 3, a violation outside every known class. *)
Theorem C18_known_class_hides_only_faithful : forall x w niter nsig m s e idx,
  let all := index_from 0%Z x (sc_weights x w) in
  let wtd := sc_weighted w in
  let v := v_sigma_clip x w niter nsig (Ok (m, s, e, idx)) in
  (v = 12%Z -> 0 <= nsig /\ kf_everything_clipped wtd nsig (Z.to_nat niter) all = true
               /\ sigma_clip_ok wtd nsig (Z.to_nat niter) all m s e idx)
  /\ (v = 0%Z -> 0 <= nsig /\ sigma_clip_strict_ok wtd nsig (Z.to_nat niter) all m s e idx)
  /\ (v = 0%Z \/ v = 12%Z \/ v = skip \/ v = 1%Z \/ v = 3%Z).
Proof. exact v_sigma_clip_verdicts. Qed.

Theorem C18_known_class_f4 : forall eps x w niter nsig m s e idx,
  let all := index_from 0%Z x (sc_weights x w) in
  let wtd := sc_weighted w in
  let v := v_sigma_clip_e eps x w niter nsig (Ok (m, s, e, idx)) in
  (v = 12%Z -> 0 <= nsig /\ kf_everything_clipped wtd nsig (Z.to_nat niter) all = true
               /\ sigma_clip_ok_e eps wtd nsig (Z.to_nat niter) all m s e idx)
  /\ (v = 0%Z -> 0 <= nsig /\ kf_everything_clipped wtd nsig (Z.to_nat niter) all = false
                /\ sigma_clip_ok_e eps wtd nsig (Z.to_nat niter) all m s e idx).
Proof. exact v_sigma_clip_e_verdicts. Qed.

(* ---- get_stats with the documented wmom keyword calcerr= (ModelKw.get_stats_kw) *)
Theorem C18_get_stats_kw_default : forall arr weights nsig niter,
  get_stats_kw arr weights nsig niter None = get_stats arr weights nsig niter.
Proof. exact get_stats_kw_default. Qed.

Theorem C18_get_stats_kw_ignored : forall arr weights nsig niter ce,
  (nsig <> None \/ niter <> None \/ weights = None) ->
  get_stats_kw arr weights nsig niter ce = get_stats arr weights nsig niter.
Proof.
  intros arr weights nsig niter ce H. unfold get_stats_kw. destruct nsig, niter, weights; try reflexivity.
  destruct H as [H|[H|H]]; congruence.
Qed.

Theorem C18_get_stats_kw_weighted : forall x w ce,
  length w = length x ->
  exists g, get_stats_kw (V1 x) (Some (V1 w)) None None ce = Ok g
    /\ exists m e2 v, g_mean g = S0 m /\ g_err2 g = S0 e2 /\ g_var g = S0 v
       /\ mom_spec x w None (kw_calcerr ce) true {| m_mean := m; m_err2 := e2; m_var := Some v |}.
Proof. exact get_stats_kw_weighted_1d_spec. Qed.

Theorem C18_get_stats_kw_weighted_Nd : forall rows d wts ce,
  rows <> [] -> ncols rows = d -> rect rows d = true -> weights_fit rows d wts ->
  exists g, get_stats_kw (M2 rows) (Some wts) None None ce = Ok g
    /\ forall j, (j < d)%nat ->
         let x := col j rows in
         let r := wmom1 x (wcol_of wts j) None (kw_calcerr ce) true in
         is_min x (nd_get (g_min g) j) /\ is_max x (nd_get (g_max g) j)
         /\ nd_get (g_mean g) j = m_mean r
         /\ Some (nd_get (g_var g) j) = m_var r
         /\ nd_get (g_err2 g) j = m_err2 r.
Proof. exact get_stats_kw_weighted_Nd. Qed.

Theorem C18_get_stats_kw_checker_sound : forall ce x w clip mn mx mean std err idx,
  gs_col_check_kw ce x w clip mn mx mean std err idx = true -> gs_col_ok_kw ce x w clip mn mx mean std err idx.
Proof. exact gs_col_check_kw_sound. Qed.

(* ---- the squared statements read over the reals, per routine *)
Theorem C18_wmom_real : forall x w im ce mean err sdev,
  (forall a, In a w -> 0 <= a) ->
  wmom1_ok x w im ce mean err sdev ->
  let mref := match im with None => wmean_def w x | Some m => m end in
  let A := absmean_def w x + im_abs im in
  (if ce then (Rabs (Q2R err - sqrt (Q2R (werr2_calc_def w x mref))) <= Q2R (eps9 * (err + A)))%R
   else (Rabs (Q2R err - sqrt (Q2R (werr2_default_def w))) <= Q2R (eps9 * err))%R)
  /\ match sdev with
     | Some s => (Rabs (Q2R s - sqrt (Q2R (wvar_def w x mref))) <= Q2R (eps9 * (s + A)))%R
     | None => True
     end.
Proof. exact wmom1_ok_real. Qed.

Theorem C18_sigma_clip_stats_real : forall weighted nsig niter all mean sdev err idx,
  (weighted = true -> forall p, In p all -> 0 <= p_w p) ->
  sigma_clip_ok weighted nsig niter all mean sdev err idx ->
  exists sub, map p_idx sub = idx /\ clip_fixpoint weighted nsig niter all sub
    /\ let '(m, e2, v) := stat_def weighted sub in
       let A := sc_scale weighted sub in
       (Rabs (Q2R mean - Q2R m) <= Q2R (eps9 * A))%R
       /\ (Rabs (Q2R sdev - sqrt (Q2R v)) <= Q2R (eps9 * (sdev + A)))%R
       /\ (Rabs (Q2R err - sqrt (Q2R e2)) <= Q2R (eps9 * (err + A)))%R.
Proof. exact sigma_clip_ok_real. Qed.

Theorem C18_cov2cor_real : forall c num den2,
  0 < den2 -> cor_close c num den2 ->
  (Rabs (Q2R c - Q2R num / sqrt (Q2R den2)) <= Q2R (eps9 * Qabs c))%R.
Proof. exact cor_close_real. Qed.

(* ---- history, frames, contracts, rejections *)
(* the k-th answer of any sequence of calls, started in any state, is the answer of that call alone *)
Theorem C18_history_independent : forall cs st k c,
  nth_error cs k = Some c -> nth_error (run_seq st cs) k = Some (run c).
Proof. exact history_independent. Qed.

Theorem C18_wmom_column_frame : forall rows rows' d wts wts' im im' ce sd j,
  rows <> [] -> ncols rows = d -> rect rows d = true -> weights_fit rows d wts -> im_fits d im ->
  rows' <> [] -> ncols rows' = d -> rect rows' d = true -> weights_fit rows' d wts' -> im_fits d im' ->
  (j < d)%nat ->
  col j rows = col j rows' -> wcol_of wts j = wcol_of wts' j -> im_col im j = im_col im' j ->
  exists o o', wmom (M2 rows) wts im ce sd = Ok o /\ wmom (M2 rows') wts' im' ce sd = Ok o'
               /\ out_col o j = out_col o' j.
Proof.
  intros rows rows' d wts wts' im im' ce sd j N1 D1 R1 W1 I1 N2 D2 R2 W2 I2 Hj Ec Ew Ei.
  destruct (wmom_Nd rows d wts im ce sd D1 R1 W1 I1) as [o [E1 [_ H1]]].
  destruct (wmom_Nd rows' d wts' im' ce sd D2 R2 W2 I2) as [o' [E2 [_ H2]]].
  exists o, o'. split; [exact E1|]. split; [exact E2|].
  rewrite (H1 j Hj), (H2 j Hj), Ec, Ew, Ei. reflexivity.
Qed.

Theorem C18_interplin_pointwise : forall v x u o,
  (2 <= length x)%nat -> (length x <= length v)%nat -> interplin v x u = Ok o ->
  length o = length u /\ forall k, (k < length u)%nat -> nth k o 0 = interp1 v x (nth k u 0).
Proof.
  intros v x u o H1 H2 E. rewrite (interplin_total v x u H1 H2) in E. inversion E; subst o.
  split; [apply map_length|]. intros k Hk.
  rewrite (nth_indep _ 0 (interp1 v x 0)) by (rewrite map_length; exact Hk). apply map_nth.
Qed.

(* numpy's contract of a.searchsorted(v) (side='left') holds for the model's implementation on every
   strictly increasing table: a[i-1] < v <= a[i] *)
Theorem C18_searchsorted_contract : forall x u,
  incr x ->
  let k := cnt x u in
  searchsorted x u = Z.of_nat k
  /\ (k <= length x)%nat
  /\ (forall i, (i < k)%nat -> nth i x 0 < u)
  /\ (forall i, (k <= i)%nat -> (i < length x)%nat -> u <= nth i x 0).
Proof. intros x u H. split; [reflexivity|]. exact (searchsorted_contract x u H). Qed.

(* the weighted-median checker decides the specification exactly *)
Theorem C18_wmedian_check_iff : forall l v, wmedian_check l v = true <-> wmedian_ok l v.
Proof. exact wmedian_check_iff. Qed.

(* exactly these malformed calls are refused, with these error classes *)
Theorem C18_rejections :
  (forall rows w niter nsig, sigma_clip (M2 rows) w niter nsig = Err EValue)
  /\ (forall x w niter nsig, length w <> length x -> sigma_clip (V1 x) (Some (V1 w)) niter nsig = Err EValue)
  /\ (forall cor d, rect cor (length cor) = true -> length d <> length cor -> cor2cov cor d = Err EValue)
  /\ (forall rows w im ce sd, rect rows (ncols rows) = true -> length w <> length rows ->
         wmom (M2 rows) (V1 w) im ce sd = Err EValue)
  /\ (forall v x u, u <> [] -> (length x < 2)%nat -> interplin v x u = Err EIndex)
  /\ (forall x N, (N <= 0)%Z \/ x = [] -> boxcar_average x N = Err EValue).
Proof.
  split; [exact sigma_clip_rejects_2d|]. split; [exact sigma_clip_rejects_size|].
  split; [exact cor2cov_rejects_size|]. split; [exact wmom_rejects_weights_Nd|].
  split; [exact interplin_short_table|exact boxcar_rejects].
Qed.

(* the reported subset consists of input points, untouched and in their original order *)
Theorem C18_sigma_clip_indices_frame : forall x weights niter nsig,
  0 <= nsig -> length (sc_weights x weights) = length x ->
  exists r sub,
    sigma_clip (V1 x) (match weights with Some w => Some (V1 w) | None => None end) niter nsig = Ok r
    /\ sc_idx r = map p_idx sub
    /\ Sorted.StronglySorted Z.lt (sc_idx r)
    /\ forall p, In p sub ->
         (0 <= p_idx p < Z.of_nat (length x))%Z
         /\ p_x p = nth (Z.to_nat (p_idx p)) x 0
         /\ p_w p = nth (Z.to_nat (p_idx p)) (sc_weights x weights) 0.
Proof. exact sigma_clip_indices_frame. Qed.

(* ---- non-vacuity of the statements since C18_nonvacuous *)
Example C18_nonvacuous_round4 :
  (* the known class hides only the faithful output: same input, two outputs *)
  v_sigma_clip [-1; 1] None 4 (1 # 2) (Ok (0, 1, 7071067811865475 # 10000000000000000, [0; 1]%Z)) = 12%Z
  /\ v_sigma_clip [-1; 1] None 4 (1 # 2) (Ok (0, 1, 7071067811865475 # 10000000000000000, [])) = 3%Z
  (* calcerr=False through get_stats: err^2 = 1/sum(w) = 1/4 instead of the calcerr value *)
  /\ (exists g, get_stats_kw (V1 [1; 2; 3]) (Some (V1 [1; 1; 2])) None None (Some false) = Ok g /\ g_err2 g = S0 (1 / 4))
  /\ (exists g, get_stats_kw (V1 [1; 2; 3]) (Some (V1 [1; 1; 2])) None None None = Ok g /\ g_err2 g <> S0 (1 / 4))
  (* a float32-precision check that accepts a value the 1e-9 check rejects *)
  /\ interp_check_e eps_f4 [1; 3; 2] [0; 1; 2] (1 # 2) (2000001 # 1000000) = true
  /\ interp_check [1; 3; 2] [0; 1; 2] (1 # 2) (2000001 # 1000000) = false
  (* searchsorted on a table: 1 < 3/2 <= 2 *)
  /\ incr [0; 1; 2; 5] /\ cnt [0; 1; 2; 5] (3 # 2) = 2%nat
  (* a sequence of calls *)
  /\ nth_error (run_seq [] [CBoxcar [1; 2] 1; CWmedian [3; 1; 2; 4] [1; 1; 1; 1]]) 1 = Some (OWmedian (Ok 2))
  /\ wmedian_check (combine [3; 1; 2; 4] [1; 1; 1; 1]) 2 = true.
Proof.
  split; [apply known_class_hides_only_faithful|]. split; [apply known_class_hides_only_faithful|].
  split; [eexists; split; [vm_compute; reflexivity|vm_compute; reflexivity]|].
  split; [eexists; split; [vm_compute; reflexivity|vm_compute; discriminate]|].
  split; [vm_compute; reflexivity|]. split; [vm_compute; reflexivity|].
  split; [simpl; repeat split; reflexivity|]. split; [vm_compute; reflexivity|].
  split; [vm_compute; reflexivity|vm_compute; reflexivity].
Qed.

(* ================================================================== statistics that do not exist *)
(* Model.v totalises x/0 = 0; a subset whose total weight is zero has NO weighted mean / deviation / error
   (the code returns nan).  UndefModel.sigma_clip_u makes this explicit.  A defined outcome is the outcome of
   Model.sigma_clip, and then the initial subset and every later subset whose statistics were used had a
   non-zero total weight — so the theorems above are not true "for the wrong reason" on it ... *)
Theorem C18_sigma_clip_defined : forall x w niter nsig r,
  0 <= nsig -> length (sc_weights x w) = length x ->
  sigma_clip_u x w (Z.to_nat niter) nsig = ScOk r ->
  sigma_clip (V1 x) (match w with Some l => Some (V1 l) | None => None end) niter nsig = Ok r
  /\ stats_defined (sc_weighted w) (index_from 0%Z x (sc_weights x w)) = true
  /\ exists k, (k <= Z.to_nat niter)%nat
       /\ sc_idx r = map p_idx (iterate (clip_step (sc_weighted w) nsig) k (index_from 0%Z x (sc_weights x w)))
       /\ forall j, (j <= k)%nat ->
            stats_defined (sc_weighted w) (iterate (clip_step (sc_weighted w) nsig) j (index_from 0%Z x (sc_weights x w))) = true.
Proof. exact sigma_clip_u_ok. Qed.

(* ... and an undefined outcome reports the index set of the first iterate of the discard rule that has no
   statistics; every earlier iterate had them (the index set is still determined by the rule; the iteration has
   no defined continuation) *)
Theorem C18_sigma_clip_undefined : forall x w niter nsig idx,
  0 <= nsig ->
  sigma_clip_u x w niter nsig = ScUndef idx ->
  let all := index_from 0%Z x (sc_weights x w) in
  let wtd := sc_weighted w in
  exists k, (k <= niter)%nat
    /\ idx = map p_idx (iterate (clip_step wtd nsig) k all)
    /\ stats_defined wtd (iterate (clip_step wtd nsig) k all) = false
    /\ forall j, (j < k)%nat -> stats_defined wtd (iterate (clip_step wtd nsig) j all) = true.
Proof. exact sigma_clip_u_undef. Qed.

Example C18_nonvacuous_undefined :
  (* the survivors of the first round (4 and 6) both have weight zero *)
  sigma_clip_u [0; 4; 6; 10] (Some [1; 0; 0; 1]) 4 (1 # 2) = ScUndef [1; 2]%Z
  (* with niter = 0 that round is never made: defined *)
  /\ (exists r, sigma_clip_u [0; 4; 6; 10] (Some [1; 0; 0; 1]) 0 (1 # 2) = ScOk r /\ sc_idx r = [0; 1; 2; 3]%Z)
  (* all weights zero: undefined from the start *)
  /\ sigma_clip_u [1; 2; 3] (Some [0; 0; 0]) 4 3 = ScUndef [0; 1; 2]%Z
  (* the verdicts: nan with these indices is "undefined statistics" (-2), nan with other indices or finite numbers are 3 *)
  /\ v_sigma_clip_undef false [0; 4; 6; 10] (Some [1; 0; 0; 1]) 4 (1 # 2) [1; 2]%Z = undef
  /\ v_sigma_clip_undef false [0; 4; 6; 10] (Some [1; 0; 0; 1]) 4 (1 # 2) [0; 3]%Z = 3%Z
  /\ sc_guard [0; 4; 6; 10] (Some [1; 0; 0; 1]) 4 (1 # 2) 0%Z = 3%Z
  /\ wmom_undef_cols (M2 [[3; 1]; [4; 2]]) (M2 [[1; 0]; [2; 0]]) = [false; true].
Proof.
  split; [vm_compute; reflexivity|]. split; [eexists; split; vm_compute; reflexivity|].
  split; [vm_compute; reflexivity|]. split; [vm_compute; reflexivity|]. split; [vm_compute; reflexivity|].
  split; vm_compute; reflexivity.
Qed.

(* ================================================================== more of the source text *)
(* the rejection tests and their exception classes as the source has them *)
Theorem C18_gen_rejections :
  (forall x w im ce sd, length w <> length x -> wmom (V1 x) (V1 w) im ce sd = Err gen_wmom_shape_error)
  /\ (forall rows w niter nsig, gen_sc_rejects_ndim 2 = true /\ gen_sc_rejects_ndim 1 = false
        /\ sigma_clip (M2 rows) w niter nsig = Err gen_sc_ndim_error)
  /\ (forall x w niter nsig,
        sigma_clip (V1 x) (Some (V1 w)) niter nsig =
        if gen_sc_rejects_size (Z.of_nat (length w)) (Z.of_nat (length x)) then Err gen_sc_size_error
        else sigma_clip (V1 x) (Some (V1 w)) niter nsig)
  /\ (forall cov i, rect cov (length cov) = true -> (i < length cov)%nat -> gen_cov_diag_bad (mget cov i i) = true ->
        cov2cor cov = Err gen_cov_diag_error).
Proof. exact gen_rejections. Qed.

(* positions of mean / error / deviation / indices in every return statement and every unpacking *)
Theorem C18_gen_result_orders :
  gen_wmom_return_sdev = [SMean; SErr; SStd] /\ gen_wmom_return = [SMean; SErr]
  /\ gen_scstats_unpack = gen_wmom_return_sdev /\ gen_scstats_return = [SMean; SErr; SStd]
  /\ gen_sc_return_full = [SMean; SStd; SErr; SIdx]
  /\ gen_gs_clip_unpack = firstn 3 gen_sc_return_full
  /\ gen_gs_wmom_unpack = gen_wmom_return_sdev.
Proof. exact gen_result_orders. Qed.

(* numpy's argsort contract for the model's sort: a permutation of the input, sorted by value *)
Theorem C18_argsort_contract : forall l,
  Permutation.Permutation l (isort_p l) /\ Sorted.StronglySorted fle (isort_p l).
Proof. intro l. split; [apply isort_perm|apply isort_sorted]. Qed.
