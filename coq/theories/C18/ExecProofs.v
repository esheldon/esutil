(* C18 — what the verdicts of Exec.v_sigma_clip mean.  In particular the distinguished verdict 12
   (class C18.kf_everything_clipped, a known finding) is returned ONLY for an output that is exactly
   what the code-faithful statement allows — the last non-empty subset, reported with ITS indices
   and ITS statistics — on an input of the class.  Any other output on an input of the class
   (e.g. empty indices with the statistics of the previous subset) gets verdict 3: a violation
   outside every known class. *)
From Coq Require Import QArith.
From EsVerif.Common Require Import Base.
From EsVerif.C18 Require Import Model Spec SpecTol SpecStrict TolSound Exec.
Open Scope Q_scope.

Lemma v_sigma_clip_verdicts x w niter nsig m s e idx :
  let all := index_from 0%Z x (sc_weights x w) in
  let wtd := sc_weighted w in
  let v := v_sigma_clip x w niter nsig (Ok (m, s, e, idx)) in
  (v = 12%Z -> 0 <= nsig /\ kf_everything_clipped wtd nsig (Z.to_nat niter) all = true
               /\ sigma_clip_ok wtd nsig (Z.to_nat niter) all m s e idx)
  /\ (v = 0%Z -> 0 <= nsig /\ sigma_clip_strict_ok wtd nsig (Z.to_nat niter) all m s e idx)
  /\ (v = 0%Z \/ v = 12%Z \/ v = skip \/ v = 1%Z \/ v = 3%Z).
Proof.
  (* the tests of v_sigma_clip in their order; a branch whose verdict is neither 12 nor 0 refutes both
     premises (discriminate) and is in the list *)
  intros all wtd v. subst v. unfold v_sigma_clip.
  set (wf := Nat.eqb (length (sc_weights x w)) (length x) && negb (Nat.eqb (length x) 0) && Qle_bool 0 nsig).
  destruct wf eqn:W; cbn [andb].
  2: destruct (sigma_clip (V1 x) (opt_v1 w) niter nsig); repeat split; try discriminate; auto 6.
  assert (Hn : 0 <= nsig).
  { unfold wf in W. apply andb_true_iff in W as [_ W]. apply Qle_bool_iff, W. }
  destruct (sc_borderline x w (Z.to_nat niter) nsig); [unfold skip; repeat split; try discriminate; auto 6|].
  fold all. fold wtd.
  destruct (sigma_clip_check wtd nsig (Z.to_nat niter) all m s e idx) eqn:C;
    [|repeat split; try discriminate; auto 6].
  destruct (kf_everything_clipped wtd nsig (Z.to_nat niter) all) eqn:K;
    (split; [|split]); try discriminate; auto 6; intros _; (split; [exact Hn|]).
  - split; [reflexivity|]. apply sigma_clip_check_sound; assumption.
  - apply sigma_clip_strict_check_sound; [exact Hn|].
    unfold sigma_clip_strict_check. rewrite C, K. reflexivity.
Qed.

(* the float32-precision variant: same meaning at eps *)
Lemma v_sigma_clip_e_verdicts eps x w niter nsig m s e idx :
  let all := index_from 0%Z x (sc_weights x w) in
  let wtd := sc_weighted w in
  let v := v_sigma_clip_e eps x w niter nsig (Ok (m, s, e, idx)) in
  (v = 12%Z -> 0 <= nsig /\ kf_everything_clipped wtd nsig (Z.to_nat niter) all = true
               /\ sigma_clip_ok_e eps wtd nsig (Z.to_nat niter) all m s e idx)
  /\ (v = 0%Z -> 0 <= nsig /\ kf_everything_clipped wtd nsig (Z.to_nat niter) all = false
                /\ sigma_clip_ok_e eps wtd nsig (Z.to_nat niter) all m s e idx).
Proof.
  intros all wtd v. subst v. unfold v_sigma_clip_e.
  set (wf := Nat.eqb (length (sc_weights x w)) (length x) && negb (Nat.eqb (length x) 0) && Qle_bool 0 nsig).
  fold all. fold wtd.
  destruct wf eqn:W; cbn [andb]; [|split; discriminate].
  assert (Hn : 0 <= nsig).
  { unfold wf in W. apply andb_true_iff in W as [_ W]. apply Qle_bool_iff, W. }
  destruct (sc_border_e eps (Z.to_nat niter) wtd nsig all (sc_stats wtd all)); [unfold skip; split; discriminate|].
  destruct (sigma_clip_check_e eps wtd nsig (Z.to_nat niter) all m s e idx) eqn:C; [|split; discriminate].
  destruct (kf_everything_clipped wtd nsig (Z.to_nat niter) all) eqn:K;
    split; try discriminate; intros _; (split; [exact Hn|]); (split; [reflexivity|]);
    apply sigma_clip_check_e_sound; assumption.
Qed.

(* a concrete instance of what is NOT hidden: on the class input x = [-1, 1], nsig = 1/2 the
   faithful output gets 12, the output "empty indices, statistics of the previous subset" gets 3 *)
Lemma known_class_hides_only_faithful :
  v_sigma_clip [-1; 1] None 4 (1 # 2) (Ok (0, 1, 7071067811865475 # 10000000000000000, [0; 1]%Z)) = 12%Z
  /\ v_sigma_clip [-1; 1] None 4 (1 # 2) (Ok (0, 1, 7071067811865475 # 10000000000000000, [])) = 3%Z.
Proof. split; vm_compute; reflexivity. Qed.
