(* C18 — linear interpolation: inside the table the searchsorted-based code evaluates the chord of
   the bracketing segment (at nodes exactly the node value); outside it extends the first / last
   segment. *)
From Coq Require Import QArith Lqa.
From EsVerif.Common Require Import Base.
From EsVerif.C18 Require Import Model Spec QLemmas.
Open Scope Q_scope.

Definition cnt (x : list Q) (u : Q) : nat := length (filter (fun xi => Qlt_bool xi u) x).

Lemma incr_tail a t : incr (a :: t) -> incr t.
Proof. simpl. tauto. Qed.

Lemma incr_head t : forall a, incr (a :: t) -> forall y, In y t -> a < y.
Proof.
  induction t as [|b t IH]; intros a H y Hy; [destruct Hy|].
  destruct H as [Hab Ht]. destruct Hy as [E|I]; [subst y; exact Hab|].
  specialize (IH b Ht y I). lra.
Qed.

Lemma incr_lt x : incr x -> forall i j, (i < j)%nat -> (j < length x)%nat -> nth i x 0 < nth j x 0.
Proof.
  induction x as [|a t IH]; intros H i j Hij Hj; simpl in Hj; [lia|].
  destruct j as [|j]; [lia|]. destruct i as [|i]; simpl.
  - apply (incr_head t a H). apply nth_In. lia.
  - apply IH; [eapply incr_tail; exact H|lia|lia].
Qed.

Lemma incr_b_sound x : incr_b x = true -> incr x.
Proof.
  induction x as [|a t IH]; simpl; intro H; [exact I|].
  apply andb_true_iff in H as [H1 H2]. split; [|apply IH, H2].
  destruct t as [|b t]; [exact I|]. apply Qlt_bool_iff, H1.
Qed.

(* numpy's contract for a.searchsorted(v) (side='left') on a sorted table:
   a[i-1] < v <= a[i].  The model's count of smaller elements satisfies it. *)
Lemma filter_lt_nil t a u :
  (forall y, In y t -> a < y) -> u <= a -> filter (fun xi => Qlt_bool xi u) t = [].
Proof.
  induction t as [|b t IH]; simpl; intros H Hu; [reflexivity|].
  assert (a < b) by (apply H; left; reflexivity).
  assert (F : Qlt_bool b u = false) by (apply Qlt_bool_false; lra). rewrite F.
  apply IH; [intros; apply H; right; assumption|exact Hu].
Qed.

Lemma searchsorted_contract x u :
  incr x ->
  let k := cnt x u in
  (k <= length x)%nat
  /\ (forall i, (i < k)%nat -> nth i x 0 < u)
  /\ (forall i, (k <= i)%nat -> (i < length x)%nat -> u <= nth i x 0).
Proof.
  unfold cnt. induction x as [|a t IH]; intro Hi.
  - simpl. split; [lia|]. split; intros; exfalso; simpl in *; lia.
  - pose proof (incr_tail a t Hi) as Ht. specialize (IH Ht). cbv zeta in IH. destruct IH as [L [Lt Ge]].
    cbv zeta. cbn [filter]. destruct (Qlt_bool a u) eqn:E.
    + cbn [length]. split; [lia|]. split.
      * intros [|i] H; [apply Qlt_bool_iff, E|cbn [nth]; apply Lt; lia].
      * intros [|i] H1 H2; [lia|cbn [nth]; apply Ge; lia].
    + apply Qlt_bool_false in E.
      assert (Z : filter (fun xi => Qlt_bool xi u) t = [])
        by (apply (filter_lt_nil t a u); [apply (incr_head t a Hi)|exact E]).
      rewrite Z. cbn [length]. split; [lia|]. split; [intros i H; lia|].
      intros [|i] _ H2; [exact E|]. cbn [nth]. cbn [length] in H2.
      assert (a < nth i t 0) by (apply (incr_head t a Hi); apply nth_In; lia). lra.
Qed.

(* hence, on a strictly increasing table, position k is counted iff its node is below u *)
Lemma cnt_lt_iff x u k : incr x -> (k < length x)%nat -> ((k < cnt x u)%nat <-> nth k x 0 < u).
Proof.
  intros Hi Hk. destruct (searchsorted_contract x u Hi) as [_ [Lt Ge]]. split; [apply Lt|].
  intro H. destruct (Nat.lt_ge_cases k (cnt x u)) as [C|C]; [exact C|]. specialize (Ge k C Hk). lra.
Qed.

Definition idx_of_cnt (n c : Z) : Z :=
  let xm := (c - 1)%Z in
  let xm := if (xm >=? n - 1)%Z then (n - 2)%Z else xm in
  if (xm <? 0)%Z then 0%Z else xm.

Lemma interp_index_cnt x u : interp_index x u = idx_of_cnt (Z.of_nat (length x)) (Z.of_nat (cnt x u)).
Proof. reflexivity. Qed.

Lemma idx_of_cnt_val n c : (2 <= n)%Z -> (0 <= c <= n)%Z ->
  idx_of_cnt n c = Z.max 0 (Z.min (c - 1) (n - 2)).
Proof.
  intros Hn Hc. unfold idx_of_cnt. rewrite Z.geb_leb.
  destruct (Z.leb_spec (n - 1) (c - 1)); [destruct (Z.ltb_spec (n - 2) 0)|destruct (Z.ltb_spec (c - 1) 0)]; lia.
Qed.

Lemma interp1_index v x u k :
  (2 <= length x)%nat -> (cnt x u <= length x)%nat ->
  Z.to_nat (Z.max 0 (Z.min (Z.of_nat (cnt x u) - 1) (Z.of_nat (length x) - 2))) = k ->
  interp1 v x u = seg v x k u.
Proof.
  intros Hn Hc Hk. unfold interp1. rewrite interp_index_cnt, idx_of_cnt_val by lia.
  rewrite Hk. reflexivity.
Qed.

Lemma cnt_le x u : (cnt x u <= length x)%nat.
Proof. unfold cnt. apply filter_len_le. Qed.

Lemma seg_chord v x k u : nth k x 0 < nth (S k) x 0 -> seg v x k u == chord v x k u.
Proof. intro H. unfold seg, line, chord. field. intro E. lra. Qed.

Section Table.
  Variables v x : list Q.
  Hypothesis Hincr : incr x.
  Hypothesis Hn : (2 <= length x)%nat.

  (* strictly between two neighbouring nodes, or at the right one *)
  Lemma interp1_open k u :
    (S k < length x)%nat -> nth k x 0 < u -> u <= nth (S k) x 0 -> interp1 v x u == chord v x k u.
  Proof.
    intros Hk Ha Hb.
    assert (C : cnt x u = S k).
    { apply (cnt_lt_iff x u k Hincr) in Ha; [|lia].
      assert (~ (S k < cnt x u)%nat) by (rewrite (cnt_lt_iff x u (S k) Hincr Hk); lra). lia. }
    rewrite (interp1_index v x u k Hn (cnt_le x u)) by (rewrite C; lia).
    apply seg_chord. apply incr_lt; [exact Hincr|lia|lia].
  Qed.

  Lemma chord_left k : chord v x k (nth k x 0) == nth k v 0.
  Proof. unfold chord, Qdiv. ring. Qed.

  Lemma chord_right k : nth k x 0 < nth (S k) x 0 -> chord v x k (nth (S k) x 0) == nth (S k) v 0.
  Proof. intro H. unfold chord. field. intro E. lra. Qed.

  (* exactly at a node: the node's value (the first node starts its segment, every other ends one) *)
  Lemma interp1_node k u :
    (k < length x)%nat -> u == nth k x 0 -> interp1 v x u == nth k v 0.
  Proof.
    intros Hk Hu. destruct k as [|k].
    - assert (N : ~ (0 < cnt x u)%nat) by (rewrite (cnt_lt_iff x u O Hincr Hk); lra).
      rewrite (interp1_index v x u O Hn (cnt_le x u)) by lia.
      unfold seg, line, Qdiv. rewrite Hu. ring.
    - assert (L : nth k x 0 < nth (S k) x 0) by (apply incr_lt; [exact Hincr|lia|lia]).
      rewrite (interp1_open k u Hk) by lra.
      transitivity (chord v x k (nth (S k) x 0)); [unfold chord; rewrite Hu; reflexivity|].
      apply chord_right, L.
  Qed.

  (* inside the table: the chord of ANY segment that contains u *)
  Lemma interp1_piecewise k u :
    (S k < length x)%nat -> nth k x 0 <= u <= nth (S k) x 0 -> interp1 v x u == chord v x k u.
  Proof.
    intros Hk [Ha Hb]. destruct (Qlt_le_dec (nth k x 0) u) as [L|L].
    - apply interp1_open; assumption.
    - assert (Hu : u == nth k x 0) by lra.
      rewrite (interp1_node k u) by (try lia; exact Hu).
      unfold chord. rewrite Hu. unfold Qdiv. ring.
  Qed.

  (* below the first node: the first segment's line *)
  Lemma interp1_below u : u < nth 0 x 0 -> interp1 v x u == chord v x 0 u.
  Proof.
    intro Hu.
    assert (N : ~ (0 < cnt x u)%nat) by (rewrite (cnt_lt_iff x u O Hincr) by lia; lra).
    rewrite (interp1_index v x u O Hn (cnt_le x u)) by lia.
    apply seg_chord. apply incr_lt; [exact Hincr|lia|lia].
  Qed.

  (* above the last node: the last segment's line *)
  Lemma interp1_above u : nth (length x - 1) x 0 < u -> interp1 v x u == chord v x (length x - 2) u.
  Proof.
    intro Hu. apply (cnt_lt_iff x u (length x - 1) Hincr) in Hu; [|lia]. pose proof (cnt_le x u).
    rewrite (interp1_index v x u (length x - 2) Hn (cnt_le x u)) by lia.
    apply seg_chord. apply incr_lt; [exact Hincr|lia|lia].
  Qed.
End Table.

Lemma interplin_total v x u :
  (2 <= length x)%nat -> (length x <= length v)%nat -> interplin v x u = Ok (map (interp1 v x) u).
Proof.
  intros H1 H2. unfold interplin. destruct u as [|a u]; [reflexivity|].
  assert (E1 : (length x <? 2)%nat = false) by (apply Nat.ltb_ge; lia).
  assert (E2 : (length v <? length x)%nat = false) by (apply Nat.ltb_ge; lia).
  rewrite E1, E2. reflexivity.
Qed.

Lemma interplin_short_table v x u :
  u <> [] -> (length x < 2)%nat -> interplin v x u = Err EIndex.
Proof.
  intros NE H. unfold interplin. destruct u; [congruence|].
  assert (E1 : (length x <? 2)%nat = true) by (apply Nat.ltb_lt; lia). rewrite E1. reflexivity.
Qed.

