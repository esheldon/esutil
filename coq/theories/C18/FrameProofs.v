(* C18 — independence of call history, and the frame of sigma_clip's reported indices. *)
From Coq Require Import QArith Sorted.
From EsVerif.Common Require Import Base.
From EsVerif.C18 Require Import Model Spec ClipProofs ModelKw.
Open Scope Q_scope.

(* one call of one of the eight routines, and what it returns *)
Inductive call :=
| CWmom (arr wts : nd) (im : imean) (calcerr sdev : bool)
| CWmedian (x w : list Q)
| CSigmaClip (arr : nd) (weights : option nd) (niter : Z) (nsig : Q)
| CInterplin (v x u : list Q)
| CGetStats (arr : nd) (weights : option nd) (nsig : option Q) (niter : option Z) (calcerr : option bool)
| CCov2cor (cov : list (list Q))
| CCor2cov (cor : list (list Q)) (d : list Q)
| CBoxcar (x : list Q) (N : Z).

Inductive outcome :=
| OWmom (r : result wmom_out) | OWmedian (r : result Q) | OSigmaClip (r : result sc_out)
| OInterplin (r : result (list Q)) | OGetStats (r : result gstats)
| OCov2cor (r : result (list (list (Q * Q)))) | OCor2cov (r : result (list (list Q))) | OBoxcar (r : result (list Q)).

Definition run (c : call) : outcome :=
  match c with
  | CWmom a w im ce sd => OWmom (wmom a w im ce sd)
  | CWmedian x w => OWmedian (wmedian x w)
  | CSigmaClip a w ni ns => OSigmaClip (sigma_clip a w ni ns)
  | CInterplin v x u => OInterplin (interplin v x u)
  | CGetStats a w ns ni ce => OGetStats (get_stats_kw a w ns ni ce)
  | CCov2cor c => OCov2cor (cov2cor c)
  | CCor2cov c d => OCor2cov (cor2cov c d)
  | CBoxcar x N => OBoxcar (boxcar_average x N)
  end.

(* a process: the state is everything a cache could have kept — all earlier calls *)
Definition step (st : list call) (c : call) : list call * outcome := (c :: st, run c).
Fixpoint run_seq (st : list call) (cs : list call) : list outcome :=
  match cs with
  | [] => []
  | c :: t => let '(st', o) := step st c in o :: run_seq st' t
  end.

Lemma history_independent : forall cs st k c,
  nth_error cs k = Some c -> nth_error (run_seq st cs) k = Some (run c).
Proof.
  induction cs as [|a t IH]; intros st k c H; [destruct k; discriminate|].
  destruct k as [|k]; simpl in *.
  - inversion H; subst. reflexivity.
  - apply IH. exact H.
Qed.

(* the subset consists of input points, untouched, in their original order: the indices are strictly
   increasing positions of the input, and each reported point carries the input's value and weight *)
Lemma index_from_In i x w p :
  In p (index_from i x w) ->
  (i <= p_idx p < i + Z.of_nat (length x))%Z
  /\ p_x p = nth (Z.to_nat (p_idx p - i)) x 0 /\ p_w p = nth (Z.to_nat (p_idx p - i)) w 0.
Proof.
  revert i w; induction x as [|a x IH]; intros i [|b w] H; simpl in H; try contradiction.
  destruct H as [H|H].
  - subst p. unfold p_idx, p_x, p_w. cbn [fst snd length]. rewrite Z.sub_diag. simpl. repeat split; lia.
  - apply IH in H. destruct H as [R [Hx Hw]]. cbn [length]. split; [lia|].
    replace (Z.to_nat (p_idx p - i)) with (S (Z.to_nat (p_idx p - (i + 1)))) by lia.
    cbn [nth]. split; assumption.
Qed.

Lemma index_from_sorted i x w : StronglySorted Z.lt (map p_idx (index_from i x w)).
Proof.
  revert i w; induction x as [|a x IH]; intros i [|b w]; simpl; try constructor.
  - apply IH.
  - apply Forall_forall. intros j Hj. apply in_map_iff in Hj. destruct Hj as [p [E Hp]]. subst j.
    apply index_from_In in Hp. destruct Hp as [Hp _]. unfold p_idx in *. cbn [fst] in *. lia.
Qed.

Lemma sorted_filter_idx (f : pt -> bool) l :
  StronglySorted Z.lt (map p_idx l) -> StronglySorted Z.lt (map p_idx (filter f l)).
Proof.
  induction l as [|a l IH]; simpl; intro H; [constructor|].
  inversion H as [|? ? Hs Hf]; subst. destruct (f a); simpl; [|apply IH, Hs].
  constructor; [apply IH, Hs|]. apply Forall_forall. intros j Hj. rewrite Forall_forall in Hf. apply Hf.
  apply in_map_iff in Hj. destruct Hj as [p [E Hp]]. apply in_map_iff. exists p. split; [exact E|].
  apply filter_In in Hp. tauto.
Qed.

Lemma iterate_sorted weighted nsig k : forall cur,
  StronglySorted Z.lt (map p_idx cur) -> StronglySorted Z.lt (map p_idx (iterate (clip_step weighted nsig) k cur)).
Proof.
  induction k as [|k IH]; intros cur H; [exact H|].
  rewrite iterate_S. apply IH. unfold clip_step. destruct (stat_def weighted cur) as [[m e] v].
  apply sorted_filter_idx, H.
Qed.

Lemma sigma_clip_indices_frame x weights niter nsig :
  0 <= nsig -> length (sc_weights x weights) = length x ->
  exists r sub,
    sigma_clip (V1 x) (match weights with Some w => Some (V1 w) | None => None end) niter nsig = Ok r
    /\ sc_idx r = map p_idx sub
    /\ StronglySorted Z.lt (sc_idx r)
    /\ forall p, In p sub ->
         (0 <= p_idx p < Z.of_nat (length x))%Z
         /\ p_x p = nth (Z.to_nat (p_idx p)) x 0
         /\ p_w p = nth (Z.to_nat (p_idx p)) (sc_weights x weights) 0.
Proof.
  intros Hn L. destruct (sigma_clip_spec x weights niter nsig Hn L) as [r [sub [E [Hi [Hin [Hf _]]]]]].
  exists r, sub. split; [exact E|]. split; [exact Hi|]. split.
  - rewrite Hi. destruct Hf as [k [_ [Ek _]]]. rewrite Ek. apply iterate_sorted, index_from_sorted.
  - intros p Hp. apply Hin in Hp. apply index_from_In in Hp. rewrite Z.sub_0_r in Hp. simpl in Hp. exact Hp.
Qed.
