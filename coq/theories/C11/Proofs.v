(* C11 -- what the model files' definitions do, over an abstract number type and over R: the facts the property
   theorems of Properties.v and the certificate of Cert.v rest on. *)
From Coq Require Import Reals Lra Lia QArith Qabs.
From Coquelicot Require Import Coquelicot.
From EsVerif.Common Require Import Base.
From EsVerif.C11 Require Import Gen Model Spec.

Section ParamsProofs.
  Context {num : Type}.
  Variables (zero one h_scale clight : num) (sub mul div : num -> num -> num) (is_zero : num -> bool).

  Notation extract := (extract_parms zero one sub is_zero).
  Notation mk := (construct zero one h_scale clight sub mul div is_zero).
  Notation cp := (copy zero one h_scale clight sub mul div is_zero).
  Notation unp := (unpickle zero one h_scale clight sub mul div is_zero).
  Notation chain := (clone_chain zero one h_scale clight sub mul div is_zero).
  Notation clone := (apply_op zero one h_scale clight sub mul div is_zero).

  (* flat forces omega_k = 0 and omega_l = 1 - omega_m; omega_m is never touched *)
  Lemma extract_normalised om ol ok flat :
    let '(f, om', ol', ok') := extract om ol ok flat in
    om' = om /\ (f = true -> ok' = zero /\ ol' = sub one om') /\
    (f = false -> exists k, ok = Some k /\ is_zero k = false /\ ok' = k /\ ol' = ol).
  Proof.
    unfold extract_parms. destruct ok as [k|].
    - destruct (is_zero k) eqn:Ez; cbn.
      + split; [reflexivity|]. split; [intros _; split; reflexivity | intro D; discriminate D].
      + split; [reflexivity|]. split; [intro D; discriminate D|].
        intros _. exists k. repeat split; assumption.
    - cbn. split; [reflexivity|]. split; [intros _; split; reflexivity | intro D; discriminate D].
  Qed.

  (* flat is decided by omega_k alone when it is given, and is forced when it is not *)
  Lemma extract_flat_flag om ol ok flat :
    fst (fst (fst (extract om ol ok flat))) =
    match ok with Some k => is_zero k | None => true end.
  Proof. unfold extract_parms. destruct ok as [k|]; [destruct (is_zero k)|]; reflexivity. Qed.

  Notation H0_of a := (match a_h a with Some h => mul h_scale h | None => a_H0 a end).

  (* [construct] once the outcome of its normalisation has a name *)
  Lemma construct_eq a f om ol ok : extract (a_om a) (a_ol a) (a_ok a) (a_flat a) = (f, om, ol, ok) ->
    mk a = mkObj (a_flat a) (a_om a) (a_ol a) (a_ok a) (H0_of a) (div clight (H0_of a)) f om ol ok.
  Proof. unfold construct. intros ->. reflexivity. Qed.

  (* the remembered inputs are those of [a], with h already folded into H0 *)
  Lemma copy_construct a : cp (mk a) = mk a.
  Proof.
    destruct (extract (a_om a) (a_ol a) (a_ok a) (a_flat a)) as [[[f om'] ol'] ok'] eqn:E.
    unfold copy. rewrite (construct_eq a _ _ _ _ E). rewrite (construct_eq (stored_args _) f om' ol' ok') by exact E. reflexivity.
  Qed.

  Hypothesis zero_is_zero : is_zero zero = true.

  (* normalising what a normalisation returned changes nothing *)
  Lemma extract_idem om ol ok flat f om' ol' ok' :
    extract om ol ok flat = (f, om', ol', ok') -> extract om' ol' (Some ok') f = (f, om', ol', ok').
  Proof.
    unfold extract_parms. destruct ok as [k|]; [destruct (is_zero k) eqn:Z|]; cbn; intros [= <- <- <- <-].
    - (* omega_k == 0 was given: the second pass is handed [Some zero] *)
      rewrite zero_is_zero. reflexivity.
    - (* a non-zero omega_k is passed through, and [is_zero] answers as before *)
      rewrite Z. reflexivity.
    - (* none given: omega_k was set to zero *)
      rewrite zero_is_zero. reflexivity.
  Qed.

  Lemma reduce_roundtrip_extract a :
    let o := mk a in
    extract (c_om o) (c_ol o) (Some (c_ok o)) (c_flat o) = (c_flat o, c_om o, c_ol o, c_ok o).
  Proof.
    destruct (extract (a_om a) (a_ol a) (a_ok a) (a_flat a)) as [[[f om'] ol'] ok'] eqn:E.
    cbv zeta. rewrite (construct_eq a _ _ _ _ E). exact (extract_idem _ _ _ _ _ _ _ _ E).
  Qed.

  Lemma unpickle_construct a : reported (unp (mk a)) = reported (mk a).
  Proof.
    destruct (extract (a_om a) (a_ol a) (a_ok a) (a_flat a)) as [[[f om'] ol'] ok'] eqn:E.
    unfold unpickle. rewrite (construct_eq a _ _ _ _ E).
    rewrite (construct_eq (reduce_args _) f om' ol' ok') by exact (extract_idem _ _ _ _ _ _ _ _ E). reflexivity.
  Qed.

  (* a clone of a constructed object is itself a constructor result, and reports the same *)
  Lemma clone_step a op : exists a', clone (mk a) op = mk a' /\ reported (mk a') = reported (mk a).
  Proof.
    destruct op; cbn [apply_op].
    1-3: exists a; split; [apply copy_construct | reflexivity].
    exists (reduce_args (mk a)). split; [reflexivity | apply unpickle_construct].
  Qed.

  Lemma clone_chain_reported ops : forall a, reported (chain a ops) = reported (mk a).
  Proof.
    unfold clone_chain. induction ops as [|op ops IH]; intro a; [reflexivity|].
    cbn [fold_left]. destruct (clone_step a op) as (a' & -> & R). rewrite IH. exact R.
  Qed.
End ParamsProofs.

Lemma map_nth' {C D} (g : C -> D) l : forall i d e, (i < length l)%nat -> nth i (map g l) e = g (nth i l d).
Proof.
  induction l as [|x l IH]; intros i d e L; simpl in *; [lia|].
  destruct i; [reflexivity|]. apply IH; lia.
Qed.

(* [two_vec] is the map over the zipped lists (both stop with the shorter list) *)
Lemma two_vec_combine {A B} (f : A -> A -> B) xs : forall ys,
  two_vec f xs ys = map (fun p => f (fst p) (snd p)) (combine xs ys).
Proof. induction xs as [|x xs IH]; intros [|y ys]; cbn; try reflexivity. f_equal. apply IH. Qed.

Lemma nth_repeat' {T} (y : T) n i d : (i < n)%nat -> nth i (repeat y n) d = y.
Proof. revert i; induction n as [|n IH]; intros [|i] L; simpl; try lia; auto. apply IH; lia. Qed.

Lemma pointwise2_b_iff f : forall xs ys l, pointwise2_b f xs ys l = true <->
  length l = length xs /\ length xs = length ys /\
  forall i d e, (i < length xs)%nat -> nth i l e = f (nth i xs d) (nth i ys d).
Proof.
  (* lists of different lengths go at once: the checker answers false and the lengths disagree *)
  induction xs as [|x xs IH]; intros [|y ys] [|v l]; cbn [pointwise2_b length];
    try (split; [discriminate | intros (L1 & L2 & _); discriminate]).
  - split; [|reflexivity]. intros _. repeat split. intros i d e L. inversion L.
  - rewrite andb_true_iff, Z.eqb_eq, IH. split.
    + intros (-> & L1 & L2 & N). repeat split; try (f_equal; assumption).
      intros [|i] d e L; [reflexivity|]. apply N. lia.
    + intros (L1 & L2 & N). split; [apply (N 0%nat 0%Z 0%Z); lia|].
      repeat split; try lia. intros i d e L. apply (N (S i) d e). lia.
Qed.

Lemma pointwise1_b_iff g : forall xs l, pointwise1_b g xs l = true <->
  length l = length xs /\ forall i d e, (i < length xs)%nat -> nth i l e = g (nth i xs d).
Proof.
  (* lists of different lengths go at once, as in [pointwise2_b_iff] *)
  induction xs as [|x xs IH]; intros [|v l]; cbn [pointwise1_b length];
    try (split; [discriminate | intros (L & _); discriminate]).
  - split; [|reflexivity]. intros _. split; [reflexivity|]. intros i d e L. inversion L.
  - rewrite andb_true_iff, Z.eqb_eq, IH. split.
    + intros (-> & L & N). split; [f_equal; assumption|]. intros [|i] d e Li; [reflexivity|]. apply N. lia.
    + intros (L & N). split; [apply (N 0%nat 0%Z 0%Z); lia|].
      split; [lia|]. intros i d e Li. apply (N (S i) d e). lia.
Qed.

(* a scalar argument is checked as the list that repeats it *)
Lemma pointwise2_b_repeat_r f xs y : forall l,
  pointwise2_b f xs (repeat y (length xs)) l = pointwise1_b (fun x => f x y) xs l.
Proof. induction xs as [|x xs IH]; intros [|v l]; cbn; try reflexivity. rewrite IH. reflexivity. Qed.

Lemma pointwise2_b_repeat_l f x ys : forall l,
  pointwise2_b f (repeat x (length ys)) ys l = pointwise1_b (fun y => f x y) ys l.
Proof. induction ys as [|y ys IH]; intros [|v l]; cbn; try reflexivity. rewrite IH. reflexivity. Qed.

Lemma elementwise2_b_iff f a b out : elementwise2_b f a b out = true <-> elementwise2 f a b out.
Proof.
  (* where the result has another shape than the arguments ask for, the checker answers false and the
     specification names another constructor: these cases go at once *)
  destruct a as [x|xs], b as [y|ys]; cbn [elementwise2_b elementwise2];
    [ | | | destruct (Nat.eqb (length xs) (length ys)) eqn:E];
    destruct out as [[v|l]|e]; cbn [andb negb];
    try (split; [discriminate | first [discriminate | intros (l' & H & _); discriminate H]]).
  - (* scalar, scalar *) rewrite Z.eqb_eq. split; congruence.
  - (* scalar, array *) rewrite pointwise2_b_repeat_l, pointwise1_b_iff. split.
    + intros (L & N). exists l. auto.
    + intros (l' & H & L & N). injection H as <-. auto.
  - (* array, scalar *) rewrite pointwise2_b_repeat_r, pointwise1_b_iff. split.
    + intros (L & N). exists l. auto.
    + intros (l' & H & L & N). injection H as <-. auto.
  - (* arrays of equal length *) apply Nat.eqb_eq in E. rewrite pointwise2_b_iff. split.
    + intros (L & _ & N). exists l. auto.
    + intros (l' & H & L & N). injection H as <-. auto.
  - (* arrays of equal length, an error returned *)
    split; [destruct e; discriminate | intros (l' & H & _); discriminate H].
  - (* arrays of different lengths, an error returned: it must be ValueError *)
    destruct e; split; congruence.
Qed.

Lemma elementwise1_b_iff g a out : elementwise1_b g a out = true <-> elementwise1 g a out.
Proof.
  (* a result of the other shape goes at once, as in [elementwise2_b_iff] *)
  destruct a as [x|xs]; destruct out as [v|l]; cbn;
    try (split; [discriminate | first [discriminate | intros (l' & H & _); discriminate H]]).
  - (* scalar *) rewrite Z.eqb_eq. split; congruence.
  - (* array *) rewrite pointwise1_b_iff. split.
    + intros (L & N). exists l. auto.
    + intros (l' & H & L & N). injection H as <-. auto.
Qed.

Lemma close_b_iff a b : close_b a b = true <-> close_to_rounding a b.
Proof. apply Qle_bool_iff. Qed.

Lemma andb_iff (a b : bool) (P Q : Prop) : (a = true <-> P) -> (b = true <-> Q) -> (a && b = true <-> P /\ Q).
Proof. rewrite andb_true_iff. tauto. Qed.

Lemma identities_b_iff o : identities_b o = true <-> identities o.
Proof.
  unfold identities_b, identities. rewrite <- !andb_assoc.
  apply andb_iff; [apply close_b_iff|]. apply andb_iff; [apply close_b_iff|].
  apply andb_iff; [|apply andb_iff; [apply close_b_iff | apply andb_iff; apply Qeq_bool_iff]].
  (* the conjunct that is asked of flat universes only *)
  destruct (i_flat o); [rewrite close_b_iff; tauto | intuition discriminate].
Qed.

Local Open Scope R_scope.

Definition rsum (l : list R) : R := fold_right Rplus 0 l.

Lemma fold_left_rsum {T} (h : T -> R) l : forall a0, fold_left (fun acc p => acc + h p) l a0 = a0 + rsum (map h l).
Proof. induction l as [|p l IH]; intro a0; simpl; [lra|]. rewrite IH. lra. Qed.

Lemma rsum_app l1 l2 : rsum (l1 ++ l2) = rsum l1 + rsum l2.
Proof. induction l1 as [|x l1 IH]; simpl; [lra|]. rewrite IH. lra. Qed.

Lemma rsum_rev l : rsum (rev l) = rsum l.
Proof. induction l as [|x l IH]; simpl; [reflexivity|]. rewrite rsum_app, IH. simpl. lra. Qed.

Lemma rsum_map_opp {T} (h : T -> R) l : rsum (map (fun p => - h p) l) = - rsum (map h l).
Proof. induction l as [|x l IH]; simpl; [lra|]. rewrite IH. lra. Qed.

Lemma combine_app' {S T} (l1 l1' : list S) (l2 l2' : list T) :
  length l1 = length l2 -> combine (l1 ++ l1') (l2 ++ l2') = combine l1 l2 ++ combine l1' l2'.
Proof.
  revert l2. induction l1 as [|x l1 IH]; intros [|y l2] H; simpl in *; try discriminate; [reflexivity|].
  f_equal. apply IH. lia.
Qed.

Lemma combine_rev' {S T} (l1 : list S) : forall (l2 : list T),
  length l1 = length l2 -> rev (combine l1 l2) = combine (rev l1) (rev l2).
Proof.
  induction l1 as [|x l1 IH]; intros [|y l2] H; simpl in *; try discriminate; [reflexivity|].
  rewrite combine_app' by (rewrite !rev_length; lia). rewrite IH by lia. reflexivity.
Qed.

Lemma gl_sum_as_rsum xs ws g a b :
  gl_sum xs ws g a b =
  rsum (map (fun xw => (b - a) / 2 * g (fst xw * ((b - a) / 2) + (b + a) / 2) * snd xw) (combine xs ws)).
Proof. unfold gl_sum. cbv zeta. rewrite fold_left_rsum. lra. Qed.

Lemma map_combine_opp (h : R * R -> R) xs : forall ws,
  map (fun xw => h (- fst xw, snd xw)) (combine xs ws) = map h (combine (map Ropp xs) ws).
Proof. induction xs as [|x xs IH]; intros [|w ws]; simpl; try reflexivity. f_equal. apply IH. Qed.

(* Dc(a,b) = -Dc(b,a) for every integrand, given a mirror-symmetric table *)
Lemma gl_sum_antisym xs ws g a b : mirror xs ws -> gl_sum xs ws g a b = - gl_sum xs ws g b a.
Proof.
  intros [L [MX MW]]. rewrite !gl_sum_as_rsum.
  set (h := fun xw : R * R => (b - a) / 2 * g (fst xw * ((b - a) / 2) + (b + a) / 2) * snd xw).
  (* the term of the reversed range at node -x is minus the term at x; negating the nodes reverses the table *)
  transitivity (- rsum (map (fun xw => - h (- fst xw, snd xw)) (combine xs ws))).
  2:{ f_equal. f_equal. apply map_ext. intros [x w]. unfold h. cbn [fst snd].
      replace (- x * ((b - a) / 2) + (b + a) / 2) with (x * ((a - b) / 2) + (a + b) / 2) by lra. lra. }
  assert (C : combine (map Ropp xs) ws = rev (combine xs ws)).
  { rewrite combine_rev' by assumption. rewrite MX, MW. reflexivity. }
  rewrite (rsum_map_opp (fun xw => h (- fst xw, snd xw))), Ropp_involutive.
  rewrite (map_combine_opp h), C, map_rev, rsum_rev. reflexivity.
Qed.

Lemma gl_sum_same xs ws g a : gl_sum xs ws g a a = 0.
Proof.
  rewrite gl_sum_as_rsum. replace ((a - a) / 2) with 0 by lra.
  induction (combine xs ws) as [|p l IH]; simpl; [reflexivity|]. rewrite IH. lra.
Qed.

Section ChainProofs.
  Variables (xs ws : list R) (c : cosmoR).

  Lemma Da_Dl_reciprocity z1 z2 : 1 + z2 <> 0 -> Dl_GL xs ws c z1 z2 = Da_GL xs ws c z1 z2 * (1 + z2) ^ 2.
  Proof. intro H. unfold Dl_GL, Da_GL. field. assumption. Qed.

  Lemma scinv_behind zl zs : zl < zs ->
    scinv_GL xs ws c zl zs =
    Da_GL xs ws c zl zs * Da_GL xs ws c 0 zl / Da_GL xs ws c 0 zs * FOUR_PI_G_OVER_C_SQUARED_R.
  Proof. intro H. unfold scinv_GL. destruct (Rle_dec zs zl); [lra|reflexivity]. Qed.
End ChainProofs.

(* curvature of the struct agrees with the sign of omega_k: flat <-> omega_k = 0 *)
Definition curvature_consistent (c : cosmoR) : Prop :=
  (cflat c = true -> cok c = 0) /\ (cflat c = false -> cok c <> 0).

(* no positivity of E^2 is needed: [sqrt] and [/] are total and sqrt (/ x) = / sqrt x for every x *)
Lemma ez_inverse_is_def c z : (cflat c = true -> cok c = 0) -> ez_inverse c z = Einv_def c z.
Proof.
  intro N. unfold ez_inverse, Einv_def, E2. cbv zeta.
  unfold Rdiv. rewrite !Rmult_1_l, !sqrt_inv.
  destruct (cflat c); [rewrite (N eq_refl)|]; f_equal; f_equal; ring.
Qed.

(* Hogg's definitions choose the curvature case by [total_order_T 0 (cok c)]; at omega_k = 0 it is the middle one *)
Lemma total_order_T_0_0 {A} (a b c : A) :
  match total_order_T 0 0 with inleft (left _) => a | inleft (right _) => b | inright _ => c end = b.
Proof. destruct (total_order_T 0 0) as [[L|E]|G]; [lra | reflexivity | lra]. Qed.

(* also used as rewriting lemmas by the per-case accuracy lemmas the check generates (flat universes) *)
Lemma Dm_of_def_flat c d : cok c = 0 -> Dm_of_def c d = d.
Proof. intro K. unfold Dm_of_def. rewrite K. apply total_order_T_0_0. Qed.

Lemma Vcum_of_flat c d : cok c = 0 -> Vcum_of c d = 4 * PI / 3 * d ^ 3.
Proof. intro K. unfold Vcum_of. rewrite K. apply total_order_T_0_0. Qed.

(* the code divides by tcfac = sqrt|Ok|/DH where Hogg multiplies by DH/sqrt|Ok| *)
Lemma over_tcfac (S : R -> R) d s DH : 0 < s -> DH <> 0 -> S (d * (s / DH)) / (s / DH) = DH / s * S (s * d / DH).
Proof. intros Hs HD. replace (d * (s / DH)) with (s * d / DH) by (field; lra). field. split; lra. Qed.

Lemma Dm_of_is_def c d : cDH c <> 0 -> curvature_consistent c -> Dm_of c d = Dm_of_def c d.
Proof.
  intros HD [C1 C2]. unfold Dm_of, tcfac.
  destruct (cflat c) eqn:F.
  - symmetry. apply Dm_of_def_flat, C1. reflexivity.
  - unfold Dm_of_def. specialize (C2 eq_refl).
    destruct (total_order_T 0 (cok c)) as [[L|E]|G]; destruct (Rlt_dec 0 (cok c)); try lra.
    + apply over_tcfac; [apply sqrt_lt_R0|]; assumption.
    + apply over_tcfac; [apply sqrt_lt_R0; lra | assumption].
Qed.

(* Dc needs nothing of the struct *)
Lemma Dc_is_Hogg xs ws c z1 z2 :
  ezinv_integral xs ws c z1 z2 = I_def c z1 z2 -> Dc_GL xs ws c z1 z2 = Dc_def c z1 z2.
Proof. intro E. unfold Dc_GL, Dc_def. rewrite E. reflexivity. Qed.

Section Hogg.
  Variables (xs ws : list R) (c : cosmoR).
  Hypothesis DHnz : cDH c <> 0.
  Hypothesis Hcurv : curvature_consistent c.

  (* IF the quadrature sum were the integral, every distance would be Hogg's *)
  Lemma chain_is_Hogg z1 z2 :
    ezinv_integral xs ws c z1 z2 = I_def c z1 z2 ->
    Dc_GL xs ws c z1 z2 = Dc_def c z1 z2 /\ Dm_GL xs ws c z1 z2 = Dm_def c z1 z2 /\
    Da_GL xs ws c z1 z2 = Da_def c z1 z2 /\ Dl_GL xs ws c z1 z2 = Dl_def c z1 z2.
  Proof.
    intro E.
    pose proof (Dc_is_Hogg xs ws c z1 z2 E) as D.
    assert (M : Dm_GL xs ws c z1 z2 = Dm_def c z1 z2).
    { unfold Dm_GL, Dm_def. rewrite D. apply Dm_of_is_def; assumption. }
    repeat split; try assumption.
    - unfold Da_GL, Da_def. rewrite M. reflexivity.
    - unfold Dl_GL, Dl_def. rewrite M. reflexivity.
  Qed.

  Lemma distmod_is_Hogg z :
    ezinv_integral xs ws c 0 z = I_def c 0 z -> distmod_GL xs ws c z = distmod_def c z.
  Proof.
    intro E. destruct (chain_is_Hogg 0 z E) as [_ [_ [_ L]]].
    unfold distmod_GL, distmod_of, distmod_def, log10. rewrite L.
    replace (10 ^ 6) with 1000000 by (simpl; lra). reflexivity.
  Qed.

  Lemma dV_is_Hogg z : ezinv_integral xs ws c 0 z = I_def c 0 z -> dV_GL xs ws c z = dV_def c z.
  Proof.
    intro E. destruct (chain_is_Hogg 0 z E) as [_ [_ [A _]]].
    unfold dV_GL, dV_def. cbv zeta. rewrite A, (ez_inverse_is_def c z (proj1 Hcurv)). ring.
  Qed.

  Lemma scinv_is_Hogg zl zs :
    FOUR_PI_G_OVER_C_SQUARED_R = FOUR_PI_G_OVER_C2 ->
    ezinv_integral xs ws c zl zs = I_def c zl zs ->
    ezinv_integral xs ws c 0 zl = I_def c 0 zl ->
    ezinv_integral xs ws c 0 zs = I_def c 0 zs ->
    scinv_GL xs ws c zl zs = scinv_def c zl zs.
  Proof.
    intros K E1 E2 E3.
    destruct (chain_is_Hogg _ _ E1) as [_ [_ [A1 _]]].
    destruct (chain_is_Hogg _ _ E2) as [_ [_ [A2 _]]].
    destruct (chain_is_Hogg _ _ E3) as [_ [_ [A3 _]]].
    unfold scinv_GL, scinv_def. rewrite A1, A2, A3, K.
    destruct (Rle_dec zs zl); [reflexivity|]. unfold Rdiv. ring.
  Qed.
End Hogg.

(* V: the outer sum is the VNPTS-point rule applied to 4 pi dV (constant factored out) *)
Lemma V_GL_is_rule xs ws vxs vws c z1 z2 :
  V_GL xs ws vxs vws c z1 z2 = gl_sum vxs vws (fun z => 4 * PI * dV_GL xs ws c z) z1 z2.
Proof.
  unfold V_GL. rewrite !gl_sum_as_rsum.
  induction (combine vxs vws) as [|p l IH]; simpl; [lra|].
  rewrite <- IH. lra.
Qed.

Lemma sinh_minus u v : sinh (u - v) = sinh u * cosh v - cosh u * sinh v.
Proof.
  unfold sinh, cosh. replace (- (u - v)) with (- u + v) by lra. unfold Rminus.
  rewrite !exp_plus. field.
Qed.

Lemma exp_exp_opp u : exp u * exp (- u) = 1.
Proof. rewrite <- exp_plus, Rplus_opp_r. apply exp_0. Qed.

Lemma sqrt_1_sinh2 u : sqrt (1 + 1 * sinh u ^ 2) = cosh u.
Proof.
  replace (1 + 1 * sinh u ^ 2) with (Rsqr (cosh u)).
  - apply sqrt_Rsqr. unfold cosh. pose proof (exp_pos u). pose proof (exp_pos (- u)). lra.
  - unfold Rsqr, cosh, sinh. pose proof (exp_exp_opp u). nra.
Qed.

Lemma sqrt_1_sin2 u : 0 <= cos u -> sqrt (1 + -1 * sin u ^ 2) = cos u.
Proof.
  intro H. replace (1 + -1 * sin u ^ 2) with (Rsqr (cos u)).
  - apply sqrt_Rsqr. assumption.
  - pose proof (sin2_cos2 u) as S. unfold Rsqr in *. lra.
Qed.

(* both curved cases at once: S, C are sinh, cosh with k = 1, or sin, cos with k = -1; s = sqrt|Ok|.  The roots are
   C by Pythagoras, and the difference formula of S does the rest *)
Lemma two_redshift_Hogg19_curved (S C : R -> R) k DH s d1 d2 : 0 < DH -> 0 < s ->
  (forall u v, S (u - v) = S u * C v - C u * S v) ->
  sqrt (1 + k * S (s * d1 / DH) ^ 2) = C (s * d1 / DH) ->
  sqrt (1 + k * S (s * d2 / DH) ^ 2) = C (s * d2 / DH) ->
  let DM1 := DH / s * S (s * d1 / DH) in
  let DM2 := DH / s * S (s * d2 / DH) in
  DH / s * S (s * (d2 - d1) / DH) =
  DM2 * sqrt (1 + k * (s * s) * DM1 ^ 2 / DH ^ 2) - DM1 * sqrt (1 + k * (s * s) * DM2 ^ 2 / DH ^ 2).
Proof.
  intros HD Hs Sub R1 R2 DM1 DM2.
  assert (E : forall d, 1 + k * (s * s) * (DH / s * S (s * d / DH)) ^ 2 / DH ^ 2 = 1 + k * S (s * d / DH) ^ 2).
  { intro d. field. split; lra. }
  unfold DM1, DM2. rewrite !E, R1, R2.
  replace (s * (d2 - d1) / DH) with (s * d2 / DH - s * d1 / DH) by (field; lra).
  rewrite Sub. field. lra.
Qed.

(* the criterion follows from closeness to the Gauss-Legendre model value, whatever the reference:
   |out - ref| <= |gl - ref| + |out - gl| *)
Lemma within_truncation_of_close out ref gl : close12 out gl -> within_truncation out ref gl.
Proof.
  unfold close12. intro H. unfold within_truncation.
  replace (out - ref) with ((out - gl) + (gl - ref)) by lra.
  eapply Rle_trans; [apply Rabs_triang|].
  pose proof (Rabs_pos (gl - ref)). lra.
Qed.

Lemma scinv_def_behind c zl zs : zl < zs ->
  scinv_def c zl zs = FOUR_PI_G_OVER_C2 * Da_def c zl zs * Da_def c 0 zl / Da_def c 0 zs.
Proof. intro H. unfold scinv_def. destruct (Rle_dec zs zl); [lra|reflexivity]. Qed.

Lemma I_def_same c z : I_def c z z = 0.
Proof. unfold I_def. exact (@RInt_point R_CompleteNormedModule z (Einv_def c)). Qed.
