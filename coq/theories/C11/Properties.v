(* C11 -- the property theorems.  The longer arguments are in Proofs.v, ProofsL.v, ProofsV.v and Cert.v. *)
From Coq Require Import Reals ZArith List QArith Lra.
From Coquelicot Require Import Coquelicot.
From EsVerif.Common Require Import Base.
From EsVerif.C11 Require Import Gen Model ModelF Spec Exec Proofs ProofsV ProofsL Cert.
Import ListNotations.

Section Params.
  Context {num : Type}.
  Variables (zero one h_scale clight : num) (sub mul div : num -> num -> num) (is_zero : num -> bool).
  Notation mk := (construct zero one h_scale clight sub mul div is_zero).

  (* flat forces omega_k = 0 and omega_l = 1 - omega_m; omega_m is passed through; flatness is
     decided by omega_k alone when it is given and forced when it is not *)
  Theorem C11_params_normalised : forall a : ctor_args,
    let o := mk a in
    c_om o = a_om a
    /\ (c_flat o = true -> c_ok o = zero /\ c_ol o = sub one (c_om o))
    /\ c_flat o = match a_ok a with Some k => is_zero k | None => true end.
  Proof.
    intro a.
    pose proof (extract_normalised zero one sub is_zero (a_om a) (a_ol a) (a_ok a) (a_flat a)) as N.
    pose proof (extract_flat_flag zero one sub is_zero (a_om a) (a_ol a) (a_ok a) (a_flat a)) as F.
    destruct (extract_parms zero one sub is_zero (a_om a) (a_ol a) (a_ok a) (a_flat a)) as [[[f om'] ol'] ok'] eqn:E.
    cbv zeta. rewrite (construct_eq zero one h_scale clight sub mul div is_zero a _ _ _ _ E).
    destruct N as (N1 & N2 & _). cbn. auto.
  Qed.

  (* h overrides H0: H0 = 100 h, and DH = c / H0 in either case *)
  Theorem C11_h_overrides_H0 : forall a : ctor_args,
    let o := mk a in
    s_H0 o = match a_h a with Some h => mul h_scale h | None => a_H0 a end
    /\ c_DH o = div clight (s_H0 o).
  Proof.
    intro a.
    destruct (extract_parms zero one sub is_zero (a_om a) (a_ol a) (a_ok a) (a_flat a)) as [[[f om'] ol'] ok'] eqn:E.
    cbv zeta. rewrite (construct_eq zero one h_scale clight sub mul div is_zero a _ _ _ _ E). split; reflexivity.
  Qed.

  (* copy(), copy.copy, copy.deepcopy report the same parameters (and hold the same state) *)
  Theorem C11_copy_same_params : forall a : ctor_args,
    reported (copy zero one h_scale clight sub mul div is_zero (mk a)) = reported (mk a).
  Proof. intro a. rewrite copy_construct. reflexivity. Qed.

  Hypothesis zero_is_zero : is_zero zero = true.     (* 0.0 == 0.0 *)

  (* the pickle round trip: extract_parms is idempotent on its own output *)
  Theorem C11_reduce_roundtrip : forall a : ctor_args,
    let o := mk a in
    extract_parms zero one sub is_zero (c_om o) (c_ol o) (Some (c_ok o)) (c_flat o)
      = (c_flat o, c_om o, c_ol o, c_ok o)
    /\ reported (unpickle zero one h_scale clight sub mul div is_zero o) = reported o.
  Proof.
    intro a. split.
    - apply (reduce_roundtrip_extract zero one h_scale clight sub mul div is_zero zero_is_zero).
    - apply (unpickle_construct zero one h_scale clight sub mul div is_zero zero_is_zero).
  Qed.

  (* every object obtained from a constructed one by any sequence of copy / copy.copy /
     copy.deepcopy / pickle round trips reports the parameters of the original *)
  Theorem C11_clones_same_params : forall (a : ctor_args) (ops : list clone_op),
    reported (clone_chain zero one h_scale clight sub mul div is_zero a ops) = reported (mk a).
  Proof. intros a ops. apply (clone_chain_reported zero one h_scale clight sub mul div is_zero zero_is_zero). Qed.

  (* ... and gives the same distances: every observable quantity is a function of the fields of the C struct
     (DH, flat, omega_m, omega_l, omega_k; the Gauss-Legendre tables do not depend on the parameters), so any such
     function -- in particular the bit-exact binary64 chain of ModelF -- takes the same value on the clone *)
  Theorem C11_clones_same_distances : forall (T : Type) (dist : num -> bool -> num -> num -> num -> T)
                                             (a : ctor_args) (ops : list clone_op),
    let o := clone_chain zero one h_scale clight sub mul div is_zero a ops in
    let o0 := mk a in
    dist (c_DH o) (c_flat o) (c_om o) (c_ol o) (c_ok o) = dist (c_DH o0) (c_flat o0) (c_om o0) (c_ol o0) (c_ok o0).
  Proof.
    intros T dist a ops o o0. pose proof (C11_clones_same_params a ops) as R. fold o o0 in R.
    unfold reported in R. injection R as E1 E2 E3 E4 E5 E6. rewrite E2, E3, E4, E5, E6. reflexivity.
  Qed.
End Params.

(* array-valued calls return element for element the scalar results; mismatched lengths are
   rejected with ValueError *)
Theorem C11_dispatch_elementwise : forall (A B : Type) (f : A -> A -> B) (a b : zarg A),
  elementwise2 f a b (dispatch2 f a b).
Proof.
  intros A B f [x|xs] [y|ys]; cbn.
  - reflexivity.
  - exists (vec2 f x ys). split; [reflexivity|]. unfold vec2. split; [apply map_length|].
    intros i d e L. apply (map_nth' (fun y => f x y)); assumption.
  - exists (vec1 f xs y). split; [reflexivity|]. unfold vec1. split; [apply map_length|].
    intros i d e L. apply (map_nth' (fun x => f x y)); assumption.
  - destruct (Nat.eqb (length xs) (length ys)) eqn:E; [|reflexivity].
    apply Nat.eqb_eq in E. exists (two_vec f xs ys). split; [reflexivity|].
    assert (LC : length (combine xs ys) = length xs) by (rewrite combine_length, <- E; apply Nat.min_id).
    rewrite two_vec_combine, map_length. split; [exact LC|]. intros i d e L.
    rewrite (map_nth' _ _ i (d, d)) by (rewrite LC; assumption). rewrite combine_nth by assumption. reflexivity.
Qed.

Theorem C11_dispatch_arrays_are_map : forall (A B : Type) (f : A -> A -> B) xs ys,
  length xs = length ys ->
  dispatch2 f (Ar xs) (Ar ys) = Ok (Ar (map (fun p => f (fst p) (snd p)) (combine xs ys))).
Proof.
  intros A B f xs ys H. cbn. rewrite (proj2 (Nat.eqb_eq _ _) H), two_vec_combine. reflexivity.
Qed.

Theorem C11_dispatch_mismatch_rejected : forall (A B : Type) (f : A -> A -> B) xs ys,
  length xs <> length ys -> dispatch2 f (Ar xs) (Ar ys) = Err EValue.
Proof. intros A B f xs ys H. cbn. apply Nat.eqb_neq in H. rewrite H. reflexivity. Qed.

Theorem C11_dispatch1_elementwise : forall (A B : Type) (g : A -> B) (a : zarg A),
  elementwise1 g a (dispatch1 g a).
Proof.
  intros A B g [x|xs]; cbn; [reflexivity|].
  exists (map g xs). split; [reflexivity|]. split; [apply map_length|].
  intros i d e L. apply map_nth'; assumption.
Qed.

Theorem C11_distmod_elementwise : forall (A B C : Type) (dl : A -> A -> B) (post : B -> C) zero z,
  distmod_dispatch dl post zero z = Ok (dispatch1 (fun x => post (dl zero x)) z).
Proof.
  intros. unfold distmod_dispatch. destruct z as [x|xs]; cbn; [reflexivity|].
  unfold vec2. rewrite map_map. reflexivity.
Qed.

(* The vector entry points of cosmolib_pywrap.c are loops `for (i=0;i<n;i++) res[i] = f(a or a[i], b or b[i])` over a
   zero-initialised array.  Modelled as such (sequential writes with set_nth), the loop puts f at its own index into every
   slot and writes nothing else ... *)
Theorem C11_c_loop_slots : forall (B : Type) (zero : B) (body : nat -> B) n,
  length (c_loop n 0 body (repeat zero n)) = n /\
  forall i d, (i < n)%nat -> nth i (c_loop n 0 body (repeat zero n)) d = body i.
Proof.
  intros B zero body n. rewrite c_loop_is_map, map_length, seq_length. split; [reflexivity|].
  intros i d L. rewrite (nth_indep _ d (body 0%nat)) by (rewrite map_length, seq_length; assumption).
  rewrite map_nth, seq_nth by assumption. reflexivity.
Qed.

(* ... hence the Python dispatch with the three C wrappers plugged in (flags regenerated from the C source, Gen.WRAP_...)
   IS the element-wise model dispatch2 of C11_dispatch_elementwise, for every argument shape *)
Theorem C11_vector_loops_are_elementwise : forall (A B : Type) (d : A) (zero : B) (f : A -> A -> B) (a b : zarg A),
  dispatch2_c d zero W_vec1 W_vec2 W_2vec f a b = dispatch2 f a b.
Proof.
  intros A B d zero f [x|xs] [y|ys]; cbn [dispatch2_c dispatch2]; try reflexivity.
  - rewrite wrapper_vec2. reflexivity.
  - rewrite wrapper_vec1. reflexivity.
  - destruct (Nat.eqb (length xs) (length ys)) eqn:E; [|reflexivity].
    apply Nat.eqb_eq in E. rewrite wrapper_2vec by assumption. reflexivity.
Qed.

Theorem C11_vector_loop1_is_map : forall (A B : Type) (d : A) (zero : B) (g : A -> B) xs,
  run_wrapper1 d zero g xs = map g xs.
Proof. intros. unfold run_wrapper1. rewrite c_loop_is_map. apply map_nth_seq. Qed.

(* a wrapper that sizes the loop by the wrong array or reads an argument through a stale / wrong slot is NOT element-wise *)
Example C11_wrong_wrapper_differs :
  run_wrapper 0%Z 0%Z (mkW KIndexed KIndexed false) Z.add (Ar [1; 2]%Z) (Ar [10; 20; 30]%Z) <> two_vec Z.add [1; 2]%Z [10; 20; 30]%Z
  /\ run_wrapper 0%Z 0%Z (mkW KScalar KIndexed true) Z.add (Ar [1; 2]%Z) (Ar [10; 20]%Z) <> two_vec Z.add [1; 2]%Z [10; 20]%Z.
Proof. split; vm_compute; intro H; discriminate H. Qed.

(* exactly which calls are rejected, and with which error class *)
Theorem C11_dispatch_rejects_exactly : forall (A B : Type) (f : A -> A -> B) (a b : zarg A) e,
  dispatch2 f a b = Err e <-> exists xs ys, a = Ar xs /\ b = Ar ys /\ length xs <> length ys /\ e = EValue.
Proof.
  intros A B f a b e. split.
  - destruct a as [x|xs], b as [y|ys]; cbn; try discriminate.
    destruct (Nat.eqb (length xs) (length ys)) eqn:E; [discriminate|].
    intro H. injection H as <-. exists xs, ys. apply Nat.eqb_neq in E. auto.
  - intros (xs & ys & -> & -> & N & ->). cbn. apply Nat.eqb_neq in N. rewrite N. reflexivity.
Qed.

(* the boolean checkers evaluated on the implementation's outputs are complete as well as sound: they decide the property *)
Theorem C11_checkers_complete :
  (forall o, identities o -> identities_b o = true)
  /\ (forall f a b out, elementwise2 f a b out -> elementwise2_b f a b out = true)
  /\ (forall g a out, elementwise1 g a out -> elementwise1_b g a out = true).
Proof.
  split; [intro o; apply identities_b_iff|].
  split; [intros f a b out; apply elementwise2_b_iff | intros g a out; apply elementwise1_b_iff].
Qed.

(* A process holding several cosmologies (new / clone / re-initialise / drop / any method call).  The model's answers do not
   depend on the history: a step leaves every handle it does not target unchanged, a new object is the same whatever was built
   before, and whatever a method returns on a handle is unchanged by any steps that do not re-initialise or drop that handle. *)
Section History.
  Context {num : Type}.
  Variables (zero one h_scale clight : num) (sub mul div : num -> num -> num) (is_zero : num -> bool).
  Notation run := (hrun zero one h_scale clight sub mul div is_zero).
  Notation run1 := (hrun1 zero one h_scale clight sub mul div is_zero).

  Theorem C11_history_frame : forall (s : store) (l : list hstep) j,
    (j < length s)%nat -> forallb (fun st => negb (targets st j)) l = true -> hget (run s l) j = hget s j.
  Proof. intros s l j. apply hrun_frame. Qed.

  Theorem C11_history_new_independent : forall (s : store) a,
    hget (run1 s (HNew a)) (length s) = Some (construct zero one h_scale clight sub mul div is_zero a).
  Proof. intros s a. cbn. unfold hget. rewrite app_nth2, Nat.sub_diag by apply le_n. reflexivity. Qed.

  Theorem C11_history_observe_free : forall (T : Type) (dist : num -> bool -> num -> num -> num -> T) (s : store) l j,
    (j < length s)%nat -> forallb (fun st => negb (targets st j)) l = true ->
    hobserve dist (run s l) j = hobserve dist s j.
  Proof. intros T dist s l j L H. unfold hobserve. rewrite hrun_frame by assumption. reflexivity. Qed.
End History.

Example C11_history_nonvacuous :
  let s := hrun 0%Z 1%Z 100%Z 300000%Z Z.sub Z.mul Z.div (Z.eqb 0) []
             [HNew (mkArgs 100 None true 3 7 None); HNew (mkArgs 100 (Some 7) true 3 7 None); HClone 0 OpPickle;
              HReinit 1 (mkArgs 50 None false 3 7 (Some 2)); HDel 2]%Z in
  hobserve (fun DH _ _ _ _ => DH) s 0 = Some 3000%Z /\ hobserve (fun DH _ _ _ ok => (DH, ok)) s 1 = Some (6000, 2)%Z
  /\ hobserve (fun DH _ _ _ _ => DH) s 2 = None.
Proof. vm_compute. repeat split. Qed.

(* reachable states: whatever sequence of constructions / clones / re-initialisations / drops a process performs, every object
   it holds reports the parameters of a plain constructor call; hence the normalisation rules hold for every such object *)
Section Reachable.
  Context {num : Type}.
  Variables (zero one h_scale clight : num) (sub mul div : num -> num -> num) (is_zero : num -> bool).
  Hypothesis zero_is_zero : is_zero zero = true.
  Theorem C11_reachable_objects_report_constructed : forall (l : list hstep) j o,
    hget (hrun zero one h_scale clight sub mul div is_zero [] l) j = Some o ->
    exists a, reported o = reported (construct zero one h_scale clight sub mul div is_zero a).
  Proof using zero_is_zero.
    (* the object is itself a constructor result: a clone is a constructor call by definition *)
    intros l j o H. destruct (reachable_constructed zero one h_scale clight sub mul div is_zero l j o H) as [a ->].
    exists a. reflexivity.
  Qed.
End Reachable.

Local Open Scope R_scope.

Theorem C11_Da_is_Dm_over_1pz : forall xs ws c z1 z2,
  Da_GL xs ws c z1 z2 = Dm_GL xs ws c z1 z2 / (1 + z2).
Proof. reflexivity. Qed.

Theorem C11_Dl_is_Dm_times_1pz : forall xs ws c z1 z2,
  Dl_GL xs ws c z1 z2 = Dm_GL xs ws c z1 z2 * (1 + z2).
Proof. reflexivity. Qed.

Theorem C11_flat_Dm_is_Dc : forall xs ws c z1 z2,
  cflat c = true -> Dm_GL xs ws c z1 z2 = Dc_GL xs ws c z1 z2.
Proof. intros xs ws c z1 z2 F. unfold Dm_GL, Dm_of. rewrite F. reflexivity. Qed.

(* Dc(a,b) = -Dc(b,a) for any mirror-symmetric table, in particular the Gauss-Legendre ones *)
Theorem C11_Dc_antisymmetric : forall xs ws c z1 z2,
  mirror xs ws -> Dc_GL xs ws c z1 z2 = - Dc_GL xs ws c z2 z1.
Proof. intros xs ws c z1 z2 M. unfold Dc_GL, ezinv_integral. rewrite (gl_sum_antisym xs ws _ z1 z2 M). lra. Qed.

Theorem C11_affine_map_of_mirror_nodes : forall xs a b, rev xs = map Ropp xs ->
  map (fun x => x * ((a - b) / 2) + (a + b) / 2) xs = rev (map (fun x => x * ((b - a) / 2) + (b + a) / 2) xs).
Proof. intros xs a b M. rewrite <- map_rev, M, map_map. apply map_ext. intro x. lra. Qed.

Theorem C11_Dc_same_redshift_zero : forall xs ws c z, Dc_GL xs ws c z z = 0.
Proof. intros. unfold Dc_GL, ezinv_integral. rewrite gl_sum_same. lra. Qed.

(* sources at or in front of the lens *)
Theorem C11_scinv_zero_in_front : forall xs ws c zl zs, zs <= zl -> scinv_GL xs ws c zl zs = 0.
Proof. intros xs ws c zl zs H. unfold scinv_GL. destruct (Rle_dec zs zl); [reflexivity|contradiction]. Qed.

(* The modelled code computes Hogg's definitions with the integral replaced by the quadrature
   sum: 1/E(z) is the definition itself, and wherever the sum equals the integral every distance
   equals its definition.  Hence (model value - definition) IS the truncation error of the rule. *)
Theorem C11_Einv_is_definition : forall c z,
  (cflat c = true -> cok c = 0) -> 0 < E2 c z -> ez_inverse c z = Einv_def c z.
Proof. intros c z N _. apply ez_inverse_is_def, N. Qed.

Theorem C11_chain_is_Hogg_up_to_quadrature : forall xs ws c z1 z2,
  0 < cDH c -> curvature_consistent c ->
  ezinv_integral xs ws c z1 z2 = I_def c z1 z2 ->
  Dc_GL xs ws c z1 z2 = Dc_def c z1 z2 /\ Dm_GL xs ws c z1 z2 = Dm_def c z1 z2 /\
  Da_GL xs ws c z1 z2 = Da_def c z1 z2 /\ Dl_GL xs ws c z1 z2 = Dl_def c z1 z2.
Proof. intros xs ws c z1 z2 HD HC. apply chain_is_Hogg; [apply Rgt_not_eq, HD | exact HC]. Qed.

Theorem C11_derived_are_Hogg_up_to_quadrature : forall xs ws c,
  0 < cDH c -> curvature_consistent c ->
  (forall z, ezinv_integral xs ws c 0 z = I_def c 0 z -> distmod_GL xs ws c z = distmod_def c z)
  /\ (forall z, 0 < E2 c z -> ezinv_integral xs ws c 0 z = I_def c 0 z -> dV_GL xs ws c z = dV_def c z)
  /\ (forall zl zs, FOUR_PI_G_OVER_C_SQUARED_R = FOUR_PI_G_OVER_C2 ->
                    ezinv_integral xs ws c zl zs = I_def c zl zs ->
                    ezinv_integral xs ws c 0 zl = I_def c 0 zl ->
                    ezinv_integral xs ws c 0 zs = I_def c 0 zs ->
                    scinv_GL xs ws c zl zs = scinv_def c zl zs)
  /\ (forall vxs vws z1 z2,
        V_GL xs ws vxs vws c z1 z2 = gl_sum vxs vws (fun z => 4 * PI * dV_GL xs ws c z) z1 z2).
Proof.
  intros xs ws c HD HC. apply Rgt_not_eq in HD. split; [|split; [|split]].
  - intros z. apply distmod_is_Hogg; assumption.
  - intros z _. apply dV_is_Hogg; assumption.
  - intros zl zs. apply scinv_is_Hogg; assumption.
  - intros. apply V_GL_is_rule.
Qed.

(* the code's two-redshift sinh / sin form is Hogg's eq. 19: for omega_k > 0 with DM_i = DH/sqrt(Ok) sinh(sqrt(Ok) Dc_i/DH),
   and its analogue for omega_k < 0 (valid while both objects are on the near hemisphere) *)
Theorem C11_two_redshift_Hogg19 : forall DH ok d1 d2, 0 < DH -> 0 < ok ->
  let s := sqrt ok in
  let DM1 := DH / s * sinh (s * d1 / DH) in
  let DM2 := DH / s * sinh (s * d2 / DH) in
  DH / s * sinh (s * (d2 - d1) / DH) =
  DM2 * sqrt (1 + ok * DM1 ^ 2 / DH ^ 2) - DM1 * sqrt (1 + ok * DM2 ^ 2 / DH ^ 2).
Proof.
  intros DH ok d1 d2 HD HK s.
  replace ok with (1 * (s * s)) by (unfold s; rewrite sqrt_sqrt; lra).
  apply (two_redshift_Hogg19_curved sinh cosh 1); try apply sqrt_1_sinh2; try assumption.
  - apply sqrt_lt_R0. assumption.
  - apply sinh_minus.
Qed.

Theorem C11_two_redshift_Hogg19_closed : forall DH ok d1 d2, 0 < DH -> ok < 0 ->
  let s := sqrt (- ok) in
  0 <= cos (s * d1 / DH) -> 0 <= cos (s * d2 / DH) ->
  let DM1 := DH / s * sin (s * d1 / DH) in
  let DM2 := DH / s * sin (s * d2 / DH) in
  DH / s * sin (s * (d2 - d1) / DH) =
  DM2 * sqrt (1 + ok * DM1 ^ 2 / DH ^ 2) - DM1 * sqrt (1 + ok * DM2 ^ 2 / DH ^ 2).
Proof.
  intros DH ok d1 d2 HD HK s C1 C2.
  replace ok with (-1 * (s * s)) by (unfold s; rewrite sqrt_sqrt; lra).
  apply (two_redshift_Hogg19_curved sin cos (-1)); try apply sqrt_1_sin2; try assumption.
  - apply sqrt_lt_R0. lra.
  - apply sin_minus.
Qed.

(* the comoving volume: Hogg's closed form (eq. 29, the reference value of the per-run documented-
   accuracy lemmas for V) IS the integral of 4 pi dV over the redshift range, for every curvature *)
Theorem C11_V_closed_form_derivative : forall c z1 z2,
  0 <= z1 <= z2 -> (forall z, 0 <= z <= z2 -> 0 < E2 c z) ->
  V_def c z1 z2 = V_closed c z1 z2.
Proof. exact V_closed_form. Qed.

Example C11_V_closed_form_nonvacuous : forall z1 z2, 0 <= z1 <= z2 ->
  V_def (mkC 3000 false (3 / 10) (8 / 10) (-1 / 10)) z1 z2 = V_closed (mkC 3000 false (3 / 10) (8 / 10) (-1 / 10)) z1 z2.
Proof. exact V_closed_form_closed_example. Qed.

(* A per-case certificate (a boolean evaluated by vm_compute over outward-rounded interval
   arithmetic) proves the statement's criterion for that case against ANY reference value, in
   particular against Hogg's definition with the genuine integral. *)
Theorem C11_certificate_sound : forall prec q xs ws vxs vws br c z1 z2 out ref,
  check prec q xs ws vxs vws br c z1 z2 out = true ->
  within_truncation (q2R out) ref
    (value_R q (map q2R xs) (map q2R ws) (map q2R vxs) (map q2R vws) (cosmoR_of c) (q2R z1) (q2R z2)).
Proof.
  intros prec q xs ws vxs vws br c z1 z2 out ref H. apply within_truncation_of_close.
  exact (cert prec q xs ws vxs vws br c z1 z2 out H).
Qed.

(* and what the criterion gives once the truncation error is bounded *)
Theorem C11_criterion_gives_error_bound : forall out ref gl t,
  within_truncation out ref gl -> Rabs (gl - ref) <= t ->
  Rabs (out - ref) <= 3 / 2 * t + 1 / 10 ^ 12 * Rabs out.
Proof. unfold within_truncation. intros out ref gl t H T. lra. Qed.

Theorem C11_checkers_sound :
  (forall o, identities_b o = true -> identities o)
  /\ (forall f a b out, elementwise2_b f a b out = true -> elementwise2 f a b out)
  /\ (forall g a out, elementwise1_b g a out = true -> elementwise1 g a out).
Proof.
  split; [intro o; apply identities_b_iff|].
  split; [intros f a b out; apply elementwise2_b_iff | intros g a out; apply elementwise1_b_iff].
Qed.

(* a mirror-symmetric table exists and the antisymmetry is not 0 = 0; the dispatch rejects and
   accepts; a flat and a curved normalisation *)
Example C11_nonvacuous :
  mirror [-1; 0; 1] [1 / 3; 4 / 3; 1 / 3]
  /\ gl_sum [-1; 0; 1] [1 / 3; 4 / 3; 1 / 3] (fun z => z * z) 0 1 = 1 / 3
  /\ dispatch2 Z.add (Ar [1; 2]%Z) (Ar [10; 20]%Z) = Ok (Ar [11; 22]%Z)
  /\ dispatch2 Z.add (Ar [1; 2]%Z) (Ar [10]%Z) = Err EValue
  /\ extract_parms 0%Z 1%Z Z.sub (Z.eqb 0) 3%Z 7%Z None false = (true, 3, -2, 0)%Z
  /\ extract_parms 0%Z 1%Z Z.sub (Z.eqb 0) 3%Z 7%Z (Some 5%Z) true = (false, 3, 7, 5)%Z.
Proof.
  split; [|split; [|repeat split]].
  - unfold mirror. simpl. repeat split. repeat (f_equal; try lra).
  - unfold gl_sum. simpl. lra.
Qed.

Import PrimFloat.
Local Close Scope R_scope.
(* identities that hold bit for bit in the binary64 chain (no rounding involved): flat Dm IS Dc, Da / Dl are Dm divided /
   multiplied by (1+z), Sigma_crit^-1 is exactly +0.0 whenever zs <= zl (IEEE comparison: false for NaN), Dc = DH * integral *)
Theorem C11_float_chain_identities : forall libm c a b,
  (fflat c = true -> DmF libm c a b = Some (DcF c a b))
  /\ DaF libm c a b = option_map (fun d => PrimFloat.div d (PrimFloat.add 1 b)) (DmF libm c a b)
  /\ DlF libm c a b = option_map (fun d => PrimFloat.mul d (PrimFloat.add 1 b)) (DmF libm c a b)
  /\ (PrimFloat.leb b a = true -> scinvF libm c a b = Some PrimFloat.zero)
  /\ DcF c a b = PrimFloat.mul (fDH c) (ezinv_integralF c a b).
Proof.
  intros libm c a b. repeat split.
  - intro F. unfold DmF. rewrite F. reflexivity.
  - intro L. unfold scinvF. rewrite L. reflexivity.
Qed.

(* gauleg's fill loop (cosmolib.c:173-221, bit-exact model): for EVERY libm cos oracle, every interval and every order the
   weight table is exactly mirror-symmetric, and node lo and its mirror node n-1-lo are xm - xl*z and xm + xl*z of one and the
   same Newton root z (so the per-run mirror check of the tables reduces to the arithmetic fact 0 - 1*z = -(0 + 1*z)) *)
Theorem C11_gauleg_weights_symmetric : forall cosv x1 x2 npts x w,
  gauleg cosv x1 x2 npts = Some (x, w) ->
  length w = npts /\ forall j, (j < npts)%nat -> nth j w PrimFloat.zero = nth (npts - 1 - j) w PrimFloat.zero.
Proof. exact gauleg_weights_symmetric. Qed.

Theorem C11_gauleg_nodes_paired : forall cosv x1 x2 npts x w,
  gauleg cosv x1 x2 npts = Some (x, w) ->
  let xm := PrimFloat.div (PrimFloat.add x1 x2) 2 in let xl := PrimFloat.div (PrimFloat.sub x2 x1) 2 in
  length x = npts /\
  forall lo, (lo < (npts + 1) / 2)%nat -> (2 * lo <= npts - 1)%nat -> (lo < npts)%nat ->
    exists z, nth (npts - 1 - lo) x PrimFloat.zero = PrimFloat.add xm (PrimFloat.mul xl z)
              /\ ((2 * lo < npts - 1)%nat -> nth lo x PrimFloat.zero = PrimFloat.sub xm (PrimFloat.mul xl z)).
Proof. exact gauleg_nodes_paired. Qed.

(* non-vacuity: a 3-point rule computed by the model from start values 0.75 and 0.0625 (the oracle is keyed by the very argument
   expression of the C code) *)
Example C11_gauleg_nonvacuous :
  let arg i := PrimFloat.div (PrimFloat.mul M_PI_F (PrimFloat.sub (fnat i) 0.25)) (PrimFloat.add (fnat 3) 0.5) in
  match gauleg [(arg 1%nat, 0.75%float); (arg 2%nat, 0.0625%float)] (-1)%float 1%float 3 with
  | Some (x, w) => length x = 3%nat /\ length w = 3%nat /\ PrimFloat.ltb (nth 0 x PrimFloat.zero) 0 = true
  | None => False
  end.
Proof. vm_compute. repeat split. Qed.

(* the checker the harness evaluates on the parameters an object reports decides exactly the documented rules: flat forces
   omega_k = 0 and omega_l = 1 - omega_m (to rounding); omega_k, when given, alone decides flatness and is reported unchanged when
   non-zero; omega_m is passed through (default 0.3); h overrides H0 (H0 = 100 h to rounding, default 100); DH * H0 = c *)
Theorem C11_params_checker_decides_rules : forall k r, params_ok k r = true <-> params_rules k r.
Proof. exact params_ok_spec. Qed.

Example C11_params_rules_nonvacuous :
  params_rules (mkKw None (Some 0x1.6666666666666p-1%float) None None None None)
               (mkRep 0x1.18p+6%float 0x1.0babfd8adab9fp+12%float true 0x1.3333333333333p-2%float 0x1.6666666666666p-1%float 0%float).
Proof. apply params_ok_spec. vm_compute. reflexivity. Qed.
