(* C11 -- the discrete arguments (L for lists and loops): the C loops of the vector wrappers, the object store, the
   parameter checker, gauleg's fill loop. *)
From Coq Require Import ZArith List Bool Lia Arith QArith Qabs PrimFloat.
From EsVerif.Common Require Import Base.
From EsVerif.C11 Require Import Gen Model ModelF Spec Proofs Exec.
Import ListNotations.

(* ------------------------------------------------------------------ the C loop *)
Lemma set_nth_app {B} (done : list B) x rest v : set_nth (done ++ x :: rest) (length done) v = done ++ v :: rest.
Proof. induction done as [|y done IH]; cbn; [reflexivity|]. f_equal. exact IH. Qed.

(* with the slots before i done, the loop overwrites the remaining ones, in order, with the body at their index *)
Lemma c_loop_spec {B} (body : nat -> B) : forall rest done,
  c_loop (length rest) (length done) body (done ++ rest) = done ++ map body (seq (length done) (length rest)).
Proof.
  induction rest as [|x rest IH]; intro done; cbn [length c_loop seq map]; [reflexivity|].
  rewrite set_nth_app. specialize (IH (done ++ [body (length done)])).
  rewrite app_length, Nat.add_1_r, <- !app_assoc in IH. exact IH.
Qed.

Lemma c_loop_is_map {B} (zero : B) (body : nat -> B) n :
  c_loop n 0 body (repeat zero n) = map body (seq 0 n).
Proof. pose proof (c_loop_spec body (repeat zero n) []) as H. rewrite repeat_length in H. exact H. Qed.

Lemma map_nth_seq {A B} (d : A) (g : A -> B) : forall xs, map (fun i => g (nth i xs d)) (seq 0 (length xs)) = map g xs.
Proof.
  induction xs as [|x t IH]; [reflexivity|]. cbn [length seq map nth]. f_equal.
  rewrite <- seq_shift, map_map. exact IH.
Qed.

Lemma map_nth_seq2 {A B} (d : A) (f : A -> A -> B) : forall xs ys, length xs = length ys ->
  map (fun i => f (nth i xs d) (nth i ys d)) (seq 0 (length xs)) = two_vec f xs ys.
Proof.
  induction xs as [|x t IH]; intros [|y u] L; cbn in L; try lia; [reflexivity|].
  cbn [length seq map nth two_vec]. f_equal. rewrite <- seq_shift, map_map. apply IH. lia.
Qed.

(* a wrapper is the map, over the indices of the array that sizes it, of the body with its two reads *)
Lemma run_wrapper_map {A B} (d : A) (zero : B) w f a b :
  run_wrapper d zero w f a b =
  map (fun i => f (arg_at d (w_k1 w) a i) (arg_at d (w_k2 w) b i)) (seq 0 (arg_len (if w_size_first w then a else b))).
Proof. apply c_loop_is_map. Qed.

Lemma wrapper_vec1 {A B} (d : A) (zero : B) f xs y : run_wrapper d zero W_vec1 f (Ar xs) (Sc y) = vec1 f xs y.
Proof. rewrite run_wrapper_map. apply (map_nth_seq d (fun x => f x y)). Qed.

Lemma wrapper_vec2 {A B} (d : A) (zero : B) f x ys : run_wrapper d zero W_vec2 f (Sc x) (Ar ys) = vec2 f x ys.
Proof. rewrite run_wrapper_map. apply (map_nth_seq d (fun y => f x y)). Qed.

Lemma wrapper_2vec {A B} (d : A) (zero : B) f xs ys : length xs = length ys ->
  run_wrapper d zero W_2vec f (Ar xs) (Ar ys) = two_vec f xs ys.
Proof. intro L. rewrite run_wrapper_map. apply map_nth_seq2. assumption. Qed.

(* ------------------------------------------------------------------ rejections, exactly *)
Lemma dispatch2_accepts {A B} (f : A -> A -> B) a b :
  (exists v, dispatch2 f a b = Ok v) <-> (forall xs ys, a = Ar xs -> b = Ar ys -> length xs = length ys).
Proof.
  split.
  - intros [v H] xs ys -> ->. cbn in H. destruct (Nat.eqb (length xs) (length ys)) eqn:E; [apply Nat.eqb_eq; assumption|discriminate].
  - intro H. destruct a as [x|xs], b as [y|ys]; cbn; eauto.
    rewrite (proj2 (Nat.eqb_eq _ _) (H xs ys eq_refl eq_refl)). eauto.
Qed.

(* ------------------------------------------------------------------ history *)
Section HistoryProofs.
  Context {num : Type}.
  Variables (zero one h_scale clight : num) (sub mul div : num -> num -> num) (is_zero : num -> bool).
  Notation run1 := (hrun1 zero one h_scale clight sub mul div is_zero).
  Notation run := (hrun zero one h_scale clight sub mul div is_zero).
  Notation mk := (construct zero one h_scale clight sub mul div is_zero).

  (* does the step write handle j ? *)
  Definition targets (st : @hstep num) (j : nat) : bool :=
    match st with HReinit i _ | HDel i => Nat.eqb i j | _ => false end.

  (* frame: a step leaves every handle it does not target as it was (new handles are appended) *)
  Lemma hrun1_frame s st j : (j < length s)%nat -> targets st j = false -> hget (run1 s st) j = hget s j.
  Proof.
    intros L T. unfold hget. destruct st as [a|src op|i a|i|i]; cbn [hrun1 targets] in *.
    - apply app_nth1. assumption.
    - apply app_nth1. assumption.
    - apply Nat.eqb_neq in T. destruct (hget s i); [apply nth_set_nth_neq; assumption|reflexivity].
    - apply Nat.eqb_neq in T. apply nth_set_nth_neq; assumption.
    - reflexivity.
  Qed.

  Lemma hrun1_length s st : (length s <= length (run1 s st))%nat.
  Proof.
    destruct st as [a|src op|i a|i|i]; cbn [hrun1]; rewrite ?app_length, ?set_nth_length; cbn; try lia.
    destruct (hget s i); rewrite ?set_nth_length; lia.
  Qed.

  Lemma hrun_frame l : forall s j, (j < length s)%nat -> forallb (fun st => negb (targets st j)) l = true ->
    hget (run s l) j = hget s j.
  Proof.
    induction l as [|st l IH]; intros s j L T; [reflexivity|]. cbn [hrun fold_left forallb] in *.
    apply andb_true_iff in T as [T1 T2]. apply negb_true_iff in T1.
    change (fold_left run1 l (run1 s st)) with (run (run1 s st) l).
    rewrite IH; [apply hrun1_frame; assumption| |assumption].
    pose proof (hrun1_length s st). lia.
  Qed.

  Lemma hget_beyond (s : @store num) j : (length s <= j)%nat -> hget s j = None.
  Proof. intro L. unfold hget. apply nth_overflow. assumption. Qed.

  (* what a store holds after a write was there before, or is what was written *)
  Lemma hget_snoc (s : @store num) v j o : hget (s ++ [v]) j = Some o -> hget s j = Some o \/ v = Some o.
  Proof.
    unfold hget. destruct (Nat.lt_ge_cases j (length s)) as [L|L].
    - rewrite app_nth1 by assumption. auto.
    - rewrite app_nth2 by assumption. destruct (j - length s)%nat as [|[|k]]; cbn; auto; discriminate.
  Qed.

  Lemma hget_set (s : @store num) i v j o : hget (set_nth s i v) j = Some o -> hget s j = Some o \/ v = Some o.
  Proof.
    unfold hget. destruct (Nat.eq_dec i j) as [->|N]; [|rewrite nth_set_nth_neq by assumption; auto].
    destruct (Nat.lt_ge_cases j (length s)) as [L|L].
    - rewrite nth_set_nth_eq by assumption. auto.
    - rewrite nth_overflow by (rewrite set_nth_length; assumption). discriminate.
  Qed.

  (* every object a process can hold is the result of a constructor call: new and re-initialised handles by definition, and a
     clone because copy and unpickle ARE constructor calls (on the remembered, resp. the reported, parameters) *)
  Definition constructed (s : @store num) : Prop := forall j o, hget s j = Some o -> exists a, o = mk a.

  Lemma constructed_step s st : constructed s -> constructed (run1 s st).
  Proof.
    intros I j o H. destruct st as [a|src op|i a|i|i]; cbn [hrun1] in H.
    - apply hget_snoc in H as [H|H]; [eauto|]. injection H as <-. eauto.
    - apply hget_snoc in H as [H|H]; [eauto|].
      destruct (hget s src) as [o0|]; [|discriminate]. injection H as <-.
      destruct op; [exists (stored_args o0) .. | exists (reduce_args o0)]; reflexivity.
    - destruct (hget s i); [|eauto]. apply hget_set in H as [H|H]; [eauto|]. injection H as <-. eauto.
    - apply hget_set in H as [H|H]; [eauto|discriminate].
    - eauto.
  Qed.

  Theorem reachable_constructed l j o : hget (run [] l) j = Some o -> exists a, o = mk a.
  Proof.
    assert (R : forall s, constructed s -> constructed (run s l)).
    { induction l as [|st l IH]; intros s I; [assumption|]. apply IH, constructed_step, I. }
    apply R. intros [|k] o' H'; discriminate H'.
  Qed.
End HistoryProofs.

(* ------------------------------------------------------------------ the params checker *)
(* the documented normalisation rules as a proposition about the values an object REPORTS (binary64 values read as exact
   rationals; "to rounding" = Spec.close_to_rounding), for the keyword arguments k the caller gave *)
Definition params_rules (k : kwargs) (r : rep) : Prop :=
  (finite (r_H0 r) = true /\ finite (r_DH r) = true /\ finite (r_om r) = true /\ finite (r_ol r) = true /\ finite (r_ok r) = true)
  /\ (if r_flat r then qof (r_ok r) == 0 /\ close_to_rounding (qof (r_ol r)) (1 - qof (r_om r))
      else match k_ol k with Some l => fsame (r_ol r) l = true | None => True end)
  /\ match k_ok k with
     | Some w => (r_flat r = true <-> qof w == 0) /\ (r_flat r = false -> fsame (r_ok r) w = true)
     | None => r_flat r = true
     end
  /\ match k_om k with Some m => fsame (r_om r) m = true | None => close_to_rounding (qof (r_om r)) (3 # 10) end
  /\ match k_h k, k_H0 k with
     | Some h, _ => close_to_rounding (qof (r_H0 r)) (100 * qof h)
     | None, Some H => fsame (r_H0 r) H = true
     | None, None => qof (r_H0 r) == 100
     end
  /\ close_to_rounding (qof (r_DH r) * qof (r_H0 r)) CLIGHT_Q.

Lemma eqb_true_iff_iff a b : Bool.eqb a b = true <-> (a = true <-> b = true).
Proof. destruct a, b; cbn; intuition congruence. Qed.

Lemma params_ok_spec k r : params_ok k r = true <-> params_rules k r.
Proof.
  unfold params_ok, params_rules. rewrite <- !andb_assoc, !and_assoc.
  do 5 (apply andb_iff; [reflexivity|]).      (* the five finiteness tests *)
  apply andb_iff; [|apply andb_iff; [|apply andb_iff; [|apply andb_iff]]].
  - (* flat *)
    destruct (r_flat r); [rewrite andb_true_iff, Qeq_bool_iff, close_b_iff; reflexivity|].
    destruct (k_ol k); intuition.
  - (* omega_k *)
    destruct (k_ok k) as [w|]; [|reflexivity].
    rewrite andb_true_iff, eqb_true_iff_iff, Qeq_bool_iff, orb_true_iff.
    destruct (r_flat r); intuition congruence.
  - (* omega_m *) destruct (k_om k); [reflexivity|apply close_b_iff].
  - (* h and H0 *) destruct (k_h k); [apply close_b_iff|]. destruct (k_H0 k); [reflexivity|apply Qeq_bool_iff].
  - (* DH * H0 = c *) apply close_b_iff.
Qed.

(* ------------------------------------------------------------------ gauleg's fill: weights symmetric, nodes paired *)
Local Open Scope float_scope.

(* pass i of the loop writes slot i-1 and its mirror slot, in both tables, and nothing else: whatever such a pair of
   writes preserves, the loop preserves, for every oracle and whatever the Newton iteration returns *)
Lemma gauleg_loop_inv (P : nat -> list float -> list float -> Prop) cosv npts xm xl :
  (forall i z pp x w, P i x w ->
     P (S i) (set_nth (set_nth x (i - 1) (xm - xl * z)) (npts + 1 - i - 1) (xm + xl * z))
             (set_nth (set_nth w (i - 1) (2 * xl / ((1 - z * z) * pp * pp))) (npts + 1 - i - 1)
                      (2 * xl / ((1 - z * z) * pp * pp)))) ->
  forall todo i z1 pp x w x' w',
  gauleg_loop cosv npts xm xl todo i z1 pp x w = Some (x', w') -> P i x w -> P (i + todo)%nat x' w'.
Proof.
  intro Step. induction todo as [|k IH]; intros i z1 pp x w x' w' H Hp; cbn [gauleg_loop] in H.
  - injection H as <- <-. rewrite Nat.add_0_r. assumption.
  - destruct (ask cosv _) as [z0|]; [|discriminate].
    destruct (newton 100 npts z0 z1 pp) as [[[z z1'] pp']|]; [|discriminate].
    rewrite <- Nat.add_succ_comm. eapply IH; [exact H|]. apply Step. assumption.
Qed.

Definition sym_list {A} (n : nat) (d : A) (w : list A) : Prop :=
  length w = n /\ forall j, (j < n)%nat -> nth j w d = nth (n - 1 - j) w d.

Lemma sym_repeat {A} (d v : A) n : sym_list n d (repeat v n).
Proof. split; [apply repeat_length|]. intros j L. rewrite !nth_repeat' by lia. reflexivity. Qed.

Lemma nth_set_set_hit {A} (l : list A) lo hi v j d : (lo < length l)%nat -> (hi < length l)%nat ->
  j = lo \/ j = hi -> nth j (set_nth (set_nth l lo v) hi v) d = v.
Proof.
  intros Hlo Hhi H. destruct (Nat.eq_dec j hi) as [->|N].
  - apply nth_set_nth_eq. rewrite set_nth_length. assumption.
  - destruct H as [->|H]; [|contradiction]. rewrite nth_set_nth_neq by auto. apply nth_set_nth_eq. assumption.
Qed.

(* writing the same value to a slot and to its mirror slot: a slot is written exactly when its mirror slot is *)
Lemma sym_write_pair {A} (d v : A) n w lo hi : sym_list n d w -> (lo + hi + 1 = n)%nat ->
  sym_list n d (set_nth (set_nth w lo v) hi v).
Proof.
  intros [L S] M. split; [rewrite !set_nth_length; assumption|]. intros j Hj.
  assert (Hlo : (lo < length w)%nat) by lia. assert (Hhi : (hi < length w)%nat) by lia.
  remember (n - 1 - j)%nat as j' eqn:Ej.
  destruct (Nat.eq_dec j lo) as [E1|N1]; [|destruct (Nat.eq_dec j hi) as [E2|N2]].
  - assert (j' = hi) by lia. rewrite !nth_set_set_hit by auto. reflexivity.
  - assert (j' = lo) by lia. rewrite !nth_set_set_hit by auto. reflexivity.
  - assert (j' <> lo /\ j' <> hi) as [N1' N2'] by lia.
    rewrite !nth_set_nth_neq by auto. subst j'. apply S. assumption.
Qed.

Theorem gauleg_weights_symmetric cosv x1 x2 npts x w :
  gauleg cosv x1 x2 npts = Some (x, w) -> sym_list npts 0 w.
Proof.
  unfold gauleg. intro H.
  apply (gauleg_loop_inv (fun i _ w => (1 <= i)%nat /\ ((i <= npts + 1)%nat -> sym_list npts 0 w))) in H.
  - apply H. pose proof (Nat.mul_div_le (npts + 1) 2). lia.
  - intros i z pp x0 w0 [Hi S]. split; [lia|]. intro Hb. apply sym_write_pair; [apply S|]; lia.
  - split; [lia|]. intros _. apply sym_repeat.
Qed.

(* nodes: after the passes for roots 1 .. done, slot lo < done and its mirror slot n-1-lo hold xm -/+ xl*z of ONE root z *)
Definition nodes_paired (n done : nat) (xm xl : float) (x : list float) : Prop :=
  length x = n /\
  forall lo, (lo < done)%nat -> (2 * lo <= n - 1)%nat -> (lo < n)%nat ->
    exists z, nth (n - 1 - lo) x 0 = xm + xl * z /\ ((2 * lo < n - 1)%nat -> nth lo x 0 = xm - xl * z).

(* the pass for root lo+1 (in the lower half) adds the pair at lo and touches no earlier pair *)
Lemma paired_write n lo hi xm xl z x : nodes_paired n lo xm xl x -> (lo + hi + 1 = n)%nat -> (lo <= hi)%nat ->
  nodes_paired n (S lo) xm xl (set_nth (set_nth x lo (xm - xl * z)) hi (xm + xl * z)).
Proof.
  intros [L P] M Hb. split; [rewrite !set_nth_length; assumption|]. intros j Hj H2 Hn.
  destruct (Nat.eq_dec j lo) as [->|N].
  - exists z. replace (n - 1 - lo)%nat with hi by lia. split.
    + apply nth_set_nth_eq. rewrite set_nth_length. lia.
    + intro Hlt. rewrite nth_set_nth_neq by lia. apply nth_set_nth_eq. lia.
  - assert (Hj' : (j < lo)%nat) by lia. destruct (P j Hj' H2 Hn) as (z' & Q1 & Q2). exists z'.
    remember (n - 1 - j)%nat as j' eqn:Ej. assert (j' <> lo /\ j' <> hi /\ j <> hi) as (N1 & N2 & N3) by lia.
    rewrite !nth_set_nth_neq by auto. split; assumption.
Qed.

Theorem gauleg_nodes_paired cosv x1 x2 npts x w :
  gauleg cosv x1 x2 npts = Some (x, w) ->
  nodes_paired npts ((npts + 1) / 2) ((x1 + x2) / 2) ((x2 - x1) / 2) x.
Proof.
  unfold gauleg. intro H.
  apply (gauleg_loop_inv (fun i x _ => (1 <= i)%nat /\
           ((2 * (i - 1) <= npts + 1)%nat -> nodes_paired npts (i - 1) ((x1 + x2) / 2) ((x2 - x1) / 2) x))) in H.
  - destruct H as [_ H]. cbn [Nat.add Nat.sub] in H. rewrite Nat.sub_0_r in H. apply H.
    pose proof (Nat.mul_div_le (npts + 1) 2). lia.
  - intros i z pp x0 w0 [Hi P]. split; [lia|]. intro Hb.
    replace (S i - 1)%nat with (S (i - 1)) by lia.
    apply paired_write; [apply P|..]; lia.
  - split; [lia|]. intros _. split; [apply repeat_length|]. intros lo Hlo. inversion Hlo.
Qed.

(* ------------------------------------------------------------------ folds that consult the libm oracle *)
(* when the option-valued quadrature loop of ModelF succeeds, it is the plain loop over the unwrapped integrand (used by the
   per-run tie between ModelF.VF and the V function translated from cosmolib.c) *)
Lemma fold_opt_unwrap : forall (l : list (float * float)) (g : float -> option float) f1 f2 acc r,
  fold_left (fun acc xw => match acc, g (fst xw * f1 + f2) with Some a, Some v => Some (a + f1 * v * snd xw) | _, _ => None end) l (Some acc) = Some r ->
  fold_left (fun v xw => v + f1 * (match g (fst xw * f1 + f2) with Some d => d | None => 0 end) * snd xw) l acc = r.
Proof.
  induction l as [|xw l IH]; intros g f1 f2 acc r H; cbn in *; [congruence|].
  destruct (g (fst xw * f1 + f2)) as [v|]; [apply IH; assumption|].
  exfalso. clear IH. induction l as [|y l IHl]; cbn in H; [discriminate|apply IHl; assumption].
Qed.
