(* C11 -- a verified interval evaluator for the R model of the distance chain.

   The per-case certificates of the correspondence run state
       | out - model_R(inputs) | <= 1e-12 * |out|
   for the implementation's binary64 output [out] and binary64 inputs, all given as exact
   integer fractions.  Instead of reifying the (large) real-number expression with the
   [interval] tactic for every case, the chain is evaluated here once and for all over the
   interval arithmetic of the Interval library (module I: floating-point bounds with BigZ
   mantissas, outward rounding), and [cert] proves that whenever the boolean [check] computes to
   true the real-number statement holds.  A case is then closed by [vm_compute].  Partial
   operations (division, logarithm) are guarded: the evaluator answers None unless the result
   interval is a genuine (non-NaI) interval, which is what makes the real-number value defined. *)
From Coq Require Import Reals ZArith List Lra Lia Bool.
From Interval Require Import Xreal Interval.Interval Float.Specific_ops Float.Specific_bigint
     Interval.Float_full Float.Basic.
From EsVerif.C11 Require Import Gen Model Spec Proofs.
Import ListNotations.

Module F := SpecificFloat BigIntRadix2.
Module I := FloatIntervalFull F.

Local Open Scope R_scope.

(* exact fractions n/d (every binary64 value is one) *)
Definition q2R (q : Z * Z) : R := IZR (fst q) / IZR (snd q).

Definition encl (xi : I.type) (x : R) : Prop := contains (I.convert xi) (Xreal x).

(* used instead of [injection], which would normalise the interval operations inside the equation *)
Lemma Some_eq {A} (a b : A) : Some a = Some b -> a = b.
Proof. intro H; injection H; auto. Qed.

Record cosmoQ := mkCq { qDH : Z * Z; qflat : bool; qom : Z * Z; qol : Z * Z; qok : Z * Z }.
Definition cosmoR_of (c : cosmoQ) : cosmoR :=
  mkC (q2R (qDH c)) (qflat c) (q2R (qom c)) (q2R (qol c)) (q2R (qok c)).

Inductive curv := Flat | Open | Closed.
Definition branch_ok (br : curv) (c : cosmoR) : Prop :=
  match br with
  | Flat => cflat c = true
  | Open => cflat c = false /\ 0 < cok c
  | Closed => cflat c = false /\ ~ 0 < cok c
  end.

Inductive quantity := QEz | QInt | QDc | QDm | QDa | QDl | QDistmod | QdV | QV | QScinv.

(* the model value a certificate is about (one-redshift quantities are taken at z2) *)
Definition value_R (q : quantity) (xs ws vxs vws : list R) (c : cosmoR) (z1 z2 : R) : R :=
  match q with
  | QEz => ez_inverse c z2
  | QInt => ezinv_integral xs ws c z1 z2
  | QDc => Dc_GL xs ws c z1 z2
  | QDm => Dm_GL xs ws c z1 z2
  | QDa => Da_GL xs ws c z1 z2
  | QDl => Dl_GL xs ws c z1 z2
  | QDistmod => distmod_GL xs ws c z2
  | QdV => dV_GL xs ws c z2
  | QV => V_GL xs ws vxs vws c z1 z2
  | QScinv => scinv_GL xs ws c z1 z2
  end.

(* ------------------------------------------------------------------------------------------ *)
(* enclosure lemmas                                                                            *)
(* ------------------------------------------------------------------------------------------ *)
Section Ops.
  Variable p : F.precision.

  Lemma encl_add a b x y : encl a x -> encl b y -> encl (I.add p a b) (x + y).
  Proof. intros Ha Hb. exact (I.add_correct p a b (Xreal x) (Xreal y) Ha Hb). Qed.
  Lemma encl_sub a b x y : encl a x -> encl b y -> encl (I.sub p a b) (x - y).
  Proof. intros Ha Hb. exact (I.sub_correct p a b (Xreal x) (Xreal y) Ha Hb). Qed.
  Lemma encl_mul a b x y : encl a x -> encl b y -> encl (I.mul p a b) (x * y).
  Proof. intros Ha Hb. exact (I.mul_correct p a b (Xreal x) (Xreal y) Ha Hb). Qed.
  Lemma encl_neg a x : encl a x -> encl (I.neg a) (- x).
  Proof. intros Ha. exact (I.neg_correct a (Xreal x) Ha). Qed.
  Lemma encl_abs a x : encl a x -> encl (I.abs a) (Rabs x).
  Proof. intros Ha. exact (I.abs_correct a (Xreal x) Ha). Qed.
  Lemma encl_sqrt a x : encl a x -> encl (I.sqrt p a) (sqrt x).
  Proof. intros Ha. exact (I.sqrt_correct p a (Xreal x) Ha). Qed.
  Lemma encl_exp a x : encl a x -> encl (I.exp p a) (exp x).
  Proof. intros Ha. exact (I.exp_correct p a (Xreal x) Ha). Qed.
  Lemma encl_sin a x : encl a x -> encl (I.sin p a) (sin x).
  Proof. intros Ha. exact (I.sin_correct p a (Xreal x) Ha). Qed.
  Lemma encl_Z v : encl (I.fromZ p v) (IZR v).
  Proof. exact (I.fromZ_correct p v). Qed.
  Lemma encl_pi : encl (I.pi p) PI.
  Proof. exact (I.pi_correct p). Qed.

  Definition odiv (a b : I.type) : option I.type :=
    let r := I.div p a b in if I.real r then Some r else None.
  Lemma encl_odiv a b x y r : encl a x -> encl b y -> odiv a b = Some r -> encl r (x / y).
  Proof.
    unfold odiv. intros Ha Hb. destruct (I.real (I.div p a b)) eqn:E; [|discriminate].
    intro S; apply Some_eq in S; subst r.
    pose proof (I.div_correct p a b (Xreal x) (Xreal y) Ha Hb) as H. cbn in H.
    unfold Xdiv' in H. rewrite I.real_correct in E. unfold encl.
    destruct (is_zero y).
    - destruct (I.convert (I.div p a b)); [discriminate|]. contradiction H.
    - exact H.
  Qed.

  Definition oln (a : I.type) : option I.type :=
    let r := I.ln p a in if I.real r then Some r else None.
  Lemma encl_oln a x r : encl a x -> oln a = Some r -> encl r (ln x).
  Proof.
    unfold oln. intros Ha. destruct (I.real (I.ln p a)) eqn:E; [|discriminate].
    intro S; apply Some_eq in S; subst r.
    pose proof (I.ln_correct p a (Xreal x) Ha) as H. cbn in H.
    unfold Xln' in H. rewrite I.real_correct in E. unfold encl.
    destruct (is_positive x).
    - exact H.
    - destruct (I.convert (I.ln p a)); [discriminate|]. contradiction H.
  Qed.

  Definition qI (q : Z * Z) : option I.type := odiv (I.fromZ p (fst q)) (I.fromZ p (snd q)).
  Lemma encl_qI q r : qI q = Some r -> encl r (q2R q).
  Proof. unfold qI, q2R. apply encl_odiv; apply encl_Z. Qed.

  Fixpoint qIs (l : list (Z * Z)) : option (list I.type) :=
    match l with
    | [] => Some []
    | q :: t => match qI q, qIs t with Some a, Some r => Some (a :: r) | _, _ => None end
    end.
  Lemma encl_qIs l : forall r, qIs l = Some r -> Forall2 encl r (map q2R l).
  Proof.
    induction l as [|q t IH]; intros r H; simpl in *.
    - apply Some_eq in H; subst r. constructor.
    - destruct (qI q) eqn:E1; [|discriminate]. destruct (qIs t) eqn:E2; [|discriminate].
      apply Some_eq in H; subst r. constructor; [apply encl_qI; assumption | apply IH; reflexivity].
  Qed.

  (* ---------------------------------------------------------------------------------------- *)
  (* the chain over intervals                                                                  *)
  (* ---------------------------------------------------------------------------------------- *)
  Record cosmoI := mkCi { iDH : I.type; iflat : bool; iom : I.type; iol : I.type; iok : I.type }.
  Definition cencl (ci : cosmoI) (c : cosmoR) : Prop :=
    encl (iDH ci) (cDH c) /\ iflat ci = cflat c /\ encl (iom ci) (com c) /\ encl (iol ci) (col c)
    /\ encl (iok ci) (cok c).

  Definition cosmoI_of (c : cosmoQ) : option cosmoI :=
    match qI (qDH c), qI (qom c), qI (qol c), qI (qok c) with
    | Some a, Some b, Some d, Some e => Some (mkCi a (qflat c) b d e)
    | _, _, _, _ => None
    end.
  Lemma cencl_of c ci : cosmoI_of c = Some ci -> cencl ci (cosmoR_of c).
  Proof.
    unfold cosmoI_of. destruct (qI (qDH c)) eqn:E1; [|discriminate].
    destruct (qI (qom c)) eqn:E2; [|discriminate]. destruct (qI (qol c)) eqn:E3; [|discriminate].
    destruct (qI (qok c)) eqn:E4; [|discriminate]. intro H. apply Some_eq in H; subst ci. unfold cencl, cosmoR_of. cbn [iDH iflat iom iol iok cDH cflat com col cok].
    repeat split; try reflexivity; apply encl_qI; assumption.
  Qed.

  Definition zI (v : Z) : I.type := I.fromZ p v.

  Definition ez_I (ci : cosmoI) (z : I.type) : option I.type :=
    let o := I.add p (zI 1) z in
    let e := if iflat ci
             then I.add p (I.mul p (I.mul p (I.mul p (iom ci) o) o) o) (iol ci)
             else let o2 := I.mul p o o in
                  I.add p (I.add p (I.mul p (I.mul p (iom ci) o2) o) (I.mul p (iok ci) o2)) (iol ci) in
    match odiv (zI 1) e with Some q => Some (I.sqrt p q) | None => None end.

  Lemma ez_I_sound ci c zi z r : cencl ci c -> encl zi z -> ez_I ci zi = Some r -> encl r (ez_inverse c z).
  Proof.
    intros [H1 [H2 [H3 [H4 H5]]]] Hz. unfold ez_I, ez_inverse. cbv zeta. rewrite H2.
    pose proof (encl_Z 1) as One.
    destruct (cflat c).
    - match goal with |- context [odiv ?a ?b] => destruct (odiv a b) as [q|] eqn:E end; [|discriminate].
      intro S; apply Some_eq in S; subst r. apply encl_sqrt. eapply encl_odiv; [exact One| |exact E].
      repeat first [apply encl_add | apply encl_mul | assumption].
    - match goal with |- context [odiv ?a ?b] => destruct (odiv a b) as [q|] eqn:E end; [|discriminate].
      intro S; apply Some_eq in S; subst r. apply encl_sqrt. eapply encl_odiv; [exact One| |exact E].
      repeat first [apply encl_add | apply encl_mul | assumption].
  Qed.

  Fixpoint gl_loop (g : I.type -> option I.type) (f1 f2 : I.type) (l : list (I.type * I.type))
           (acc : I.type) : option I.type :=
    match l with
    | [] => Some acc
    | xw :: t =>
        match g (I.add p (I.mul p (fst xw) f1) f2) with
        | Some v => gl_loop g f1 f2 t (I.add p acc (I.mul p (I.mul p f1 v) (snd xw)))
        | None => None
        end
    end.

  Definition gl_sum_I (xs ws : list I.type) (g : I.type -> option I.type) (a b : I.type) : option I.type :=
    match odiv (I.sub p b a) (zI 2), odiv (I.add p b a) (zI 2) with
    | Some f1, Some f2 => gl_loop g f1 f2 (combine xs ws) (zI 0)
    | _, _ => None
    end.

  Definition sound1 (gI : I.type -> option I.type) (g : R -> R) : Prop :=
    forall zi z v, encl zi z -> gI zi = Some v -> encl v (g z).

  Lemma gl_loop_sound gI g f1i f1 f2i f2 : sound1 gI g -> encl f1i f1 -> encl f2i f2 ->
    forall li l, Forall2 (fun a b => encl (fst a) (fst b) /\ encl (snd a) (snd b)) li l ->
    forall acci acc r, encl acci acc -> gl_loop gI f1i f2i li acci = Some r ->
    encl r (fold_left (fun acc xw => acc + f1 * g (fst xw * f1 + f2) * snd xw) l acc).
  Proof.
    intros Hg H1 H2 li l HF. induction HF as [|a b li l [Ha Hb] HF IH]; intros acci acc r Hacc H; simpl in *.
    - apply Some_eq in H; subst r. assumption.
    - destruct (gI (I.add p (I.mul p (fst a) f1i) f2i)) as [v|] eqn:E; [|discriminate].
      eapply IH; [|exact H]. apply encl_add; [assumption|].
      apply encl_mul; [|assumption]. apply encl_mul; [assumption|].
      eapply Hg; [|exact E]. apply encl_add; [|assumption]. apply encl_mul; assumption.
  Qed.

  Lemma Forall2_combine xsI xs wsI ws : Forall2 encl xsI xs -> Forall2 encl wsI ws ->
    Forall2 (fun a b => encl (fst a) (fst b) /\ encl (snd a) (snd b)) (combine xsI wsI) (combine xs ws).
  Proof.
    intro H. revert wsI ws. induction H as [|a b xsI xs Hab H IH]; intros wsI ws HW; simpl; [constructor|].
    destruct HW as [|u v wsI ws Huv HW]; [constructor|]. constructor; [split; assumption|]. apply IH; assumption.
  Qed.

  Lemma gl_sum_I_sound xsI xs wsI ws gI g ai a bi b r :
    Forall2 encl xsI xs -> Forall2 encl wsI ws -> sound1 gI g -> encl ai a -> encl bi b ->
    gl_sum_I xsI wsI gI ai bi = Some r -> encl r (gl_sum xs ws g a b).
  Proof.
    intros HX HW Hg Ha Hb. unfold gl_sum_I, gl_sum. cbv zeta.
    destruct (odiv (I.sub p bi ai) (zI 2)) as [f1|] eqn:E1; [|discriminate].
    destruct (odiv (I.add p bi ai) (zI 2)) as [f2|] eqn:E2; [|discriminate].
    intro H. eapply gl_loop_sound; [exact Hg| | | | |exact H].
    - eapply encl_odiv; [|apply encl_Z|exact E1]. apply encl_sub; assumption.
    - eapply encl_odiv; [|apply encl_Z|exact E2]. apply encl_add; assumption.
    - apply Forall2_combine; assumption.
    - apply encl_Z.
  Qed.

  Section Chain.
    Variables (xsI wsI vxsI vwsI : list I.type) (xs ws vxs vws : list R).
    Hypothesis HX : Forall2 encl xsI xs.
    Hypothesis HW : Forall2 encl wsI ws.
    Hypothesis HVX : Forall2 encl vxsI vxs.
    Hypothesis HVW : Forall2 encl vwsI vws.
    Variables (ci : cosmoI) (c : cosmoR) (br : curv).
    Hypothesis HC : cencl ci c.
    Hypothesis HB : branch_ok br c.

    Definition ezint_I (a b : I.type) : option I.type := gl_sum_I xsI wsI (ez_I ci) a b.
    Lemma ezint_I_sound ai a bi b r : encl ai a -> encl bi b -> ezint_I ai bi = Some r ->
      encl r (ezinv_integral xs ws c a b).
    Proof.
      intros Ha Hb H. unfold ezint_I, ezinv_integral in *.
      eapply gl_sum_I_sound; try eassumption. intros zi z v Hz Hv. eapply ez_I_sound; eassumption.
    Qed.

    Definition Dc_I (a b : I.type) : option I.type :=
      match ezint_I a b with Some s => Some (I.mul p (iDH ci) s) | None => None end.
    Lemma Dc_I_sound ai a bi b r : encl ai a -> encl bi b -> Dc_I ai bi = Some r -> encl r (Dc_GL xs ws c a b).
    Proof.
      intros Ha Hb. unfold Dc_I, Dc_GL. destruct (ezint_I ai bi) as [s|] eqn:E; [|discriminate].
      intro H; apply Some_eq in H; subst r. apply encl_mul; [apply HC|]. eapply ezint_I_sound; eassumption.
    Qed.

    Definition tc_I : option I.type :=
      match br with
      | Flat => Some (zI 0)
      | Open => odiv (I.sqrt p (iok ci)) (iDH ci)
      | Closed => odiv (I.sqrt p (I.neg (iok ci))) (iDH ci)
      end.
    Lemma tc_I_sound t : tc_I = Some t -> encl t (tcfac c).
    Proof.
      destruct HC as [H1 [H2 [H3 [H4 H5]]]]. unfold tc_I, tcfac. destruct br; cbn in HB.
      - rewrite HB. intro H; apply Some_eq in H; subst t. apply encl_Z.
      - destruct HB as [B1 B2]. rewrite B1. destruct (Rlt_dec 0 (cok c)); [|contradiction].
        intro H. eapply encl_odiv; [|exact H1|exact H]. apply encl_sqrt. assumption.
      - destruct HB as [B1 B2]. rewrite B1. destruct (Rlt_dec 0 (cok c)); [contradiction|].
        intro H. eapply encl_odiv; [|exact H1|exact H]. apply encl_sqrt. apply encl_neg. assumption.
    Qed.

    Definition sinh_I (x : I.type) : option I.type :=
      odiv (I.sub p (I.exp p x) (I.exp p (I.neg x))) (zI 2).
    Lemma sinh_I_sound xi x r : encl xi x -> sinh_I xi = Some r -> encl r (sinh x).
    Proof.
      intros Hx H. unfold sinh_I in H. unfold sinh. eapply encl_odiv; [| apply encl_Z | exact H].
      apply encl_sub; apply encl_exp; [|apply encl_neg]; assumption.
    Qed.

    Definition Dm_of_I (d : I.type) : option I.type :=
      match br with
      | Flat => Some d
      | Open => match tc_I with
                | Some t => match sinh_I (I.mul p d t) with Some s => odiv s t | None => None end
                | None => None
                end
      | Closed => match tc_I with
                  | Some t => odiv (I.sin p (I.mul p d t)) t
                  | None => None
                  end
      end.
    Lemma Dm_of_I_sound di d r : encl di d -> Dm_of_I di = Some r -> encl r (Dm_of c d).
    Proof.
      intros Hd. pose proof tc_I_sound as T. unfold Dm_of_I, Dm_of. destruct br; cbn in HB.
      - rewrite HB. intro H; apply Some_eq in H; subst r; assumption.
      - destruct HB as [B1 B2]. rewrite B1. destruct (Rlt_dec 0 (cok c)); [|contradiction].
        destruct tc_I as [t|]; [|discriminate]. specialize (T t eq_refl).
        destruct (sinh_I (I.mul p di t)) as [s|] eqn:E; [|discriminate].
        intro H. eapply encl_odiv; [|exact T|exact H].
        eapply sinh_I_sound; [|exact E]. apply encl_mul; assumption.
      - destruct HB as [B1 B2]. rewrite B1. destruct (Rlt_dec 0 (cok c)); [contradiction|].
        destruct tc_I as [t|]; [|discriminate]. specialize (T t eq_refl).
        intro H. eapply encl_odiv; [|exact T|exact H].
        apply encl_sin. apply encl_mul; assumption.
    Qed.

    Definition Dm_I (a b : I.type) : option I.type :=
      match Dc_I a b with Some d => Dm_of_I d | None => None end.
    Lemma Dm_I_sound ai a bi b r : encl ai a -> encl bi b -> Dm_I ai bi = Some r -> encl r (Dm_GL xs ws c a b).
    Proof.
      intros Ha Hb. unfold Dm_I, Dm_GL. destruct (Dc_I ai bi) as [d|] eqn:E; [|discriminate].
      intro H. eapply Dm_of_I_sound; [|exact H]. eapply Dc_I_sound; eassumption.
    Qed.

    Definition Da_I (a b : I.type) : option I.type :=
      match Dm_I a b with Some m => odiv m (I.add p (zI 1) b) | None => None end.
    Lemma Da_I_sound ai a bi b r : encl ai a -> encl bi b -> Da_I ai bi = Some r -> encl r (Da_GL xs ws c a b).
    Proof.
      intros Ha Hb. unfold Da_I, Da_GL. destruct (Dm_I ai bi) as [m|] eqn:E; [|discriminate].
      intro H. eapply encl_odiv; [| |exact H]; [eapply Dm_I_sound; eassumption|].
      apply encl_add; [apply encl_Z|assumption].
    Qed.

    Definition Dl_I (a b : I.type) : option I.type :=
      match Dm_I a b with Some m => Some (I.mul p m (I.add p (zI 1) b)) | None => None end.
    Lemma Dl_I_sound ai a bi b r : encl ai a -> encl bi b -> Dl_I ai bi = Some r -> encl r (Dl_GL xs ws c a b).
    Proof.
      intros Ha Hb. unfold Dl_I, Dl_GL. destruct (Dm_I ai bi) as [m|] eqn:E; [|discriminate].
      intro H; apply Some_eq in H; subst r. apply encl_mul; [eapply Dm_I_sound; eassumption|].
      apply encl_add; [apply encl_Z|assumption].
    Qed.

    Definition distmod_I (z : I.type) : option I.type :=
      match Dl_I (zI 0) z with
      | Some dl =>
          match odiv (I.mul p dl (zI 1000000)) (zI 10) with
          | Some q => match oln q, oln (zI 10) with
                      | Some n, Some t => match odiv n t with
                                          | Some l => Some (I.mul p (zI 5) l)
                                          | None => None
                                          end
                      | _, _ => None
                      end
          | None => None
          end
      | None => None
      end.
    Lemma distmod_I_sound zi z r : encl zi z -> distmod_I zi = Some r -> encl r (distmod_GL xs ws c z).
    Proof.
      intros Hz. unfold distmod_I, distmod_GL, distmod_of.
      destruct (Dl_I (zI 0) zi) as [dl|] eqn:E1; [|discriminate].
      destruct (odiv (I.mul p dl (zI 1000000)) (zI 10)) as [q|] eqn:E2; [|discriminate].
      destruct (oln q) as [n|] eqn:E3; [|discriminate]. destruct (oln (zI 10)) as [t|] eqn:E4; [|discriminate].
      destruct (odiv n t) as [l|] eqn:E5; [|discriminate]. intro H; apply Some_eq in H; subst r.
      apply encl_mul; [apply encl_Z|]. eapply encl_odiv; [| |exact E5].
      - eapply encl_oln; [|exact E3]. eapply encl_odiv; [|apply encl_Z|exact E2].
        apply encl_mul; [|apply encl_Z]. eapply Dl_I_sound; [apply encl_Z|exact Hz|exact E1].
      - eapply encl_oln; [apply encl_Z|exact E4].
    Qed.

    Definition dV_I (z : I.type) : option I.type :=
      match Da_I (zI 0) z, ez_I ci z with
      | Some da, Some e =>
          let o := I.add p (zI 1) z in
          Some (I.mul p (I.mul p (I.mul p (I.mul p (I.mul p (iDH ci) da) da) e) o) o)
      | _, _ => None
      end.
    Lemma dV_I_sound : sound1 dV_I (dV_GL xs ws c).
    Proof.
      intros zi z r Hz. unfold dV_I, dV_GL. cbv zeta.
      destruct (Da_I (zI 0) zi) as [da|] eqn:E1; [|discriminate].
      destruct (ez_I ci zi) as [e|] eqn:E2; [|discriminate]. intro H; apply Some_eq in H; subst r.
      assert (A : encl da (Da_GL xs ws c 0 z)) by (eapply Da_I_sound; [apply encl_Z|exact Hz|exact E1]).
      assert (B : encl e (ez_inverse c z)) by (eapply ez_I_sound; eassumption).
      assert (O : encl (I.add p (zI 1) zi) (1 + z)) by (apply encl_add; [apply encl_Z|assumption]).
      repeat apply encl_mul; try assumption. apply HC.
    Qed.

    Definition V_I (a b : I.type) : option I.type :=
      match gl_sum_I vxsI vwsI dV_I a b with
      | Some v => Some (I.mul p (I.mul p v (zI 4)) (I.pi p))
      | None => None
      end.
    Lemma V_I_sound ai a bi b r : encl ai a -> encl bi b -> V_I ai bi = Some r -> encl r (V_GL xs ws vxs vws c a b).
    Proof.
      intros Ha Hb. unfold V_I, V_GL. destruct (gl_sum_I vxsI vwsI dV_I ai bi) as [v|] eqn:E; [|discriminate].
      intro H; apply Some_eq in H; subst r. apply encl_mul; [|apply encl_pi]. apply encl_mul; [|apply encl_Z].
      eapply gl_sum_I_sound; try eassumption. apply dV_I_sound.
    Qed.

    (* behind the lens (zl < zs is decided on the exact fractions by the caller) *)
    Definition scinv_I (k zl zs : I.type) : option I.type :=
      match Da_I zl zs, Da_I (zI 0) zl, Da_I (zI 0) zs with
      | Some dls, Some dl, Some ds =>
          match odiv (I.mul p dls dl) ds with Some q => Some (I.mul p q k) | None => None end
      | _, _, _ => None
      end.
    Lemma scinv_I_sound ki zli zl zsi zs r : encl ki FOUR_PI_G_OVER_C_SQUARED_R ->
      encl zli zl -> encl zsi zs -> zl < zs ->
      scinv_I ki zli zsi = Some r -> encl r (scinv_GL xs ws c zl zs).
    Proof.
      intros Hk Hl Hs Lt. unfold scinv_I, scinv_GL. destruct (Rle_dec zs zl); [lra|].
      destruct (Da_I zli zsi) as [dls|] eqn:E1; [|discriminate].
      destruct (Da_I (zI 0) zli) as [dl|] eqn:E2; [|discriminate].
      destruct (Da_I (zI 0) zsi) as [ds|] eqn:E3; [|discriminate].
      destruct (odiv (I.mul p dls dl) ds) as [q|] eqn:E4; [|discriminate].
      intro H; apply Some_eq in H; subst r. apply encl_mul; [|assumption].
      eapply encl_odiv; [| |exact E4].
      - apply encl_mul; eapply Da_I_sound; try eassumption; apply encl_Z.
      - eapply Da_I_sound; try eassumption; apply encl_Z.
    Qed.
  End Chain.

  (* |o - g| <= 1e-12 |o|, decided on the bounds *)
  Definition close_I (o g : I.type) : bool :=
    match odiv (zI 1) (zI 1000000000000) with
    | Some tol =>
        let lhs := I.abs (I.sub p o g) in
        let rhs := I.mul p tol (I.abs o) in
        match I.sign_large (I.sub p rhs lhs) with Xgt | Xeq => true | _ => false end
    | None => false
    end.
  Lemma close_I_sound oi o gi g : encl oi o -> encl gi g -> close_I oi gi = true -> close12 o g.
  Proof.
    intros Ho Hg. unfold close_I, close12.
    destruct (odiv (zI 1) (zI 1000000000000)) as [tol|] eqn:E; [|discriminate].
    assert (T : encl tol (1 / 10 ^ 12)).
    { replace (1 / 10 ^ 12) with (IZR 1 / IZR 1000000000000) by (simpl; lra).
      eapply encl_odiv; [apply encl_Z|apply encl_Z|exact E]. }
    set (d := I.sub p (I.mul p tol (I.abs oi)) (I.abs (I.sub p oi gi))).
    assert (D : encl d (1 / 10 ^ 12 * Rabs o - Rabs (o - g))).
    { unfold d. apply encl_sub; [apply encl_mul; [assumption|apply encl_abs; assumption]|].
      apply encl_abs. apply encl_sub; assumption. }
    pose proof (I.sign_large_correct d) as S. destruct (I.sign_large d); try discriminate; intros _.
    - specialize (S _ D). inversion S. lra.
    - destruct (S _ D) as [_ S2]. cbn in S2. lra.
  Qed.
End Ops.

(* ------------------------------------------------------------------------------------------ *)
(* decisions on exact fractions                                                               *)
(* ------------------------------------------------------------------------------------------ *)
Local Open Scope Z_scope.
Definition qpos_den (q : Z * Z) : bool := 0 <? snd q.
Definition qlt (a b : Z * Z) : bool := qpos_den a && qpos_den b && (fst a * snd b <? fst b * snd a).
Definition qle (a b : Z * Z) : bool := qpos_den a && qpos_den b && (fst a * snd b <=? fst b * snd a).
Local Open Scope R_scope.

(* cross-multiplication by the (positive) product of the denominators *)
Lemma q2R_cross a b : qpos_den a = true -> qpos_den b = true ->
  exists k, 0 < k /\ q2R a * k = IZR (fst a * snd b) /\ q2R b * k = IZR (fst b * snd a).
Proof.
  unfold qpos_den, q2R. destruct a as [n1 d1], b as [n2 d2]. cbn [fst snd]. intros H1 H2.
  apply Z.ltb_lt in H1, H2. apply IZR_lt in H1, H2.
  exists (IZR d1 * IZR d2). rewrite !mult_IZR. split; [apply Rmult_lt_0_compat; assumption|].
  split; field; lra.
Qed.

Lemma qlt_sound a b : qlt a b = true -> q2R a < q2R b.
Proof.
  unfold qlt. intro H. apply andb_true_iff in H as [P H]. apply andb_true_iff in P as [Pa Pb]. apply Z.ltb_lt in H.
  destruct (q2R_cross a b Pa Pb) as (k & K & Ea & Eb).
  apply Rmult_lt_reg_r with k; [assumption|]. rewrite Ea, Eb. apply IZR_lt. assumption.
Qed.

Lemma qle_sound a b : qle a b = true -> q2R a <= q2R b.
Proof.
  unfold qle. intro H. apply andb_true_iff in H as [P H]. apply andb_true_iff in P as [Pa Pb]. apply Z.leb_le in H.
  destruct (q2R_cross a b Pa Pb) as (k & K & Ea & Eb).
  apply Rmult_le_reg_r with k; [assumption|]. rewrite Ea, Eb. apply IZR_le. assumption.
Qed.

Definition branch_ok_b (br : curv) (c : cosmoQ) : bool :=
  match br with
  | Flat => qflat c
  | Open => negb (qflat c) && qlt (0, 1)%Z (qok c)
  | Closed => negb (qflat c) && qle (qok c) (0, 1)%Z
  end.
Lemma branch_ok_b_sound br c : branch_ok_b br c = true -> branch_ok br (cosmoR_of c).
Proof.
  destruct br; unfold branch_ok_b, branch_ok, cosmoR_of; cbn [cflat cok].
  - auto.
  - intro H. apply andb_true_iff in H as [H1 H2]. apply negb_true_iff in H1. split; [assumption|].
    apply qlt_sound in H2. unfold q2R in H2 at 1. cbn in H2. lra.
  - intro H. apply andb_true_iff in H as [H1 H2]. apply negb_true_iff in H1. split; [assumption|].
    apply qle_sound in H2. unfold q2R in H2 at 2. cbn in H2. lra.
Qed.

(* mirror symmetry of a table, decided on the integer pairs *)
Definition qneg (q : Z * Z) : Z * Z := (- fst q, snd q)%Z.
Definition qeqb (a b : Z * Z) : bool := ((fst a =? fst b) && (snd a =? snd b))%Z.
Fixpoint qlist_eqb (l m : list (Z * Z)) : bool :=
  match l, m with
  | [], [] => true
  | a :: l', b :: m' => qeqb a b && qlist_eqb l' m'
  | _, _ => false
  end.
Lemma qeqb_eq a b : qeqb a b = true -> a = b.
Proof.
  destruct a, b. unfold qeqb. cbn [fst snd]. intro H. apply andb_true_iff in H as [H1 H2].
  apply Z.eqb_eq in H1, H2. subst. reflexivity.
Qed.
Lemma qlist_eqb_eq l : forall m, qlist_eqb l m = true -> l = m.
Proof.
  induction l as [|a l IH]; intros [|b m] H; simpl in H; try discriminate; [reflexivity|].
  apply andb_true_iff in H as [H1 H2]. apply qeqb_eq in H1. apply IH in H2. subst. reflexivity.
Qed.
Lemma q2R_qneg q : q2R (qneg q) = - q2R q.
Proof. unfold q2R, qneg. cbn [fst snd]. rewrite opp_IZR. unfold Rdiv. ring. Qed.

Definition mirror_check (xs ws : list (Z * Z)) : bool :=
  Nat.eqb (length xs) (length ws) && qlist_eqb (rev xs) (map qneg xs) && qlist_eqb (rev ws) ws.
Lemma mirror_check_sound xs ws : mirror_check xs ws = true -> mirror (map q2R xs) (map q2R ws).
Proof.
  unfold mirror_check, mirror. intro H. apply andb_true_iff in H as [H H3]. apply andb_true_iff in H as [H1 H2].
  apply Nat.eqb_eq in H1. apply qlist_eqb_eq in H2, H3. rewrite !map_length. split; [assumption|]. split.
  - rewrite <- map_rev, H2, !map_map. apply map_ext. intro q. apply q2R_qneg.
  - rewrite <- map_rev, H3. reflexivity.
Qed.

(* the flat flag of the struct implies omega_k = 0 *)
Definition flat_k0_b (c : cosmoQ) : bool := negb (qflat c) || (fst (qok c) =? 0)%Z.
Lemma flat_k0_b_sound c : flat_k0_b c = true -> cflat (cosmoR_of c) = true -> cok (cosmoR_of c) = 0.
Proof.
  unfold flat_k0_b, cosmoR_of. cbn [cflat cok]. intros H F. rewrite F in H. cbn in H.
  apply Z.eqb_eq in H. unfold q2R. rewrite H. unfold Rdiv. apply Rmult_0_l.
Qed.

(* E(z)^2 > 0, decided on the bounds *)
Definition E2_I (p : F.precision) (ci : cosmoI) (z : I.type) : I.type :=
  let o := I.add p (zI p 1) z in
  I.add p (I.add p (I.mul p (iom ci) (I.mul p o (I.mul p o (I.mul p o (zI p 1)))))
                   (I.mul p (iok ci) (I.mul p o (I.mul p o (zI p 1))))) (iol ci).
Lemma E2_I_sound p ci c zi z : cencl ci c -> encl zi z -> encl (E2_I p ci zi) (E2 c z).
Proof.
  intros [H1 [H2 [H3 [H4 H5]]]] Hz. unfold E2_I, E2. cbv zeta. simpl pow.
  assert (O : encl (I.add p (zI p 1) zi) (1 + z)) by (apply encl_add; [apply encl_Z|assumption]).
  pose proof (encl_Z p 1) as One.
  repeat first [apply encl_add | apply encl_mul | assumption].
Qed.
Definition E2_pos_check (prec : positive) (c : cosmoQ) (z : Z * Z) : bool :=
  let p := F.PtoP prec in
  match cosmoI_of p c, qI p z with
  | Some ci, Some zi => match I.sign_strict (E2_I p ci zi) with Xgt => true | _ => false end
  | _, _ => false
  end.
Lemma E2_pos_check_sound prec c z : E2_pos_check prec c z = true -> 0 < E2 (cosmoR_of c) (q2R z).
Proof.
  unfold E2_pos_check. set (p := F.PtoP prec).
  destruct (cosmoI_of p c) as [ci|] eqn:EC; [|discriminate]. destruct (qI p z) as [zi|] eqn:EZ; [|discriminate].
  apply cencl_of in EC. apply encl_qI in EZ. pose proof (E2_I_sound p ci _ zi _ EC EZ) as D.
  pose proof (I.sign_strict_correct (E2_I p ci zi)) as S.
  destruct (I.sign_strict (E2_I p ci zi)); try discriminate. intros _.
  destruct (S _ D) as [_ S2]. exact S2.
Qed.

(* ------------------------------------------------------------------------------------------ *)
(* the certificate                                                                            *)
(* ------------------------------------------------------------------------------------------ *)
Definition value_I (p : F.precision) (q : quantity) (xs ws vxs vws : list I.type) (br : curv)
           (ci : cosmoI) (zq1 zq2 : Z * Z) (z1 z2 : I.type) : option I.type :=
  match q with
  | QEz => ez_I p ci z2
  | QInt => ezint_I p xs ws ci z1 z2
  | QDc => Dc_I p xs ws ci z1 z2
  | QDm => Dm_I p xs ws ci br z1 z2
  | QDa => Da_I p xs ws ci br z1 z2
  | QDl => Dl_I p xs ws ci br z1 z2
  | QDistmod => distmod_I p xs ws ci br z2
  | QdV => dV_I p xs ws ci br z2
  | QV => V_I p xs ws vxs vws ci br z1 z2
  | QScinv =>
      if qlt zq1 zq2 then
        match qI p FOUR_PI_G_OVER_C_SQUARED_Q with
        | Some k => scinv_I p xs ws ci br k z1 z2
        | None => None
        end
      else if qle zq2 zq1 then Some (zI p 0) else None
  end.

Definition check (prec : positive) (q : quantity) (xs ws vxs vws : list (Z * Z)) (br : curv)
           (c : cosmoQ) (z1 z2 out : Z * Z) : bool :=
  let p := F.PtoP prec in
  branch_ok_b br c &&
  match qIs p xs, qIs p ws, qIs p vxs, qIs p vws with
  | Some xsI, Some wsI, Some vxsI, Some vwsI =>
      match cosmoI_of p c, qI p z1, qI p z2, qI p out with
      | Some ci, Some z1i, Some z2i, Some oi =>
          match value_I p q xsI wsI vxsI vwsI br ci z1 z2 z1i z2i with
          | Some g => close_I p oi g
          | None => false
          end
      | _, _, _, _ => false
      end
  | _, _, _, _ => false
  end.

Theorem cert prec q xs ws vxs vws br c z1 z2 out :
  check prec q xs ws vxs vws br c z1 z2 out = true ->
  close12 (q2R out)
          (value_R q (map q2R xs) (map q2R ws) (map q2R vxs) (map q2R vws) (cosmoR_of c) (q2R z1) (q2R z2)).
Proof.
  unfold check. set (p := F.PtoP prec). intro H.
  apply andb_true_iff in H as [HB H]. apply branch_ok_b_sound in HB.
  destruct (qIs p xs) as [xsI|] eqn:EX; [|discriminate]. destruct (qIs p ws) as [wsI|] eqn:EW; [|discriminate].
  destruct (qIs p vxs) as [vxsI|] eqn:EVX; [|discriminate]. destruct (qIs p vws) as [vwsI|] eqn:EVW; [|discriminate].
  destruct (cosmoI_of p c) as [ci|] eqn:EC; [|discriminate].
  destruct (qI p z1) as [z1i|] eqn:E1; [|discriminate]. destruct (qI p z2) as [z2i|] eqn:E2; [|discriminate].
  destruct (qI p out) as [oi|] eqn:EO; [|discriminate].
  destruct (value_I p q xsI wsI vxsI vwsI br ci z1 z2 z1i z2i) as [g|] eqn:EG; [|discriminate].
  apply encl_qIs in EX, EW, EVX, EVW. apply cencl_of in EC. apply encl_qI in E1, E2, EO.
  eapply close_I_sound; [exact EO| |exact H].
  destruct q; cbn [value_I value_R] in *.
  - eapply ez_I_sound; eassumption.
  - eapply ezint_I_sound; eassumption.
  - eapply Dc_I_sound; eassumption.
  - eapply Dm_I_sound; eassumption.
  - eapply Da_I_sound; eassumption.
  - eapply Dl_I_sound; eassumption.
  - eapply distmod_I_sound; eassumption.
  - eapply (dV_I_sound p xsI wsI (map q2R xs) (map q2R ws)); eassumption.
  - eapply V_I_sound; eassumption.
  - destruct (qlt z1 z2) eqn:L.
    + destruct (qI p FOUR_PI_G_OVER_C_SQUARED_Q) as [k|] eqn:EK; [|discriminate].
      apply encl_qI in EK. apply qlt_sound in L.
      eapply scinv_I_sound; try eassumption.
    + destruct (qle z2 z1) eqn:L2; [|discriminate]. apply qle_sound in L2. apply Some_eq in EG; subst g.
      unfold scinv_GL. destruct (Rle_dec (q2R z2) (q2R z1)); [apply encl_Z|contradiction].
Qed.

(* 1/E(z) has no quadrature in it: the certificate is against the definition itself *)
Theorem cert_Einv prec xs ws vxs vws br c z1 z2 out :
  flat_k0_b c = true -> E2_pos_check prec c z2 = true ->
  check prec QEz xs ws vxs vws br c z1 z2 out = true ->
  close12 (q2R out) (Einv_def (cosmoR_of c) (q2R z2)).
Proof.
  intros K P H. apply cert in H. cbn [value_R] in H.
  rewrite (Proofs.ez_inverse_is_def _ _ (flat_k0_b_sound c K)) in H.
  exact H.
Qed.
