(* C14 — rational-arithmetic lemmas: exact sums, permutation invariance, sorting, closeness. *)
From Coq Require Import PrimFloat FloatOps SpecFloat QArith Qabs Lia Sorting.Permutation Sorting.Sorted Setoid.
From EsVerif.Common Require Import Base.
From EsVerif.C14 Require Import Model Spec.
Open Scope Q_scope.

Lemma qadd_eq p q : W.qadd p q == p + q.
Proof.
  unfold W.qadd. destruct (Pos.eqb (Qden p) (Qden q)) eqn:E.
  - apply Pos.eqb_eq in E. destruct p as [a d], q as [b e]. simpl in E. subst e.
    unfold Qeq, Qplus. simpl. rewrite Pos2Z.inj_mul. ring.
  - apply Qred_correct.
Qed.

Lemma fold_qadd t : forall a, fold_left W.qadd t a == a + Sum t.
Proof.
  induction t as [|b t IH]; intro a; simpl.
  - ring.
  - rewrite IH, qadd_eq. ring.
Qed.

Lemma qsum_Sum l : W.qsum l == Sum l.
Proof.
  destruct l as [|a t]; simpl.
  - reflexivity.
  - apply fold_qadd.
Qed.

Lemma Sum_perm l l' : Permutation l l' -> Sum l == Sum l'.
Proof.
  induction 1; simpl.
  - reflexivity.
  - rewrite IHPermutation. reflexivity.
  - ring.
  - rewrite IHPermutation1. assumption.
Qed.

Lemma Sum_map_ext {A} (f g : A -> Q) l : (forall a, f a == g a) -> Sum (map f l) == Sum (map g l).
Proof.
  intro H. induction l as [|a t IH]; simpl.
  - reflexivity.
  - rewrite IH, H. reflexivity.
Qed.

Lemma Sum_map2_ext (f g : Q -> Q -> Q) l l' :
  (forall a b, f a b == g a b) -> Sum (W.map2 f l l') == Sum (W.map2 g l l').
Proof.
  intro H. revert l'. induction l as [|a t IH]; intros [|b t']; simpl; try reflexivity.
  rewrite IH, H. reflexivity.
Qed.

Lemma map2_map {A} (f : Q -> Q -> Q) (g h : A -> Q) ks :
  W.map2 f (map g ks) (map h ks) = map (fun k => f (g k) (h k)) ks.
Proof. induction ks as [|k t IH]; simpl; [reflexivity | rewrite IH; reflexivity]. Qed.

Lemma Sum_nonneg l : (forall a, In a l -> 0 <= a) -> 0 <= Sum l.
Proof.
  induction l as [|a t IH]; intro H; simpl.
  - apply Qle_refl.
  - rewrite <- (Qplus_0_r 0). apply Qplus_le_compat.
    + apply H. left. reflexivity.
    + apply IH. intros b Hb. apply H. right. assumption.
Qed.

Lemma Sum_abs_nonneg l : 0 <= Sum (map Qabs l).
Proof.
  apply Sum_nonneg. intros a Ha. apply in_map_iff in Ha. destruct Ha as [b [Hb _]]. subst a.
  apply Qabs_nonneg.
Qed.

Lemma qn_pos {A} (l : list A) : l <> [] -> 0 < qn l.
Proof.
  intro H. unfold qn. destruct l as [|a t]; [contradiction|].
  unfold Qlt. simpl. lia.
Qed.

Lemma qn_nonneg {A} (l : list A) : 0 <= qn l.
Proof. unfold qn, Qle. simpl. lia. Qed.

Lemma qn_perm {A} (l l' : list A) : Permutation l l' -> qn l = qn l'.
Proof. intro H. unfold qn. rewrite (Permutation_length H). reflexivity. Qed.

Lemma div_nonneg a b : 0 <= a -> 0 <= b -> 0 <= a / b.
Proof.
  intros Ha Hb. unfold Qdiv.
  destruct (Qeq_dec b 0) as [E|E].
  - rewrite E. unfold Qinv. simpl. rewrite Qmult_0_r. apply Qle_refl.
  - apply Qmult_le_0_compat; [assumption|]. apply Qinv_le_0_compat. assumption.
Qed.

Lemma close_sqrt_b_iff s V tol : close_sqrt_b s V tol = true <-> close_sqrt s V tol.
Proof.
  unfold close_sqrt_b, close_sqrt. rewrite !andb_true_iff, orb_true_iff, !Qle_bool_iff. tauto.
Qed.

Lemma meets_q_iff y t : meets_q y t = true <-> Meets_q y t.
Proof.
  destruct t as [|q|q A|V A]; simpl.
  - split; auto.
  - apply Qeq_bool_iff.
  - apply Qle_bool_iff.
  - apply close_sqrt_b_iff.
Qed.

Theorem meets_iff f t : meets f t = true <-> Meets f t.
Proof.
  destruct t as [|q|q A|V A]; unfold meets, Meets; [split; auto | | |];
    rewrite andb_true_iff, meets_q_iff; reflexivity.
Qed.

(* closeness respects equality of the targets *)
Lemma close_lin_eq y v v' tol tol' : v == v' -> tol == tol' -> close_lin y v tol -> close_lin y v' tol'.
Proof. unfold close_lin. intros E1 E2 H. rewrite <- E1, <- E2. assumption. Qed.

Lemma close_sqrt_eq s V V' tol tol' : V == V' -> tol == tol' -> close_sqrt s V tol -> close_sqrt s V' tol'.
Proof.
  unfold close_sqrt. intros E1 E2 [H1 [H2 [H3 H4]]].
  repeat split.
  - assumption.
  - rewrite <- E2. assumption.
  - destruct H3 as [H3|H3]; [left|right].
    + rewrite <- E2. assumption.
    + rewrite <- E1, <- E2. assumption.
  - rewrite <- E1, <- E2. assumption.
Qed.

Fixpoint ssorted (l : list Q) : Prop :=
  match l with
  | [] => True
  | a :: t => (forall b, In b t -> a <= b) /\ ssorted t
  end.

(* the standard library's name for it *)
Lemma ssorted_StronglySorted l : ssorted l <-> StronglySorted Qle l.
Proof.
  induction l as [|a t IH]; simpl.
  - split; [constructor | trivial].
  - rewrite IH. split.
    + intros [H S]. constructor; [exact S | apply Forall_forall, H].
    + intro H. inversion H as [|? ? S F]. split; [apply Forall_forall, F | exact S].
Qed.

Lemma insert_perm a l : Permutation (insert_q a l) (a :: l).
Proof.
  induction l as [|b t IH]; simpl.
  - apply Permutation_refl.
  - destruct (Qle_bool a b).
    + apply Permutation_refl.
    + eapply Permutation_trans; [apply perm_skip; exact IH | apply perm_swap].
Qed.

Lemma isort_perm l : Permutation (isort_q l) l.
Proof.
  induction l as [|a t IH]; simpl.
  - apply Permutation_refl.
  - eapply Permutation_trans; [apply insert_perm | apply perm_skip; exact IH].
Qed.

Lemma insert_sorted a l : ssorted l -> ssorted (insert_q a l).
Proof.
  induction l as [|b t IH]; simpl; intro H.
  - split; [intros c []| exact I].
  - destruct H as [Hb Ht]. destruct (Qle_bool a b) eqn:E.
    + apply Qle_bool_iff in E. simpl. split.
      * intros c [Hc|Hc]; [subst c; assumption|]. eapply Qle_trans; [exact E | apply Hb; assumption].
      * split; assumption.
    + assert (Hba : b <= a).
      { apply Qlt_le_weak. apply Qnot_le_lt. intro H. apply Qle_bool_iff in H. congruence. }
      simpl. split.
      * intros c Hc. apply (Permutation_in _ (insert_perm a t)) in Hc. destruct Hc as [Hc|Hc].
        -- subst c. assumption.
        -- apply Hb. assumption.
      * apply IH. assumption.
Qed.

Lemma isort_sorted l : ssorted (isort_q l).
Proof.
  induction l as [|a t IH]; simpl; [exact I | apply insert_sorted; assumption].
Qed.

Definition dn (D : positive) (q : Q) : Prop := Qden q = D.

Lemma Qeq_same_den D a b : dn D a -> dn D b -> a == b -> a = b.
Proof.
  destruct a as [n d], b as [m e]. unfold dn, Qeq. simpl. intros -> -> H.
  f_equal. apply Z.mul_reg_r in H; [assumption | discriminate].
Qed.

Lemma sorted_unique D : forall l1 l2,
  ssorted l1 -> ssorted l2 -> Permutation l1 l2 -> Forall (dn D) l1 -> l1 = l2.
Proof.
  induction l1 as [|a t1 IH]; intros l2 S1 S2 P F.
  - apply Permutation_nil in P. subst. reflexivity.
  - destruct l2 as [|b t2].
    + apply Permutation_sym, Permutation_nil in P. discriminate.
    + destruct S1 as [Ha S1]. destruct S2 as [Hb S2].
      assert (F2 : Forall (dn D) (b :: t2)) by exact (Permutation_Forall P F).
      assert (Eab : a = b).
      { apply (Qeq_same_den D).
        - inversion F; assumption.
        - inversion F2; assumption.
        - apply Qle_antisym.
          + assert (Hin : In b (a :: t1)) by (apply (Permutation_in _ (Permutation_sym P)); left; reflexivity).
            destruct Hin as [Hin|Hin]; [subst; apply Qle_refl | apply Ha; assumption].
          + assert (Hin : In a (b :: t2)) by (apply (Permutation_in _ P); left; reflexivity).
            destruct Hin as [Hin|Hin]; [subst; apply Qle_refl | apply Hb; assumption]. }
      subst b. f_equal. apply IH; try assumption.
      * apply Permutation_cons_inv in P. assumption.
      * inversion F; assumption.
Qed.

(* the sorted arrangement of values with a common denominator is unique *)
Lemma isort_unique D v s : Forall (dn D) v -> ssorted s -> Permutation s v -> isort_q v = s.
Proof.
  intros F S P. apply (sorted_unique D).
  - apply isort_sorted.
  - exact S.
  - eapply Permutation_trans; [apply isort_perm | apply Permutation_sym; exact P].
  - exact (Permutation_Forall (Permutation_sym (isort_perm v)) F).
Qed.

Lemma median_perm_eq D l l' : Forall (dn D) l -> Permutation l l' -> median_q l = median_q l'.
Proof.
  intros F P. assert (E : isort_q l = isort_q l').
  { apply (isort_unique D); [exact F | apply isort_sorted |].
    eapply Permutation_trans; [apply isort_perm | apply Permutation_sym; exact P]. }
  unfold median_q. rewrite E, (Permutation_length P). reflexivity.
Qed.

Lemma f2q_at_den E f : Qden (f2q_at E f) = den_of E.
Proof. unfold f2q_at. destruct (Prim2SF f); reflexivity. Qed.

Lemma qcol_den v : Forall (dn (den_of (emin v))) (qcol v).
Proof.
  unfold qcol. apply Forall_forall. intros q Hq. apply in_map_iff in Hq. destruct Hq as [f [Hf _]].
  subst q. apply f2q_at_den.
Qed.

Lemma den_of_Z E : (E <= 0)%Z -> Z.pos (den_of E) = (2 ^ (- E))%Z.
Proof.
  intro H. unfold den_of. destruct (E <? 0)%Z eqn:El.
  - apply Z.ltb_lt in El. rewrite Pos2Z.inj_pow. rewrite Z2Pos.id by lia. reflexivity.
  - apply Z.ltb_ge in El. replace E with 0%Z by lia. reflexivity.
Qed.

(* a column converts every float to the value f2q gives it *)
Lemma f2q_at_value E f : (E <= 0)%Z -> (E <= fexp f)%Z -> f2q_at E f == f2q f.
Proof.
  intros H0 He. unfold f2q, f2q_at, fexp in *.
  destruct (Prim2SF f) as [s|s| |s m e]; try (unfold Qeq; simpl; reflexivity).
  set (E' := Z.min 0 e). assert (H0' : (E' <= 0)%Z) by (unfold E'; lia). assert (He' : (E' <= e)%Z) by (unfold E'; lia).
  unfold Qeq. cbn [Qnum Qden]. rewrite !den_of_Z by assumption.
  set (num := if s then Z.neg m else Z.pos m).
  rewrite <- !Z.mul_assoc. f_equal. rewrite <- !Z.pow_add_r by lia. f_equal. lia.
Qed.

Lemma emin_le v : (emin v <= 0)%Z /\ forall f, In f v -> (emin v <= fexp f)%Z.
Proof.
  unfold emin. induction v as [|a t [IH0 IH]]; cbn [fold_right].
  - split; [lia | intros f []].
  - split; [lia|]. intros f [Hf|Hf]; [subst; lia | specialize (IH f Hf); lia].
Qed.

