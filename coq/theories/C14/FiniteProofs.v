(* C14 — for finite data the order/selection contracts that the end-to-end theorems assume are
   theorems (C05's Flocq-based facts about the stable argsort, the min/max selection and the
   binary64 bin numbers), so both binning modes satisfy the property with nothing monitored.
   These statements depend on the standard library's FloatAxioms and real-number axioms. *)
From Coq Require Import PrimFloat FloatOps SpecFloat ZArith List Bool Lia Sorting.Permutation.
From EsVerif.Common Require Import Base.
From EsVerif.C05 Require Import Model Spec PassProofs Proofs SortFacts FloatProofs Properties.
From EsVerif.C14 Require Import Model Spec StatProofs Proofs NumModelProofs ApiProofs.
Open Scope Z_scope.

Lemma is_finite_finite_f f : is_finite f = finite_f f.
Proof. unfold is_finite, finite_f. destruct (Prim2SF f); reflexivity. Qed.

Lemma cols_ok_x_finite c : cols_ok c = true -> forallb finite_f (c_x c) = true.
Proof.
  unfold cols_ok. intro H. apply andb_true_iff in H as [H _]. apply andb_true_iff in H as [H _].
  apply andb_true_iff in H as [_ H]. unfold all_finite in H.
  rewrite forallb_forall in H. apply forallb_forall. intros f Hf. rewrite <- is_finite_finite_f. apply H. exact Hf.
Qed.

(* binsize / nbin mode: finite data and limits, a sane bin specification *)
Theorem binned_holds_finite c rv lo hi m b o rows :
  binner true c rv lo hi m = Ok b -> dorev c rv = true -> cols_ok c = true ->
  finite_opt lo = true -> finite_opt hi = true ->
  histogram EngC (c_x c) lo hi m = Ok o -> params_ok (o_params o) = true ->
  rows_meet rows (b_rows b) = true ->
  let p := o_params o in
  stats_ok (members (c_x c) lo hi (p_dmin p) (p_bsize p)) (p_nbin p) c rows.
Proof.
  intros HB HD OK Flo Fhi HH HP HR.
  apply (binned_stats_of_members c rv lo hi m b o rows HB HD OK HH); [|exact HR].
  apply (C05_contracts_hold EngC (c_x c) lo hi m o (cols_ok_x_finite c OK) Flo Fhi HH HP).
Qed.

(* the selection of the model is the stable sorted order of the data within the limits *)
Lemma selection_facts c lo hi dmin dmax wsort :
  cols_ok c = true -> finite_opt lo = true -> finite_opt hi = true ->
  limits (c_x c) (argsort (c_x c)) lo hi = Ok (dmin, dmax, wsort) ->
  ordered (c_x c) wsort /\ Permutation wsort (selected c lo hi).
Proof.
  intros OK Flo Fhi HL. assert (Fx := cols_ok_x_finite c OK).
  destruct (limits_facts (c_x c) Fx lo hi dmin dmax wsort Flo Fhi HL) as [_ [_ [Ew _]]].
  split.
  - rewrite Ew. apply ordered_filter. apply (argsort_ordered (c_x c) Fx).
  - rewrite Ew. unfold selected, indices. apply Permutation_filter. apply argsort_perm.
Qed.

(* nperbin mode: finite data and limits; nothing else assumed *)
Theorem nperbin_holds_finite c lo hi k merge b rows :
  binner_num true c lo hi k merge = Ok b -> cols_ok c = true ->
  finite_opt lo = true -> finite_opt hi = true -> 1 <= k ->
  rows_meet rows (n_rows b) = true ->
  num_ok c lo hi k merge (n_hist b) (n_rev b) (n_low b) (n_high b) rows.
Proof.
  intros HB OK Flo Fhi Hk HR.
  assert (HL : exists dmin dmax wsort, limits (c_x c) (argsort (c_x c)) lo hi = Ok (dmin, dmax, wsort)).
  { unfold binner_num in HB. rewrite (cols_ok_same_len c OK) in HB. cbn [negb] in HB.
    destruct (limits (c_x c) (argsort (c_x c)) lo hi) as [[[dmin dmax] w]|e]; [|discriminate].
    exists dmin, dmax, w. reflexivity. }
  destruct HL as [dmin [dmax [wsort HL]]].
  destruct (selection_facts c lo hi dmin dmax wsort OK Flo Fhi HL) as [HO HP].
  exact (binner_num_spec c lo hi k merge b dmin dmax wsort rows HB OK Hk HL HO HP HR).
Qed.

(* whatever combination of binsize= / nbin= / nperbin= is given, through Binner or histogram():
   an accepted call on finite data satisfies the property of the binning mode that wins *)
Theorem api_holds_finite h c rv lo hi bs nb k merge a rows :
  binner_api true h c rv lo hi bs nb k merge = Ok a -> cols_ok c = true ->
  finite_opt lo = true -> finite_opt hi = true ->
  match a with
  | ANum n => exists k', resolve h bs nb k = CNum k' /\
      (1 <= k' -> rows_meet rows (n_rows n) = true ->
       num_ok c lo hi k' merge (n_hist n) (n_rev n) (n_low n) (n_high n) rows)
  | ABinned b => exists m, resolve h bs nb k = CMode m /\
      (dorev c rv = true -> forall o, histogram EngC (c_x c) lo hi m = Ok o -> params_ok (o_params o) = true ->
       rows_meet rows (b_rows b) = true ->
       stats_ok (members (c_x c) lo hi (p_dmin (o_params o)) (p_bsize (o_params o))) (p_nbin (o_params o)) c rows)
  end.
Proof.
  intros HA OK Flo Fhi. unfold binner_api in HA.
  destruct (resolve h bs nb k) as [k'|m|] eqn:R.
  - destruct (binner_num true c lo hi k' merge) as [n|e] eqn:HB; [|discriminate]. injection HA as <-.
    exists k'. split; [reflexivity|]. intros Hk HR. exact (nperbin_holds_finite c lo hi k' merge n rows HB OK Flo Fhi Hk HR).
  - destruct (binner true c rv lo hi m) as [b|e] eqn:HB; [|discriminate]. injection HA as <-.
    exists m. split; [reflexivity|]. intros HD o HH HP HR.
    exact (binned_holds_finite c rv lo hi m b o rows HB HD OK Flo Fhi HH HP HR).
  - destruct (negb (same_len c)); [discriminate|].
    destruct (limits (c_x c) (argsort (c_x c)) lo hi); discriminate.
Qed.

Lemma fresh_num_inv c lo hi k merge d :
  fresh_answer true c (CallNum lo hi k merge) = Ok d ->
  exists n, binner_num true c lo hi k merge = Ok n
    /\ d_hist d = Some (n_hist n) /\ d_rev d = Some (n_rev n) /\ d_nperbin d = Some k
    /\ d_lowhigh d = Some (n_low n, n_high n) /\ d_edges d = None /\ d_rows d = Some (n_rows n).
Proof.
  intro H. destruct (binner_num true c lo hi k merge) as [n|e] eqn:HB.
  - exists n. split; [reflexivity|].
    destruct (fresh_answer_num true c lo hi k merge n HB) as [d' [E F]]. rewrite H in E. injection E as <-. exact F.
  - unfold fresh_answer, obj_call in H. cbn [obj_new o_cols o_sortcache o_dict] in H.
    unfold dohist_into in H. rewrite HB in H. discriminate.
Qed.

Lemma fresh_binned_inv c rv lo hi m d :
  fresh_answer true c (CallBinned rv lo hi m) = Ok d ->
  exists b, binner true c rv lo hi m = Ok b
    /\ d_hist d = Some (b_hist b) /\ d_nperbin d = None /\ d_lowhigh d = None
    /\ d_edges d = Some (b_edges b)
    /\ d_rev d = (if dorev c rv then Some (b_rev b) else None)
    /\ d_rows d = (if dorev c rv then Some (b_rows b) else None).
Proof.
  intro H. destruct (binner true c rv lo hi m) as [b|e] eqn:HB.
  - exists b. split; [reflexivity|].
    destruct (fresh_answer_binned true c rv lo hi m b HB) as [d' [E F]]. rewrite H in E. injection E as <-. exact F.
  - unfold fresh_answer, obj_call in H. cbn [obj_new o_cols o_sortcache o_dict] in H.
    unfold dohist_into in H. rewrite HB in H. discriminate.
Qed.

(* a Binner that has been through ANY sequence of calls answers the next accepted call on finite
   data with a dictionary that satisfies the property (and carries exactly the keys of that mode) *)
Theorem object_holds_finite c cls cl d :
  snd (obj_call true true (obj_run true true (obj_new c) cls) cl) = Ok d -> cols_ok c = true ->
  match cl with
  | CallNum lo hi k merge =>
      finite_opt lo = true -> finite_opt hi = true -> 1 <= k ->
      exists hist rev low high rowsT,
        d_hist d = Some hist /\ d_rev d = Some rev /\ d_lowhigh d = Some (low, high) /\ d_rows d = Some rowsT
        /\ d_nperbin d = Some k /\ d_edges d = None
        /\ forall rows, rows_meet rows rowsT = true -> num_ok c lo hi k merge hist rev low high rows
  | CallBinned rv lo hi m =>
      finite_opt lo = true -> finite_opt hi = true -> dorev c rv = true ->
      forall o, histogram EngC (c_x c) lo hi m = Ok o -> params_ok (o_params o) = true ->
      exists rowsT, d_rows d = Some rowsT /\ d_nperbin d = None /\ d_lowhigh d = None
        /\ d_edges d = Some (edges (p_dmin (o_params o)) (p_bsize (o_params o)) (Z.of_nat (length (o_hist o))))
        /\ forall rows, rows_meet rows rowsT = true ->
             stats_ok (members (c_x c) lo hi (p_dmin (o_params o)) (p_bsize (o_params o))) (p_nbin (o_params o)) c rows
  end.
Proof.
  intros H OK. rewrite history_irrelevant in H. destruct cl as [rv lo hi m|lo hi k merge].
  - intros Flo Fhi HD o HH HP.
    destruct (fresh_binned_inv c rv lo hi m d H) as [b [HB [_ [E2 [E3 [E4 [_ E6]]]]]]].
    rewrite HD in E6. exists (b_rows b). split; [exact E6|]. split; [exact E2|]. split; [exact E3|]. split.
    + rewrite E4. f_equal. unfold binner in HB. rewrite (cols_ok_same_len c OK) in HB. cbn [negb] in HB.
      rewrite HH, HD in HB. injection HB as <-. reflexivity.
    + intros rows HR. exact (binned_holds_finite c rv lo hi m b o rows HB HD OK Flo Fhi HH HP HR).
  - intros Flo Fhi Hk.
    destruct (fresh_num_inv c lo hi k merge d H) as [n [HB [E1 [E2 [E3 [E4 [E5 E6]]]]]]].
    exists (n_hist n), (n_rev n), (n_low n), (n_high n), (n_rows n).
    repeat (split; [assumption|]).
    intros rows HR. exact (nperbin_holds_finite c lo hi k merge n rows HB OK Flo Fhi Hk HR).
Qed.

Lemma within_is_in_limits x lo hi : forallb finite_f x = true ->
  forall k, In k (argsort x) ->
    within (eff_min x (argsort x) lo) (eff_max x (argsort x) hi) (fget x k) = in_limits lo hi (fget x k).
Proof.
  intros Fx k Hk. assert (Ho := argsort_ordered x Fx). assert (Rg := argsort_in_range x).
  unfold within, in_limits, eff_min, eff_max.
  destruct (argsort x) as [|a t] eqn:S; [destruct Hk|].
  assert (Lmin : PrimFloat.leb (fget x a) (fget x k) = true) by (apply (ordered_first_min x Fx a t k Rg Ho Hk)).
  assert (Lmax : PrimFloat.leb (fget x k) (fget x (last (a :: t) 0)) = true) by (apply (ordered_last_max x Fx (a :: t) k Rg Ho Hk)).
  destruct lo as [l|], hi as [h|]; cbn [hd]; rewrite ?Lmin, ?Lmax; reflexivity.
Qed.

(* exactly which selections are rejected, stated on the data: IndexError for empty data when a limit
   has to be taken from them, ValueError when no datum lies within the limits, otherwise the data
   within the limits in stable sorted order *)
Theorem selection_outcome x lo hi : forallb finite_f x = true ->
  let sel := filter (fun k => in_limits lo hi (fget x k)) (argsort x) in
  match x, lo, hi with
  | [], None, _ => limits x (argsort x) lo hi = Err EIndex
  | [], Some _, None => limits x (argsort x) lo hi = Err EIndex
  | _, _, _ =>
      match sel with
      | [] => limits x (argsort x) lo hi = Err EValue
      | _ => limits x (argsort x) lo hi = Ok (eff_min x (argsort x) lo, eff_max x (argsort x) hi, sel)
      end
  end.
Proof.
  intros Fx sel. rewrite limits_outcome.
  assert (Ef : filter (fun k => within (eff_min x (argsort x) lo) (eff_max x (argsort x) hi) (fget x k)) (argsort x) = sel).
  { unfold sel. apply filter_ext_in. intros k Hk. apply within_is_in_limits; assumption. }
  destruct x as [|v t].
  - change (argsort []) with (@nil Z) in *. destruct lo as [l|], hi as [h|]; reflexivity.
  - assert (Hne : argsort (v :: t) <> []).
    { intro E. pose proof (Permutation_length (argsort_perm (v :: t))) as L. rewrite E in L.
      rewrite zseq_length in L. cbn [length] in L. discriminate. }
    destruct (argsort (v :: t)) as [|a s'] eqn:S; [contradiction|].
    destruct lo as [l|], hi as [h|]; rewrite ?Ef; try (destruct sel; reflexivity).
    (* no limits: everything is selected *)
    assert (Es : sel = a :: s').
    { unfold sel. apply filter_all. intros. reflexivity. }
    rewrite Es. reflexivity.
Qed.
