(* C14 — pipeline theorems: members of a bin (from C05), model => property for binsize/nbin
   binning, soundness of the checkers, facts about chunks. *)
From Coq Require Import PrimFloat FloatOps SpecFloat QArith Lia ZifyBool Sorting.Permutation Sorting.Sorted.
From EsVerif.Common Require Import Base.
From EsVerif.C05 Require Import Model Spec PassProofs Properties.
From EsVerif.C14 Require Import Model Spec NumProofs StatProofs.
Open Scope Z_scope.

Lemma bin_slice_eq rev i : bin_slice rev i = slice rev i.
Proof.
  unfold bin_slice. destruct (zget rev i =? zget rev (i + 1)) eqn:E; [|reflexivity].
  apply Z.eqb_eq in E. unfold slice. rewrite E, Z.sub_diag. reflexivity.
Qed.

Lemma indices_range x k : In k (indices x) -> (Z.to_nat k < length x)%nat.
Proof. unfold indices. intro H. apply zseq_In in H. lia. Qed.

Lemma members_inrange c lo hi dmin bsize nbin :
  mem_inrange c (members (c_x c) lo hi dmin bsize) nbin.
Proof.
  intros i _. unfold inrange. apply Forall_forall. intros k Hk.
  unfold members in Hk. apply filter_In in Hk. destruct Hk as [Hk _]. apply indices_range. assumption.
Qed.

(* the reverse-index slice of bin i of C05's model holds exactly the members of bin i *)
Theorem members_of_bin x lo hi m o :
  histogram EngC x lo hi m = Ok o -> contracts x lo hi o ->
  let p := o_params o in
  Z.of_nat (length (o_hist o)) = p_nbin p
  /\ forall i, 0 <= i < p_nbin p ->
       Permutation (bin_slice (o_rev o) i) (members x lo hi (p_dmin p) (p_bsize p) i)
       /\ Z.of_nat (length (bin_slice (o_rev o) i)) = zget (o_hist o) i.
Proof.
  intros H C p. destruct (C05_model_meets_spec EngC x lo hi m o H C) as [HL [HB _]].
  split; [exact HL|]. intros i Hi. rewrite bin_slice_eq.
  destruct (HB i Hi) as [_ [_ [HP [_ HC]]]]. split; assumption.
Qed.

Theorem binned_stats_of_members c rv lo hi m b o rows :
  binner true c rv lo hi m = Ok b -> dorev c rv = true -> cols_ok c = true ->
  histogram EngC (c_x c) lo hi m = Ok o -> contracts (c_x c) lo hi o ->
  rows_meet rows (b_rows b) = true ->
  let p := o_params o in
  stats_ok (members (c_x c) lo hi (p_dmin p) (p_bsize p)) (p_nbin p) c rows.
Proof.
  intros HB HD OK HH HC HR p.
  unfold binner in HB. rewrite (cols_ok_same_len c OK) in HB. cbn [negb] in HB.
  rewrite HH, HD in HB. injection HB as HB. subst b. cbn [b_rows] in HR.
  destruct (members_of_bin (c_x c) lo hi m o HH HC) as [HL HP]. fold p in HL, HP.
  rewrite HL in HR.
  apply (stats_of_members _ _ _ (o_rev o)).
  - assumption.
  - apply members_inrange.
  - lia.
  - intros i Hi. apply HP. assumption.
  - assumption.
Qed.

Lemma edge_check_iff dmin bsize e i : edge_check dmin bsize e i = true <-> edge_ok dmin bsize e i.
Proof.
  unfold edge_check, edge_ok. destruct e as [[lo' hi'] ce], (edge_tgts dmin bsize i) as [[tl th] tc].
  rewrite !andb_true_iff, !meets_iff. tauto.
Qed.

Theorem edges_check_exact dmin bsize nbin es :
  edges_check dmin bsize nbin es = true <-> edges_ok dmin bsize nbin es.
Proof.
  unfold edges_check, edges_ok. rewrite andb_true_iff, Z.eqb_eq, forallb_forall.
  split; intros [HL H]; (split; [exact HL|]); intros i Hi; apply edge_check_iff, H.
  - apply zseq_In. lia.
  - apply zseq_In in Hi. lia.
Qed.

Lemma In_firstn {A} (a : A) n l : In a (firstn n l) -> In a l.
Proof. intro H. rewrite <- (firstn_skipn n l). apply in_or_app. left. assumption. Qed.

Lemma In_skipn {A} (a : A) n l : In a (skipn n l) -> In a l.
Proof. intro H. rewrite <- (firstn_skipn n l). apply in_or_app. right. assumption. Qed.

Lemma chunks_incl fuel k merge : forall l b a, In b (chunks fuel k merge l) -> In a b -> In a l.
Proof.
  induction fuel as [|f IH]; intros l b a Hb Ha; simpl in Hb; [contradiction|].
  destruct l as [|h t]; [contradiction|].
  destruct (skipn k (h :: t)) as [|r rest] eqn:Es.
  - destruct Hb as [Hb|[]]. subst b. assumption.
  - destruct (merge && (length (r :: rest) <? k)%nat).
    + destruct Hb as [Hb|[]]. subst b. assumption.
    + destruct Hb as [Hb|Hb].
      * subst b. eapply In_firstn. eassumption.
      * apply (In_skipn a k). rewrite Es. eapply IH; eassumption.
Qed.

Lemma chunks_nonempty fuel k merge : forall l b, (1 <= k)%nat -> In b (chunks fuel k merge l) -> b <> [].
Proof.
  induction fuel as [|f IH]; intros l b Hk Hb; simpl in Hb; [contradiction|].
  destruct l as [|h t]; [contradiction|].
  destruct (skipn k (h :: t)) as [|r rest] eqn:Es.
  - destruct Hb as [Hb|[]]. subst b. discriminate.
  - destruct (merge && (length (r :: rest) <? k)%nat).
    + destruct Hb as [Hb|[]]. subst b. discriminate.
    + destruct Hb as [Hb|Hb].
      * subst b. destruct k as [|k]; [lia|]. simpl. discriminate.
      * eapply IH; eassumption.
Qed.

Lemma chunks_concat fuel k merge : forall l, (1 <= k)%nat -> (length l <= fuel)%nat ->
  concat (chunks fuel k merge l) = l.
Proof.
  induction fuel as [|f IH]; intros l Hk Hl.
  - destruct l; [reflexivity | simpl in Hl; lia].
  - simpl. destruct l as [|h t]; [reflexivity|].
    destruct (skipn k (h :: t)) as [|r rest] eqn:Es.
    + cbn [concat]. apply app_nil_r.
    + destruct (merge && (length (r :: rest) <? k)%nat).
      * cbn [concat]. apply app_nil_r.
      * cbn [concat]. rewrite IH.
        -- rewrite <- Es. apply firstn_skipn.
        -- assumption.
        -- rewrite <- Es, skipn_length. cbn [length] in Hl |- *. lia.
Qed.

(* M chunks: the first M-1 hold k elements, the last what is left, which is at most k, or, when a
   short remainder is merged into its predecessor, at least k and less than 2k (unless it is the
   only one) *)
Lemma chunks_closed_form fuel k merge : forall l, (1 <= k)%nat -> (length l <= fuel)%nat -> l <> [] ->
  let n := length l in
  let ch := chunks fuel k merge l in
  let M := length ch in
  (1 <= M /\ M * k < n + k)%nat
  /\ (if merge then (M = 1 \/ M * k <= n) /\ n < M * k + k else n <= M * k)%nat
  /\ forall i, (i < M)%nat ->
       nth i ch [] = firstn (if (S i <? M)%nat then k else (n - i * k)%nat) (skipn (i * k) l).
Proof.
  induction fuel as [|f IH]; intros l Hk Hl Hne; [destruct l; [contradiction | cbn [length] in Hl; lia]|].
  cbn [chunks]. destruct l as [|h t]; [contradiction|]. clear Hne.
  pose proof (skipn_length k (h :: t)) as Hsk. set (l := h :: t) in *.
  assert (Hone : (1 <= length l)%nat) by (unfold l; cbn [length]; lia).
  assert (One : forall i, (i < 1)%nat ->
            nth i [l] [] = firstn (if (S i <? 1)%nat then k else (length l - i * k)%nat) (skipn (i * k) l)).
  { intros i Hi. replace i with O by lia. cbn [nth Nat.ltb Nat.leb Nat.mul skipn]. rewrite Nat.sub_0_r. symmetry. apply firstn_all. }
  destruct (skipn k l) as [|r rest] eqn:Es.
  - cbn [length] in *. split; [lia|]. split; [destruct merge; lia | exact One].
  - destruct (merge && (length (r :: rest) <? k)%nat) eqn:Em.
    + cbn [length] in *. split; [lia|]. split; [destruct merge; lia | exact One].
    + specialize (IH (r :: rest) Hk ltac:(lia) ltac:(discriminate)). cbv zeta in IH.
      set (ch := chunks f k merge (r :: rest)) in *. destruct IH as [[I1 I2] [I3 I4]].
      assert (Hm : (1 <= length l - k)%nat) by (rewrite <- Hsk; cbn [length]; lia).
      cbn [length]. rewrite Hsk in *. split; [lia|]. split.
      * destruct merge; [|lia]. cbn [andb] in Em. destruct I3 as [[->|I3] I5]; lia.
      * intros [|i] Hi.
        -- cbn [nth Nat.mul skipn]. replace (1 <? S (length ch))%nat with true by lia. reflexivity.
        -- cbn [nth]. rewrite I4 by lia. rewrite <- Es, skipn_skipn'.
           change (S (S i) <? S (length ch))%nat with (S i <? length ch)%nat. cbn [Nat.mul].
           destruct (S i <? length ch)%nat; [reflexivity|]. f_equal. lia.
Qed.

(* the chunks of any arrangement of the selected data are made of indices of the data *)
Lemma chunks_inrange c lo hi fuel k merge s nbin : Permutation s (selected c lo hi) ->
  mem_inrange c (fun i => nth (Z.to_nat i) (chunks fuel k merge s) []) nbin.
Proof.
  intros P i _. unfold inrange. apply Forall_forall. intros j Hj.
  destruct (Nat.lt_ge_cases (Z.to_nat i) (length (chunks fuel k merge s))) as [Hlt|Hge].
  - apply indices_range.
    assert (Hs : In j s) by (eapply chunks_incl; [apply nth_In; exact Hlt | exact Hj]).
    apply (Permutation_in _ P) in Hs. unfold selected in Hs. apply filter_In in Hs. apply Hs.
  - rewrite nth_overflow in Hj by assumption. contradiction.
Qed.

Lemma nodup_b_sound l : nodup_b l = true -> NoDup l.
Proof.
  induction l as [|a t IH]; simpl; intro H; constructor.
  - apply andb_true_iff in H as [H _]. apply negb_true_iff in H. intro Hin.
    assert (E : existsb (Z.eqb a) t = true) by (apply existsb_exists; exists a; split; [assumption | apply Z.eqb_refl]).
    congruence.
  - apply IH. apply andb_true_iff in H as [_ H]. assumption.
Qed.

Lemma perm_b_sound l m : perm_b l m = true -> Permutation l m.
Proof.
  unfold perm_b. intro H. apply andb_true_iff in H as [H H3]. apply andb_true_iff in H as [H1 H2].
  apply Nat.leb_le in H1. apply nodup_b_sound in H2.
  apply NoDup_Permutation_bis; [assumption | assumption |].
  intros k Hk. rewrite forallb_forall in H3. specialize (H3 k Hk). apply existsb_exists in H3.
  destruct H3 as [j [Hj E]]. apply Z.eqb_eq in E. subst j. assumption.
Qed.

Lemma ordered_b_sound x l : ordered_b x l = true -> ordered x l.
Proof.
  unfold ordered_b, with_values. induction l as [|a t IH]; simpl; intro H; [exact I|].
  apply andb_true_iff in H as [H1 H2]. split.
  - intros b Hb. rewrite forallb_forall in H1. unfold before. apply H1.
    apply in_map_iff. exists b. split; [reflexivity | assumption].
  - apply IH. assumption.
Qed.

Lemma sf_eqb_sound a b : sf_eqb a b = true -> sf_eq a b.
Proof.
  unfold sf_eqb, sf_eq. destruct (Prim2SF a) as [s|s| |s m e], (Prim2SF b) as [t|t| |t n f]; intro H; try discriminate.
  - apply Bool.eqb_prop in H. subst. reflexivity.
  - apply Bool.eqb_prop in H. subst. reflexivity.
  - reflexivity.
  - apply andb_true_iff in H as [H H3]. apply andb_true_iff in H as [H1 H2].
    apply Bool.eqb_prop in H1. apply Pos.eqb_eq in H2. apply Z.eqb_eq in H3. subst. reflexivity.
Qed.

Lemma chunk_check_sound c hist rev low high i b :
  chunk_check c hist rev low high i b = true -> chunk_ok c hist rev low high i b.
Proof.
  unfold chunk_check, chunk_ok. rewrite !andb_true_iff, !Z.leb_le, zlist_eqb_spec, Z.eqb_eq.
  intros [[[[[H1 H2] H3] H4] Hlow] Hhigh].
  repeat split; [exact H1 | exact H2 | exact H3 | exact H4 | apply sf_eqb_sound, Hlow | apply sf_eqb_sound, Hhigh].
Qed.

Theorem num_check_sound c lo hi k merge hist rev low high rows :
  cols_ok c = true ->
  num_check c lo hi k merge hist rev low high rows = true ->
  num_ok c lo hi k merge hist rev low high rows.
Proof.
  intros OK H. unfold num_check in H.
  set (s := skipn (S (length hist)) rev) in *.
  set (ch := chunks (length s) (Z.to_nat k) merge s) in *.
  rewrite !andb_true_iff, !Nat.eqb_eq in H. destruct H as [[[[[[Hperm Hord] Lhist] Llow] Lhigh] Hchunks] Hstats].
  apply perm_b_sound in Hperm. apply ordered_b_sound in Hord.
  exists s. split; [exact Hperm|]. split; [exact Hord|]. fold ch.
  split; [exact Lhist|]. split; [exact Llow|]. split; [exact Lhigh|]. split.
  - intros i Hi. apply chunk_check_sound. rewrite forallb_forall in Hchunks. apply Hchunks. apply in_seq. lia.
  - apply stats_check_sound; [assumption | apply (chunks_inrange c lo hi), Hperm | exact Hstats].
Qed.

(* the model's rows are the tables of Model.v (which the translator re-reads from the source on
   every run), interpreted *)
Theorem tables_are_the_model :
  (forall a, ublock [a] = map (interp_single a 0%Q) single_u_table)
  /\ (forall a wa, wblock true [a] [wa] = map (interp_single a wa) single_w_table)
  /\ (forall a wa, whist_tgt true [a] [wa] = interp_single a wa single_whist)
  /\ (forall a b t, ublock (a :: b :: t) = map (interp_many (a :: b :: t) []) many_u_table)
  /\ (forall v w, wblock_many v w = map (interp_many v w) many_w_table)
  /\ (forall a b t w, whist_tgt true (a :: b :: t) w = interp_many (a :: b :: t) w many_whist)
  /\ ublock_empty = map (fun _ => TExact sentinel) single_u_table
  /\ center_factor = 0x1p-1%float.
Proof. repeat split; reflexivity. Qed.

Theorem skeleton_is_the_model :
  (forall h bs nb k, resolve_sk model_skel h bs nb k = resolve h bs nb k)
  /\ (forall c rv, dorev_sk model_skel c rv = dorev c rv)
  /\ (forall dmin bs nhist, edges_sk model_skel dmin bs nhist = edges dmin bs nhist)
  /\ (forall p o cl, obj_call p (sk_clear_first model_skel) o cl = obj_call p true o cl)
  /\ (forall hist rev low high, Z.of_nat (length hist) < sk_merge_min model_skel ->
        merge_last hist rev low high = (hist, rev, low, high))
  /\ (forall v, Z.of_nat (length v) = sk_single_size model_skel ->
        exists a, v = [a] /\ ublock v = map (interp_single a 0%Q) single_u_table)
  /\ (forall p h c rv lo hi bs nb k merge t, resolve h bs nb k = CNone -> same_len c = true ->
        limits (c_x c) (argsort (c_x c)) lo hi = Ok t ->
        binner_api p h c rv lo hi bs nb k merge = Err (sk_none_error model_skel))
  /\ (forall p c lo hi k merge, same_len c = false -> binner_num p c lo hi k merge = Err (fst (sk_len_errors model_skel)))
  /\ (forall p c d, d_hist d = None -> calc_stats_dict p c d = Err (sk_no_hist_error model_skel)).
Proof.
  split; [intros h bs nb k; destruct h, bs as [b|], nb as [n|], k as [k'|]; reflexivity|].
  split; [intros c rv; unfold dorev_sk, dorev; cbn [model_skel sk_y_forces_rev sk_w_forces_rev andb]; reflexivity|].
  split; [reflexivity|]. split; [reflexivity|].
  split.
  { intros hist rev low high H. unfold merge_last. cbn [model_skel sk_merge_min] in H.
    replace (length hist <? 2)%nat with true by (symmetry; apply Nat.ltb_lt; lia). reflexivity. }
  split.
  { intros v H. cbn [model_skel sk_single_size] in H. destruct v as [|a [|b t]]; cbn [length] in H; try lia.
    exists a. split; reflexivity. }
  split.
  { intros p h c rv lo hi bs nb k merge t HR HS HL. unfold binner_api. rewrite HR, HS. cbn [negb]. rewrite HL. reflexivity. }
  split.
  { intros p c lo hi k merge HS. unfold binner_num. rewrite HS. reflexivity. }
  intros p c d H. unfold calc_stats_dict. rewrite H. reflexivity.
Qed.


