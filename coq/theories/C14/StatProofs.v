(* C14 — the per-bin statistics: the model's row refines the textbook row, the textbook row does
   not depend on the order of the members, checker soundness, model => property. *)
From Coq Require Import PrimFloat FloatOps SpecFloat QArith Qabs Lia Sorting.Permutation Setoid.
From EsVerif.Common Require Import Base.
From EsVerif.C14 Require Import Model Spec NumProofs.
Open Scope Q_scope.

(* a Forall2 over two explicit lists: one goal per pair of elements *)
Ltac f2cons := repeat (apply Forall2_cons); try apply Forall2_nil.

Definition tref (tm td : tgt) : Prop := forall f, meets f tm = true -> Meets f td.
Definition timp (t t' : tgt) : Prop := forall f, Meets f t -> Meets f t'.

Lemma eps_tol_nonneg : 0 <= eps_tol.
Proof. unfold eps_tol, Qle. simpl. lia. Qed.

Lemma timp_refl t : timp t t.
Proof. intros f H. exact H. Qed.

Lemma timp_lin q q' A A' : q == q' -> A == A' -> timp (TLin q A) (TLin q' A').
Proof.
  intros E1 E2 f [Hf H]. split; [assumption|]. simpl in *.
  eapply close_lin_eq; [exact E1 | | exact H]. rewrite E2. reflexivity.
Qed.

Lemma timp_sqrt V V' A A' : V == V' -> A == A' -> timp (TSqrt V A) (TSqrt V' A').
Proof.
  intros E1 E2 f [Hf H]. split; [assumption|]. simpl in *.
  eapply close_sqrt_eq; [exact E1 | | exact H]. rewrite E2. reflexivity.
Qed.

Lemma tref_of_timp t t' : timp t t' -> tref t t'.
Proof. intros H f Hm. apply H. apply meets_iff. assumption. Qed.

Lemma tref_refl t : tref t t.
Proof. apply tref_of_timp, timp_refl. Qed.

Lemma tref_lin q q' A A' : q == q' -> A == A' -> tref (TLin q A) (TLin q' A').
Proof. intros. apply tref_of_timp, timp_lin; assumption. Qed.

Lemma tref_sqrt V V' A A' : V == V' -> A == A' -> tref (TSqrt V A) (TSqrt V' A').
Proof. intros. apply tref_of_timp, timp_sqrt; assumption. Qed.

Lemma tref_any t : tref t TAny.
Proof. intros f _. exact I. Qed.

Lemma tref_exact_lin a q' A' : a == q' -> 0 <= A' -> tref (TExact a) (TLin q' A').
Proof.
  intros E HA f H. apply meets_iff in H. destruct H as [Hf Hy]. split; [assumption|].
  simpl in *. unfold close_lin.
  assert (Z0 : f2q f - q' == 0) by (rewrite Hy, E; ring).
  rewrite Z0. simpl. apply Qmult_le_0_compat; [apply eps_tol_nonneg | assumption].
Qed.

Lemma tref_exact0_sqrt V' A' : V' == 0 -> 0 <= A' -> tref (TExact 0) (TSqrt V' A').
Proof.
  intros E HA f H. apply meets_iff in H. destruct H as [Hf Hy]. split; [assumption|].
  simpl in *. unfold close_sqrt.
  assert (T : 0 <= eps_tol * (f2q f + A')).
  { apply Qmult_le_0_compat; [apply eps_tol_nonneg|]. rewrite Hy. rewrite Qplus_0_l. assumption. }
  repeat split.
  - rewrite Hy. apply Qle_refl.
  - assumption.
  - left. rewrite Hy at 1. assumption.
  - rewrite E.
    assert (G : 0 <= f2q f + eps_tol * (f2q f + A')).
    { rewrite <- (Qplus_0_r 0). apply Qplus_le_compat; [rewrite Hy; apply Qle_refl | exact T]. }
    apply Qmult_le_0_compat; exact G.
Qed.

Lemma mean_q_def v : mean_q v == mean_def v.
Proof. unfold mean_q, mean_def. rewrite Qred_correct, qsum_Sum. reflexivity. Qed.

Lemma absmean_q_def v : qabsmean v == absmean_def v.
Proof. unfold qabsmean, absmean_def. rewrite qsum_Sum. reflexivity. Qed.

Lemma var_q_def v : var_q v == var_def v.
Proof.
  unfold var_q, var_def. rewrite Qred_correct, qsum_Sum.
  rewrite (Sum_map_ext (W.dev2 (mean_q v)) (fun a => sqr (a - mean_def v))).
  - reflexivity.
  - intro a. unfold W.dev2, W.sq, sqr. rewrite mean_q_def. reflexivity.
Qed.

Lemma absmean_nonneg v : 0 <= absmean_def v.
Proof. unfold absmean_def. apply div_nonneg; [apply Sum_abs_nonneg | apply qn_nonneg]. Qed.

Lemma ublock_general_ref v :
  Forall2 tref [TLin (mean_q v) (qabsmean v); TSqrt (var_q v) (qabsmean v);
                TSqrt (var_q v / qn v) (qabsmean v); TLin (median_q v) (qabsmean v)]
               (ublock_direct v).
Proof.
  unfold ublock_direct. f2cons.
  - apply tref_lin; [apply mean_q_def | apply absmean_q_def].
  - apply tref_sqrt; [apply var_q_def | apply absmean_q_def].
  - destruct (length v <=? 1)%nat; [apply tref_any|].
    apply tref_sqrt; [|apply absmean_q_def]. unfold err2_def. rewrite var_q_def. reflexivity.
  - apply tref_lin; [reflexivity | apply absmean_q_def].
Qed.

Lemma ublock_ref v : Forall2 tref (ublock v) (ublock_direct v).
Proof.
  destruct v as [|a [|b t]]; try apply ublock_general_ref.
  unfold ublock, ublock_direct. f2cons.
  - apply tref_exact_lin; [|apply absmean_nonneg].
    unfold mean_def, qn. simpl. field.
  - apply tref_exact0_sqrt; [|apply absmean_nonneg].
    unfold var_def, mean_def, sqr, qn. simpl. field.
  - apply tref_any.
  - apply tref_exact_lin; [|apply absmean_nonneg]. reflexivity.
Qed.

Lemma wmean_q_def v w : Qred (W.qsum (W.map2 Qmult w v) / W.qsum w) == wmean_def v w.
Proof. unfold wmean_def. rewrite Qred_correct, (qsum_Sum w), qsum_Sum. reflexivity. Qed.

Lemma wabsmean_q_def v w : wabsmean v w == wabsmean_def v w.
Proof. unfold wabsmean, wabsmean_def. rewrite (qsum_Sum w), qsum_Sum. reflexivity. Qed.

Lemma wblock_many_ref v w : Forall2 tref (wblock_many v w) (wblock_direct v w).
Proof.
  unfold wblock_many, wblock_direct, W.wmom1. cbn [W.m_mean W.m_var W.m_err2].
  f2cons.
  - apply tref_lin; [apply wmean_q_def | apply wabsmean_q_def].
  - apply tref_sqrt; [|apply wabsmean_q_def].
    unfold wvar_def. rewrite Qred_correct, (qsum_Sum w), qsum_Sum.
    rewrite (Sum_map2_ext _ (fun wi xi => wi * sqr (xi - wmean_def v w))).
    + reflexivity.
    + intros a b. unfold W.dev2, W.sq, sqr. rewrite wmean_q_def. reflexivity.
  - apply tref_sqrt; [|reflexivity].
    unfold werr2_default_def. rewrite qsum_Sum. reflexivity.
  - apply tref_sqrt; [|apply wabsmean_q_def].
    unfold werr2_calc_def, W.sq. rewrite Qred_correct, (qsum_Sum w), qsum_Sum.
    rewrite (Sum_map2_ext _ (fun wi xi => sqr wi * sqr (xi - wmean_def v w))).
    + unfold W.sq, sqr. reflexivity.
    + intros a b. unfold W.dev2, W.sq, sqr. rewrite wmean_q_def. reflexivity.
Qed.

Lemma map2_abs_nonneg : forall l l' a, In a (W.map2 (fun wi xi => Qabs (wi * xi)) l l') -> 0 <= a.
Proof.
  induction l as [|p t IH]; intros [|q t'] a Hin; cbn [W.map2 In] in Hin; try contradiction.
  destruct Hin as [Hin|Hin]; [rewrite <- Hin; apply Qabs_nonneg | eapply IH; eassumption].
Qed.

Lemma wabsmean_nonneg v w : 0 <= Sum w -> 0 <= wabsmean_def v w.
Proof.
  intro H. unfold wabsmean_def. apply div_nonneg; [|assumption].
  apply Sum_nonneg. intros a Ha. eapply map2_abs_nonneg. eassumption.
Qed.

Lemma wblock_ref v w : Forall (fun q => 0 < q) w -> Forall2 tref (wblock true v w) (wblock_direct v w).
Proof.
  intro P. destruct v as [|a [|b t]]; try apply wblock_many_ref.
  destruct w as [|wa [|wb u]]; try apply wblock_many_ref.
  assert (Hw : 0 < wa) by (inversion P; assumption).
  assert (Hn : ~ wa == 0) by (intro E; rewrite E in Hw; apply (Qlt_irrefl 0); assumption).
  assert (HA : 0 <= wabsmean_def [a] [wa]).
  { apply wabsmean_nonneg. simpl. rewrite Qplus_0_r. apply Qlt_le_weak. assumption. }
  assert (Em : wmean_def [a] [wa] == a) by (unfold wmean_def; simpl; field; assumption).
  unfold wblock, wblock_direct. f2cons.
  - apply tref_exact_lin; [|assumption]. symmetry. assumption.
  - apply tref_exact0_sqrt; [|assumption].
    unfold wvar_def, sqr. simpl. rewrite Em. field. assumption.
  - apply tref_sqrt; [|reflexivity]. unfold werr2_default_def. simpl. rewrite Qplus_0_r. reflexivity.
  - apply tref_exact0_sqrt; [|assumption].
    unfold werr2_calc_def, sqr. simpl. rewrite Em. field. assumption.
Qed.

Lemma whist_ref x w : tref (whist_tgt true x w) (TLin (Sum w) (Sum (map Qabs w))).
Proof.
  assert (G : tref (TLin (W.qsum w) (W.qsum (map Qabs w))) (TLin (Sum w) (Sum (map Qabs w)))).
  { apply tref_lin; apply qsum_Sum. }
  unfold whist_tgt. destruct x as [|a [|b t]]; try exact G.
  destruct w as [|wa [|wb u]]; try exact G.
  apply tref_exact_lin.
  - simpl. ring.
  - apply Sum_abs_nonneg.
Qed.

Definition wpos (ws : option (list Q)) : Prop :=
  match ws with Some w => Forall (fun q => 0 < q) w | None => True end.

Lemma Forall2_refl {A} (R : A -> A -> Prop) l : (forall a, R a a) -> Forall2 R l l.
Proof. intro H. induction l; constructor; auto. Qed.

Lemma row_ref xs ys ws : wpos ws -> Forall2 tref (row_of true xs ys ws) (row_direct xs ys ws).
Proof.
  intro P. destruct xs as [|a t].
  - apply Forall2_refl. apply tref_refl.
  - unfold row_of, row_direct. set (xs := a :: t) in *.
    apply Forall2_app; [apply ublock_ref|].
    apply Forall2_app.
    { destruct ys as [y|]; [apply ublock_ref | constructor]. }
    destruct ws as [w|]; [|constructor].
    apply Forall2_app; [f2cons; apply whist_ref|].
    apply Forall2_app; [apply wblock_ref; exact P|].
    destruct ys as [y|]; [apply wblock_ref; exact P | constructor].
Qed.

Section Perm.
  Variable D : positive.

  Lemma ublock_direct_perm v v' :
    Permutation v v' -> Forall (dn D) v -> Forall2 timp (ublock_direct v) (ublock_direct v').
  Proof.
    intros P F.
    assert (Em : mean_def v == mean_def v').
    { unfold mean_def. rewrite (Sum_perm _ _ P), (qn_perm _ _ P). reflexivity. }
    assert (EA : absmean_def v == absmean_def v').
    { unfold absmean_def. rewrite (Sum_perm _ _ (Permutation_map Qabs P)), (qn_perm _ _ P). reflexivity. }
    assert (EV : var_def v == var_def v').
    { unfold var_def. rewrite (qn_perm _ _ P).
      rewrite (Sum_map_ext (fun a => sqr (a - mean_def v)) (fun a => sqr (a - mean_def v'))).
      - rewrite (Sum_perm _ _ (Permutation_map _ P)). reflexivity.
      - intro a. unfold sqr. rewrite Em. reflexivity. }
    unfold ublock_direct. rewrite (Permutation_length P). f2cons.
    - apply timp_lin; assumption.
    - apply timp_sqrt; assumption.
    - destruct (length v' <=? 1)%nat; [apply timp_refl|].
      apply timp_sqrt; [|assumption]. unfold err2_def. rewrite EV, (qn_perm _ _ P). reflexivity.
    - unfold median_def. rewrite (median_perm_eq D v v' F P). apply timp_lin; [reflexivity | assumption].
  Qed.

  Lemma wblock_direct_perm (gx gw : Z -> Q) ks ks' :
    Permutation ks ks' ->
    Forall2 timp (wblock_direct (map gx ks) (map gw ks)) (wblock_direct (map gx ks') (map gw ks')).
  Proof.
    intro P.
    assert (Ew : Sum (map gw ks) == Sum (map gw ks')) by (apply Sum_perm, Permutation_map; assumption).
    assert (Em : wmean_def (map gx ks) (map gw ks) == wmean_def (map gx ks') (map gw ks')).
    { unfold wmean_def. rewrite !map2_map, Ew. rewrite (Sum_perm _ _ (Permutation_map _ P)). reflexivity. }
    assert (EA : wabsmean_def (map gx ks) (map gw ks) == wabsmean_def (map gx ks') (map gw ks')).
    { unfold wabsmean_def. rewrite !map2_map, Ew. rewrite (Sum_perm _ _ (Permutation_map _ P)). reflexivity. }
    unfold wblock_direct. f2cons.
    - apply timp_lin; assumption.
    - apply timp_sqrt; [|assumption].
      unfold wvar_def. rewrite !map2_map, Ew.
      rewrite (Sum_map_ext _ (fun k => gw k * sqr (gx k - wmean_def (map gx ks') (map gw ks')))).
      + rewrite (Sum_perm _ _ (Permutation_map _ P)). reflexivity.
      + intro k. unfold sqr. rewrite Em. reflexivity.
    - apply timp_sqrt; [|reflexivity]. unfold werr2_default_def. rewrite Ew. reflexivity.
    - apply timp_sqrt; [|assumption].
      unfold werr2_calc_def, sqr. rewrite !map2_map, Ew.
      rewrite (Sum_map_ext _ (fun k => (gw k * gw k) * ((gx k - wmean_def (map gx ks') (map gw ks'))
                                                       * (gx k - wmean_def (map gx ks') (map gw ks'))))).
      + rewrite (Sum_perm _ _ (Permutation_map _ P)). reflexivity.
      + intro k. rewrite Em. reflexivity.
  Qed.
End Perm.

Lemma vals_Forall (P : Q -> Prop) qc ks :
  Forall P qc -> Forall (fun k => (Z.to_nat k < length qc)%nat) ks -> Forall P (vals qc ks).
Proof.
  intros F R. unfold vals. apply Forall_forall. intros q Hq. apply in_map_iff in Hq.
  destruct Hq as [k [Hk Hin]]. subst q. rewrite Forall_forall in F, R. apply F. apply nth_In. apply R. assumption.
Qed.

Lemma vals_perm qc ks ks' : Permutation ks ks' -> Permutation (vals qc ks) (vals qc ks').
Proof. intro P. unfold vals. apply Permutation_map. assumption. Qed.

(* ks are positions of the data (of every column, when the columns have one length) *)
Definition inrange (c : cols) (ks : list Z) : Prop :=
  Forall (fun k => (Z.to_nat k < length (c_x c))%nat) ks.

Lemma qcol_length v : length (qcol v) = length v.
Proof. unfold qcol. apply map_length. Qed.

Lemma row_direct_at_perm c ks ks' :
  same_len c = true -> inrange c ks -> Permutation ks ks' ->
  Forall2 timp (row_direct_at (qcols_of c) ks) (row_direct_at (qcols_of c) ks').
Proof.
  intros SL R P. unfold row_direct_at, row_direct, qcols_of. cbn [q_x q_y q_w].
  unfold same_len in SL. apply andb_true_iff in SL as [SLy SLw].
  assert (Rx : Forall (fun k => (Z.to_nat k < length (qcol (c_x c)))%nat) ks).
  { unfold inrange in R. rewrite qcol_length. exact R. }
  assert (Pv := vals_perm (qcol (c_x c)) ks ks' P).
  destruct (vals (qcol (c_x c)) ks) as [|a t] eqn:Ex.
  - apply Permutation_nil in Pv. rewrite Pv.
    destruct (c_y c), (c_w c); cbn [ocol ovals]; apply Forall2_refl, timp_refl.
  - destruct (vals (qcol (c_x c)) ks') as [|a' t'] eqn:Ex'.
    { apply Permutation_sym, Permutation_nil in Pv. discriminate. }
    rewrite <- Ex, <- Ex'.
    apply Forall2_app.
    { apply (ublock_direct_perm (den_of (emin (c_x c)))); [exact (vals_perm _ _ _ P)|].
      apply vals_Forall; [apply qcol_den | exact Rx]. }
    apply Forall2_app.
    { destruct (c_y c) as [y|]; cbn [ocol ovals]; [|constructor].
      apply Nat.eqb_eq in SLy.
      apply (ublock_direct_perm (den_of (emin y))); [exact (vals_perm _ _ _ P)|].
      apply vals_Forall; [apply qcol_den|]. rewrite qcol_length, SLy. exact R. }
    destruct (c_w c) as [w|]; cbn [ocol ovals]; [|constructor].
    apply Forall2_app.
    { f2cons. apply timp_lin.
      - apply Sum_perm. exact (vals_perm _ _ _ P).
      - apply Sum_perm. apply Permutation_map. exact (vals_perm _ _ _ P). }
    apply Forall2_app.
    { unfold vals. apply wblock_direct_perm. exact P. }
    destruct (c_y c) as [y|]; cbn [ocol ovals]; [|constructor].
    unfold vals. apply wblock_direct_perm. exact P.
Qed.

Lemma forallb2_iff {A B} (p : A -> B -> bool) a b :
  forallb2 p a b = true <-> Forall2 (fun x y => p x y = true) a b.
Proof.
  revert b. induction a as [|x s IH]; intros [|y t]; simpl.
  - split; constructor.
  - split; [discriminate | intro H; inversion H].
  - split; [discriminate | intro H; inversion H].
  - rewrite andb_true_iff, IH. split.
    + intros [H1 H2]. constructor; assumption.
    + intro H. inversion H. split; assumption.
Qed.

Lemma Forall2_comp {A B} (P : A -> B -> Prop) (R : B -> B -> Prop) (Q' : A -> B -> Prop) a b b' :
  (forall x y y', P x y -> R y y' -> Q' x y') -> Forall2 P a b -> Forall2 R b b' -> Forall2 Q' a b'.
Proof.
  intros H F. revert b'. induction F as [|x y s t Hxy F IH]; intros b' G; inversion G; subst; constructor.
  - eapply H; eassumption.
  - apply IH. assumption.
Qed.

Lemma Forall2_len {A B} (R : A -> B -> Prop) a b : Forall2 R a b -> length a = length b.
Proof. induction 1; simpl; congruence. Qed.

Lemma Forall2_nth {A B} (R : A -> B -> Prop) a b j da db :
  Forall2 R a b -> (j < length a)%nat -> R (nth j a da) (nth j b db).
Proof.
  intro F. revert j. induction F as [|x y s t Hxy F IH]; intros [|j] Hj; simpl in *; try lia; [assumption|].
  apply IH. lia.
Qed.

Lemma zseq_length s n : length (zseq s n) = n.
Proof. revert s. induction n as [|n IH]; intro s; simpl; [reflexivity | rewrite IH; reflexivity]. Qed.

Lemma zseq_nth n : forall s i d, (i < n)%nat -> nth i (zseq s n) d = (s + Z.of_nat i)%Z.
Proof.
  induction n as [|n IH]; intros s i d H; [lia|].
  destruct i as [|i]; simpl.
  - lia.
  - rewrite IH by lia. lia.
Qed.

Lemma zseq_In s n k : In k (zseq s n) <-> (s <= k < s + Z.of_nat n)%Z.
Proof.
  revert s. induction n as [|n IH]; intro s; simpl.
  - split; [contradiction | lia].
  - rewrite IH. lia.
Qed.

(* what a row meets is carried along element-wise implications between the targets *)
Lemma rows_step (X Y : float -> tgt -> Prop) (r : list float) t t' :
  Forall2 X r t -> Forall2 (fun a b => forall f, X f a -> Y f b) t t' -> Forall2 Y r t'.
Proof. intros H F. eapply Forall2_comp; [|exact H|exact F]. intros f a b Hm Hr. apply Hr. assumption. Qed.

Definition mem_inrange (c : cols) (mem : Z -> list Z) (nbin : Z) : Prop :=
  forall i, (0 <= i < nbin)%Z -> inrange c (mem i).

Lemma cols_ok_same_len c : cols_ok c = true -> same_len c = true.
Proof.
  unfold cols_ok. intro H. apply andb_true_iff in H as [H _]. apply andb_true_iff in H as [H _].
  apply andb_true_iff in H as [H _]. assumption.
Qed.

Lemma cols_ok_wpos c ks : cols_ok c = true -> inrange c ks -> wpos (ovals (q_w (qcols_of c)) ks).
Proof.
  intros H R. assert (SL := cols_ok_same_len c H).
  unfold cols_ok in H. apply andb_true_iff in H as [_ H].
  unfold qcols_of. cbn [q_w]. destruct (c_w c) as [w|] eqn:Ew; cbn [ocol ovals wpos]; [|exact I].
  apply andb_true_iff in H as [_ H].
  unfold same_len in SL. rewrite Ew in SL. apply andb_true_iff in SL as [_ SL]. apply Nat.eqb_eq in SL.
  apply vals_Forall.
  - apply Forall_forall. intros q Hq. rewrite forallb_forall in H. specialize (H q Hq).
    unfold qpos in H. apply negb_true_iff in H. apply Qnot_le_lt. intro G. apply Qle_bool_iff in G. congruence.
  - rewrite qcol_length, SL. exact R.
Qed.

Theorem stats_check_sound mem nbin c rows :
  cols_ok c = true -> mem_inrange c mem nbin ->
  stats_check mem nbin c rows = true -> stats_ok mem nbin c rows.
Proof.
  intros OK R H. unfold stats_check in H. apply andb_true_iff in H as [HL H].
  apply Z.eqb_eq in HL. split; [assumption|].
  intros i Hi. rewrite forallb_forall in H.
  assert (Hin : In i (zseq 0 (Z.to_nat nbin))) by (apply zseq_In; lia).
  specialize (H i Hin). eapply (rows_step (fun f t => meets f t = true)); [apply forallb2_iff, H|].
  unfold row_at, row_direct_at. apply row_ref. apply cols_ok_wpos; [assumption | apply R; assumption].
Qed.

(* whatever agrees with the rows the model computes from the reverse indices satisfies the
   statement about the members, provided each slice holds exactly the members of its bin *)
Theorem stats_of_members mem nbin c rev rows :
  cols_ok c = true -> mem_inrange c mem nbin -> (0 <= nbin)%Z ->
  (forall i, (0 <= i < nbin)%Z -> Permutation (bin_slice rev i) (mem i)) ->
  rows_meet rows (calc_rows true c nbin rev) = true ->
  stats_ok mem nbin c rows.
Proof.
  intros OK R Hn PM H. unfold rows_meet in H. apply forallb2_iff in H.
  assert (HL : length rows = Z.to_nat nbin).
  { rewrite (Forall2_len _ _ _ H). unfold calc_rows. rewrite map_length, zseq_length. reflexivity. }
  split; [lia|].
  intros i Hi.
  assert (Hm : row_meets (nth (Z.to_nat i) rows []) (row_at true (qcols_of c) (bin_slice rev i)) = true).
  { pose proof (Forall2_nth _ _ _ (Z.to_nat i) [] (row_at true (qcols_of c) (bin_slice rev 0)) H ltac:(lia)) as G.
    unfold calc_rows in G. cbv zeta in G.
    rewrite (map_nth (fun i => row_at true (qcols_of c) (bin_slice rev i))), zseq_nth in G by lia.
    replace (0 + Z.of_nat (Z.to_nat i))%Z with i in G by lia. exact G. }
  assert (SL := cols_ok_same_len c OK).
  assert (Rs : inrange c (bin_slice rev i)).
  { unfold inrange. apply Forall_forall. intros k Hk.
    apply (Permutation_in _ (PM i Hi)) in Hk. specialize (R i Hi). unfold inrange in R.
    rewrite Forall_forall in R. apply R. assumption. }
  eapply (rows_step Meets).
  - eapply (rows_step (fun f t => meets f t = true)); [apply forallb2_iff, Hm|]. unfold row_at. apply row_ref. apply cols_ok_wpos; assumption.
  - apply row_direct_at_perm; [assumption | assumption | apply PM; assumption].
Qed.

Lemma row_meets_iff r t : row_meets r t = true <-> Forall2 Meets r t.
Proof.
  unfold row_meets. rewrite forallb2_iff.
  split; intro H; induction H; constructor; try assumption; apply meets_iff; assumption.
Qed.

