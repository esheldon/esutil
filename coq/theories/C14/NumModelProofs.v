(* C14 — equal-occupancy binning, the whole model: hist_by_num (pass on positions, mapping of the
   slices to the original array with low/high, _merge_last) produces exactly the chunks of the
   selected sorted data. *)
From Coq Require Import PrimFloat ZifyBool Sorting.Permutation.
From EsVerif.Common Require Import Base.
From EsVerif.C05 Require Import Model Spec PassProofs.
From EsVerif.C14 Require Import Model Spec StatProofs Proofs NumBinProofs ApiProofs.
Open Scope Z_scope.

Lemma write_length vs : forall rev a, length (write rev a vs) = length rev.
Proof.
  induction vs as [|v t IH]; intros rev a; cbn [write]; [reflexivity|]. rewrite IH. apply zset_length.
Qed.

Lemma zget_write vs : forall rev a j, 0 <= j -> 0 <= a -> a + Z.of_nat (length vs) <= Z.of_nat (length rev) ->
  zget (write rev a vs) j =
  if (a <=? j) && (j <? a + Z.of_nat (length vs)) then zget vs (j - a) else zget rev j.
Proof.
  induction vs as [|v t IH]; intros rev a j Hj Ha Hl; cbn [write].
  - cbn [length] in *. destruct ((a <=? j) && (j <? a + Z.of_nat 0)) eqn:E; [lia|reflexivity].
  - cbn [length] in Hl |- *. rewrite IH by (try rewrite zset_length; lia).
    rewrite zget_zset by lia.
    destruct ((a + 1 <=? j) && (j <? a + 1 + Z.of_nat (length t))) eqn:E1.
    + replace ((a <=? j) && (j <? a + Z.of_nat (S (length t)))) with true by lia.
      rewrite zget_cons by lia. f_equal. lia.
    + destruct ((a =? j) && (j <? Z.of_nat (length rev))) eqn:E2.
      * replace ((a <=? j) && (j <? a + Z.of_nat (S (length t)))) with true by lia.
        replace (j - a) with 0 by lia. reflexivity.
      * replace ((a <=? j) && (j <? a + Z.of_nat (S (length t)))) with false by lia. reflexivity.
Qed.

Lemma fold_zseq_inv {St} (P : Z -> St -> Prop) (f : St -> Z -> St) n : forall s st,
  P s st -> (forall j st', s <= j < s + Z.of_nat n -> P j st' -> P (j + 1) (f st' j)) ->
  P (s + Z.of_nat n) (fold_left f (zseq s n) st).
Proof.
  induction n as [|n IH]; intros s st H0 Hs.
  - cbn [zseq fold_left]. replace (s + Z.of_nat 0) with s by lia. exact H0.
  - cbn [zseq fold_left]. replace (s + Z.of_nat (S n)) with (s + 1 + Z.of_nat n) by lia.
    apply IH.
    + apply Hs; [lia | exact H0].
    + intros j st' Hj. apply Hs. lia.
Qed.

Section NumModel.
  Variable x : list float.
  Variable wsort : list Z.
  Variables k N : Z.
  Let n := Z.of_nat (length wsort).
  Hypothesis Hk : 1 <= k.
  Hypothesis HN : 1 <= N /\ (N - 1) * k < n /\ n <= N * k.

  Lemma n_pos : 1 <= n.
  Proof using Hk HN. pose proof (start_step k n N 0 Hk ltac:(lia) ltac:(lia)). lia. Qed.

  (* invariant of the loop over the bins: offsets untouched, positions below bin j's start already
     replaced by the indices they stand for, low/high of the bins done *)
  Definition Pinv (j : Z) (st : list Z * list float * list float) : Prop :=
    let '(rev, low, high) := st in
    Z.of_nat (length rev) = N + 1 + n /\ Z.of_nat (length low) = N /\ Z.of_nat (length high) = N
    /\ (forall t, 0 <= t <= N -> zget rev t = N + 1 + start k n N t)
    /\ (forall p, 0 <= p < n -> zget rev (N + 1 + p) = if p <? start k n N j then zget wsort p else p)
    /\ (forall i, 0 <= i < j ->
          nth (Z.to_nat i) low nan = fget x (zget wsort (start k n N i))
          /\ nth (Z.to_nat i) high nan = fget x (zget wsort (start k n N (i + 1) - 1))).

  Lemma remap_step_inv j st : 0 <= j < N -> Pinv j st -> Pinv (j + 1) (remap_step x wsort st j).
  Proof using Hk HN.
    intros Hj HP. destruct st as [[rev low] high]. destruct HP as [PL [PLo [PHi [PH [PD PV]]]]].
    destruct (start_step k n N j Hk ltac:(lia) Hj) as [Hs He].
    set (s := start k n N j) in *. set (e := start k n N (j + 1)) in *.
    assert (Ha : zget rev j = N + 1 + s) by (apply PH; lia).
    assert (Hb : zget rev (j + 1) = N + 1 + e) by (apply PH; lia).
    unfold remap_step. replace (zget rev j =? zget rev (j + 1)) with false by lia.
    set (sl := slice rev j).
    assert (Hsl_len : Z.of_nat (length sl) = e - s) by (unfold sl; rewrite slice_length; lia).
    assert (Hsl : forall t, 0 <= t < e - s -> zget sl t = s + t).
    { intros t Ht. unfold sl. rewrite slice_zget, Ha by lia.
      replace (N + 1 + s + t) with (N + 1 + (s + t)) by lia. rewrite PD by lia.
      replace (s + t <? s) with false by lia. reflexivity. }
    set (w := map (zget wsort) sl).
    assert (Hw_len : Z.of_nat (length w) = e - s) by (unfold w; rewrite map_length; exact Hsl_len).
    assert (Hw : forall t, 0 <= t < e - s -> zget w t = zget wsort (s + t)).
    { intros t Ht. unfold w. rewrite zget_map, Hsl by lia. reflexivity. }
    unfold Pinv, fset. rewrite write_length, !zset_length. fold e.
    split; [exact PL|]. split; [exact PLo|]. split; [exact PHi|]. split; [|split].
    - intros t Ht. rewrite Ha, zget_write, Hw_len by lia.
      replace ((N + 1 + s <=? t) && (t <? N + 1 + s + (e - s))) with false by lia. apply PH, Ht.
    - intros p Hp. rewrite Ha, zget_write, Hw_len by lia.
      destruct ((N + 1 + s <=? N + 1 + p) && (N + 1 + p <? N + 1 + s + (e - s))) eqn:E1.
      + rewrite Hw by lia. replace (p <? e) with true by lia. f_equal. lia.
      + rewrite PD by lia. destruct (p <? s) eqn:E2.
        * replace (p <? e) with true by lia. reflexivity.
        * replace (p <? e) with false by lia. reflexivity.
    - intros i Hi. rewrite !nth_zset, PLo, PHi by lia.
      destruct (j =? i) eqn:Eji; cbn [andb]; [|apply PV; lia].
      assert (i = j) by lia. subst i. replace (j <? N) with true by lia. fold s e.
      rewrite hd_zget, last_zget, Hw_len, !Hw by lia. split; do 2 f_equal; lia.
  Qed.

  (* what _hist_by_num returns, for M bins: lengths, offsets, index section, and per bin the count
     and the values of the first and last member *)
  Definition Layout (M : Z) (h r : list Z) (lo hi : list float) : Prop :=
    Z.of_nat (length h) = M /\ Z.of_nat (length lo) = M /\ Z.of_nat (length hi) = M
    /\ (forall t, 0 <= t <= M -> zget r t = M + 1 + start k n M t)
    /\ skipn (Z.to_nat (M + 1)) r = wsort
    /\ (forall i, 0 <= i < M ->
          zget h i = start k n M (i + 1) - start k n M i
          /\ nth (Z.to_nat i) lo nan = fget x (zget wsort (start k n M i))
          /\ nth (Z.to_nat i) hi nan = fget x (zget wsort (start k n M (i + 1) - 1))).

  Lemma final_unmerged hist rev low high :
    Z.of_nat (length hist) = N ->
    (forall i, 0 <= i < N -> zget hist i = start k n N (i + 1) - start k n N i) ->
    Pinv N (rev, low, high) -> Layout N hist rev low high.
  Proof using Hk HN.
    intros FL FHi [PL [PLo [PHi [PH [PD PV]]]]].
    split; [exact FL|]. split; [exact PLo|]. split; [exact PHi|]. split; [exact PH|]. split.
    - apply (nth_ext _ _ 0 0); rewrite skipn_length; [unfold n in PL; lia|].
      intros t Ht. rewrite nth_skipn.
      specialize (PD (Z.of_nat t) ltac:(unfold n in *; lia)). rewrite start_ge in PD by lia.
      replace (Z.of_nat t <? n) with true in PD by (unfold n in *; lia).
      unfold zget in PD. rewrite Nat2Z.id in PD. rewrite <- PD. f_equal. lia.
    - intros i Hi. split; [apply FHi, Hi | apply PV, Hi].
  Qed.

  (* _merge_last: the last boundary goes, every offset moves down by one *)
  Lemma final_merged hist rev low high : 2 <= N ->
    Layout N hist rev low high ->
    let '(h', r', lo', hi') := merge_last hist rev low high in Layout (N - 1) h' r' lo' hi'.
  Proof using Hk HN.
    intros H2 [FL [FLo [FHi [FH [FD FB]]]]]. pose proof n_pos as Hn.
    assert (FR : Z.of_nat (length rev) = N + 1 + n).
    { apply (f_equal (@length Z)) in FD. rewrite skipn_length in FD. unfold n in *. lia. }
    unfold merge_last. replace (length hist <? 2)%nat with false by lia.
    replace (Z.of_nat (length hist)) with N by lia.
    set (hd' := map (fun v => v - 1) (firstn (length hist - 1) rev ++ [zget rev N])).
    assert (Lh : Z.of_nat (length hd') = N).
    { unfold hd'. rewrite map_length, app_length, firstn_length. cbn [length]. lia. }
    unfold Layout, fset. rewrite !zset_length, !firstn_length.
    split; [lia|]. split; [lia|]. split; [lia|]. split; [|split].
    - intros t Ht. rewrite zget_app, Lh by lia. replace (t <? N) with true by lia. unfold hd'.
      rewrite zget_map by (rewrite app_length, firstn_length; cbn [length]; lia).
      rewrite zget_app, firstn_length by lia.
      destruct (t <? Z.of_nat (Nat.min (length hist - 1) (length rev))) eqn:E.
      + rewrite zget_firstn, FH, !start_lt by lia. lia.
      + replace (t - Z.of_nat (Nat.min (length hist - 1) (length rev))) with 0 by lia.
        change (zget [zget rev N] 0) with (zget rev N). rewrite FH, !start_ge by lia. lia.
    - replace (Z.to_nat (N - 1 + 1)) with (length hd') by lia.
      rewrite skipn_app, skipn_all, Nat.sub_diag. cbn [app skipn]. rewrite <- FD. f_equal. lia.
    - intros i Hi. destruct (FB i ltac:(lia)) as [B1 [B2 B3]].
      rewrite zget_zset, nth_zset, !firstn_length, (nth_firstn' low) by lia.
      destruct (N - 2 =? i) eqn:E.
      + assert (i = N - 2) by lia. subst i.
        replace (N - 2 <? Z.of_nat (Nat.min (length hist - 1) (length hist))) with true by lia.
        replace (N - 2 <? Z.of_nat (Nat.min (length hist - 1) (length high))) with true by lia.
        cbn [andb]. destruct (FB (N - 1) ltac:(lia)) as [C1 [_ C3]].
        replace (N - 2 + 1) with (N - 1) in * by lia. replace (N - 1 + 1) with N in * by lia.
        replace (length hist - 1)%nat with (Z.to_nat (N - 1)) by lia.
        rewrite B1, B2, C1, C3, !(start_ge k n N N), !(start_ge k n (N - 1) (N - 1)), !start_lt by lia.
        split; [lia|]. split; reflexivity.
      + cbn [andb]. rewrite zget_firstn, (nth_firstn' high), B1, B2, B3 by lia.
        rewrite !start_lt by lia. auto.
  Qed.

  Variable merge : bool.
  Let ch := chunks (length wsort) (Z.to_nat k) merge wsort.
  Let M := Z.of_nat (length ch).

  Lemma chunks_Z :
    (1 <= M /\ (M - 1) * k < n)
    /\ (if merge then (M = 1 \/ M * k <= n) /\ n < (M + 1) * k else n <= M * k)
    /\ forall i, 0 <= i < M ->
         nth (Z.to_nat i) ch [] = firstn (Z.to_nat (start k n M (i + 1) - start k n M i))
                                         (skipn (Z.to_nat (start k n M i)) wsort).
  Proof using Hk HN.
    pose proof n_pos as Hn.
    assert (Hne : wsort <> []) by (intros E; unfold n in Hn; rewrite E in Hn; cbn [length] in Hn; lia).
    destruct (chunks_closed_form (length wsort) (Z.to_nat k) merge wsort ltac:(lia) ltac:(lia) Hne) as [C1 [C2 C3]].
    fold ch in C1, C2, C3.
    assert (Hmul : forall a, Z.of_nat (a * Z.to_nat k) = Z.of_nat a * k) by (intro a; rewrite Nat2Z.inj_mul, Z2Nat.id; lia).
    pose proof (Hmul (length ch)) as HMk. fold M in HMk.
    split; [unfold n, M; lia|]. split; [unfold n, M; destruct merge; lia|].
    intros i Hi. rewrite C3 by (unfold M in Hi; lia). rewrite (start_lt k n M i) by lia.
    pose proof (Hmul (Z.to_nat i)) as Hik. rewrite Z2Nat.id in Hik by lia.
    f_equal; [|f_equal; lia].
    destruct (S (Z.to_nat i) <? length ch)%nat eqn:E.
    - rewrite start_lt by (unfold M; lia). lia.
    - rewrite start_ge by (unfold M; lia). unfold n. lia.
  Qed.

  (* which of the two layouts above has as many bins as there are chunks: the test of _hist_by_num
     (is the last count k?) and that of _merge_last (are there two bins?) in terms of n, k, N *)
  Lemma chunks_number : M = if negb (n - (N - 1) * k =? k) && merge && (2 <=? N) then N - 1 else N.
  Proof using Hk HN.
    destruct chunks_Z as [[C1 C2] [C3 _]].
    (* (a-1)*k < n <= a*k has one solution a; a merged last chunk makes room for one more k *)
    assert (Hlt : forall a b, a * k < b * k -> a < b) by (intros a b; apply Z.mul_lt_mono_pos_r; lia).
    assert (M <= N) by (apply Z.lt_succ_r, Hlt; lia).
    destruct merge.
    - assert (N <= M + 1) by (apply Z.lt_succ_r, Hlt; lia).
      (* lia takes N * k and M * k for unrelated unknowns: say how they are related *)
      assert (E : N = M /\ N * k = M * k \/ N = M + 1 /\ N * k = (M + 1) * k).
      { destruct (Z.eq_dec N M); [left | right]; (split; [lia | f_equal; lia]). }
      destruct (negb (n - (N - 1) * k =? k) && true && (2 <=? N)) eqn:E'; lia.
    - rewrite andb_false_r. cbn [andb]. assert (N - 1 < M) by (apply Hlt; lia). lia.
  Qed.

  (* from the layout to the statement about slices *)
  Lemma final_slices h r lo hi : Layout M h r lo hi ->
    length h = length ch /\ length lo = length ch /\ length hi = length ch
    /\ skipn (S (length h)) r = wsort
    /\ forall i, (i < length ch)%nat ->
         let b := nth i ch [] in
         b <> []
         /\ 0 <= zget r (Z.of_nat i) /\ 0 <= zget r (Z.of_nat i + 1)
         /\ zget r (Z.of_nat i) <> zget r (Z.of_nat i + 1)
         /\ slice r (Z.of_nat i) = b
         /\ zget h (Z.of_nat i) = Z.of_nat (length b)
         /\ nth i lo nan = fget x (hd 0 b)
         /\ nth i hi nan = fget x (last b 0).
  Proof using Hk HN.
    intros [FL [FLo [FHi [FH [FD FB]]]]]. destruct chunks_Z as [[C1 C2] [_ C3]].
    split; [unfold M in FL; lia|]. split; [unfold M in FLo; lia|]. split; [unfold M in FHi; lia|]. split.
    - rewrite <- FD. f_equal. lia.
    - intros i Hi b. set (zi := Z.of_nat i). assert (Hzi : 0 <= zi < M) by (unfold M; lia).
      specialize (C3 zi Hzi). replace (Z.to_nat zi) with i in C3 by lia. fold b in C3.
      destruct (start_step k n M zi Hk C2 Hzi) as [Hs He].
      destruct (FB zi Hzi) as [B1 [B2 B3]]. replace (Z.to_nat zi) with i in B2, B3 by lia.
      assert (R1 : zget r zi = M + 1 + start k n M zi) by (apply FH; lia).
      assert (R2 : zget r (zi + 1) = M + 1 + start k n M (zi + 1)) by (apply FH; lia).
      set (s := start k n M zi) in *. set (e := start k n M (zi + 1)) in *.
      assert (Hblen : Z.of_nat (length b) = e - s).
      { rewrite C3, firstn_length, skipn_length. unfold n in He. lia. }
      assert (Hbn : forall t, 0 <= t < e - s -> zget b t = zget wsort (s + t)).
      { intros t Ht. unfold zget. rewrite C3, nth_firstn', nth_skipn by lia. f_equal. lia. }
      split; [intro E0; rewrite E0 in Hblen; cbn [length] in Hblen; lia|].
      split; [lia|]. split; [lia|]. split; [lia|]. split; [|split; [lia|]].
      + unfold slice. rewrite R1, R2, C3, <- FD, skipn_skipn'. f_equal; [lia | f_equal; lia].
      + rewrite B2, B3, hd_zget, last_zget, Hblen, !Hbn by lia. split; do 2 f_equal; lia.
  Qed.
End NumModel.

Theorem hist_by_num_spec : forall (x : list float) (wsort : list Z) (k : Z) (merge : bool) hist rev low high,
  1 <= k -> wsort <> [] ->
  hist_by_num x wsort k merge = (hist, rev, low, high) ->
  let ch := chunks (length wsort) (Z.to_nat k) merge wsort in
  length hist = length ch /\ length low = length ch /\ length high = length ch
  /\ skipn (S (length hist)) rev = wsort
  /\ forall i, (i < length ch)%nat ->
       let b := nth i ch [] in
       b <> []
       /\ 0 <= zget rev (Z.of_nat i) /\ 0 <= zget rev (Z.of_nat i + 1)
       /\ zget rev (Z.of_nat i) <> zget rev (Z.of_nat i + 1)
       /\ slice rev (Z.of_nat i) = b
       /\ zget hist (Z.of_nat i) = Z.of_nat (length b)
       /\ nth i low nan = fget x (hd 0 b)
       /\ nth i high nan = fget x (last b 0).
Proof.
  intros x wsort k merge hist rev low high Hk Hne H.
  set (n := Z.of_nat (length wsort)).
  assert (Hn : 1 <= n) by (unfold n; destruct wsort; [contradiction | cbn [length]; lia]).
  pose proof (nbin_bounds k n Hk Hn) as NB.
  unfold hist_by_num in H. cbv zeta in H, NB. fold n in H.
  set (N := (n - 1) / k + 1) in *. clearbody N.
  destruct (chist (fun i => i / k) N (zseq 0 (length wsort))) as [h0 rev0] eqn:Hch.
  rewrite <- (Nat2Z.id (length wsort)) in Hch. fold n in Hch.
  destruct (pass_layout k n N Hk Hn NB h0 rev0 Hch) as [FL [FR [FH [FD FHi]]]].
  set (z := repeat 0%float (Z.to_nat N)) in H.
  assert (Hinit : Pinv x wsort k N 0 (rev0, z, z)).
  { unfold Pinv, z. fold n. rewrite repeat_length, start_lt by lia.
    split; [exact FR|]. split; [lia|]. split; [lia|]. split; [exact FH|]. split.
    - intros p Hp. replace (p <? 0 * k) with false by lia. apply FD, Hp.
    - intros i Hi. lia. }
  pose proof (fold_zseq_inv (Pinv x wsort k N) (remap_step x wsort) (Z.to_nat N) 0 _ Hinit) as HF.
  replace (0 + Z.of_nat (Z.to_nat N)) with N in HF by lia.
  specialize (HF (fun j st' Hj => remap_step_inv x wsort k N Hk NB j st' Hj)).
  destruct (fold_left (remap_step x wsort) (zseq 0 (Z.to_nat N)) (rev0, z, z)) as [[rev1 low1] high1].
  apply (final_unmerged x wsort k N Hk NB h0 rev1 low1 high1 FL FHi) in HF.
  pose proof (chunks_number wsort k N Hk NB merge) as HM. fold n in HM.
  replace (last h0 0) with (n - (N - 1) * k) in H.
  2:{ rewrite last_zget, FL, FHi, start_ge, start_lt by lia. lia. }
  apply (final_slices x wsort k N Hk NB merge). rewrite HM.
  destruct (negb (n - (N - 1) * k =? k) && merge) eqn:Ec; cbn [andb].
  - destruct (2 <=? N) eqn:E2.
    + apply (final_merged x wsort k N Hk NB) in HF; [|lia]. rewrite H in HF. exact HF.
    + unfold merge_last in H. replace (length h0 <? 2)%nat with true in H by lia.
      injection H as <- <- <- <-. exact HF.
  - injection H as <- <- <- <-. exact HF.
Qed.

(* Binner(x, y, weights).dohist(nperbin=k, mergelast=merge, min=, max=) as modelled: whenever the
   selected data come in stable sorted order (the contract of numpy's argsort, decided on every
   case by the checker), the result is the property: bins are the chunks of that order, hist
   their sizes, low/high the first/last member's value, rev refers to the original array, and
   rows that agree with the model's statistics are those of the members. *)
Theorem binner_num_spec c lo hi k merge b dmin dmax wsort rows :
  binner_num true c lo hi k merge = Ok b -> cols_ok c = true -> 1 <= k ->
  limits (c_x c) (argsort (c_x c)) lo hi = Ok (dmin, dmax, wsort) ->
  ordered (c_x c) wsort -> Permutation wsort (selected c lo hi) ->
  rows_meet rows (n_rows b) = true ->
  num_ok c lo hi k merge (n_hist b) (n_rev b) (n_low b) (n_high b) rows.
Proof.
  intros HB OK Hk HL HO HP HR.
  assert (Hne := limits_ok_nonempty _ _ _ _ _ _ _ HL).
  unfold binner_num in HB. rewrite (cols_ok_same_len c OK) in HB. cbn [negb] in HB. rewrite HL in HB.
  replace (k <? 1) with false in HB by lia.
  destruct (hist_by_num (c_x c) wsort k merge) as [[[hist rev] low] high] eqn:HH.
  injection HB as <-. cbn [n_hist n_rev n_low n_high n_rows] in *.
  destruct (hist_by_num_spec (c_x c) wsort k merge hist rev low high Hk Hne HH) as [L1 [L2 [L3 [_ HS]]]].
  set (ch := chunks (length wsort) (Z.to_nat k) merge wsort) in *.
  exists wsort. split; [exact HP|]. split; [exact HO|]. fold ch.
  split; [exact L1|]. split; [exact L2|]. split; [exact L3|]. split.
  - intros i Hi. destruct (HS i Hi) as [_ [S1 [S2 [_ [S4 [S5 [S6 S7]]]]]]].
    unfold chunk_ok. repeat split; try assumption; unfold sf_eq; [rewrite S6 | rewrite S7]; reflexivity.
  - apply (stats_of_members _ _ _ rev).
    + exact OK.
    + apply (chunks_inrange c lo hi), HP.
    + lia.
    + intros i Hi. rewrite bin_slice_eq.
      destruct (HS (Z.to_nat i) ltac:(lia)) as [_ [_ [_ [_ [S4 _]]]]].
      replace (Z.of_nat (Z.to_nat i)) with i in S4 by lia. rewrite S4. apply Permutation_refl.
    + rewrite <- L1. exact HR.
Qed.
