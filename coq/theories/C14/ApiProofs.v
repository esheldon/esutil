(* C14 — the call as a whole: which keyword wins, which inputs are rejected with which error
   class, and the history dimension (a reused Binner answers like a fresh one because dohist
   clears the dictionary; without the clearing it does not). *)
From Coq Require Import PrimFloat ZArith List Bool Lia.
From EsVerif.Common Require Import Base.
From EsVerif.C05 Require Import Model Spec.
From EsVerif.C14 Require Import Model Spec.
Open Scope Z_scope.

(* util.py:305-341 as a table: s[0] / s[-1] on empty data raise IndexError; an empty selection
   raises ValueError; nothing else is rejected *)
Definition eff_min (x : list float) (s : list Z) (lo : option float) : float :=
  match lo with Some v => v | None => fget x (hd 0 s) end.
Definition eff_max (x : list float) (s : list Z) (hi : option float) : float :=
  match hi with Some v => v | None => fget x (last s 0) end.

Theorem limits_outcome x s lo hi :
  limits x s lo hi =
  match s, lo, hi with
  | [], None, _ => Err EIndex
  | [], Some _, None => Err EIndex
  | _, None, None => Ok (eff_min x s lo, eff_max x s hi, s)
  | _, _, _ =>
      match filter (fun k => within (eff_min x s lo) (eff_max x s hi) (fget x k)) s with
      | [] => Err EValue
      | w => Ok (eff_min x s lo, eff_max x s hi, w)
      end
  end.
Proof.
  unfold limits, eff_min, eff_max. destruct s as [|a t], lo as [l|], hi as [h|]; reflexivity.
Qed.

(* in both lemmas: first the two outcomes of the filter, then the eight rows of the table *)
Lemma limits_error_class x s lo hi e : limits x s lo hi = Err e -> e = EIndex \/ e = EValue.
Proof.
  rewrite limits_outcome.
  destruct (filter (fun k => within (eff_min x s lo) (eff_max x s hi) (fget x k)) s);
    destruct s, lo, hi; intro H; inversion H; auto.
Qed.

Lemma limits_ok_nonempty x s lo hi dmin dmax w : limits x s lo hi = Ok (dmin, dmax, w) -> w <> [].
Proof.
  rewrite limits_outcome.
  destruct (filter (fun k => within (eff_min x s lo) (eff_max x s hi) (fget x k)) s);
    destruct s, lo, hi; intro H; inversion H; discriminate.
Qed.

Lemma obj_call_cols p clr o cl : o_cols (fst (obj_call p clr o cl)) = o_cols o.
Proof.
  unfold obj_call. destruct (dohist_into p (o_cols o) _ cl); [|reflexivity].
  destruct (calc_stats_dict p (o_cols o) a); reflexivity.
Qed.

Lemma obj_run_cols p clr cls : forall o, o_cols (obj_run p clr o cls) = o_cols o.
Proof.
  induction cls as [|c' t IH]; intro o; [reflexivity|]. cbn [obj_run]. rewrite IH. apply obj_call_cols.
Qed.

(* whatever was done with the object before — any sequence of binsize / nbin / nperbin calls with
   any options, successful or not — the next call answers exactly like a fresh Binner of the same
   data *)
Theorem history_irrelevant p c cls cl :
  snd (obj_call p true (obj_run p true (obj_new c) cls) cl) = fresh_answer p c cl.
Proof.
  unfold fresh_answer, obj_call. rewrite obj_run_cols. cbn [obj_new o_cols].
  destruct (dohist_into p c d_empty cl); [|reflexivity].
  destruct (calc_stats_dict p c a); reflexivity.
Qed.

(* a fresh object's dictionary is the functional model *)
Theorem fresh_answer_binned p c rv lo hi m b :
  binner p c rv lo hi m = Ok b ->
  exists d, fresh_answer p c (CallBinned rv lo hi m) = Ok d
    /\ d_hist d = Some (b_hist b) /\ d_nperbin d = None /\ d_lowhigh d = None
    /\ d_edges d = Some (b_edges b)
    /\ d_rev d = (if dorev c rv then Some (b_rev b) else None)
    /\ d_rows d = (if dorev c rv then Some (b_rows b) else None).
Proof.
  intro HB. unfold fresh_answer, obj_call. cbn [obj_new o_cols o_sortcache o_dict].
  unfold dohist_into. rewrite HB.
  unfold binner in HB. destruct (negb (same_len c)); [discriminate|].
  destruct (histogram EngC (c_x c) lo hi m) as [o|e]; [|discriminate].
  (* with and without reverse indices the dictionary is computed outright; the projections are
     reduced by name so that nothing else is unfolded *)
  destruct (dorev c rv) eqn:DR; injection HB as <-; unfold calc_stats_dict;
    cbn [b_hist b_rev b_edges b_rows d_hist d_nperbin d_binspec d_rev d_empty d_lowhigh d_edges d_rows snd].
  - eexists. split; [reflexivity|]. cbn [d_hist d_nperbin d_rev d_lowhigh d_edges d_rows]. repeat split; reflexivity.
  - eexists. split; [reflexivity|]. cbn [d_hist d_nperbin d_rev d_lowhigh d_edges d_rows]. repeat split; reflexivity.
Qed.

Theorem fresh_answer_num p c lo hi k merge n :
  binner_num p c lo hi k merge = Ok n ->
  exists d, fresh_answer p c (CallNum lo hi k merge) = Ok d
    /\ d_hist d = Some (n_hist n) /\ d_rev d = Some (n_rev n) /\ d_nperbin d = Some k
    /\ d_lowhigh d = Some (n_low n, n_high n) /\ d_edges d = None
    /\ d_rows d = Some (n_rows n).
Proof.
  intro HB. unfold fresh_answer, obj_call. cbn [obj_new o_cols o_sortcache o_dict].
  unfold dohist_into. rewrite HB. unfold calc_stats_dict.
  cbn [d_hist d_nperbin d_binspec d_rev d_empty d_lowhigh d_edges d_rows snd].
  eexists. split; [reflexivity|]. cbn [d_hist d_nperbin d_binspec d_rev d_lowhigh d_edges d_rows].
  assert (E : calc_rows p c (Z.of_nat (length (n_hist n))) (n_rev n) = n_rows n).
  { unfold binner_num in HB. destruct (negb (same_len c)); [discriminate|].
    destruct (limits (c_x c) (argsort (c_x c)) lo hi) as [[[dmin dmax] w]|e]; [|discriminate].
    destruct (k <? 1); [discriminate|].
    destruct (hist_by_num (c_x c) w k merge) as [[[hist rev] low] high]. injection HB as <-. reflexivity. }
  rewrite E. repeat split; reflexivity.
Qed.

