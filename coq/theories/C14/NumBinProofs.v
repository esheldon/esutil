(* C14 — equal-occupancy binning, first stage: C05's pass on the positions 0..n-1 with bin number
   position / nperbin puts exactly the positions [i*k, min((i+1)*k, n)) into bin i. *)
From Coq Require Import ZifyBool Sorting.Sorted.
From EsVerif.Common Require Import Base.
From EsVerif.C05 Require Import Model Spec PassProofs Properties.
From EsVerif.C14 Require Import Model Spec StatProofs.
Open Scope Z_scope.

(* element-wise facts about Common.Base's zget / zset and C05's slice (those about zseq and Forall2
   stand in StatProofs) *)
Lemma zget_zseq n s j : 0 <= j < Z.of_nat n -> zget (zseq s n) j = s + j.
Proof. intro H. unfold zget. rewrite zseq_nth by lia. lia. Qed.

Lemma nth_firstn' {A} (l : list A) c t d : (t < c)%nat -> nth t (firstn c l) d = nth t l d.
Proof.
  revert l t. induction c as [|c IH]; intros l t H; [lia|].
  destruct l as [|a l]; [destruct t; reflexivity|]. destruct t as [|t]; cbn [firstn nth]; [reflexivity|].
  apply IH. lia.
Qed.

Lemma zget_skipn l c t : 0 <= t -> zget (skipn c l) t = zget l (Z.of_nat c + t).
Proof. intro H. unfold zget. rewrite nth_skipn. f_equal. lia. Qed.

Lemma slice_zget rev i t :
  0 <= zget rev i -> 0 <= t < zget rev (i + 1) - zget rev i ->
  zget (slice rev i) t = zget rev (zget rev i + t).
Proof.
  intros H1 H2. unfold zget at 1 2. unfold slice. rewrite nth_firstn' by lia. rewrite nth_skipn. f_equal. lia.
Qed.

Lemma zget_cons a l j : 0 < j -> zget (a :: l) j = zget l (j - 1).
Proof. intro H. unfold zget. replace (Z.to_nat j) with (S (Z.to_nat (j - 1))) by lia. reflexivity. Qed.

Lemma zget_map (f : Z -> Z) l j : 0 <= j < Z.of_nat (length l) -> zget (map f l) j = f (zget l j).
Proof.
  intro H. unfold zget. rewrite (nth_indep _ 0 (f 0)) by (rewrite map_length; lia). apply map_nth.
Qed.

Lemma zget_firstn l c i : 0 <= i < Z.of_nat c -> zget (firstn c l) i = zget l i.
Proof. intro H. unfold zget. apply nth_firstn'. lia. Qed.

Lemma zget_app a b t : 0 <= t ->
  zget (a ++ b) t = if t <? Z.of_nat (length a) then zget a t else zget b (t - Z.of_nat (length a)).
Proof.
  intro H. unfold zget. destruct (t <? Z.of_nat (length a)) eqn:E.
  - apply app_nth1. lia.
  - rewrite app_nth2 by lia. f_equal. lia.
Qed.

Lemma nth_zset {A} (l : list A) i v j d : 0 <= j ->
  nth (Z.to_nat j) (zset l i v) d = if (i =? j) && (j <? Z.of_nat (length l)) then v else nth (Z.to_nat j) l d.
Proof.
  intro Hj. unfold zset. destruct (i <? 0) eqn:Ei.
  - destruct ((i =? j) && (j <? Z.of_nat (length l))) eqn:E; [lia|reflexivity].
  - destruct (i =? j) eqn:Eij; cbn [andb].
    + assert (i = j) by lia. subst i. destruct (j <? Z.of_nat (length l)) eqn:El.
      * apply nth_set_nth_eq. lia.
      * rewrite !nth_overflow; [reflexivity| lia | rewrite set_nth_length; lia].
    + apply nth_set_nth_neq. lia.
Qed.

Lemma hd_zget l : hd 0 l = zget l 0.
Proof. destruct l; reflexivity. Qed.

Lemma last_zget l : last l 0 = zget l (Z.of_nat (length l) - 1).
Proof.
  induction l as [|a l IH]; [reflexivity|]. destruct l as [|b l]; [reflexivity|].
  change (last (a :: b :: l) 0) with (last (b :: l) 0). rewrite IH, (zget_cons a) by (cbn [length]; lia).
  f_equal. cbn [length]. lia.
Qed.

Lemma slice_length rev i :
  0 <= zget rev i <= zget rev (i + 1) -> zget rev (i + 1) <= Z.of_nat (length rev) ->
  Z.of_nat (length (slice rev i)) = zget rev (i + 1) - zget rev i.
Proof. intros H1 H2. unfold slice. rewrite firstn_length, skipn_length. lia. Qed.

Lemma div_eq_iff k s i : 0 < k -> (s / k = i <-> i * k <= s < (i + 1) * k).
Proof.
  intro Hk. split.
  - intros <-. pose proof (Z.mul_div_le s k Hk). pose proof (Z.mul_succ_div_gt s k Hk). lia.
  - intro H. symmetry. apply (Z.div_unique s k i (s - i * k)); lia.
Qed.

(* the number of bins _hist_by_num asks for meets the bounds Section Pass works under *)
Lemma nbin_bounds k n : 1 <= k -> 1 <= n ->
  let N := (n - 1) / k + 1 in 1 <= N /\ (N - 1) * k < n /\ n <= N * k.
Proof.
  intros Hk Hn N. destruct (div_eq_iff k (n - 1) (N - 1) ltac:(lia)) as [D _].
  specialize (D ltac:(unfold N; lia)). pose proof (Z.div_pos (n - 1) k). fold N in H. lia.
Qed.

Lemma positions_sorted k : 0 < k -> forall n s, Sorted Z.le (map (fun j => j / k) (zseq s n)).
Proof.
  intros Hk n. induction n as [|n IH]; intro s; cbn [zseq map]; constructor.
  - apply IH.
  - destruct n as [|n]; cbn [zseq map]; constructor.
    apply Z.div_le_mono; lia.
Qed.

Lemma sel_div k i : 0 < k -> forall n s,
  sel (fun j => j / k) i (zseq s n)
  = zseq (Z.max s (i * k)) (Z.to_nat (Z.min (s + Z.of_nat n) ((i + 1) * k) - Z.max s (i * k))).
Proof.
  intros Hk n. unfold sel. induction n as [|n IH]; intro s.
  - cbn [zseq filter]. replace (Z.to_nat _) with O by lia. reflexivity.
  - cbn [zseq filter]. rewrite IH.
    pose proof (div_eq_iff k s i Hk) as D.
    set (a := i * k) in *. assert (Hb : (i + 1) * k = a + k) by (unfold a; ring). rewrite Hb in *.
    destruct (s / k =? i) eqn:E.
    + apply Z.eqb_eq in E. apply D in E.
      replace (Z.max s a) with s by lia. replace (Z.max (s + 1) a) with (s + 1) by lia.
      replace (Z.to_nat (Z.min (s + Z.of_nat (S n)) (a + k) - s))
        with (S (Z.to_nat (Z.min (s + 1 + Z.of_nat n) (a + k) - (s + 1)))) by lia.
      reflexivity.
    + apply Z.eqb_neq in E.
      assert (C : s < a \/ a + k <= s) by (destruct (Z_lt_dec s a); [left; assumption | right; apply Z.nlt_ge; intro; apply E, D; lia]).
      destruct C as [C|C].
      * replace (Z.max s a) with a by lia. replace (Z.max (s + 1) a) with a by lia.
        replace (s + 1 + Z.of_nat n) with (s + Z.of_nat (S n)) by lia. reflexivity.
      * replace (Z.to_nat (Z.min (s + 1 + Z.of_nat n) (a + k) - Z.max (s + 1) a)) with O by lia.
        replace (Z.to_nat (Z.min (s + Z.of_nat (S n)) (a + k) - Z.max s a)) with O by lia.
        reflexivity.
Qed.

(* left boundary of bin t when n positions fall into M bins of k, the last one taking what is
   left; start M M = n closes the last bin *)
Definition start (k n M t : Z) : Z := if t <? M then t * k else n.

Lemma start_lt k n M t : t < M -> start k n M t = t * k.
Proof. intro H. unfold start. replace (t <? M) with true by lia. reflexivity. Qed.

Lemma start_ge k n M t : M <= t -> start k n M t = n.
Proof. intro H. unfold start. replace (t <? M) with false by lia. reflexivity. Qed.

(* the one non-linear fact about the boundaries: . * k is monotone *)
Lemma start_step k n M t : 1 <= k -> (M - 1) * k < n -> 0 <= t < M ->
  0 <= start k n M t < start k n M (t + 1) /\ start k n M (t + 1) <= n.
Proof.
  intros Hk HM Ht. rewrite (start_lt k n M t) by lia.
  assert (Hm : forall a, 0 <= a <= M - 1 -> 0 <= a * k <= (M - 1) * k).
  { intros a Ha. split; [apply Z.mul_nonneg_nonneg | apply Z.mul_le_mono_nonneg_r]; lia. }
  pose proof (Hm t ltac:(lia)). destruct (Z.eq_dec (t + 1) M) as [E|E].
  - rewrite start_ge by lia. lia.
  - rewrite start_lt by lia. pose proof (Hm (t + 1) ltac:(lia)). lia.
Qed.

Section Pass.
  Variables k n N : Z.
  Hypothesis Hk : 1 <= k.
  Hypothesis Hn : 1 <= n.
  Hypothesis HN : 1 <= N /\ (N - 1) * k < n /\ n <= N * k.
  Variables hist rev0 : list Z.
  Hypothesis Hch : chist (fun j => j / k) N (zseq 0 (Z.to_nat n)) = (hist, rev0).

  Lemma positions_counted : all_counted (fun j => j / k) N (zseq 0 (Z.to_nat n)).
  Proof using Hk Hn HN.
    intros j Hj. apply zseq_In in Hj.
    unfold valid_bin. apply andb_true_iff. split.
    - apply Z.leb_le. apply Z.div_pos; lia.
    - apply Z.ltb_lt. apply Z.div_lt_upper_bound; lia.
  Qed.

  (* the pass of _hist_by_num (before the slices are mapped to the original array): nbin bins,
     bin i holds exactly the positions i*k .. min((i+1)*k, n) - 1, hist[i] is their number, the
     index section of rev lists every position once, nothing is left uncounted *)
  Theorem pass_slices :
    Z.of_nat (length hist) = N
    /\ Z.of_nat (length rev0) = n + N + 1
    /\ skipn (Z.to_nat (N + 1)) rev0 = zseq 0 (Z.to_nat n)
    /\ zget rev0 N = Z.of_nat (length rev0)
    /\ forall i, 0 <= i < N ->
         N + 1 <= zget rev0 i <= zget rev0 (i + 1)
         /\ slice rev0 i = zseq (i * k) (Z.to_nat (Z.min n ((i + 1) * k) - i * k))
         /\ zget hist i = Z.min n ((i + 1) * k) - i * k
         /\ 1 <= zget hist i <= k
         /\ (i + 1 < N -> zget hist i = k).
  Proof using Hk Hn HN Hch.
    pose proof (C05_partition EngC (fun j => j / k) N (zseq 0 (Z.to_nat n)) ltac:(lia)
                  (positions_sorted k ltac:(lia) _ _)) as P.
    cbv beta iota in P. rewrite Hch in P.
    destruct P as [PL [PR [PS [_ [PK PC]]]]]. rewrite zseq_length in PR.
    split; [exact PL|]. split; [lia|]. split; [exact PK|].
    split; [apply PC, positions_counted|].
    intros i Hi. destruct (PS i Hi) as [Po [_ [Psl Plen]]].
    rewrite (sel_div k i ltac:(lia)) in Psl.
    destruct (start_step k n N i Hk ltac:(lia) Hi) as [Hs He]. rewrite start_lt in Hs by lia.
    replace (Z.max 0 (i * k)) with (i * k) in Psl by lia.
    replace (0 + Z.of_nat (Z.to_nat n)) with n in Psl by lia.
    rewrite Psl, zseq_length in Plen.
    split; [exact Po|]. split; [exact Psl|].
    destruct (Z.eq_dec (i + 1) N) as [E|E].
    - rewrite start_ge in * by lia. replace ((i + 1) * k) with (N * k) in * by (rewrite E; reflexivity). lia.
    - rewrite start_lt in * by lia. lia.
  Qed.

  (* the same, cell by cell (offsets, index section, counts): the form the proof about hist_by_num uses *)
  Lemma pass_layout :
    Z.of_nat (length hist) = N
    /\ Z.of_nat (length rev0) = N + 1 + n
    /\ (forall t, 0 <= t <= N -> zget rev0 t = N + 1 + start k n N t)
    /\ (forall p, 0 <= p < n -> zget rev0 (N + 1 + p) = p)
    /\ (forall i, 0 <= i < N -> zget hist i = start k n N (i + 1) - start k n N i).
  Proof using Hk Hn HN Hch.
    destruct pass_slices as [HL [HR [HS [HE HP]]]].
    assert (Hdata : forall p, 0 <= p < n -> zget rev0 (N + 1 + p) = p).
    { intros p Hp. replace (N + 1 + p) with (Z.of_nat (Z.to_nat (N + 1)) + p) by lia.
      rewrite <- zget_skipn, HS, zget_zseq by lia. lia. }
    split; [exact HL|]. split; [lia|]. split; [|split; [exact Hdata|]].
    - intros t Ht. destruct (Z.eq_dec t N) as [->|Hne]; [rewrite start_ge by lia; lia|].
      rewrite start_lt by lia.
      destruct (HP t ltac:(lia)) as [Ho [Hsl [Hh [Hh1 _]]]].
      (* slice t is not empty and begins with position t*k, which sits at N+1+t*k *)
      assert (Hlen : Z.of_nat (length (slice rev0 t)) = zget hist t) by (rewrite Hsl, zseq_length; lia).
      unfold slice in Hlen. rewrite firstn_length, skipn_length in Hlen.
      assert (H0 : zget (slice rev0 t) 0 = t * k) by (rewrite Hsl, zget_zseq by lia; lia).
      rewrite slice_zget in H0 by lia.
      replace (zget rev0 t + 0) with (N + 1 + (zget rev0 t - N - 1)) in H0 by lia.
      rewrite Hdata in H0 by lia. lia.
    - intros i Hi. destruct (HP i Hi) as [_ [_ [Hh [_ Hk']]]].
      destruct (Z.eq_dec (i + 1) N) as [E|E].
      + rewrite start_ge, start_lt by lia. rewrite Hh. replace ((i + 1) * k) with (N * k) by (rewrite E; reflexivity). lia.
      + rewrite !start_lt by lia. rewrite Hk' by lia. ring.
  Qed.
End Pass.
