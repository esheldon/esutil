(* C14 — the bin number that _hist_by_num computes in binary64, np.int64((i - 0)/float(nperbin)),
   IS the integer quotient i / nperbin for all 0 <= i < 2^53 and 1 <= nperbin < 2^53 (Flocq: correct
   rounding of the division + its relative error bound); Exec.nperbin_monitor, which can be evaluated
   for one (n, nperbin) at a time, therefore holds for all of them. *)
From Coq Require Import ZArith Reals Lia Lra List Bool.
From Coq Require Import PrimFloat FloatOps SpecFloat Uint63.
From Flocq Require Import Core.Core IEEE754.BinarySingleNaN Relative.
Require Flocq.IEEE754.PrimFloat.
From EsVerif.Common Require Import Base.
From EsVerif.C05 Require Import Model Spec FloatFacts.
From EsVerif.C14 Require Model Exec StatProofs.
Module M14 := EsVerif.C14.Model.
Module FP := Flocq.IEEE754.PrimFloat.
Local Existing Instance FP.Hprec.
Local Existing Instance FP.Hmax.
Local Open Scope R_scope.

Definition two53 : Z := 9007199254740992%Z.

Lemma fmt_int z : (Z.abs z < two53)%Z -> generic_format radix2 (fexp prec emax) (IZR z).
Proof.
  intro H. apply generic_format_FLT. exists (Float radix2 z 0).
  - unfold F2R, Fnum, Fexp. simpl bpow. lra.
  - exact H.
  - unfold emin. simpl. lia.
Qed.

Lemma rnd_int z : (Z.abs z < two53)%Z -> rnd (IZR z) = IZR z.
Proof. intro H. apply round_generic; [typeclasses eauto | apply fmt_int; exact H]. Qed.

Lemma IZR_lt_bpow z e : (Z.abs z < two53)%Z -> (53 <= e)%Z -> Rabs (IZR z) < bpow radix2 e.
Proof.
  intros H He. rewrite <- abs_IZR. apply Rlt_le_trans with (bpow radix2 53).
  - change (bpow radix2 53) with (IZR (Zpower radix2 53)). apply IZR_lt. exact H.
  - apply bpow_le. exact He.
Qed.

Lemma float_of_Z_exact z : (0 <= z < two53)%Z ->
  finite_f (float_of_Z z) = true /\ rv (float_of_Z z) = IZR z.
Proof.
  intro H. unfold float_of_Z. rewrite finite_f_B. unfold rv. rewrite FP.of_int63_equiv.
  assert (E : Uint63.to_Z (Uint63.of_Z z) = z).
  { rewrite Uint63.of_Z_spec. apply Z.mod_small. unfold two53 in H. unfold Uint63.wB. simpl. lia. }
  rewrite E.
  generalize (binary_normalize_correct prec emax FP.Hprec FP.Hmax mode_NE z 0 false).
  cbv zeta.
  replace (F2R (Float radix2 z 0)) with (IZR z) by (unfold F2R, Fnum, Fexp; simpl bpow; lra).
  rewrite rnd_int by lia. rewrite Rlt_bool_true by (apply IZR_lt_bpow; [lia | unfold emax; lia]).
  intros [A [B _]]. split; assumption.
Qed.

(* the arithmetic core: rounding the real quotient of two integers below 2^53 to nearest never
   crosses the next integer *)
Lemma floor_rnd_quot i k : (1 <= i < two53)%Z -> (1 <= k < two53)%Z ->
  Zfloor (rnd (IZR i / IZR k)) = (i / k)%Z.
Proof.
  intros Hi Hk. set (q := IZR i / IZR k). set (m := (i / k)%Z).
  assert (Hkp : 0 < IZR k) by (apply IZR_lt; lia).
  assert (Hip : 0 < IZR i) by (apply IZR_lt; lia).
  pose proof (Z.div_mod i k ltac:(lia)) as DM. pose proof (Z.mod_pos_bound i k ltac:(lia)) as MB. fold m in DM.
  assert (Hm0 : (0 <= m <= i)%Z).
  { split; [apply Z.div_pos; lia|]. unfold m. apply Z.div_le_upper_bound; nia. }
  assert (Eq : q * IZR k = IZR i) by (unfold q; field; lra).
  assert (Hlo : IZR m <= q).
  { apply Rmult_le_reg_r with (IZR k); [exact Hkp|]. rewrite Eq, <- mult_IZR. apply IZR_le. nia. }
  assert (Hq : 0 < q) by (unfold q; apply Rdiv_lt_0_compat; assumption).
  apply Zfloor_imp. split.
  - rewrite <- (rnd_int m) by (unfold two53 in *; lia). apply round_le; try typeclasses eauto. exact Hlo.
  - (* relative error of round-to-nearest: |rnd q - q| <= 2^-53 q *)
    assert (RE : Rabs (rnd q - q) <= / 2 * bpow radix2 (- prec + 1) * Rabs q).
    { apply (relative_error_N_FLT radix2 (SpecFloat.emin prec emax) prec FP.Hprec (fun x => negb (Z.even x)) q).
      rewrite Rabs_pos_eq by lra.
      apply Rle_trans with (bpow radix2 (-53)).
      - apply bpow_le. unfold SpecFloat.emin, prec, emax. lia.
      - (* 2^-53 <= 1/k <= i/k *)
        apply Rmult_le_reg_r with (IZR k); [exact Hkp|]. rewrite Eq.
        apply Rle_trans with 1; [|apply IZR_le; lia].
        replace 1 with (bpow radix2 (-53) * bpow radix2 53) by (rewrite <- bpow_plus; reflexivity).
        apply Rmult_le_compat_l; [apply bpow_ge_0|].
        change (bpow radix2 53) with (IZR (Zpower radix2 53)). apply IZR_le. unfold two53 in Hk. simpl. lia. }
    rewrite (Rabs_pos_eq q) in RE by lra.
    assert (Hu : rnd q <= q + / 2 * bpow radix2 (- prec + 1) * q).
    { pose proof (Rle_abs (rnd q - q)). lra. }
    (* q * (1 + 2^-53) < m + 1  because  i * 2^-53 < 1 <= k (m+1) - i *)
    apply Rle_lt_trans with (1 := Hu).
    apply Rmult_lt_reg_r with (IZR k); [exact Hkp|].
    replace ((q + / 2 * bpow radix2 (- prec + 1) * q) * IZR k) with (IZR i + / 2 * bpow radix2 (- prec + 1) * IZR i)
      by (rewrite <- Eq; ring).
    assert (Hs : / 2 * bpow radix2 (- prec + 1) * IZR i < 1).
    { replace (/ 2 * bpow radix2 (- prec + 1)) with (bpow radix2 (-53)).
      - apply Rmult_lt_reg_l with (bpow radix2 53); [apply bpow_gt_0|].
        rewrite <- Rmult_assoc, <- bpow_plus. simpl (53 + -53)%Z. simpl (bpow radix2 0). rewrite Rmult_1_l, Rmult_1_r.
        change (bpow radix2 53) with (IZR (Zpower radix2 53)). apply IZR_lt. unfold two53 in Hi. simpl. lia.
      - unfold prec. simpl (-53 + 1)%Z. change (/ 2) with (bpow radix2 (-1)). rewrite <- bpow_plus. reflexivity. }
    rewrite <- mult_IZR.
    apply Rlt_le_trans with (IZR i + 1); [lra|]. rewrite <- plus_IZR. apply IZR_le. nia.
Qed.

Lemma quot_bounds i k : (0 <= i < two53)%Z -> (1 <= k < two53)%Z ->
  0 <= rnd (IZR i / IZR k) <= IZR i.
Proof.
  intros Hi Hk. assert (Hkp : 1 <= IZR k) by (apply IZR_le; lia). assert (Hip : 0 <= IZR i) by (apply IZR_le; lia).
  split.
  - rewrite <- rnd_0. apply round_le; try typeclasses eauto. apply Rmult_le_pos; [exact Hip|].
    left. apply Rinv_0_lt_compat. lra.
  - rewrite <- (rnd_int i) at 2 by lia. apply round_le; try typeclasses eauto.
    apply Rmult_le_reg_r with (IZR k); [lra|]. unfold Rdiv. rewrite Rmult_assoc, Rinv_l, Rmult_1_r by lra. nra.
Qed.

(* the quotient of a finite float whose value is the integer i by float(k), truncated *)
Lemma quot_trunc v i k : (0 <= i < two53)%Z -> (1 <= k < two53)%Z -> finite_f v = true -> rv v = IZR i ->
  f2z_trunc (PrimFloat.div v (float_of_Z k)) = (i / k)%Z.
Proof.
  intros Hi Hk Fv Rv. destruct (float_of_Z_exact k ltac:(lia)) as [Fk Rk].
  pose proof (quot_bounds i k Hi Hk) as QB.
  set (d := PrimFloat.div v (float_of_Z k)).
  assert (D : finite_f d = true /\ rv d = rnd (IZR i / IZR k)).
  { unfold d. rewrite finite_f_B in *. unfold rv in *. rewrite FP.div_equiv.
    assert (Nz : B2R (FP.Prim2B (float_of_Z k)) <> 0) by (rewrite Rk; apply IZR_neq; lia).
    generalize (Bdiv_correct prec emax _ _ mode_NE (FP.Prim2B v) (FP.Prim2B (float_of_Z k)) Nz).
    rewrite Rv, Rk. rewrite Rlt_bool_true.
    - intros [A [B _]]. rewrite A, B. split; [exact Fv | reflexivity].
    - rewrite Rabs_pos_eq by lra. apply Rle_lt_trans with (IZR i); [lra|].
      rewrite <- (Rabs_pos_eq (IZR i)) by (apply IZR_le; lia). apply IZR_lt_bpow; [lia | unfold emax; lia]. }
  destruct D as [Fd Rd].
  assert (Hr : 0 <= rv d < IZR two63Z).
  { rewrite Rd. split; [lra|]. apply Rle_lt_trans with (IZR i); [lra|]. apply IZR_lt. unfold two63Z, two53 in *. lia. }
  destruct (trunc_floor_R d Fd Hr) as [T _]. rewrite T, Rd.
  destruct (Z.eq_dec i 0) as [->|Hne].
  - unfold Rdiv. rewrite Rmult_0_l, rnd_0. change 0 with (IZR 0). rewrite Zfloor_IZR. reflexivity.
  - apply floor_rnd_quot; lia.
Qed.

(* np.int64(float(i) / float(k)) = i // k *)
Theorem int_quot_exact i k : (0 <= i < two53)%Z -> (1 <= k < two53)%Z ->
  f2z_trunc (PrimFloat.div (float_of_Z i) (float_of_Z k)) = (i / k)%Z.
Proof.
  intros Hi Hk. destruct (float_of_Z_exact i Hi) as [Fi Ri]. exact (quot_trunc _ i k Hi Hk Fi Ri).
Qed.

(* the same through C05's bin-number function on the float64 positions (the call _do_hist makes):
   binnum [0.0, 1.0, ..] 0.0 float(k) i = i / k *)
Theorem binnum_positions n k i : (Z.of_nat n < two53)%Z -> (1 <= k < two53)%Z -> (0 <= i < Z.of_nat n)%Z ->
  binnum (map float_of_Z (zseq 0 n)) 0%float (float_of_Z k) i = (i / k)%Z.
Proof.
  intros Hn Hk Hi. unfold binnum.
  assert (Eg : fget (map float_of_Z (zseq 0 n)) i = float_of_Z i).
  { unfold fget. rewrite (nth_indep _ nan (float_of_Z 0)) by (rewrite map_length, StatProofs.zseq_length; lia).
    rewrite map_nth, StatProofs.zseq_nth by lia. f_equal. lia. }
  rewrite Eg.
  destruct (float_of_Z_exact i ltac:(lia)) as [Fi Ri].
  (* float(i) - 0.0 is float(i) in value *)
  set (v := PrimFloat.sub (float_of_Z i) 0%float).
  assert (V : finite_f v = true /\ rv v = IZR i).
  { unfold v. rewrite finite_f_B in *. unfold rv in *. rewrite FP.sub_equiv.
    generalize (Bminus_correct prec emax _ _ mode_NE (FP.Prim2B (float_of_Z i)) (FP.Prim2B 0%float) Fi eq_refl).
    replace (B2R (FP.Prim2B 0%float)) with 0 by (symmetry; exact rv_zero).
    rewrite Ri, Rminus_0_r, rnd_int by lia. rewrite Rlt_bool_true by (apply IZR_lt_bpow; [lia | unfold emax; lia]).
    intros [A [B _]]. split; assumption. }
  destruct V as [Fv Rv]. apply (quot_trunc v i k); [lia | exact Hk | exact Fv | exact Rv].
Qed.

(* the model's  position / nperbin  and  (n-1) / nperbin + 1  ARE what the code computes in binary64 *)
Theorem nperbin_monitor_holds n k : (1 <= n < two53)%Z -> (1 <= k < two53)%Z ->
  EsVerif.C14.Exec.nperbin_monitor n k = true.
Proof.
  intros Hn Hk. unfold EsVerif.C14.Exec.nperbin_monitor. cbv zeta. apply andb_true_iff. split.
  - apply forallb_forall. intros i Hi.
    apply StatProofs.zseq_In in Hi. apply Z.eqb_eq. apply binnum_positions; lia.
  - apply Z.eqb_eq. rewrite int_quot_exact by lia. reflexivity.
Qed.

(* the pass depends on the bin-number function only at the indices it is given *)
Lemma c_loop_ext bn bn' nbin s : (forall j, In j s -> bn j = bn' j) ->
  forall i binold oe hist rev, c_loop bn nbin s i binold oe hist rev = c_loop bn' nbin s i binold oe hist rev.
Proof.
  induction s as [|a t IH]; intros H i binold oe hist rev; [reflexivity|].
  cbn [c_loop]. rewrite (H a (or_introl eq_refl)).
  assert (Ht : forall j, In j t -> bn j = bn' j) by (intros j Hj; apply H; right; exact Hj).
  destruct (valid_bin nbin (bn' a)); apply IH; exact Ht.
Qed.

Lemma chist_ext bn bn' nbin s : (forall j, In j s -> bn j = bn' j) -> chist bn nbin s = chist bn' nbin s.
Proof. intro H. unfold chist. rewrite (c_loop_ext bn bn' nbin s H). reflexivity. Qed.

(* the binary64 transcription of _hist_by_num is the integer model the theorems are about *)
Theorem hist_by_num_f_eq x wsort k merge :
  (1 <= k < two53)%Z -> wsort <> [] -> (Z.of_nat (length wsort) < two53)%Z ->
  M14.hist_by_num_f x wsort k merge = M14.hist_by_num x wsort k merge.
Proof.
  intros Hk Hne Hn. unfold M14.hist_by_num_f, M14.hist_by_num. cbv zeta.
  assert (Hl : (1 <= Z.of_nat (length wsort))%Z) by (destruct wsort; [contradiction | cbn [length]; lia]).
  rewrite int_quot_exact by lia.
  rewrite (chist_ext (binnum (map float_of_Z (zseq 0 (length wsort))) 0%float (float_of_Z k)) (fun i => (i / k)%Z)).
  - reflexivity.
  - intros j Hj. apply StatProofs.zseq_In in Hj. apply binnum_positions; [exact Hn | exact Hk | lia].
Qed.
