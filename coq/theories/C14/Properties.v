(* C14 — the property theorems.  The longer bodies live in the *Proofs files.
   Conventions (Model.v): a float is the exact rational it denotes (f2q); where the code returns
   sqrt(V) the target is V (TSqrt); "equal" means within 1e-12 of a condition-aware scale (tgt,
   Meets); members of a bin are defined on the DATA (C05.Spec.members / Spec.chunks). *)
From Coq Require Import PrimFloat QArith Qabs Sorting.Permutation.
From EsVerif.Common Require Import Base.
From EsVerif.C05 Require Import Model Spec.
From EsVerif.C14 Require Import Model Spec NumProofs StatProofs Proofs NumBinProofs NumModelProofs FiniteProofs ApiProofs IntQuotProofs.
Require EsVerif.C14.Exec.

(* ------------------------------------------------------------------ members of a bin *)
(* binsize/nbin mode: slice i of the reverse indices computed by the model holds exactly the
   members of bin i (the data within the limits whose bin index is i) and hist[i] is their number
   (from C05_model_meets_spec; [contracts] are C05's decidable IEEE-order contracts, monitored). *)
Theorem C14_members_of_bin : forall x lo hi m o,
  histogram EngC x lo hi m = Ok o -> contracts x lo hi o ->
  let p := o_params o in
  Z.of_nat (length (o_hist o)) = p_nbin p
  /\ forall i, 0 <= i < p_nbin p ->
       Permutation (bin_slice (o_rev o) i) (members x lo hi (p_dmin p) (p_bsize p) i)
       /\ Z.of_nat (length (bin_slice (o_rev o) i)) = zget (o_hist o) i.
Proof. exact members_of_bin. Qed.

(* ------------------------------------------------------------------ statistics *)
(* One bin: every number the model demands for member values xs (second variable ys, weights ws,
   all weights positive) implies the textbook quantity: mean, std^2 = Sum (v-mean)^2/n,
   err^2 = std^2/n for n >= 2 (no statement for n = 1), median, whist = Sum w, weighted mean,
   weighted deviation, 1/sqrt(Sum w) and sqrt(Sum w^2 (v-m)^2)/Sum w; sentinel -9999 (whist 0)
   for the empty bin. *)
Theorem C14_row_refines_direct : forall xs ys ws, wpos ws ->
  Forall2 (fun tm td => forall f, meets f tm = true -> Meets f td)
          (row_of true xs ys ws) (row_direct xs ys ws).
Proof. exact row_ref. Qed.

(* The textbook row does not depend on the order in which the members are listed. *)
Theorem C14_row_order_irrelevant : forall c ks ks',
  same_len c = true -> inrange c ks -> Permutation ks ks' ->
  Forall2 (fun t t' => forall f, Meets f t -> Meets f t')
          (row_direct_at (qcols_of c) ks) (row_direct_at (qcols_of c) ks').
Proof. exact row_direct_at_perm. Qed.

(* Model => property, for any notion of membership: reported rows that agree with what the model
   computes from reverse indices whose slices are the members (in any order) satisfy the
   statement about the members. *)
Theorem C14_stats_of_members : forall mem nbin c rev rows,
  cols_ok c = true -> mem_inrange c mem nbin -> 0 <= nbin ->
  (forall i, 0 <= i < nbin -> Permutation (bin_slice rev i) (mem i)) ->
  rows_meet rows (calc_rows true c nbin rev) = true ->
  stats_ok mem nbin c rows.
Proof. exact stats_of_members. Qed.

(* binsize/nbin mode end to end: Binner(x, y, weights).dohist(binsize|nbin, min, max) as modelled *)
Theorem C14_stats_are_of_members : forall c rv lo hi m b o rows,
  binner true c rv lo hi m = Ok b -> dorev c rv = true -> cols_ok c = true ->
  histogram EngC (c_x c) lo hi m = Ok o -> contracts (c_x c) lo hi o ->
  rows_meet rows (b_rows b) = true ->
  let p := o_params o in
  stats_ok (members (c_x c) lo hi (p_dmin p) (p_bsize p)) (p_nbin p) c rows.
Proof. exact binned_stats_of_members. Qed.

(* The median used above is that of ANY sorted arrangement of the member values (so it does not
   depend on the sorting algorithm of the model), and the exact-rational columns are the values of
   the floats (the common-denominator representation changes no value). *)
Theorem C14_median_well_defined : forall D v s, Forall (dn D) v -> ssorted s -> Permutation s v ->
  median_q v = if Nat.even (length v) then ((qnth s (Nat.div2 (length v) - 1) + qnth s (Nat.div2 (length v))) / 2)%Q
               else qnth s (Nat.div2 (length v)).
Proof. intros D v s F S P. unfold median_q. rewrite (isort_unique D v s F S P). reflexivity. Qed.

Theorem C14_column_values : forall v k, (k < length v)%nat -> (nth k (qcol v) 0 == f2q (nth k v nan))%Q.
Proof.
  intros v k H. unfold qcol. rewrite (nth_indep _ 0%Q (f2q_at (emin v) nan)) by (rewrite map_length; exact H).
  rewrite map_nth. destruct (emin_le v) as [H0 He]. apply f2q_at_value; [exact H0 | apply He, nth_In, H].
Qed.

(* The tables that harness/props/c14_translate.py re-reads from esutil/stat/util.py on every run
   (what each key is assigned in the single-member and several-member branch; sentinel; centre
   factor) are the model, interpreted. *)
Theorem C14_tables_are_the_model :
  (forall a, ublock [a] = map (interp_single a 0%Q) single_u_table)
  /\ (forall a wa, wblock true [a] [wa] = map (interp_single a wa) single_w_table)
  /\ (forall a wa, whist_tgt true [a] [wa] = interp_single a wa single_whist)
  /\ (forall a b t, ublock (a :: b :: t) = map (interp_many (a :: b :: t) []) many_u_table)
  /\ (forall v w, wblock_many v w = map (interp_many v w) many_w_table)
  /\ (forall a b t w, whist_tgt true (a :: b :: t) w = interp_many (a :: b :: t) w many_whist)
  /\ ublock_empty = map (fun _ => TExact sentinel) single_u_table
  /\ center_factor = 0x1p-1%float.
Proof. exact tables_are_the_model. Qed.

(* ------------------------------------------------------------------ checkers *)
(* what the correspondence run evaluates on the real outputs *)
Theorem C14_binned_check_sound : forall c lo hi dmin bsize nbin es rows,
  cols_ok c = true ->
  binned_check c lo hi dmin bsize nbin es rows = true -> binned_ok c lo hi dmin bsize nbin es rows.
Proof.
  intros c lo hi dmin bsize nbin es rows OK H. unfold binned_check in H. apply andb_true_iff in H as [H1 H2]. split.
  - apply edges_check_exact. assumption.
  - apply stats_check_sound; [assumption | apply members_inrange | assumption].
Qed.

Theorem C14_num_check_sound : forall c lo hi k merge hist rev low high rows,
  cols_ok c = true ->
  num_check c lo hi k merge hist rev low high rows = true ->
  num_ok c lo hi k merge hist rev low high rows.
Proof. exact num_check_sound. Qed.

(* ------------------------------------------------------------------ equal-occupancy bins *)
(* [chunks]: consecutive, non-empty, together the whole selection in order; every bin but the
   last holds exactly nperbin data; the last holds 1..nperbin (without merging) or fewer than
   2*nperbin (a short remainder merged into it). *)
Theorem C14_chunks_concat : forall fuel k merge l, (1 <= k)%nat -> (length l <= fuel)%nat ->
  concat (chunks fuel k merge l) = l.
Proof. intros. apply chunks_concat; assumption. Qed.

Theorem C14_chunks_sizes : forall fuel k merge l, (1 <= k)%nat -> (length l <= fuel)%nat ->
  forall i, (i < length (chunks fuel k merge l))%nat ->
    let b := nth i (chunks fuel k merge l) [] in
    if (S i <? length (chunks fuel k merge l))%nat then length b = k
    else (1 <= length b)%nat /\ (if merge then (length b < 2 * k)%nat else (length b <= k)%nat).
Proof.
  intros fuel k merge l Hk Hl i Hi b.
  assert (Hne : l <> []) by (intros ->; destruct fuel; cbn [chunks length] in Hi; lia).
  destruct (chunks_closed_form fuel k merge l Hk Hl Hne) as [[_ C1] [C2 C3]].
  set (M := length (chunks fuel k merge l)) in *.
  unfold b. rewrite C3, firstn_length, skipn_length by exact Hi.
  destruct (S i <? M)%nat eqn:E.
  - apply Nat.ltb_lt in E. pose proof (Nat.mul_le_mono_r (S (S i)) M k E). lia.
  - apply Nat.ltb_ge in E. replace M with (S i) in * by lia. destruct merge; lia.
Qed.

(* The pass of _hist_by_num on the positions 0..n-1 of the selected sorted data (bin number
   position / nperbin, nbin = (n-1)/nperbin + 1, through C05's single pass): bin i holds exactly
   the consecutive positions i*k .. min((i+1)*k, n)-1, every bin but the last exactly k of them,
   the last 1..k, nothing uncounted. *)
Theorem C14_nperbin_pass : forall k n hist rev0, 1 <= k -> 1 <= n ->
  chist (fun j => j / k) ((n - 1) / k + 1) (zseq 0 (Z.to_nat n)) = (hist, rev0) ->
  let nbin := (n - 1) / k + 1 in
  Z.of_nat (length hist) = nbin
  /\ Z.of_nat (length rev0) = n + nbin + 1
  /\ skipn (Z.to_nat (nbin + 1)) rev0 = zseq 0 (Z.to_nat n)
  /\ zget rev0 nbin = Z.of_nat (length rev0)
  /\ forall i, 0 <= i < nbin ->
       nbin + 1 <= zget rev0 i <= zget rev0 (i + 1)
       /\ slice rev0 i = zseq (i * k) (Z.to_nat (Z.min n ((i + 1) * k) - i * k))
       /\ zget hist i = Z.min n ((i + 1) * k) - i * k
       /\ 1 <= zget hist i <= k
       /\ (i + 1 < nbin -> zget hist i = k).
Proof. intros k n hist rev0 Hk Hn. exact (pass_slices k n _ Hk Hn (nbin_bounds k n Hk Hn) hist rev0). Qed.

(* The whole of _hist_by_num / _merge_last as modelled (pass, mapping of the slices to indices of
   the original array with low/high, merge of a short last bin): for ANY index list wsort the
   result is the chunk list of wsort — slice i of rev is chunk i, hist[i] its size, low/high the
   values of its first/last element, the index section of rev is wsort itself. *)
Theorem C14_hist_by_num_spec : forall (x : list float) (wsort : list Z) (k : Z) (merge : bool) hist rev low high,
  1 <= k -> wsort <> [] ->
  hist_by_num x wsort k merge = (hist, rev, low, high) ->
  let ch := chunks (length wsort) (Z.to_nat k) merge wsort in
  length hist = length ch /\ length low = length ch /\ length high = length ch
  /\ skipn (S (length hist)) rev = wsort
  /\ forall i, (i < length ch)%nat ->
       let b := nth i ch [] in
       b <> []
       /\ 0 <= zget rev (Z.of_nat i) /\ 0 <= zget rev (Z.of_nat i + 1)
       /\ zget rev (Z.of_nat i) <> zget rev (Z.of_nat i + 1)
       /\ slice rev (Z.of_nat i) = b
       /\ zget hist (Z.of_nat i) = Z.of_nat (length b)
       /\ nth i low nan = fget x (hd 0 b)
       /\ nth i high nan = fget x (last b 0).
Proof. exact hist_by_num_spec. Qed.

(* nperbin mode end to end: whenever the selected data come in stable sorted order (contract of
   numpy's argsort + the min/max selection; decided on every case by num_check), the modelled
   Binner(x, y, weights).dohist(nperbin=k, mergelast=) satisfies the property, statistics included. *)
Theorem C14_nperbin_spec : forall c lo hi k merge b dmin dmax wsort rows,
  binner_num true c lo hi k merge = Ok b -> cols_ok c = true -> 1 <= k ->
  limits (c_x c) (argsort (c_x c)) lo hi = Ok (dmin, dmax, wsort) ->
  ordered (c_x c) wsort -> Permutation wsort (selected c lo hi) ->
  rows_meet rows (n_rows b) = true ->
  num_ok c lo hi k merge (n_hist b) (n_rev b) (n_low b) (n_high b) rows.
Proof. exact binner_num_spec. Qed.

(* ------------------------------------------------------------------ the repaired defect *)
(* As found (util.py:410) a single-member bin stored x*w in whist: for x = 0.5, w = 2 the as-found
   rule accepts whist = 1.0, which is not the summed weight 2. *)
Theorem C14_whist_unpatched_refuted :
  exists f, meets f (whist_tgt false [1 # 2] [2 # 1]%Q) = true
            /\ ~ Meets f (TLin (Sum [2 # 1]) (Sum (map Qabs [2 # 1])))%Q.
Proof.
  exists 1%float. split; [vm_compute; reflexivity|].
  intros [_ H]. unfold Meets_q, close_lin in H. vm_compute in H. apply H. reflexivity.
Qed.

(* As found (util.py:413-414) the weighted errors of a single-member bin were the mean. *)
Theorem C14_werr_unpatched_refuted :
  exists f, meets f (nth 2 (wblock false [5 # 2] [4 # 1]%Q) TAny) = true
            /\ ~ Meets f (nth 2 (wblock_direct [5 # 2] [4 # 1]%Q) TAny).
Proof.
  exists 2.5%float. split; [vm_compute; reflexivity|].
  intros [_ H]. vm_compute in H. destruct H as [_ [_ [[H|H] _]]]; apply H; reflexivity.
Qed.

(* ------------------------------------------------------------------ nothing monitored: finite data *)
(* The contracts of C14_stats_are_of_members / C14_nperbin_spec (stable order of the sort index,
   selection = data within the limits, truncation = floor, monotone bin numbers) are theorems for
   finite data and limits (C05's Flocq-based facts).  These two statements, the two on every
   call form / the object after any history, C14_selection_outcome and the four on the binary64 quotient
   depend on the standard library's FloatAxioms and real-number axioms; nothing else in this file does. *)
Theorem C14_binned_holds_finite : forall c rv lo hi m b o rows,
  binner true c rv lo hi m = Ok b -> dorev c rv = true -> cols_ok c = true ->
  finite_opt lo = true -> finite_opt hi = true ->
  histogram EngC (c_x c) lo hi m = Ok o -> params_ok (o_params o) = true ->
  rows_meet rows (b_rows b) = true ->
  let p := o_params o in
  stats_ok (members (c_x c) lo hi (p_dmin p) (p_bsize p)) (p_nbin p) c rows.
Proof. exact binned_holds_finite. Qed.

Theorem C14_nperbin_holds_finite : forall c lo hi k merge b rows,
  binner_num true c lo hi k merge = Ok b -> cols_ok c = true ->
  finite_opt lo = true -> finite_opt hi = true -> 1 <= k ->
  rows_meet rows (n_rows b) = true ->
  num_ok c lo hi k merge (n_hist b) (n_rev b) (n_low b) (n_high b) rows.
Proof. exact nperbin_holds_finite. Qed.

(* ------------------------------------------------------------------ the call as a whole *)
(* which of binsize= / nbin= / nperbin= wins (Binner.dohist and histogram() differ) *)
Theorem C14_keyword_precedence :
  (forall h bs nb k, resolve h bs nb (Some k) = CNum k)
  /\ (forall bs n, resolve true bs (Some n) None = CMode (ByNbin n))
  /\ (forall b, resolve true (Some b) None None = CMode (ByBinsize b))
  /\ resolve true None None None = CMode (ByBinsize 1%float)
  /\ (forall b nb, resolve false (Some b) nb None = CMode (ByBinsize b))
  /\ (forall n, resolve false None (Some n) None = CMode (ByNbin n))
  /\ resolve false None None None = CNone.
Proof. repeat split. Qed.

Theorem C14_api_dispatch : forall p h c rv lo hi bs nb k merge,
  (forall k', k = Some k' ->
     binner_api p h c rv lo hi bs nb k merge
     = match binner_num p c lo hi k' merge with Ok n => Ok (ANum n) | Err e => Err e end)
  /\ (forall m, resolve h bs nb k = CMode m ->
        binner_api p h c rv lo hi bs nb k merge
        = match binner p c rv lo hi m with Ok b => Ok (ABinned b) | Err e => Err e end)
  /\ (resolve h bs nb k = CNone -> forall a, binner_api p h c rv lo hi bs nb k merge <> Ok a).
Proof.
  intros p h c rv lo hi bs nb k merge.
  repeat split.
  - intros k' ->. reflexivity.
  - intros m H. unfold binner_api. rewrite H. reflexivity.
  - intros H a. unfold binner_api. rewrite H. destruct (negb (same_len c)); [discriminate|].
    destruct (limits (c_x c) (argsort (c_x c)) lo hi); discriminate.
Qed.

(* ------------------------------------------------------------------ rejections *)
(* the min/max selection as a table: IndexError on empty data when a limit is taken from the
   data, ValueError on an empty selection, nothing else *)
Theorem C14_limits_outcome : forall x s lo hi,
  limits x s lo hi =
  match s, lo, hi with
  | [], None, _ => Err EIndex
  | [], Some _, None => Err EIndex
  | _, None, None => Ok (eff_min x s lo, eff_max x s hi, s)
  | _, _, _ =>
      match filter (fun k => within (eff_min x s lo) (eff_max x s hi) (fget x k)) s with
      | [] => Err EValue
      | w => Ok (eff_min x s lo, eff_max x s hi, w)
      end
  end.
Proof. exact limits_outcome. Qed.

(* nperbin entry: rejected exactly for columns of different lengths (ValueError), a rejected
   selection (its class), nperbin < 1 (outside the statement; the model says EOther) *)
Theorem C14_binner_num_outcome : forall p c lo hi k merge,
  (same_len c = false -> binner_num p c lo hi k merge = Err EValue)
  /\ (same_len c = true -> forall e, limits (c_x c) (argsort (c_x c)) lo hi = Err e ->
        binner_num p c lo hi k merge = Err e /\ (e = EIndex \/ e = EValue))
  /\ (same_len c = true -> forall t, limits (c_x c) (argsort (c_x c)) lo hi = Ok t ->
        if k <? 1 then binner_num p c lo hi k merge = Err EOther
        else exists b, binner_num p c lo hi k merge = Ok b).
Proof.
  intros p c lo hi k merge.
  unfold binner_num. repeat split.
  - intros ->. reflexivity.
  - rewrite H. cbn [negb]. rewrite H0. reflexivity.
  - eapply limits_error_class. eassumption.
  - intros H [[dmin dmax] w] HL. rewrite H. cbn [negb]. rewrite HL.
    destruct (k <? 1); [reflexivity|].
    destruct (hist_by_num (c_x c) w k merge) as [[[hist rev] low] high]. eexists. reflexivity.
Qed.

(* binsize/nbin entry: additionally nbin = 0 (ZeroDivisionError) and a negative number of bins
   (np.zeros) *)
Theorem C14_binner_outcome : forall p c rv lo hi m,
  (same_len c = false -> binner p c rv lo hi m = Err EValue)
  /\ (same_len c = true -> forall e, limits (c_x c) (argsort (c_x c)) lo hi = Err e ->
        binner p c rv lo hi m = Err e /\ (e = EIndex \/ e = EValue))
  /\ (same_len c = true -> forall dmin dmax w, limits (c_x c) (argsort (c_x c)) lo hi = Ok (dmin, dmax, w) ->
        match derive dmin dmax m with
        | Err e => binner p c rv lo hi m = Err e /\ m = ByNbin 0 /\ e = EOther
        | Ok (bs, nbin) =>
            if nbin <? 0 then binner p c rv lo hi m = Err EValue
            else exists b, binner p c rv lo hi m = Ok b
        end).
Proof.
  intros p c rv lo hi m.
  unfold binner, histogram. repeat split.
  - intros ->. reflexivity.
  - rewrite H. cbn [negb]. rewrite H0. reflexivity.
  - eapply limits_error_class. eassumption.
  - intros H dmin dmax w HL. rewrite H. cbn [negb]. rewrite HL.
    destruct (derive dmin dmax m) as [[bs nbin]|e] eqn:D.
    + destruct (nbin <? 0); [reflexivity|].
      destruct (chist (binnum (c_x c) dmin bs) nbin w) as [hist rev].
      destruct (dorev c rv); eexists; reflexivity.
    + split; [reflexivity|]. unfold derive in D. destruct m as [b|n]; [discriminate|].
      destruct (n =? 0) eqn:E; [|discriminate]. apply Z.eqb_eq in E. subst n. injection D as <-. auto.
Qed.

(* ------------------------------------------------------------------ history *)
(* The Binner object as a step function on its dictionary (the keys calc_stats tests) and its
   cached sort index: after ANY sequence of calls the next call answers like a fresh Binner. *)
Theorem C14_history_irrelevant : forall p c cls cl,
  snd (obj_call p true (obj_run p true (obj_new c) cls) cl) = fresh_answer p c cl.
Proof. exact history_irrelevant. Qed.

Theorem C14_sortcache_invariant : forall p cl cls c,
  o_sortcache (obj_run p cl (obj_new c) cls) = None
  \/ o_sortcache (obj_run p cl (obj_new c) cls) = Some (argsort (c_x c)).
Proof.
  intros p cl cls c.
  assert (G : forall o, o_cols o = c ->
            (o_sortcache o = None \/ o_sortcache o = Some (argsort (c_x c))) ->
            o_sortcache (obj_run p cl o cls) = None \/ o_sortcache (obj_run p cl o cls) = Some (argsort (c_x c))).
  { induction cls as [|c' t IH]; intros o Hc Hs; [exact Hs|]. cbn [obj_run]. apply IH.
    - rewrite obj_call_cols. exact Hc.
    - right. unfold obj_call. rewrite Hc.
      assert (E : match o_sortcache o with Some s => s | None => argsort (c_x c) end = argsort (c_x c))
        by (destruct Hs as [-> | ->]; reflexivity).
      rewrite E. destruct (dohist_into p c _ c'); [|reflexivity].
      destruct (calc_stats_dict p c a); reflexivity. }
  apply G; [reflexivity | left; reflexivity].
Qed.

(* ... and the fresh answer is the functional model the other theorems are about *)
Theorem C14_fresh_answer_binned : forall p c rv lo hi m b,
  binner p c rv lo hi m = Ok b ->
  exists d, fresh_answer p c (CallBinned rv lo hi m) = Ok d
    /\ d_hist d = Some (b_hist b) /\ d_nperbin d = None /\ d_lowhigh d = None
    /\ d_edges d = Some (b_edges b)
    /\ d_rev d = (if dorev c rv then Some (b_rev b) else None)
    /\ d_rows d = (if dorev c rv then Some (b_rows b) else None).
Proof. exact fresh_answer_binned. Qed.

Theorem C14_fresh_answer_num : forall p c lo hi k merge n,
  binner_num p c lo hi k merge = Ok n ->
  exists d, fresh_answer p c (CallNum lo hi k merge) = Ok d
    /\ d_hist d = Some (n_hist n) /\ d_rev d = Some (n_rev n) /\ d_nperbin d = Some k
    /\ d_lowhigh d = Some (n_low n, n_high n) /\ d_edges d = None
    /\ d_rows d = Some (n_rows n).
Proof. exact fresh_answer_num. Qed.

(* what self.clear() is for (the mechanism of seeded change C14-e): without it a binsize call after
   an nperbin call keeps the stale nperbin key and reports no edges or centres *)
Theorem C14_no_clear_refuted :
  let c := mkCols [5; 1; 4; 2; 3; 9; 7]%float None None in
  let cl1 := CallNum None None 3 true in
  let cl2 := CallBinned true None None (ByBinsize 2%float) in
  (exists d, snd (obj_call true false (fst (obj_call true false (obj_new c) cl1)) cl2) = Ok d
             /\ d_edges d = None /\ d_nperbin d = Some 3 /\ d_hist d = Some [2; 2; 1; 1; 1])
  /\ (exists d, fresh_answer true c cl2 = Ok d /\ d_nperbin d = None
                /\ exists e, d_edges d = Some e /\ length e = 5%nat).
Proof.
  split; eexists; (split; [vm_compute; reflexivity|]); vm_compute; repeat split.
  eexists. split; reflexivity.
Qed.

(* the comparison of a reported float with a target is decided exactly (sound AND complete) *)
Theorem C14_meets_iff : forall f t, meets f t = true <-> Meets f t.
Proof. exact meets_iff. Qed.

(* every call form (any combination of the three keywords, Binner or histogram()): an accepted call on
   finite data satisfies the property of the binning mode that wins *)
Theorem C14_api_holds_finite : forall h c rv lo hi bs nb k merge a rows,
  binner_api true h c rv lo hi bs nb k merge = Ok a -> cols_ok c = true ->
  finite_opt lo = true -> finite_opt hi = true ->
  match a with
  | ANum n => exists k', resolve h bs nb k = CNum k' /\
      (1 <= k' -> rows_meet rows (n_rows n) = true ->
       num_ok c lo hi k' merge (n_hist n) (n_rev n) (n_low n) (n_high n) rows)
  | ABinned b => exists m, resolve h bs nb k = CMode m /\
      (dorev c rv = true -> forall o, histogram EngC (c_x c) lo hi m = Ok o -> params_ok (o_params o) = true ->
       rows_meet rows (b_rows b) = true ->
       stats_ok (members (c_x c) lo hi (p_dmin (o_params o)) (p_bsize (o_params o))) (p_nbin (o_params o)) c rows)
  end.
Proof. exact api_holds_finite. Qed.

(* a Binner that has been through ANY sequence of calls answers the next accepted call on finite data
   with a dictionary that satisfies the property and carries exactly the keys of that binning mode *)
Theorem C14_object_holds_finite : forall c cls cl d,
  snd (obj_call true true (obj_run true true (obj_new c) cls) cl) = Ok d -> cols_ok c = true ->
  match cl with
  | CallNum lo hi k merge =>
      finite_opt lo = true -> finite_opt hi = true -> 1 <= k ->
      exists hist rev low high rowsT,
        d_hist d = Some hist /\ d_rev d = Some rev /\ d_lowhigh d = Some (low, high) /\ d_rows d = Some rowsT
        /\ d_nperbin d = Some k /\ d_edges d = None
        /\ forall rows, rows_meet rows rowsT = true -> num_ok c lo hi k merge hist rev low high rows
  | CallBinned rv lo hi m =>
      finite_opt lo = true -> finite_opt hi = true -> dorev c rv = true ->
      forall o, histogram EngC (c_x c) lo hi m = Ok o -> params_ok (o_params o) = true ->
      exists rowsT, d_rows d = Some rowsT /\ d_nperbin d = None /\ d_lowhigh d = None
        /\ d_edges d = Some (edges (p_dmin (o_params o)) (p_bsize (o_params o)) (Z.of_nat (length (o_hist o))))
        /\ forall rows, rows_meet rows rowsT = true ->
             stats_ok (members (c_x c) lo hi (p_dmin (o_params o)) (p_bsize (o_params o))) (p_nbin (o_params o)) c rows
  end.
Proof. exact object_holds_finite. Qed.

(* exactly which selections are rejected, stated on the DATA (finite): IndexError for empty data when a
   limit has to be taken from them, ValueError when no datum lies within the limits, otherwise the
   selection is the data within the limits in stable sorted order *)
Theorem C14_selection_outcome : forall x lo hi, forallb finite_f x = true ->
  let sel := filter (fun k => in_limits lo hi (fget x k)) (argsort x) in
  match x, lo, hi with
  | [], None, _ => limits x (argsort x) lo hi = Err EIndex
  | [], Some _, None => limits x (argsort x) lo hi = Err EIndex
  | _, _, _ =>
      match sel with
      | [] => limits x (argsort x) lo hi = Err EValue
      | _ => limits x (argsort x) lo hi = Ok (eff_min x (argsort x) lo, eff_max x (argsort x) hi, sel)
      end
  end.
Proof. exact selection_outcome. Qed.

(* ------------------------------------------------------------------ the binary64 bin number of a position *)
(* np.int64(float(i) / float(k)) = i // k for ALL 0 <= i < 2^53, 1 <= k < 2^53 (correct rounding of the
   division + its relative error bound, Flocq): the model's integer quotient is what _do_hist computes. *)
Theorem C14_int_quotient_exact : forall i k,
  0 <= i < 9007199254740992 -> 1 <= k < 9007199254740992 ->
  f2z_trunc (PrimFloat.div (float_of_Z i) (float_of_Z k)) = i / k.
Proof. exact int_quot_exact. Qed.

Theorem C14_binnum_positions : forall n k i,
  Z.of_nat n < 9007199254740992 -> 1 <= k < 9007199254740992 -> 0 <= i < Z.of_nat n ->
  binnum (map float_of_Z (zseq 0 n)) 0%float (float_of_Z k) i = i / k.
Proof. exact binnum_positions. Qed.

Theorem C14_nperbin_monitor_holds : forall n k,
  1 <= n < 9007199254740992 -> 1 <= k < 9007199254740992 -> Exec.nperbin_monitor n k = true.
Proof. exact nperbin_monitor_holds. Qed.

(* the literal binary64 transcription of _hist_by_num (float positions, float(nperbin), nbin from the
   float quotient, C05's bit-exact bin numbers) is the integer model of C14_hist_by_num_spec *)
Theorem C14_hist_by_num_float_model : forall x wsort k merge,
  1 <= k < 9007199254740992 -> wsort <> [] -> Z.of_nat (length wsort) < 9007199254740992 ->
  hist_by_num_f x wsort k merge = hist_by_num x wsort k merge.
Proof. exact hist_by_num_f_eq. Qed.

Example C14_nonvacuous_quotient :
  Exec.nperbin_monitor 100 49 = true
  /\ hist_by_num_f [5; 1; 4; 2; 3; 9; 7]%float [1; 3; 4; 2; 0; 6; 5] 3 true
     = ([3; 4], [3; 6; 10; 1; 3; 4; 2; 0; 6; 5], [1; 4]%float, [3; 9]%float).
Proof. split; vm_compute; reflexivity. Qed.

(* what the statistics checker decides, exactly: every reported row meets the targets of the model's
   per-bin function on the members taken from the data *)
Theorem C14_stats_check_exact : forall mem nbin c rows,
  stats_check mem nbin c rows = true <->
  (Z.of_nat (length rows) = nbin
   /\ forall i, 0 <= i < nbin -> Forall2 Meets (nth (Z.to_nat i) rows []) (row_at true (qcols_of c) (mem i))).
Proof.
  intros mem nbin c rows.
  unfold stats_check. cbv zeta. rewrite andb_true_iff, Z.eqb_eq, forallb_forall. split; intros [HL H]; (split; [exact HL|]).
  - intros i Hi. apply row_meets_iff. apply H. apply zseq_In. lia.
  - intros i Hi. apply zseq_In in Hi. apply row_meets_iff. apply H. lia.
Qed.

(* ------------------------------------------------------------------ ties to the source; exact checkers; shape *)
(* The control skeleton that harness/props/c14_translate.py translates out of util.py on every run
   (keyword order, histogram's default bin size and its nbin override, the three sources of rev,
   self.clear(), the edge expressions, the key tests of calc_stats, the single-member and merge
   thresholds, every exception class) determines the model's functions. *)
Theorem C14_skeleton_is_the_model :
  (forall h bs nb k, resolve_sk model_skel h bs nb k = resolve h bs nb k)
  /\ (forall c rv, dorev_sk model_skel c rv = dorev c rv)
  /\ (forall dmin bs nhist, edges_sk model_skel dmin bs nhist = edges dmin bs nhist)
  /\ (forall p o cl, obj_call p (sk_clear_first model_skel) o cl = obj_call p true o cl)
  /\ (forall hist rev low high, Z.of_nat (length hist) < sk_merge_min model_skel ->
        merge_last hist rev low high = (hist, rev, low, high))
  /\ (forall v, Z.of_nat (length v) = sk_single_size model_skel ->
        exists a, v = [a] /\ ublock v = map (interp_single a 0%Q) single_u_table)
  /\ (forall p h c rv lo hi bs nb k merge t, resolve h bs nb k = CNone -> same_len c = true ->
        limits (c_x c) (argsort (c_x c)) lo hi = Ok t ->
        binner_api p h c rv lo hi bs nb k merge = Err (sk_none_error model_skel))
  /\ (forall p c lo hi k merge, same_len c = false -> binner_num p c lo hi k merge = Err (fst (sk_len_errors model_skel)))
  /\ (forall p c d, d_hist d = None -> calc_stats_dict p c d = Err (sk_no_hist_error model_skel)).
Proof. exact skeleton_is_the_model. Qed.

(* the edge checker is exact, like the statistics checker *)
Theorem C14_edges_check_exact : forall dmin bsize nbin es,
  edges_check dmin bsize nbin es = true <-> edges_ok dmin bsize nbin es.
Proof. exact edges_check_exact. Qed.

(* option path rev=: statistics and reverse indices exist exactly when rev is asked for or y / weights
   were given; otherwise only hist and edges; one row and one edge triple per bin *)
Theorem C14_binner_shape : forall p c rv lo hi m b,
  binner p c rv lo hi m = Ok b ->
  length (b_edges b) = length (b_hist b)
  /\ (if dorev c rv then length (b_rows b) = length (b_hist b) else b_rows b = [] /\ b_rev b = []).
Proof.
  intros p c rv lo hi m b.
  unfold binner. destruct (negb (same_len c)); [discriminate|].
  destruct (histogram EngC (c_x c) lo hi m) as [o|e]; [|discriminate].
  destruct (dorev c rv); intro H; injection H as <-; cbn [b_edges b_hist b_rows b_rev];
    unfold edges, calc_rows; rewrite ?map_length, ?zseq_length, ?Nat2Z.id; auto.
Qed.

(* non-vacuity of the statements on finite data, rejections and history: finite data with a sane bin specification; one input of
   every rejection class; a history with a failing call in it *)
Example C14_nonvacuous_deepening :
  let c := mkCols [0.5; 1.5; 1.75; 2.5]%float None (Some [2; 3; 4; 5]%float) in
  (exists o, histogram EngC (c_x c) None None (ByBinsize 1%float) = Ok o /\ params_ok (o_params o) = true
             /\ cols_ok c = true /\ finite_opt (Some 0.5%float) = true)
  /\ same_len (mkCols [1; 2]%float (Some [1]%float) None) = false
  /\ limits [] (argsort []) None None = Err EIndex
  /\ limits [1; 2]%float (argsort [1; 2]%float) (Some 5%float) None = Err EValue
  /\ binner_num true c None None 0 true = Err EOther
  /\ binner true c true None None (ByNbin 0) = Err EOther
  /\ binner true c true None None (ByNbin (-1)) = Err EValue
  /\ (exists a, binner_api true true c true None None None None None true = Ok a)
  /\ binner_api true false c true None None None None None true = Err EValue
  /\ (exists d, snd (obj_call true true
                       (obj_run true true (obj_new c)
                          [CallNum None None 2 true; CallBinned true (Some 9%float) None (ByNbin 2); CallNum None None 0 false])
                       (CallBinned false None None (ByNbin 2))) = Ok d /\ d_nperbin d = None /\ d_hist d = Some [1; 2]).
Proof.
  intro c. split; [eexists; split; [vm_compute; reflexivity|]; vm_compute; repeat split; reflexivity|].
  repeat split; try (vm_compute; reflexivity); eexists; vm_compute; repeat split; reflexivity.
Qed.

(* ------------------------------------------------------------------ non-vacuity *)
(* real outputs of the repaired code on x = [0.5,1.5,1.75,2.5], weights [2,3,4,5], binsize 1:
   the hypotheses of C14_stats_are_of_members hold and the checker accepts *)
Example C14_nonvacuous_binned :
  let c := mkCols [0.5; 1.5; 1.75; 2.5]%float None (Some [2; 3; 4; 5]%float) in
  let rows := [[0x1.0000000000000p-1; 0; 0x1.0000000000000p-1; 0x1.0000000000000p-1; 2;
                0x1.0000000000000p-1; 0; 0x1.6a09e667f3bccp-1; 0];
               [0x1.a000000000000p+0; 0x1.0000000000000p-3; 0x1.6a09e667f3bccp-4; 0x1.a000000000000p+0; 7;
                0x1.a492492492492p+0; 0x1.fabfa2e1bc555p-4; 0x1.83091e6a7f7e6p-2; 0x1.62a66ec3df170p-4];
               [2.5; 0; 2.5; 2.5; 5; 2.5; 0; 0x1.c9f25c5bfedd9p-2; 0]]%float in
  exists b o, binner true c true None None (ByBinsize 1%float) = Ok b
    /\ histogram EngC (c_x c) None None (ByBinsize 1%float) = Ok o
    /\ cols_ok c = true /\ contracts_b (c_x c) None None o = true
    /\ b_hist b = [1; 2; 1] /\ rows_meet rows (b_rows b) = true
    /\ stats_check (members (c_x c) None None 0.5%float 1%float) 3 c rows = true.
Proof.
  intros c rows. eexists. eexists. split; [vm_compute; reflexivity|].
  split; [vm_compute; reflexivity|]. vm_compute. repeat split; reflexivity.
Qed.

(* real outputs of Binner([5,1,4,2,3,9,7], y=[1..7]).dohist(nperbin=3): 7 data, bins of 3 and 3+1 *)
Example C14_nonvacuous_nperbin :
  let c := mkCols [5; 1; 4; 2; 3; 9; 7]%float (Some [1; 2; 3; 4; 5; 6; 7]%float) None in
  let rows := [[2; 0x1.a20bd700c2c3ep-1; 0x1.e2b7dddfefa67p-2; 2;
                0x1.d555555555555p+1; 0x1.3f49c0b9ad4dbp+0; 0x1.70aea090565aep-1; 4];
               [6.25; 0x1.eb97e455b9edbp+0; 0x1.eb97e455b9edbp-1; 6;
                4.25; 0x1.3142b30a929abp+1; 0x1.3142b30a929abp+0; 4.5]]%float in
  (exists b, binner_num true c None None 3 true = Ok b
     /\ n_hist b = [3; 4] /\ n_rev b = [3; 6; 10; 1; 3; 4; 2; 0; 6; 5]
     /\ rows_meet rows (n_rows b) = true)
  /\ num_check c None None 3 true [3; 4] [3; 6; 10; 1; 3; 4; 2; 0; 6; 5] [1; 4]%float [3; 9]%float rows = true
  /\ chunks 7 3 true [1; 3; 4; 2; 0; 6; 5] = [[1; 3; 4]; [2; 0; 6; 5]]
  /\ chunks 7 3 false [1; 3; 4; 2; 0; 6; 5] = [[1; 3; 4]; [2; 0; 6]; [5]].
Proof.
  intros c rows. split; [eexists; split; [vm_compute; reflexivity|]; vm_compute; repeat split; reflexivity|].
  vm_compute. repeat split; reflexivity.
Qed.
