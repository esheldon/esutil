(* C03/Exec.v — glue evaluated by generated case files:
   verdict = (model <> implementation ? 1 : 0) + (property checker rejects implementation ? 2 : 0).

   Per case (one history, started on a path that does not exist) the harness supplies:
     mt   the contract table: for every header dict text that the REAL SFile._make_header +
          pprint.pformat produced in this history, joined the way read_header joins it, what the
          REAL eval/numpy.dtype make of it (delimiter, dtype, canonical user entries);
     ops  the operations; every chunk carries, per text delimiter used in the history, the
          text the REAL writer prints for it alone (table c_txt) and the rows the REAL reader
          returns for it alone (c_back);
     os   what the real code did: after every operation its answer and the bytes on disk. *)
From Coq Require Import ZArith List Bool NArith.
From Coq.Strings Require Import Byte String.
From EsVerif.Common Require Import Base Bytes.
From EsVerif.C01 Require Import Framing.
From EsVerif.C03 Require Import Model Spec.
Import ListNotations.
Open Scope Z_scope.
Open Scope list_scope.
Notation length := List.length.

(* literal helpers for the printers *)
Definition fld (name order kind : list byte) (size : Z) (shape : list Z) : field :=
  {| f_name := name; f_order := hd x00 order; f_kind := hd x00 kind; f_size := size; f_shape := shape |}.
Definition mkc (dt : dtype) (rows back : list (list byte)) (txt : list (list byte * list byte)) : chunk :=
  {| c_dt := dt; c_rows := rows; c_back := back; c_txt := txt |}.

Fixpoint assoc {A} (k : list byte) (l : list (list byte * A)) : option A :=
  match l with
  | [] => None
  | (k', v) :: t => if bytes_eqb k k' then Some v else assoc k t
  end.

Definition meta_table := list (list byte * (delim * dtype * list byte)).
Definition meta_of (mt : meta_table) (t : list byte) : option (delim * dtype * list byte) := assoc t mt.
Definition enc_of (d : list byte) (c : chunk) : list byte :=
  match assoc d (c_txt c) with Some t => t | None => [] end.

(* answers: the model leaves a text file's rows open *)
Definition out_agree (m i : out) : bool :=
  match m, i with
  | OOk, OOk => true
  | OErr a, OErr b => err_eqb a b
  | ORead s1 d1 r1 u1, ORead s2 d2 r2 u2 =>
      (s1 =? s2) && dtype_eqb d1 d2 && bytes_eqb u1 u2
      && match r1, r2 with
         | Some a, Some b => rows_eqb a b
         | None, _ => true
         | Some _, None => false
         end
  | _, _ => false
  end.
Definition obs_agree (m i : obs) : bool := out_agree (fst m) (fst i) && ofile_eqb (snd m) (snd i).

(* ------------------------------------------------------------------ an equal, faster reader *)
(* C01's take_rows measures the whole remaining file for every row (quadratic; fine for its
   small tables, too slow for chunks of > 16384 rows).  The case files evaluate [run_x]: the
   same machine with the length test made on the row just taken.  Lemmas.run_x_eq proves
   run_x = Model.run, so what is evaluated IS the model. *)
Fixpoint take_rows_x (rowsize n : nat) (f : list byte) : result (list (list byte)) :=
  match n with
  | O => Ok []
  | S k =>
      let r := firstn rowsize f in
      if (length r <? rowsize)%nat then Err ERuntime
      else do t <- take_rows_x rowsize k (skipn rowsize f); Ok (r :: t)
  end.

Definition recfile_read_x (f : file) (offset rowsize : Z) (nrows : option Z) : result (list (list byte)) :=
  let n := match nrows with
           | Some n => if n <? 0 then count_nrows (Z.of_nat (length f)) offset rowsize else n
           | None => count_nrows (Z.of_nat (length f)) offset rowsize
           end in
  if n <? 1 then Err ERuntime
  else take_rows_x (Z.to_nat rowsize) (Z.to_nat n) (skipn (Z.to_nat offset) f).

Section MachineX.
  Variable meta : list byte -> option (delim * dtype * list byte).
  Variable enc : list byte -> chunk -> list byte.

  Definition read_back_x (s : state) : out :=
    match disk s with
    | None => OErr EOther
    | Some f =>
        match read_meta meta f with
        | Err e => OErr e
        | Ok (size, off, dl, dt, u) =>
            match dl with
            | None =>
                match recfile_read_x f (Z.of_nat off) (rowsize dt) (Some size) with
                | Ok rows => ORead size dt (Some rows) u
                | Err e => OErr e
                end
            | Some _ => ORead size dt None u
            end
        end
    end.

  Definition step_x (s : state) (o : op) : state * out :=
    match o with
    | Read => (s, read_back_x s)
    | _ => step meta enc s o
    end.

  Fixpoint run_x (s : state) (ops : list op) : list (out * option file) :=
    match ops with
    | [] => []
    | o :: rest => let '(s', r) := step_x s o in (r, disk s') :: run_x s' rest
    end.
End MachineX.

Definition v_history (mt : meta_table) (ops : list op) (os : list obs) : Z :=
  verdict (list_eqb obs_agree (run_x (meta_of mt) enc_of init ops) os)
          (hist_check AMissing None ops os).

(* the contract monitor, clause (a): framing-safe header text (evaluated with the verified
   definition of C01/Framing.v) and the table is keyed by the joined text *)
Definition v_text_ok (d : list byte) : Z := if hdr_text_ok d then 0 else 1.
Definition v_joined (d j : list byte) : Z := if bytes_eqb (joined d) j then 0 else 1.

(* constants of the source against constants of the model *)
Definition v_tie_size (n : Z) (txt : list byte) : Z :=
  if bytes_eqb (size_line n ++ [nl]) txt then 0 else 1.

(* for replays: what the model answers *)
Definition show_history (mt : meta_table) (ops : list op) := run_x (meta_of mt) enc_of init ops.
