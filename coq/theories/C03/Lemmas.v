(* C03/Lemmas.v — the boolean tests decide what they stand for: equalities, the checker of the
   statement, "compatible"; and the reader the case files evaluate (Exec.run_x) is the model's. *)
From Coq Require Import ZArith List Bool Lia.
From Coq.Strings Require Import Byte.
From EsVerif.Common Require Import Base Bytes.
From EsVerif.C01 Require Import Framing.
From EsVerif.C03 Require Import Model Spec Exec.
Import ListNotations.
Open Scope Z_scope.
Open Scope list_scope.
Notation length := List.length.

Lemma zl_eqb_eq a b : zl_eqb a b = true <-> a = b.
Proof. apply list_eqb_spec. intros; apply Z.eqb_eq. Qed.

Lemma field_eqb_eq a b : field_eqb a b = true <-> a = b.
Proof.
  unfold field_eqb. split.
  - intro H. apply andb_true_iff in H as [H Hshape]. apply andb_true_iff in H as [H Hsize].
    apply andb_true_iff in H as [H Hkind]. apply andb_true_iff in H as [Hname Horder].
    apply bytes_eqb_eq in Hname. apply byte_eqb_eq in Horder, Hkind.
    apply Z.eqb_eq in Hsize. apply zl_eqb_eq in Hshape.
    destruct a, b; simpl in *. subst. reflexivity.
  - intros ->. rewrite !andb_true_iff. repeat split.
    + apply bytes_eqb_eq; reflexivity.
    + apply byte_eqb_eq; reflexivity.
    + apply byte_eqb_eq; reflexivity.
    + apply Z.eqb_refl.
    + apply zl_eqb_eq; reflexivity.
Qed.

Lemma dtype_eqb_eq a b : dtype_eqb a b = true <-> a = b.
Proof. apply list_eqb_spec. intros; apply field_eqb_eq. Qed.

Lemma rows_eqb_eq a b : rows_eqb a b = true <-> a = b.
Proof. apply list_eqb_spec. intros; apply bytes_eqb_eq. Qed.

Lemma ofile_eqb_eq (a b : option file) : ofile_eqb a b = true <-> a = b.
Proof.
  destruct a, b; simpl; split; intro H; try discriminate; try reflexivity.
  - apply bytes_eqb_eq in H. congruence.
  - inversion H. apply bytes_eqb_eq. reflexivity.
Qed.

Lemma obs_check_iff r before o : obs_check r before o = true <-> obs_ok r before o.
Proof.
  split.
  - destruct r as [ | | e | | af]; simpl; intro H; try exact I.
    + destruct (fst o) eqn:E; try discriminate. split; [reflexivity | exact H].
    + apply andb_true_iff in H as [H1 H2]. split; [exact H1 | apply ofile_eqb_eq; exact H2].
    + destruct (fst o) as [ | e | size dt rows u] eqn:E; try discriminate.
      apply andb_true_iff in H as [H H4]. apply andb_true_iff in H as [H H3].
      apply andb_true_iff in H as [H1 H2].
      apply Z.eqb_eq in H1. apply dtype_eqb_eq in H2. apply bytes_eqb_eq in H3. subst.
      exists rows. split; [reflexivity|].
      destruct rows as [r|]; [apply rows_eqb_eq; exact H4|].
      intro N. rewrite N in H4. discriminate.
  - destruct r as [ | | e | | af]; simpl; intro H; try reflexivity.
    + destruct H as [H1 H2]. rewrite H1. exact H2.
    + destruct H as [H1 H2]. rewrite H1, H2. apply ofile_eqb_eq. reflexivity.
    + destruct H as [rows [H1 H2]]. rewrite H1, Z.eqb_refl.
      rewrite (proj2 (dtype_eqb_eq _ _) eq_refl), (proj2 (bytes_eqb_eq _ _) eq_refl).
      destruct rows as [r|]; [apply rows_eqb_eq; exact H2|].
      destruct (a_dl af); [reflexivity | contradiction H2; reflexivity].
Qed.

Theorem hist_check_iff : forall ops a before os, hist_check a before ops os = true <-> hist_ok a before ops os.
Proof.
  induction ops as [|o ops IH]; intros a before [|ob os]; cbn [hist_check hist_ok].
  - split; reflexivity.
  - split; [discriminate | contradiction].
  - split; [discriminate | contradiction].
  - destruct (astep a o) as [a' r]. rewrite andb_true_iff, obs_check_iff, IH. reflexivity.
Qed.

(* a field with its byte order forgotten *)
Definition strip_order (f : field) : field :=
  {| f_name := f_name f; f_order := x00; f_kind := f_kind f; f_size := f_size f; f_shape := f_shape f |}.

Lemma field_eqb_noorder_iff a b : field_eqb_noorder a b = true <-> strip_order a = strip_order b.
Proof.
  unfold field_eqb_noorder, strip_order. split.
  - intro H. apply andb_true_iff in H as [H Hs]. apply andb_true_iff in H as [H Hz].
    apply andb_true_iff in H as [H Hk]. apply andb_true_iff in H as [_ Hn].
    apply bytes_eqb_eq in Hn. apply byte_eqb_eq in Hk. apply Z.eqb_eq in Hz. apply zl_eqb_eq in Hs.
    congruence.
  - intro E. injection E as E1 E2 E3 E4. rewrite E1, E2, E3, E4.
    rewrite !andb_true_iff. repeat split.
    + destruct (f_shape b); reflexivity.
    + apply bytes_eqb_eq; reflexivity.
    + apply byte_eqb_eq; reflexivity.
    + apply Z.eqb_refl.
    + apply zl_eqb_eq; reflexivity.
Qed.

Lemma dtype_eqb_noorder_iff a b : dtype_eqb_noorder a b = true <-> map strip_order a = map strip_order b.
Proof.
  unfold dtype_eqb_noorder. revert b. induction a as [|x a IH]; intros [|y b]; cbn [list_eqb map].
  - split; reflexivity.
  - split; discriminate.
  - split; discriminate.
  - rewrite andb_true_iff, field_eqb_noorder_iff, IH.
    split; [intros [-> ->]; reflexivity | intro E; split; congruence].
Qed.

Theorem compat_exact dl fdt cdt :
  compat dl fdt cdt = true <->
  match dl with None => fdt = cdt | Some _ => map strip_order fdt = map strip_order cdt end.
Proof. destruct dl; simpl; [apply dtype_eqb_noorder_iff | apply dtype_eqb_eq]. Qed.

(* the dtype recorded in a text file's header is compatible with the dtype it was created from,
   in either byte order: nativize changes nothing but the order *)
Theorem compat_created dl dt : compat dl (file_dtype dl dt) dt = true.
Proof.
  apply compat_exact. destruct dl; [|reflexivity]. unfold file_dtype. rewrite map_map.
  apply map_ext. reflexivity.
Qed.

Lemma take_rows_x_eq : forall rs n f, take_rows_x rs n f = take_rows rs n f.
Proof.
  intros rs n; induction n as [|k IH]; intro f; [reflexivity|]. cbn [take_rows_x take_rows].
  assert (E : (length (firstn rs f) <? rs)%nat = (length f <? rs)%nat).
  { rewrite firstn_length. destruct (Nat.ltb_spec (length f) rs) as [H|H].
    - apply Nat.ltb_lt. lia.
    - apply Nat.ltb_ge. lia. }
  rewrite E. destruct (length f <? rs)%nat; [reflexivity|]. rewrite IH. reflexivity.
Qed.

Lemma recfile_read_x_eq f off rs nr : recfile_read_x f off rs nr = recfile_read f off rs nr.
Proof. unfold recfile_read_x, recfile_read. rewrite take_rows_x_eq. reflexivity. Qed.

Section X.
  Variable meta : list byte -> option (delim * dtype * list byte).
  Variable enc : list byte -> chunk -> list byte.

  Lemma read_back_x_eq s : read_back_x meta s = read_back meta s.
  Proof.
    unfold read_back_x, read_back. destruct (disk s) as [f|]; [|reflexivity].
    destruct (read_meta meta f) as [[[[[size off] dl] dt] u]|e]; [|reflexivity].
    destruct dl; [reflexivity|]. rewrite recfile_read_x_eq. reflexivity.
  Qed.

  Lemma step_x_eq s o : step_x meta enc s o = step meta enc s o.
  Proof. destruct o; try reflexivity. cbn [step_x step]. rewrite read_back_x_eq. reflexivity. Qed.

  Theorem run_x_eq : forall ops s, run_x meta enc s ops = run meta enc s ops.
  Proof.
    induction ops as [|o ops IH]; intro s; [reflexivity|]. cbn [run_x run]. rewrite step_x_eq.
    destruct (step meta enc s o) as [s' r]. rewrite IH. reflexivity.
  Qed.
End X.
