(* C03/TextRows.v — the ROWS of a text file.

   In Proofs.v the text form of a chunk is an abstract function [enc], and the theorems state, for text
   files, the bytes and the row count only.  Here [enc] is instantiated with C04's verified model
   of the writer (TextModel.write_text over the chunk seen as a C04 table), and C04's round-trip theorem
   is lifted from one write to a whole history: the data region of a file that C03's machine built from
   any number of accepted chunks (in any byte order) is the text of ONE table holding all their rows in
   order, hence reading it with C04's reader returns exactly those rows (floating-point cells through
   the printf/scanf contract of C04, everything else bit for bit). *)
From Coq Require Import ZArith List Bool Lia.
From Coq.Strings Require Import Byte String.
From EsVerif.Common Require Import Base Bytes.
From EsVerif.C01 Require Framing FramingProofs.
From EsVerif.C04 Require Import TextModel Spec WriteProofs RoundTrip CheckProofs.
From EsVerif.C03 Require Import Model Spec Lemmas Proofs.
Import ListNotations.
Open Scope Z_scope.
Open Scope list_scope.
Notation length := List.length.

Definition kind_of (f : Framing.field) : TextModel.kind :=
  let n := Z.to_nat (Framing.f_size f) in
  if byte_eqb (Framing.f_kind f) "i"%byte then KInt true n
  else if byte_eqb (Framing.f_kind f) "u"%byte then KInt false n
  else if byte_eqb (Framing.f_kind f) "f"%byte then KFlt n
  else KStr n.
Definition order_of (f : Framing.field) : TextModel.order :=
  if byte_eqb (Framing.f_order f) ">"%byte then BE else if byte_eqb (Framing.f_order f) "<"%byte then LE else NA.
Definition fld_of (f : Framing.field) : fld :=
  {| fname := Framing.f_name f; fkind := kind_of f; forder := order_of f; fshape := Framing.f_shape f |}.
Definition flds_of (dt : Framing.dtype) : list fld := map fld_of dt.

(* numpy's memory image of one row, cut into fields and elements *)
Fixpoint chop (n size : nat) (l : list byte) : list (list byte) * list byte :=
  match n with
  | O => ([], l)
  | S k => let '(els, rest) := chop k size (skipn size l) in (firstn size l :: els, rest)
  end.
Fixpoint split_row (fs : list fld) (l : list byte) : TextModel.row :=
  match fs with
  | [] => []
  | f :: fs' => let '(els, rest) := chop (fnel f) (elsize (fkind f)) l in els :: split_row fs' rest
  end.
Definition table_of (c : chunk) : table :=
  {| tdt := flds_of (c_dt c); trows := map (split_row (flds_of (c_dt c))) (c_rows c) |}.

(* cutting loses and invents nothing: the cells, put together again, are the bytes that were cut *)
Lemma chop_concat n size : forall l, concat (fst (chop n size l)) ++ snd (chop n size l) = l.
Proof.
  induction n as [|k IH]; intro l; cbn [chop]; [reflexivity|]. specialize (IH (skipn size l)).
  destruct (chop k size (skipn size l)) as [els rest]. cbn [fst snd concat] in *.
  rewrite <- app_assoc, IH. apply firstn_skipn.
Qed.

Lemma split_row_concat fs : forall l, exists rest, concat (map (@concat byte) (split_row fs l)) ++ rest = l.
Proof.
  induction fs as [|f fs IH]; intro l; cbn [split_row]; [exists l; reflexivity|].
  pose proof (chop_concat (fnel f) (elsize (fkind f)) l) as E.
  destruct (chop (fnel f) (elsize (fkind f)) l) as [els r]. cbn [fst snd] in E.
  destruct (IH r) as [rest R]. exists rest. cbn [map concat]. rewrite <- app_assoc, R. exact E.
Qed.

(* the native rows of a table, as Recfile.write hands them to the C writer *)
Definition native_rows (t : table) : list TextModel.row := map (to_native_row (tdt t)) (trows t).

(* ONE table with the rows of many, read with the fields [fs0] of the file's header *)
Definition combined (fs0 : list fld) (tabs : list table) : table :=
  {| tdt := map native_fld fs0; trows := concat (map native_rows tabs) |}.

Lemma to_native_row_short : forall fs r, (length (to_native_row fs r) <= length fs)%nat.
Proof. induction fs as [|f fs IH]; intros [|els r]; simpl; try lia. specialize (IH r). lia. Qed.

Lemma to_native_row_id : forall fs r, (length r <= length fs)%nat -> to_native_row (map native_fld fs) r = r.
Proof.
  induction fs as [|f fs IH]; intros [|els r] H; simpl in *; try reflexivity; try lia.
  rewrite IH by lia. f_equal. rewrite <- (map_id els) at 2. apply map_ext. intro e. apply to_native_el_native.
Qed.

Section Text.
  Variable F P : nat -> list byte -> list byte.
  Variable meta : list byte -> option (delim * Framing.dtype * list byte).

  Lemma write_rows_app d fs a b : write_rows F d fs (a ++ b) = write_rows F d fs a ++ write_rows F d fs b.
  Proof. unfold write_rows. rewrite map_app, concat_app. reflexivity. Qed.

  Lemma write_text_rows d t : write_text F d t = write_rows F d (tdt t) (native_rows t).
  Proof. reflexivity. Qed.

  (* the text of the combined table is the concatenation of the texts of its parts, whatever the
     byte orders (and names) of the parts, as long as the kinds agree field by field *)
  Theorem write_text_combined d fs0 : forall tabs,
    (forall t, In t tabs -> map fkind (tdt t) = map fkind fs0) ->
    write_text F d (combined fs0 tabs) = concat (map (write_text F d) tabs).
  Proof.
    assert (K0 : map fkind (map native_fld fs0) = map fkind fs0) by (rewrite map_map; reflexivity).
    unfold write_text, combined. cbn [tdt trows].
    induction tabs as [|t tabs IH]; intro H; [reflexivity|].
    cbn [map concat]. rewrite map_app, write_rows_app.
    rewrite IH by (intros t' Ht'; apply H; right; exact Ht'). f_equal.
    assert (Kt : map fkind (tdt t) = map fkind fs0) by (apply H; left; reflexivity).
    assert (E : map (to_native_row (map native_fld fs0)) (native_rows t) = native_rows t).
    { unfold native_rows. rewrite map_map. apply map_ext. intro r. apply to_native_row_id.
      pose proof (to_native_row_short (tdt t) r) as L.
      assert (length (tdt t) = length fs0) by (rewrite <- (map_length fkind (tdt t)), Kt, map_length; reflexivity).
      lia. }
    rewrite E. apply write_rows_kinds. rewrite K0. symmetry. exact Kt.
  Qed.

  (* C04's round trip, lifted: the concatenated texts read back as the rows of all parts *)
  Theorem read_concatenated_texts d fs0 tabs :
    (forall t, In t tabs -> map fkind (tdt t) = map fkind fs0) ->
    let T := combined fs0 tabs in
    table_ok T -> delim_ok d -> fcontract F P T -> kf_leading_ws_after_numeric d T = false ->
    read_text P d (tdt T) (Z.of_nat (length (trows T))) (concat (map (write_text F d) tabs)) = Ok (expected F P T)
    /\ roundtrip_ok T (read_text P d (tdt T) (Z.of_nat (length (trows T))) (concat (map (write_text F d) tabs))).
  Proof.
    intros H T Ht Hd Hc Hk. rewrite <- (write_text_combined d fs0 tabs H). fold T.
    pose proof (roundtrip_model F P d Hd T Ht Hc Hk) as E.
    split; [exact E|]. rewrite E. apply expected_ok; assumption.
  Qed.


  Definition enc_text (dl : list byte) (c : chunk) : list byte :=
    match dl with [d] => write_text F d (table_of c) | _ => [] end.

  (* the C04 kind of a field does not look at its byte order *)
  Lemma kinds_strip dt : map fkind (flds_of dt) = map kind_of (map strip_order dt).
  Proof. unfold flds_of. rewrite !map_map. reflexivity. Qed.

  Lemma kinds_of_compat dl fdt cdt : compat (Some dl) fdt cdt = true ->
    map fkind (flds_of cdt) = map fkind (flds_of fdt).
  Proof. intro K. apply compat_exact in K. rewrite !kinds_strip, K. reflexivity. Qed.

  Lemma combined_row_count (l : list chunk) :
    Z.of_nat (length (concat (map native_rows (map table_of l)))) = zsum (map nrows l).
  Proof.
    rewrite map_map, length_concat_map. f_equal. apply map_ext. intro c.
    unfold native_rows, table_of, nrows. cbn [tdt trows]. rewrite !map_length. reflexivity.
  Qed.

  (* in a text file every accepted chunk has, field by field, the kinds of the file's dtype *)
  Lemma chunk_kinds af d : af_ok meta af -> a_dl af = Some [d] ->
    forall t, In t (map table_of (a_chunks af)) -> map fkind (tdt t) = map fkind (flds_of (a_dt af)).
  Proof.
    intros (_ & _ & _ & _ & _ & KK) N t Ht. apply in_map_iff in Ht as [c [<- Hc]].
    rewrite Forall_forall in KK. specialize (KK c Hc). rewrite N in KK. exact (kinds_of_compat [d] _ _ KK).
  Qed.

  (* the data region of the image: the chunks' texts one after the other *)
  Lemma body_text af d : a_dl af = Some [d] ->
    body enc_text af = concat (map (write_text F d) (map table_of (a_chunks af))).
  Proof. intro N. unfold body. rewrite N, map_map. reflexivity. Qed.

  (* The file a history built in text form: its header gives total / dtype / user header; the bytes
     after the header are the text of ONE table with all rows of all accepted chunks in order;
     C04's reader, given the header's fields and row count, returns them. *)
  Theorem text_file_rows s af o d :
    Inv meta enc_text s (AFile af o) -> a_dl af = Some [d] -> total af < 10 ^ 20 ->
    let T := combined (flds_of (a_dt af)) (map table_of (a_chunks af)) in
    table_ok T -> delim_ok d -> fcontract F P T -> kf_leading_ws_after_numeric d T = false ->
    exists f off,
      disk s = Some f
      /\ read_meta meta f = Ok (total af, off, a_dl af, a_dt af, a_u af)
      /\ skipn off f = write_text F d T
      /\ Z.of_nat (length (trows T)) = total af
      /\ read_text P d (tdt T) (total af) (skipn off f) = Ok (expected F P T)
      /\ roundtrip_ok T (read_text P d (tdt T) (total af) (skipn off f)).
  Proof.
    intros [OK ->] N B T Ht Hd Hc Hk.
    pose proof (chunk_kinds af d OK N) as Hkinds.
    assert (Len : Z.of_nat (length (trows T)) = total af) by exact (combined_row_count (a_chunks af)).
    destruct (read_concatenated_texts d _ _ Hkinds Ht Hd Hc Hk) as [R1 R2]. fold T in R1, R2. rewrite Len in R1, R2.
    exists (image enc_text af), (length (Framing.mk_header (total af) (a_d af))). cbn [disk].
    split; [reflexivity|]. split; [apply (read_meta_image meta enc_text); assumption|].
    unfold image. rewrite skipn_app_exact by reflexivity. rewrite (body_text af d N).
    split; [symmetry; apply write_text_combined, Hkinds|]. split; [exact Len|]. split; assumption.
  Qed.
End Text.

(* a ','-delimited file created from a little-endian chunk, a big-endian chunk written through the
   same object, closed: on it every premise of text_file_rows holds and the rows come back in order,
   the big-endian value 3 in native order (evaluated in Properties.C03_text_rows_nonvacuous) *)
Definition tx_F (sz : nat) (e : list byte) : list byte := e.
Definition tx_fld (o : byte) : Framing.field :=
  {| Framing.f_name := [x78]; Framing.f_order := o; Framing.f_kind := "i"%byte; Framing.f_size := 2; Framing.f_shape := [] |}.
Definition tx_s : Framing.field :=
  {| Framing.f_name := [x73]; Framing.f_order := "|"%byte; Framing.f_kind := "S"%byte; Framing.f_size := 2; Framing.f_shape := [] |}.
Definition tx_dt : Framing.dtype := [tx_fld "<"%byte; tx_s].
Definition tx_dt_be : Framing.dtype := [tx_fld ">"%byte; tx_s].
Definition tx_d : list byte := Framing.B "{'_DELIM': ',', '_DTYPE': [('x', 'i2'), ('s', 'S2')], '_VERSION': '1.0', 'run': 7}".
Definition tx_u : list byte := Framing.B "run=7".
Definition tx_meta (t : list byte) : option (delim * Framing.dtype * list byte) :=
  if bytes_eqb t tx_d then Some (Some [x2c], tx_dt, tx_u) else None.
Definition tx_c1 : chunk := {| c_dt := tx_dt; c_rows := [[x01; x00; x61; x62]; [xfe; xff; x63; x64]]; c_back := []; c_txt := [] |}.
Definition tx_c2 : chunk := {| c_dt := tx_dt_be; c_rows := [[x00; x03; x65; x66]]; c_back := []; c_txt := [] |}.
Definition tx_ops : list op := [Create (Some [x2c]) tx_c1 tx_d tx_u; WriteAgain tx_c2 [] []; Close].
Definition tx_af : afile := add_chunk (new_file (Some [x2c]) tx_c1 tx_d tx_u) tx_c2.
Definition tx_T : table := combined (flds_of (a_dt tx_af)) (map table_of (a_chunks tx_af)).
