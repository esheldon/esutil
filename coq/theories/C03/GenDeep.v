(* C03/GenDeep.v — the test translated from _ensure_compatible_dtype (Gen.gen_bad_binary / gen_bad_text)
   as one function of the file's delimiter, for the statements that speak of both kinds of file. *)
From EsVerif.C01 Require Import Framing.
From EsVerif.C03 Require Import Model Spec Gen GenTie.

Definition gen_bad (dl : delim) (fdt cdt : dtype) : bool :=
  match dl with None => gen_bad_binary fdt cdt | Some _ => gen_bad_text fdt cdt end.

Lemma compat_gen dl fdt cdt : compat dl fdt cdt = negb (gen_bad dl fdt cdt).
Proof. exact (tie_compatible dl fdt cdt). Qed.
