(* C03/Proofs.v — the byte-level machine (Model.v) refines the abstract machine of the statement
   (Spec.v).  The concrete state and the concrete answer are FUNCTIONS of the abstract ones ([conc],
   [cout]); one operation of the concrete machine on the image of an abstract state is the image of
   the abstract operation (step_conc, an equation); histories by induction. *)
From Coq Require Import ZArith List Bool Lia.
From Coq.Strings Require Import Byte String.
From EsVerif.Common Require Import Base.
From EsVerif.C01 Require Import Framing FramingProofs.
From EsVerif.C03 Require Import Model Spec Lemmas.
Import ListNotations.
Open Scope Z_scope.
Open Scope list_scope.
Notation length := List.length.

Lemma zsum_cons x l : zsum (x :: l) = x + zsum l.
Proof. reflexivity. Qed.

Lemma zsum_app a b : zsum (a ++ b) = zsum a + zsum b.
Proof. induction a as [|x t IH]; cbn [app]; rewrite ?zsum_cons, ?IH; [reflexivity | apply Z.add_assoc]. Qed.

Lemma zsum_map_nonneg {A} (f : A -> Z) l : (forall x, 0 <= f x) -> 0 <= zsum (map f l).
Proof.
  intro H. induction l as [|x t IH]; cbn [map]; [apply Z.le_refl|].
  rewrite zsum_cons. apply Z.add_nonneg_nonneg; [apply H | exact IH].
Qed.

Lemma length_concat_map {A B} (f : A -> list B) l :
  Z.of_nat (length (concat (map f l))) = zsum (map (fun x => Z.of_nat (length (f x))) l).
Proof.
  induction l as [|x t IH]; [reflexivity|]. cbn [map concat].
  rewrite app_length, Nat2Z.inj_add, IH. reflexivity.
Qed.

Lemma concat_concat_map {A B} (f : A -> list (list B)) (l : list A) :
  concat (map (fun x => concat (f x)) l) = concat (concat (map f l)).
Proof. induction l as [|x t IH]; simpl; [reflexivity | rewrite concat_app, IH; reflexivity]. Qed.

Lemma skipn_app_exact {A} (a b : list A) k : length a = k -> skipn k (a ++ b) = b.
Proof. intros <-. rewrite skipn_app, skipn_all, Nat.sub_diag. reflexivity. Qed.

Lemma overwrite_nil p : overwrite p [] = p.
Proof. unfold overwrite. rewrite skipn_nil, app_nil_r. reflexivity. Qed.

(* printing over a prefix of the same length replaces that prefix and nothing else *)
Lemma overwrite_app p' p rest : length p' = length p -> overwrite p' (p ++ rest) = p' ++ rest.
Proof. intro L. unfold overwrite. rewrite (skipn_app_exact p rest) by (symmetry; exact L). reflexivity. Qed.

Lemma mk_header_cons n d :
  mk_header n d = (size_line n ++ [nl]) ++ d ++ nl :: B "END" ++ [nl; nl].
Proof. unfold mk_header. rewrite <- app_assoc. reflexivity. Qed.

(* update_row_count touches nothing but the count: overwriting the first 28 bytes of a file
   that starts with a header for n rows gives the same file with a header for n' rows *)
Lemma update_row_count_frame n n' d rest : 0 <= n < 10 ^ 20 -> 0 <= n' < 10 ^ 20 ->
  overwrite (size_line n' ++ [nl]) (mk_header n d ++ rest) = mk_header n' d ++ rest.
Proof.
  intros H H'. rewrite !mk_header_cons.
  rewrite <- (app_assoc (size_line n ++ [nl])), <- (app_assoc (size_line n' ++ [nl])).
  apply overwrite_app. rewrite !app_length, !size_line_length by assumption. reflexivity.
Qed.

Lemma mk_header_ge8 n d : 0 <= n < 10 ^ 20 -> forall rest, (length (mk_header n d ++ rest) <? 8)%nat = false.
Proof.
  intros H rest. apply Nat.ltb_ge. unfold mk_header. rewrite !app_length, size_line_length by exact H. lia.
Qed.

Lemma nrows_nonneg c : 0 <= nrows c.
Proof. apply Nat2Z.is_nonneg. Qed.

Lemma nrows_pos c : chunk_ok c -> 1 <= nrows c.
Proof. intros [H _]. unfold nrows. destruct (c_rows c); [contradiction | simpl; lia]. Qed.

Lemma total_add af c : total (add_chunk af c) = total af + nrows c.
Proof. unfold total, add_chunk. cbn [a_chunks map]. rewrite map_app, zsum_app. apply f_equal, Z.add_0_r. Qed.

Lemma total_new dl c d u : total (new_file dl c d u) = nrows c.
Proof. apply Z.add_0_r. Qed.

Lemma op_rows_nonneg o : 0 <= op_rows o.
Proof. destruct o; cbn [op_rows]; try apply nrows_nonneg; apply Z.le_refl. Qed.

Section Refinement.
  Variable meta : list byte -> option (delim * dtype * list byte).
  Variable enc : list byte -> chunk -> list byte.
  Set Default Proof Using "Type".

  Notation payload := (payload enc).
  Notation step := (step meta enc).
  Notation run := (run meta enc).
  Notation final := (final meta enc).
  Notation read_back := (read_back meta).
  Notation read_meta := (read_meta meta).
  Notation open_rp := (open_rp meta).
  Notation sf_write := (sf_write enc).

  Definition body (af : afile) : list byte := concat (map (payload (a_dl af)) (a_chunks af)).
  Definition image (af : afile) : file := mk_header (total af) (a_d af) ++ body af.
  Definition open_handle (af : afile) (m : mode) : handle :=
    {| h_mode := m; h_delim := a_dl af; h_hdr := true; h_size := total af; h_dtype := Some (a_dt af) |}.

  Definition af_ok (af : afile) : Prop :=
    hdr_text_ok (a_d af) = true
    /\ meta (joined (a_d af)) = Some (a_dl af, a_dt af, a_u af)
    /\ a_chunks af <> []
    /\ Forall chunk_ok (a_chunks af)
    /\ (a_dl af = None -> Forall (fun c => c_dt c = a_dt af) (a_chunks af))
    /\ Forall (fun c => compat (a_dl af) (a_dt af) (c_dt c) = true) (a_chunks af).

  Definition Inv (s : state) (a : astate) : Prop :=
    match a with
    | AMissing => s = {| disk := None; hnd := None |}
    | AEmpty o => s = {| disk := Some []; hnd := option_map fresh_handle o |}
    | AFile af o => af_ok af /\ s = {| disk := Some (image af); hnd := option_map (open_handle af) o |}
    end.

  Definition used (a : astate) : Z := match a with AFile af _ => total af | _ => 0 end.

  (* [Inv s a] determines s.  The proofs work with that function of a, [conc], with what remains of
     Inv as a predicate on a alone, [astate_ok], and with the image [cout] of an abstract answer;
     Inv_conc converts. *)
  Definition conc (a : astate) : state :=
    match a with
    | AMissing => {| disk := None; hnd := None |}
    | AEmpty o => {| disk := Some []; hnd := option_map fresh_handle o |}
    | AFile af o => {| disk := Some (image af); hnd := option_map (open_handle af) o |}
    end.
  Definition astate_ok (a : astate) : Prop := match a with AFile af _ => af_ok af | _ => True end.
  Definition cout (r : aout) : out :=
    match r with
    | AOk | ANop => OOk
    | ARejected => OErr EValue
    | AUnspec e => OErr e
    | ARead af => ORead (total af) (a_dt af)
                        (match a_dl af with None => Some (all_rows af) | Some _ => None end) (a_u af)
    end.

  Lemma Inv_conc s a : Inv s a <-> astate_ok a /\ s = conc a.
  Proof. destruct a; cbn [Inv astate_ok conc]; tauto. Qed.

  Lemma used_nonneg a : 0 <= used a.
  Proof. destruct a; cbn [used]; try apply Z.le_refl. apply zsum_map_nonneg, nrows_nonneg. Qed.

  Lemma total_pos af : af_ok af -> 1 <= total af.
  Proof.
    intros (_ & _ & NE & F & _). unfold total. destruct (a_chunks af) as [|c t]; [contradiction|].
    apply Forall_inv in F. cbn [map]. rewrite zsum_cons.
    pose proof (nrows_pos c F) as P. pose proof (zsum_map_nonneg nrows t nrows_nonneg) as Q. clear - P Q. lia.
  Qed.

  Lemma body_add af c : body (add_chunk af c) = body af ++ payload (a_dl af) c.
  Proof. unfold body, add_chunk. cbn [a_chunks a_dl]. rewrite map_app, concat_app. cbn [map concat]. rewrite app_nil_r. reflexivity. Qed.

  Lemma image_add af c : image (add_chunk af c) = mk_header (total af + nrows c) (a_d af) ++ body af ++ payload (a_dl af) c.
  Proof. unfold image. rewrite total_add, body_add. reflexivity. Qed.

  Lemma image_new dl c d u : image (new_file dl c d u) = mk_header (nrows c) d ++ payload dl c.
  Proof. unfold image, body. rewrite total_new. cbn [new_file a_d a_dl a_chunks map concat]. rewrite app_nil_r. reflexivity. Qed.

  Lemma af_ok_new dl c d u : chunk_ok c -> header_ok meta dl c d u -> af_ok (new_file dl c d u).
  Proof.
    intros C [T M]. unfold af_ok, new_file; cbn [a_dl a_dt a_d a_u a_chunks].
    split; [exact T|]. split; [exact M|]. split; [discriminate|].
    split; [constructor; [exact C | constructor]|].
    split; [intros ->; constructor; [reflexivity | constructor]|].
    constructor; [apply compat_created | constructor].
  Qed.

  Lemma af_ok_add af c : af_ok af -> chunk_ok c -> compat (a_dl af) (a_dt af) (c_dt c) = true ->
    af_ok (add_chunk af c).
  Proof.
    intros (T & M & NE & F & D & KK) C K. unfold af_ok, add_chunk; cbn [a_dl a_dt a_d a_u a_chunks].
    split; [exact T|]. split; [exact M|].
    split; [intro E; apply app_eq_nil in E; destruct E as [_ E]; discriminate|].
    split; [apply Forall_app; split; [exact F | constructor; [exact C | constructor]]|].
    split.
    - intro N. apply Forall_app. split; [apply D; exact N|].
      constructor; [|constructor]. rewrite N in K. symmetry. apply dtype_eqb_eq. exact K.
    - apply Forall_app. split; [exact KK | constructor; [exact K | constructor]].
  Qed.

  (* what open('r'/'r+') and read learn from the image of an abstract file *)
  Lemma read_meta_image af : af_ok af -> total af < 10 ^ 20 ->
    read_meta (image af)
    = Ok (total af, length (mk_header (total af) (a_d af)), a_dl af, a_dt af, a_u af).
  Proof.
    intros OK B. pose proof (total_pos af OK) as P. destruct OK as (T & M & _).
    assert (P0 : 0 <= total af) by (apply Z.le_trans with 1; [discriminate | exact P]).
    unfold Model.read_meta, image. rewrite mk_header_ge8 by (split; assumption).
    unfold sfile_read_raw. rewrite read_sfile_header_spec by assumption. cbn [bind fst snd].
    rewrite parse_header_spec by exact P0. cbn [bind fst snd].
    fold (joined (a_d af)). rewrite M, (proj2 (Z.ltb_ge (total af) 1) P). reflexivity.
  Qed.

  Lemma all_rows_binary af : a_dl af = None -> all_rows af = concat (map c_rows (a_chunks af)).
  Proof. intro N. unfold all_rows. rewrite N. reflexivity. Qed.

  Lemma body_binary af : a_dl af = None -> body af = bin_write (all_rows af).
  Proof.
    intro N. rewrite (all_rows_binary af N). unfold body, bin_write. rewrite N. cbn [Model.payload].
    unfold bin_write. apply concat_concat_map.
  Qed.

  Lemma rows_fit_all af : af_ok af -> a_dl af = None ->
    Forall (fun r => Z.of_nat (length r) = rowsize (a_dt af)) (all_rows af).
  Proof.
    intros (_ & _ & _ & F & D & _) N. rewrite (all_rows_binary af N).
    apply Forall_concat, Forall_map. eapply Forall_impl; [|exact (Forall_and F (D N))].
    intros c [(_ & R & _) <-]. exact R.
  Qed.

  (* sfile.read on the image: the row count, the dtype, the user header and — for a binary
     file — every row of every chunk, in order *)
  Lemma read_back_image af h : af_ok af -> total af < 10 ^ 20 ->
    read_back {| disk := Some (image af); hnd := h |} = cout (ARead af).
  Proof.
    intros OK B. unfold Model.read_back. cbn [disk cout]. rewrite read_meta_image by assumption.
    destruct (a_dl af) as [dl|] eqn:N; [reflexivity|].
    unfold image. rewrite (body_binary af N).
    assert (R : 0 < rowsize (a_dt af)).
    { destruct OK as (_ & _ & NE & F & D & _). specialize (D N).
      destruct (a_chunks af) as [|c t]; [contradiction|]. apply Forall_inv in F, D.
      rewrite <- D. apply F. }
    assert (L : total af = Z.of_nat (length (all_rows af))).
    { rewrite (all_rows_binary af N), length_concat_map. reflexivity. }
    assert (NE : all_rows af <> []).
    { intro E. pose proof (total_pos af OK) as P. rewrite L, E in P. exact (P eq_refl). }
    (* C01's reader: positive row size, at least one row, every row of that size, and the count
       given explicitly and equal to the number of rows *)
    rewrite (recfile_read_spec _ (all_rows af) (rowsize (a_dt af)) (Some (total af)) R NE
               (rows_fit_all af OK N) (or_intror (or_intror (f_equal Some L)))).
    reflexivity.
  Qed.

  Lemma compatible_compat dl a b : compatible dl a b = compat dl a b.
  Proof. reflexivity. Qed.

  Lemma write_fresh dl c d u : hdr_text_ok d = true ->
    sf_write c d {| disk := Some []; hnd := Some (fresh_handle dl) |}
    = ({| disk := Some (image (new_file dl c d u)); hnd := Some (open_handle (new_file dl c d u) MW) |}, OOk).
  Proof.
    intro T. unfold Model.sf_write, fresh_handle. cbn [hnd disk h_dtype h_hdr h_delim h_mode h_size negb].
    rewrite overwrite_nil. unfold write_header.
    assert (C : clean d = true) by (unfold hdr_text_ok in T; apply andb_true_iff in T; apply T).
    rewrite clean_cstr by (apply mk_header_clean; [apply nrows_nonneg | exact C]).
    rewrite image_new. unfold open_handle. rewrite total_new. reflexivity.
  Qed.

  Lemma write_append af m c d : af_ok af -> total af + nrows c < 10 ^ 20 ->
    compat (a_dl af) (a_dt af) (c_dt c) = true ->
    sf_write c d {| disk := Some (image af); hnd := Some (open_handle af m) |}
    = ({| disk := Some (image (add_chunk af c)); hnd := Some (open_handle (add_chunk af c) m) |}, OOk).
  Proof.
    intros OK B K.
    assert (R : 0 <= total af < 10 ^ 20 /\ 0 <= total af + nrows c < 10 ^ 20)
      by (pose proof (total_pos af OK) as T; pose proof (nrows_nonneg c) as P; clear - B T P; lia).
    unfold Model.sf_write, open_handle. cbn [hnd disk h_dtype h_hdr h_delim h_mode h_size].
    rewrite compatible_compat, K. cbn [negb].
    unfold image at 1. rewrite update_row_count_frame by apply R.
    rewrite image_add, total_add. rewrite <- app_assoc. reflexivity.
  Qed.

  Lemma write_rejected af m c d : compat (a_dl af) (a_dt af) (c_dt c) = false ->
    sf_write c d {| disk := Some (image af); hnd := Some (open_handle af m) |}
    = ({| disk := Some (image af); hnd := Some (open_handle af m) |}, OErr EValue).
  Proof.
    intro K. unfold Model.sf_write, open_handle. cbn [hnd disk h_dtype h_hdr h_delim h_mode h_size].
    rewrite compatible_compat, K. reflexivity.
  Qed.

  Lemma close_conc a : close (conc a) = conc (aclose a).
  Proof. destruct a; reflexivity. Qed.

  Lemma astate_ok_aclose a : astate_ok a -> astate_ok (aclose a).
  Proof. destruct a; exact (fun W => W). Qed.

  (* SFile(f, 'r+') when no object is open: a missing path is created empty, an empty file has no
     header to read, the image of a file gives back the file's own delimiter, dtype and count *)
  Lemma reopen_conc dl a : astate_ok a -> used a < 10 ^ 20 ->
    open_rp dl (conc (aclose a))
    = (conc (fst (areopen dl (aclose a))), cout (snd (areopen dl (aclose a)))).
  Proof.
    intros W B. destruct a as [|o|af o]; [reflexivity | reflexivity |].
    unfold Model.open_rp. cbn [aclose conc disk]. rewrite read_meta_image by assumption. reflexivity.
  Qed.

  (* SFile.write on the open object; for a fresh 'w' object it creates the header *)
  Lemma write_conc c d u a : astate_ok a -> op_ok meta a (WriteAgain c d u) -> used a + nrows c < 10 ^ 20 ->
    sf_write c d (conc a) = (conc (fst (awrite c d u a)), cout (snd (awrite c d u a)))
    /\ astate_ok (fst (awrite c d u a)).
  Proof.
    intros W [C H] B. destruct a as [|[dl|]|af [m|]]; cbn [awrite conc option_map used] in *.
    - (* no file *) split; [reflexivity | exact I].
    - (* a fresh 'w' object: the header is created *)
      split; [apply write_fresh, H | apply af_ok_new; [exact C | exact H]].
    - (* an empty file, no object open *) split; [reflexivity | exact I].
    - destruct (compat (a_dl af) (a_dt af) (c_dt c)) eqn:K.
      + split; [apply write_append | apply af_ok_add]; assumption.
      + split; [apply write_rejected, K | exact W].
    - (* a file, no object open *) split; [reflexivity | exact W].
  Qed.

  (* `with SFile(..) as sf: sf.write(..)` *)
  Lemma write_close_conc c d u a : astate_ok a -> op_ok meta a (WriteAgain c d u) -> used a + nrows c < 10 ^ 20 ->
    let ar := let '(a2, r2) := awrite c d u a in (aclose a2, r2) in
    (let '(s2, r2) := sf_write c d (conc a) in (close s2, r2)) = (conc (fst ar), cout (snd ar))
    /\ astate_ok (fst ar).
  Proof.
    intros W H B. destruct (write_conc c d u a W H B) as [E W']. rewrite E.
    destruct (awrite c d u a) as [a2 r2]. cbn [fst snd] in *. rewrite close_conc.
    split; [reflexivity | apply astate_ok_aclose, W'].
  Qed.

  Lemma read_conc a : astate_ok a -> used a < 10 ^ 20 -> read_back (conc a) = cout (snd (astep a Read)).
  Proof.
    intros W B. destruct a as [|o|af o]; [reflexivity | reflexivity | apply read_back_image; assumption].
  Qed.

  (* The diagram commutes exactly.  Every operation is composed of the primitives above in the same
     way in Model.step and in Spec.astep. *)
  Theorem step_conc a o : astate_ok a -> op_ok meta a o -> used a + op_rows o < 10 ^ 20 ->
    step (conc a) o = (conc (fst (astep a o)), cout (snd (astep a o))) /\ astate_ok (fst (astep a o)).
  Proof.
    intros W H B.
    assert (B0 : used a < 10 ^ 20 /\ op_rows o < 10 ^ 20)
      by (pose proof (used_nonneg a) as U; pose proof (op_rows_nonneg o) as R; clear - B U R; lia).
    destruct B0 as [B0 B1].
    destruct o as [dl c d u|c d u| |dl|[|] dl c d u|]; cbn [Model.step astep].
    - (* a write through a fresh 'w' object *)
      exact (write_conc c d u (AEmpty (Some dl)) I H B1).
    - exact (write_conc c d u a W H B).
    - rewrite close_conc. split; [reflexivity | apply astate_ok_aclose, W].
    - rewrite close_conc, reopen_conc by assumption. split; [reflexivity|]. destruct a; exact W.
    - (* append: reopen; if that answers Ok, write and close *)
      rewrite close_conc, reopen_conc by assumption.
      destruct a as [|o|af o]; cbn [aclose areopen fst snd cout].
      + exact (write_close_conc c d u (AEmpty (Some dl)) I H B1).
      + split; [reflexivity | exact I].
      + exact (write_close_conc c d u (AFile af (Some MRP)) W H B).
    - (* overwrite: a fresh 'w' object, write and close *)
      exact (write_close_conc c d u (AEmpty (Some dl)) I H B1).
    - rewrite read_conc by assumption. split; [reflexivity | exact W].
  Qed.

  (* what the abstract answer demands of the concrete answer and of the bytes before / after:
     Spec.obs_ok, and in addition that misuse is answered with exactly the modelled error and
     leaves the bytes alone *)
  Definition answers (r : aout) (before : option file) (o : obs) : Prop :=
    obs_ok r before o
    /\ match r with AUnspec e => fst o = OErr e /\ snd o = before | _ => True end.

  Lemma answers_cout r before after :
    match r with
    | AOk => exists_file after = true
    | ARejected | AUnspec _ => after = before
    | ANop | ARead _ => True
    end -> answers r before (cout r, after).
  Proof.
    destruct r as [| |e| |af]; intro H; repeat split; try exact H.
    eexists. split; [reflexivity|]. destruct (a_dl af); [discriminate | reflexivity].
  Qed.

  (* what an abstract step does to the bytes, by its answer: accepted writes leave a file, a
     rejected append and misuse leave the bytes alone *)
  Lemma astep_disk a o :
    match snd (astep a o) with
    | AOk => exists_file (disk (conc (fst (astep a o)))) = true
    | ARejected | AUnspec _ => disk (conc (fst (astep a o))) = disk (conc a)
    | ANop | ARead _ => True
    end.
  Proof.
    destruct o as [dl c d u|c d u| |dl|[|] dl c d u|]; cbn [astep fst snd]; try reflexivity.
    - destruct a as [|[dl|]|af [m|]]; cbn [awrite]; try destruct (compat _ _ _); reflexivity.
    - destruct a; reflexivity.
    - destruct a as [|o|af o]; cbn [aclose areopen awrite]; try destruct (compat _ _ _); reflexivity.
    - destruct a; reflexivity.
  Qed.

  Theorem step_refines s a o :
    Inv s a -> op_ok meta a o -> used a + op_rows o < 10 ^ 20 ->
    Inv (fst (step s o)) (fst (astep a o))
    /\ answers (snd (astep a o)) (disk s) (snd (step s o), disk (fst (step s o))).
  Proof.
    intros HI H B. apply Inv_conc in HI as [W ->]. destruct (step_conc a o W H B) as [E W'].
    rewrite E. cbn [fst snd]. split; [apply Inv_conc; split; [exact W' | reflexivity]|].
    apply answers_cout, astep_disk.
  Qed.

  Corollary Inv_step s a o : Inv s a -> op_ok meta a o -> used a + op_rows o < 10 ^ 20 ->
    step s o = (conc (fst (astep a o)), cout (snd (astep a o))).
  Proof. intros HI H B. apply Inv_conc in HI as [W ->]. apply step_conc; assumption. Qed.

  (* On a file that exists the step equation of an append asks nothing of the chunk: chunk_ok serves
     only astate_ok of the successor. *)
  Lemma append_conc af o c d u : af_ok af -> total af + nrows c < 10 ^ 20 ->
    (forall dl, step (conc (AFile af o)) (FnWrite true dl c d u)
                = (conc (fst (astep (AFile af o) (FnWrite true dl c d u))),
                   cout (snd (astep (AFile af o) (FnWrite true dl c d u)))))
    /\ (forall m, o = Some m ->
          step (conc (AFile af o)) (WriteAgain c d u)
          = (conc (fst (astep (AFile af o) (WriteAgain c d u))),
             cout (snd (astep (AFile af o) (WriteAgain c d u))))).
  Proof.
    intros OK B.
    assert (T : total af < 10 ^ 20) by (pose proof (nrows_nonneg c) as P; clear - B P; lia).
    split; [intro dl | intros m ->].
    - cbn [Model.step]. rewrite close_conc, (reopen_conc dl (AFile af o) OK T).
      cbn [astep aclose areopen awrite fst snd cout conc option_map].
      destruct (compat (a_dl af) (a_dt af) (c_dt c)) eqn:K.
      + rewrite write_append by assumption. reflexivity.
      + rewrite write_rejected by exact K. reflexivity.
    - cbn [Model.step astep awrite conc option_map].
      destruct (compat (a_dl af) (a_dt af) (c_dt c)) eqn:K.
      + rewrite write_append by assumption. reflexivity.
      + rewrite write_rejected by exact K. reflexivity.
  Qed.

  (* the answer of an append to a file that exists — through sfile.write(append=True) and through
     the open object — is decided by compatibility alone *)
  Corollary append_answer s af o c d u :
    Inv s (AFile af o) -> total af + nrows c < 10 ^ 20 ->
    let r := if compat (a_dl af) (a_dt af) (c_dt c) then OOk else OErr EValue in
    (forall dl, snd (step s (FnWrite true dl c d u)) = r)
    /\ (o <> None -> snd (step s (WriteAgain c d u)) = r).
  Proof.
    intros HI B. apply Inv_conc in HI as [W ->]. destruct (append_conc af o c d u W B) as [F A].
    split; [intro dl; rewrite F | destruct o as [m|]; [intros _; rewrite (A m eq_refl) | contradiction]];
      cbn [astep aclose areopen awrite fst snd]; destruct (compat _ _ _); reflexivity.
  Qed.

  (* the count in the header grows by at most the rows offered: close and reopen keep it, a write
     adds the rows of an accepted chunk (op_rows counts those of a rejected one all the same) *)
  Lemma used_aclose a : used (aclose a) = used a.
  Proof. destruct a; reflexivity. Qed.

  Lemma used_areopen dl a : used (fst (areopen dl a)) = used a.
  Proof. destruct a; reflexivity. Qed.

  Lemma used_awrite c d u a : used (fst (awrite c d u a)) <= used a + nrows c.
  Proof.
    pose proof (nrows_nonneg c) as P. pose proof (used_nonneg a) as U.
    destruct a as [|[dl|]|af [m|]]; cbn [awrite]; try destruct (compat _ _ _); cbn [fst used] in *;
      rewrite ?total_new, ?total_add; clear - P U; lia.
  Qed.

  Lemma used_step a o : used (fst (astep a o)) <= used a + op_rows o.
  Proof.
    pose proof (used_nonneg a) as U.
    destruct o as [dl c d u|c d u| |dl|[|] dl c d u|]; cbn [astep fst op_rows];
      try pose proof (nrows_nonneg c) as P.
    - cbn [used]. rewrite total_new. clear - P U. lia.
    - apply used_awrite.
    - rewrite used_aclose, Z.add_0_r. apply Z.le_refl.
    - rewrite used_areopen, used_aclose, Z.add_0_r. apply Z.le_refl.
    - pose proof (used_areopen dl (aclose a)) as R. rewrite used_aclose in R.
      destruct (areopen dl (aclose a)) as [a1 r1]. cbn [fst] in R.
      pose proof (used_awrite c d u a1) as Wr.
      destruct r1; [destruct (awrite c d u a1) as [a2 r2]| | | |]; cbn [fst] in *;
        rewrite used_aclose; clear - P R Wr; lia.
    - cbn [used]. rewrite total_new. clear - P U. lia.
    - rewrite Z.add_0_r. apply Z.le_refl.
  Qed.

  Lemma run_cons s o rest :
    run s (o :: rest) = (snd (step s o), disk (fst (step s o))) :: run (fst (step s o)) rest.
  Proof. cbn [Model.run]. destruct (step s o); reflexivity. Qed.

  Theorem history_refines : forall ops s a,
    Inv s a -> hist_wf meta a ops -> used a + hist_rows ops < 10 ^ 20 ->
    hist_ok a (disk s) ops (run s ops)
    /\ Inv (final s ops) (fold_left (fun a o => fst (astep a o)) ops a).
  Proof.
    induction ops as [|o ops IH]; intros s a HI W B; [split; [exact I | exact HI]|].
    destruct W as [W1 W2]. unfold hist_rows in B. cbn [map] in B. rewrite zsum_cons in B.
    pose proof (zsum_map_nonneg op_rows ops op_rows_nonneg) as HR.
    destruct (step_refines s a o HI W1) as [I' A]; [lia|].
    pose proof (used_step a o) as U.
    destruct (IH (fst (step s o)) (fst (astep a o)) I' W2) as [H1 H2]; [unfold hist_rows; lia|].
    split; [|exact H2].
    rewrite run_cons. cbn [hist_ok]. destruct (astep a o) as [a' r]. split; [apply A | exact H1].
  Qed.

  Lemma Inv_init : Inv init AMissing.
  Proof. reflexivity. Qed.
End Refinement.
