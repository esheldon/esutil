(* C03 — the property theorems.

   "Appends accumulate: the file equals the concatenation of all writes."  The model
   (Model.v, on top of C01/Framing.v) describes the code AFTER the three repairs in fixes/C03.
   [meta] (eval of the header text + numpy.dtype) and [enc] (the text form of a chunk, C04's
   subject) are not modelled: they are universally quantified and constrained only by the
   premise Spec.header_ok on the headers that a history creates, which the harness monitors on
   every case.  With [enc] abstract, the theorems state for a text file the bytes (header ++
   printed chunks in order) and the stored row count, and rows for binary files; the rows of a
   text file are the subject of C03_text_file_rows, where [enc] is C04's model of the writer. *)
From Coq Require Import ZArith List Bool Lia.
From Coq.Strings Require Import Byte String.
From EsVerif.Common Require Import Base.
From EsVerif.C01 Require Import Framing FramingProofs.
From EsVerif.C04 Require TextModel Spec FmtModel.
From EsVerif.C03 Require Import Model Spec Lemmas Proofs Witness Exec TextRows Gen GenTie GenDeep.
Import ListNotations.
Open Scope Z_scope.
Open Scope list_scope.
Notation length := List.length.

(* The in-place update of the row count touches nothing but the count: the 28 bytes
   "SIZE = %20ld\n" written at offset 0 of a file that starts with a header for n rows give the
   same file with a header for n' rows (whatever follows the header). *)
Theorem C03_update_row_count_frame : forall n n' d rest,
  0 <= n < 10 ^ 20 -> 0 <= n' < 10 ^ 20 ->
  overwrite (size_line n' ++ [nl]) (mk_header n d ++ rest) = mk_header n' d ++ rest.
Proof. exact update_row_count_frame. Qed.

(* One operation: if the concrete state is the image of an abstract state of the statement
   (file = header(total) ++ chunks; cached size / dtype / delimiter of an open object = those
   of the file), then after the operation it is the image of the abstract successor, and the
   answer and the bytes before/after are what the statement demands (Spec.obs_ok; misuse the
   statement does not talk about is answered by the modelled error and changes no byte). *)
Theorem C03_step_refines : forall meta enc s a o,
  Inv meta enc s a -> op_ok meta a o -> used a + op_rows o < 10 ^ 20 ->
  Inv meta enc (fst (step meta enc s o)) (fst (astep a o))
  /\ answers (snd (astep a o)) (disk s) (snd (step meta enc s o), disk (fst (step meta enc s o))).
Proof. exact step_refines. Qed.

(* Histories.  For EVERY finite sequence over {create, write again on the same object, close,
   reopen for append, sfile.write(append=True|False), read} started on a missing path, with
   well-formed chunks of >= 1 row and the contract on the created headers: every read returns
   the row count, dtype and user header fixed at the last create/overwrite and (binary) the
   rows of all chunks accepted since, in order; accepted writes leave a file; a rejected
   append is an error and leaves the bytes unchanged; and the final state is again the image
   of the abstract state (so the history can be continued). *)
Theorem C03_history : forall meta enc ops,
  hist_wf meta AMissing ops -> hist_rows ops < 10 ^ 20 ->
  hist_ok AMissing None ops (run meta enc init ops)
  /\ Inv meta enc (final meta enc init ops) (fold_left (fun a o => fst (astep a o)) ops AMissing).
Proof.
  intros meta enc ops W B. apply (history_refines meta enc ops init AMissing); [apply Inv_init | exact W | exact B].
Qed.

(* The general form, from any state that satisfies the invariant; C03_history is this at [init]. *)
Theorem C03_history_from : forall meta enc ops s a,
  Inv meta enc s a -> hist_wf meta a ops -> used a + hist_rows ops < 10 ^ 20 ->
  hist_ok a (disk s) ops (run meta enc s ops)
  /\ Inv meta enc (final meta enc s ops) (fold_left (fun a o => fst (astep a o)) ops a).
Proof. exact history_refines. Qed.

(* What the invariant means for the bytes and for a read: the file is the header for the
   total row count followed by the chunks in order; reading returns total, dtype, user header
   and, for a binary file, exactly the rows of all chunks in order. *)
Theorem C03_file_is_concatenation : forall meta enc s af o,
  Inv meta enc s (AFile af o) -> total af < 10 ^ 20 ->
  disk s = Some (mk_header (total af) (a_d af) ++ concat (map (payload enc (a_dl af)) (a_chunks af)))
  /\ read_back meta s
     = ORead (total af) (a_dt af)
             (match a_dl af with None => Some (concat (map c_rows (a_chunks af))) | Some _ => None end) (a_u af).
Proof.
  intros meta enc s af o [OK ->] B. split; [reflexivity|].
  rewrite (read_back_image meta enc) by assumption. cbn [cout]. destruct (a_dl af) eqn:N; [reflexivity|].
  rewrite (all_rows_binary af N). reflexivity.
Qed.

(* An append whose fields are incompatible with the file is rejected with an error and leaves
   the file's bytes unchanged (function form and open-object form; binary and text). *)
Theorem C03_rejected_append_frame : forall meta enc s af o dl c d u,
  Inv meta enc s (AFile af o) -> total af < 10 ^ 20 ->
  compat (a_dl af) (a_dt af) (c_dt c) = false ->
  (snd (step meta enc s (FnWrite true dl c d u)) = OErr EValue
   /\ disk (fst (step meta enc s (FnWrite true dl c d u))) = disk s)
  /\ (forall m, o = Some m -> step meta enc s (WriteAgain c d u) = (s, OErr EValue)).
Proof.
  intros meta enc s af o dl c d u HI B K. apply Inv_conc in HI as [W ->]. split.
  - cbn [step]. rewrite close_conc, (reopen_conc meta enc) by assumption.
    cbn [aclose areopen fst snd cout conc option_map]. rewrite write_rejected by exact K. split; reflexivity.
  - intros m ->. apply write_rejected, K.
Qed.

(* An append to a file that does not exist yet creates it. *)
Theorem C03_append_missing_creates : forall meta enc dl c d u,
  chunk_ok c -> header_ok meta dl c d u -> nrows c < 10 ^ 20 ->
  let r := step meta enc init (FnWrite true dl c d u) in
  snd r = OOk
  /\ disk (fst r) = Some (mk_header (nrows c) d ++ payload enc dl c)
  /\ read_back meta (fst r)
     = ORead (nrows c) (file_dtype dl (c_dt c))
             (match dl with None => Some (c_rows c) | Some _ => None end) u.
Proof.
  intros meta enc dl c d u C H B r. subst r.
  rewrite (Inv_step meta enc init AMissing (FnWrite true dl c d u) (Inv_init meta enc) (conj C H) B).
  cbn [astep aclose areopen awrite fst snd cout conc disk option_map].
  split; [reflexivity|]. split; [rewrite (image_new enc); reflexivity|].
  rewrite (read_back_image meta enc); [| apply af_ok_new; assumption | rewrite total_new; exact B].
  cbn [cout new_file a_dt a_dl a_u]. rewrite total_new. destruct dl; [reflexivity|].
  unfold all_rows. cbn [new_file a_dl a_chunks map back concat]. rewrite app_nil_r. reflexivity.
Qed.

(* A non-append write replaces the previous contents, from any state whatsoever. *)
Theorem C03_overwrite_replaces : forall meta enc s dl c d u,
  chunk_ok c -> header_ok meta dl c d u -> nrows c < 10 ^ 20 ->
  let r := step meta enc s (FnWrite false dl c d u) in
  snd r = OOk
  /\ disk (fst r) = Some (mk_header (nrows c) d ++ payload enc dl c)
  /\ Inv meta enc (fst r) (AFile (new_file dl c d u) None).
Proof.
  intros meta enc s dl c d u C H _ r. subst r.
  (* an overwrite starts from a fresh 'w' object whatever the state *)
  cbn [step]. unfold open_w. rewrite (write_fresh enc dl c d u) by apply H.
  cbn [fst snd close set_hnd disk hnd].
  split; [reflexivity|]. split; [rewrite (image_new enc); reflexivity|].
  split; [apply af_ok_new; assumption | reflexivity].
Qed.

(* On a file that exists, header= and delim= given with an append, with a later write through
   the open object, or with a reopen are ignored. *)
Theorem C03_append_ignores_keywords : forall meta enc s af o c dl dl' d d' u u',
  Inv meta enc s (AFile af o) -> total af + nrows c < 10 ^ 20 -> chunk_ok c ->
  step meta enc s (FnWrite true dl c d u) = step meta enc s (FnWrite true dl' c d' u')
  /\ step meta enc s (Reopen dl) = step meta enc s (Reopen dl')
  /\ (forall m, o = Some m -> step meta enc s (WriteAgain c d u) = step meta enc s (WriteAgain c d' u')).
Proof.
  intros meta enc s af o c dl dl' d d' u u' HI B _. apply Inv_conc in HI as [W ->].
  (* each side is the image of an abstract step, and the abstract step on a file that exists looks at
     the chunk only *)
  destruct (append_conc meta enc af o c d u W B) as [F A].
  destruct (append_conc meta enc af o c d' u' W B) as [F' A'].
  assert (T : total af < 10 ^ 20) by (pose proof (nrows_nonneg c) as P; clear - B P; lia).
  split; [rewrite F, F'; reflexivity|].
  split; [|intros m ->; rewrite (A m eq_refl), (A' m eq_refl); reflexivity].
  cbn [step]. rewrite close_conc, !(reopen_conc meta enc _ (AFile af o) W T). reflexivity.
Qed.

(* The code AS FOUND (before fixes/C03) did not have the last two properties: *)
(* sfile.write(f, c, append=True) on a missing path raised and created nothing; *)
Theorem C03_asfound_append_missing_refuted :
  exists meta enc dl c d u,
    chunk_ok c /\ header_ok meta dl c d u /\ nrows c < 10 ^ 20
    /\ snd (fn_append_v0 meta enc dl c d init) <> OOk
    /\ disk (fst (fn_append_v0 meta enc dl c d init)) = None.
Proof.
  exists ex_meta, ex_enc, None, ex_c1, ex_d, ex_u.
  split; [apply ex_chunk_ok|]. split; [exact ex_header_ok|].
  split; [vm_compute; reflexivity|]. split; [vm_compute; discriminate | reflexivity].
Qed.

(* an incompatible chunk was accepted into a binary file: the bytes change and a read returns
   something else than before. *)
Theorem C03_asfound_incompatible_binary_refuted :
  exists meta enc s af m c d,
    Inv meta enc s (AFile af (Some m)) /\ total af < 10 ^ 20 /\ chunk_ok c
    /\ compat (a_dl af) (a_dt af) (c_dt c) = false
    /\ snd (sf_write_v0 enc c d s) = OOk
    /\ disk (fst (sf_write_v0 enc c d s)) <> disk s
    /\ read_back meta (fst (sf_write_v0 enc c d s)) <> read_back meta s.
Proof.
  exists ex_meta, ex_enc.
  exists {| disk := Some (image ex_enc (new_file None ex_c1 ex_d ex_u));
            hnd := Some (open_handle (new_file None ex_c1 ex_d ex_u) MW) |}.
  exists (new_file None ex_c1 ex_d ex_u), MW, ex_bad, [].
  split; [split; [apply af_ok_new; [apply ex_chunk_ok | exact ex_header_ok] | reflexivity]|].
  split; [vm_compute; reflexivity|]. split; [apply ex_chunk_ok|].
  split; [vm_compute; reflexivity|]. split; [vm_compute; reflexivity|].
  split; [vm_compute; discriminate | vm_compute; discriminate].
Qed.

(* Checker soundness: what the correspondence run evaluates on the real code's observations. *)
Theorem C03_checker_sound : forall ops a before os,
  hist_check a before ops os = true -> hist_ok a before ops os.
Proof. intros ops a before os. apply hist_check_iff. Qed.

(* The case files evaluate Exec.run_x. *)
Theorem C03_exec_run_is_model : forall meta enc ops s, run_x meta enc s ops = run meta enc s ops.
Proof. exact run_x_eq. Qed.

(* "compatible", exactly: for a binary file the dtypes are equal (byte order included); for a
   text file they are equal once the byte order of every field is forgotten.  This is the whole
   acceptance condition of _ensure_compatible_dtype. *)
Theorem C03_compat_exact : forall dl fdt cdt,
  compat dl fdt cdt = true <->
  match dl with None => fdt = cdt | Some _ => map strip_order fdt = map strip_order cdt end.
Proof. exact compat_exact. Qed.

(* the dtype a file records is compatible with the dtype it was created from (either byte order) *)
Theorem C03_compat_created : forall dl dt, compat dl (file_dtype dl dt) dt = true.
Proof. exact compat_created. Qed.

(* the exact rejection set: on a file that exists an append (function form, or through the open
   object) has exactly two outcomes — Ok iff compatible, ValueError iff not; no other error. *)
Theorem C03_rejection_exact : forall meta enc s af o c dl d u,
  Inv meta enc s (AFile af o) -> total af + nrows c < 10 ^ 20 -> chunk_ok c ->
  (snd (step meta enc s (FnWrite true dl c d u)) = OOk <-> compat (a_dl af) (a_dt af) (c_dt c) = true)
  /\ (snd (step meta enc s (FnWrite true dl c d u)) = OErr EValue <-> compat (a_dl af) (a_dt af) (c_dt c) = false)
  /\ (forall m, o = Some m ->
        (snd (step meta enc s (WriteAgain c d u)) = OOk <-> compat (a_dl af) (a_dt af) (c_dt c) = true)
        /\ (snd (step meta enc s (WriteAgain c d u)) = OErr EValue <-> compat (a_dl af) (a_dt af) (c_dt c) = false)).
Proof.
  intros meta enc s af o c dl d u HI B _.
  destruct (append_answer meta enc s af o c d u HI B) as [F W]. rewrite F.
  assert (T : forall b : bool, ((if b then OOk else OErr EValue) = OOk <-> b = true)
                               /\ ((if b then OOk else OErr EValue) = OErr EValue <-> b = false))
    by (intros []; repeat split; congruence).
  split; [apply T | split; [apply T | intros m ->; rewrite W by discriminate; apply T]].
Qed.

(* frame: read, close and the reopen of an existing file change no byte *)
Theorem C03_frame_no_write : forall meta enc s a o,
  Inv meta enc s a -> (o = Read \/ o = Close \/ (exists dl, o = Reopen dl /\ a <> AMissing)) ->
  used a < 10 ^ 20 ->
  disk (fst (step meta enc s o)) = disk s.
Proof.
  intros meta enc s a o HI [-> | [-> | (dl & -> & NM)]] B; [reflexivity | reflexivity |].
  rewrite (Inv_step meta enc s a (Reopen dl) HI I) by (cbn [op_rows]; lia).
  apply Inv_conc in HI as [_ ->]. destruct a; [contradiction | reflexivity | reflexivity].
Qed.

(* a prefix replaced by one of the same length, and bytes added at the end: whatever followed the
   prefix keeps its place *)
Lemma replace_prefix_append {A} (p p' q x : list A) k : length p = k -> length p' = k ->
  skipn k (p' ++ q ++ x) = skipn k (p ++ q) ++ x
  /\ length (p' ++ q ++ x) = (length (p ++ q) + length x)%nat.
Proof.
  intros L L'. rewrite !skipn_app_exact by assumption. rewrite !app_length, L, L'.
  split; [reflexivity | apply Nat.add_assoc].
Qed.

(* frame: an accepted append rewrites the 20 digits of the row count and adds the rows at the
   end; "SIZE = ", the header text, the END line and every earlier row keep bytes and positions *)
Theorem C03_frame_append : forall meta enc s af m c d u,
  Inv meta enc s (AFile af (Some m)) -> total af + nrows c < 10 ^ 20 -> chunk_ok c ->
  compat (a_dl af) (a_dt af) (c_dt c) = true ->
  exists old new,
    disk s = Some old /\ disk (fst (step meta enc s (WriteAgain c d u))) = Some new
    /\ firstn 7 new = firstn 7 old
    /\ skipn 27 new = skipn 27 old ++ payload enc (a_dl af) c
    /\ length new = (length old + length (payload enc (a_dl af) c))%nat.
Proof.
  intros meta enc s af m c d u HI Bd _ K. apply Inv_conc in HI as [W ->].
  destruct (append_conc meta enc af (Some m) c d u W Bd) as [_ A]. rewrite (A m eq_refl). cbn [astep awrite]. rewrite K.
  exists (image enc af), (image enc (add_chunk af c)). split; [reflexivity|]. split; [reflexivity|].
  pose proof (total_pos meta af W) as TP. pose proof (nrows_nonneg c) as P.
  pose proof (size_line_length (total af) ltac:(lia)) as L.
  pose proof (size_line_length (total af + nrows c) ltac:(lia)) as L'.
  assert (F : forall n r, firstn 7 (size_line n ++ r) = B "SIZE = "%string)
    by (intros; unfold size_line; rewrite <- app_assoc; reflexivity).
  (* the rest is about lists: the size lines are prefixes of the same length *)
  rewrite (image_add enc). unfold image, mk_header.
  generalize (nl :: a_d af ++ nl :: B "END"%string ++ [nl; nl]) (body enc af) (payload enc (a_dl af) c). intros t b x.
  rewrite <- !app_assoc, (app_assoc t b x). split; [rewrite !F; reflexivity|].
  exact (replace_prefix_append _ _ (t ++ b) x 27 L L').
Qed.

(* independence of history: a read, the function forms of write, a create and a reopen are
   functions of the file's BYTES (and their own arguments) alone — not of any object state, not of
   how the file came to be *)
Theorem C03_read_depends_on_file_only : forall meta s1 s2, disk s1 = disk s2 -> read_back meta s1 = read_back meta s2.
Proof. intros meta s1 s2 E. unfold read_back. rewrite E. reflexivity. Qed.

Theorem C03_fn_depends_on_file_only : forall meta enc s1 s2 ap dl c d u,
  disk s1 = disk s2 -> step meta enc s1 (FnWrite ap dl c d u) = step meta enc s2 (FnWrite ap dl c d u).
Proof.
  intros meta enc s1 s2 ap dl c d u E. cbn [step]. destruct ap; [|reflexivity].
  unfold close, set_hnd. rewrite E. reflexivity.
Qed.

Theorem C03_create_depends_on_nothing : forall meta enc s1 s2 dl c d u,
  step meta enc s1 (Create dl c d u) = step meta enc s2 (Create dl c d u).
Proof. reflexivity. Qed.

Theorem C03_reopen_depends_on_file_only : forall meta enc s1 s2 dl,
  disk s1 = disk s2 -> step meta enc s1 (Reopen dl) = step meta enc s2 (Reopen dl).
Proof. intros meta enc s1 s2 dl E. cbn [step]. unfold close, set_hnd. rewrite E. reflexivity. Qed.

(* the checker DECIDES the statement on a list of observations *)
Theorem C03_checker_iff : forall ops a before os, hist_check a before ops os = true <-> hist_ok a before ops os.
Proof. exact hist_check_iff. Qed.

(* text files: the rows.  With the text form of a chunk given by C04's verified model of the
   writer ([enc_text F]: TextModel.write_text over the chunk cut into fields and elements), the data
   region of ANY file the machine built in text form is the text of ONE table with the rows of all
   accepted chunks, in order, in native byte order; and C04's reader, given the fields and the row
   count of the header, returns exactly them (floating-point cells through C04's printf/scanf
   contract [fcontract], outside C04's known class) — C04's round-trip theorem lifted from one
   write to a history. *)
Theorem C03_text_writes_concatenate : forall F d fs0 tabs,
  (forall t, In t tabs -> map TextModel.fkind (TextModel.tdt t) = map TextModel.fkind fs0) ->
  TextModel.write_text F d (combined fs0 tabs) = concat (map (TextModel.write_text F d) tabs).
Proof. exact write_text_combined. Qed.

Theorem C03_text_file_rows : forall F P meta s af o d,
  Inv meta (enc_text F) s (AFile af o) -> a_dl af = Some [d] -> total af < 10 ^ 20 ->
  let T := combined (flds_of (a_dt af)) (map table_of (a_chunks af)) in
  Spec.table_ok T -> Spec.delim_ok d -> Spec.fcontract F P T -> Spec.kf_leading_ws_after_numeric d T = false ->
  exists f off,
    disk s = Some f
    /\ read_meta meta f = Ok (total af, off, a_dl af, a_dt af, a_u af)
    /\ skipn off f = TextModel.write_text F d T
    /\ Z.of_nat (length (TextModel.trows T)) = total af
    /\ TextModel.read_text P d (TextModel.tdt T) (total af) (skipn off f) = Ok (Spec.expected F P T)
    /\ Spec.roundtrip_ok T (TextModel.read_text P d (TextModel.tdt T) (total af) (skipn off f)).
Proof. exact text_file_rows. Qed.

(* non-vacuity of the text theorem: a ','-file from a little-endian and a big-endian chunk *)
Example C03_text_rows_nonvacuous :
  hist_wf tx_meta AMissing tx_ops /\ hist_rows tx_ops < 10 ^ 20
  /\ fold_left (fun a o => fst (astep a o)) tx_ops AMissing = AFile tx_af None
  /\ Spec.table_ok tx_T /\ Spec.delim_ok x2c /\ Spec.fcontract tx_F tx_F tx_T
  /\ Spec.kf_leading_ws_after_numeric x2c tx_T = false
  /\ disk (final tx_meta (enc_text tx_F) init tx_ops)
     = Some (mk_header 3 tx_d ++ B "1,ab" ++ [x0a] ++ B "-2,cd" ++ [x0a] ++ B "3,ef" ++ [x0a])
  /\ TextModel.read_text tx_F x2c (TextModel.tdt tx_T) 3 (B "1,ab" ++ [x0a] ++ B "-2,cd" ++ [x0a] ++ B "3,ef" ++ [x0a])
     = Ok {| TextModel.tdt := TextModel.tdt tx_T;
             TextModel.trows := [[[[x01; x00]]; [[x61; x62]]]; [[[xfe; xff]]; [[x63; x64]]]; [[[x03; x00]]; [[x65; x66]]]] |}.
Proof.
  split.
  { unfold tx_ops. simpl hist_wf. unfold chunk_ok, rows_fit, header_ok.
    repeat split; try discriminate; try (vm_compute; reflexivity); repeat constructor. }
  repeat split; vm_compute; reflexivity.
Qed.

(* non-vacuity of the exact acceptance condition on the closed witnesses: the
   incompatible chunk is rejected, the compatible one accepted, exactly *)
Example C03_deep_nonvacuous :
  compat None ex_dt (c_dt ex_bad) = false /\ compat None ex_dt (c_dt ex_c2) = true
  /\ compat (Some [x2c]) tx_dt tx_dt_be = true /\ compat None tx_dt tx_dt_be = false
  /\ chunk_ok ex_c2 /\ chunk_ok ex_bad.
Proof. repeat split; try reflexivity; try discriminate; repeat constructor. Qed.

(* Tie to the source.  C03/Gen.v is generated from esutil/sfile.py and records.cpp
   (harness/props/c03_translate.py); on every run it is regenerated from the working tree and the
   lemmas of GenTie.v are re-checked against it.  The theorems below are about the committed Gen.v. *)

(* the model's compatibility decision IS the test translated from _ensure_compatible_dtype *)
Theorem C03_gen_compatible : forall dl fdt cdt,
  compatible dl fdt cdt = negb (match dl with None => gen_bad_binary fdt cdt | Some _ => gen_bad_text fdt cdt end).
Proof. exact tie_compatible. Qed.

(* the model's append arithmetic IS _update_size + update_row_count as translated: the translated new
   size is printed at offset 0 in the translated format and cached *)
Theorem C03_gen_size_update : forall enc c d f h fdt,
  h_hdr h = true -> h_dtype h = Some fdt -> compatible (h_delim h) fdt (c_dt c) = true ->
  let n' := gen_size_new (h_size h) (nrows c) in
  exists h', sf_write enc c d {| disk := Some f; hnd := Some h |}
             = ({| disk := Some (overwrite (size_line n' ++ [nl]) f ++ payload enc (h_delim h) c); hnd := Some h' |}, OOk)
             /\ h_size h' = n'.
Proof. exact tie_size_new. Qed.

Theorem C03_gen_size_line : forall n,
  size_line n ++ [nl] = gen_size_prefix ++ pad_left gen_size_width (dec n) ++ gen_size_suffix.
Proof. exact tie_size_line. Qed.

(* the exact rejection set, in terms of the translated test and the translated exception class *)
Theorem C03_rejection_is_source_test : forall meta enc s af o c dl d u,
  Inv meta enc s (AFile af o) -> total af + nrows c < 10 ^ 20 -> chunk_ok c ->
  (snd (step meta enc s (FnWrite true dl c d u)) = OErr gen_incompatible_error <-> gen_bad (a_dl af) (a_dt af) (c_dt c) = true)
  /\ (snd (step meta enc s (FnWrite true dl c d u)) = OOk <-> gen_bad (a_dl af) (a_dt af) (c_dt c) = false).
Proof.
  intros meta enc s af o c dl d u HI Bd _.
  destruct (append_answer meta enc s af o c d u HI Bd) as [E _]. rewrite !E, compat_gen.
  unfold gen_incompatible_error. destruct (gen_bad _ _ _); cbn [negb]; repeat split; congruence.
Qed.

Example C03_gen_nonvacuous :
  gen_bad None ex_dt (c_dt ex_bad) = true /\ gen_bad None ex_dt (c_dt ex_c2) = false
  /\ gen_bad (Some [x2c]) tx_dt tx_dt_be = false /\ gen_bad None tx_dt tx_dt_be = true
  /\ gen_fn_mode true = MRP /\ gen_open_mode MRP false = MW /\ gen_size_new 5 3 = 8.
Proof. repeat split; reflexivity. Qed.

(* Non-vacuity: a closed 7-operation history (create, write again, read while open, close,
   append by reopening, an incompatible append, read) meets every premise of C03_history and
   the model computes the expected files and answers. *)
Example C03_nonvacuous :
  hist_wf ex_meta AMissing ex_ops /\ hist_rows ex_ops < 10 ^ 20
  /\ run ex_meta ex_enc init ex_ops
     = let f2 := mk_header 2 ex_d ++ [x01; x00; x02; x00] in
       let f3 := mk_header 3 ex_d ++ [x01; x00; x02; x00; x03; x00] in
       let f6 := mk_header 6 ex_d ++ [x01; x00; x02; x00; x03; x00; xff; x7f; x00; x80; x05; x00] in
       [(OOk, Some f2); (OOk, Some f3);
        (ORead 3 ex_dt (Some [[x01; x00]; [x02; x00]; [x03; x00]]) ex_u, Some f3);
        (OOk, Some f3); (OOk, Some f6); (OErr EValue, Some f6);
        (ORead 6 ex_dt (Some [[x01; x00]; [x02; x00]; [x03; x00]; [xff; x7f]; [x00; x80]; [x05; x00]]) ex_u, Some f6)].
Proof.
  destruct ex_chunk_ok as (C1 & C2 & C3 & C4).
  split; [|split; [vm_compute; reflexivity | vm_compute; reflexivity]].
  unfold ex_ops. simpl hist_wf.
  repeat split; try exact ex_header_ok; try apply C1; try apply C2; try apply C3; try apply C4.
Qed.
