(* C03/Witness.v — the closed history on which the non-vacuity of the history theorem and the
   refutations of the code as found (Properties.v) are evaluated. *)
From Coq Require Import ZArith List Bool.
From Coq.Strings Require Import Byte String.
From EsVerif.Common Require Import Base Bytes.
From EsVerif.C01 Require Import Framing.
From EsVerif.C03 Require Import Model Spec.
Import ListNotations.
Open Scope Z_scope.
Open Scope list_scope.
Notation length := List.length.

Definition ex_dt : dtype := [{| f_name := B "x"; f_order := "<"%byte; f_kind := "i"%byte; f_size := 2; f_shape := [] |}].
Definition ex_dt4 : dtype := [{| f_name := B "x"; f_order := "<"%byte; f_kind := "i"%byte; f_size := 4; f_shape := [] |}].
Definition ex_d : list byte := B "{'_DTYPE': [('x', '<i2')], '_VERSION': '1.0', 'k': 'THE END'}".
Definition ex_u : list byte := B "k=THE END".
Definition ex_meta (t : list byte) : option (delim * dtype * list byte) :=
  if bytes_eqb t ex_d then Some (None, ex_dt, ex_u) else None.
Definition ex_enc (d : list byte) (c : chunk) : list byte := [].
Definition ex_c1 : chunk := {| c_dt := ex_dt; c_rows := [[x01; x00]; [x02; x00]]; c_back := []; c_txt := [] |}.
Definition ex_c2 : chunk := {| c_dt := ex_dt; c_rows := [[x03; x00]]; c_back := []; c_txt := [] |}.
Definition ex_c3 : chunk := {| c_dt := ex_dt; c_rows := [[xff; x7f]; [x00; x80]; [x05; x00]]; c_back := []; c_txt := [] |}.
Definition ex_bad : chunk := {| c_dt := ex_dt4; c_rows := [[x09; x00; x00; x00]]; c_back := []; c_txt := [] |}.

(* create, write again on the same object, read while it is open, close, append by reopening,
   an incompatible append, read *)
Definition ex_ops : list op :=
  [Create None ex_c1 ex_d ex_u; WriteAgain ex_c2 [] []; Read; Close; FnWrite true None ex_c3 [] [];
   FnWrite true None ex_bad [] []; Read].

Lemma ex_chunk_ok : chunk_ok ex_c1 /\ chunk_ok ex_c2 /\ chunk_ok ex_c3 /\ chunk_ok ex_bad.
Proof.
  unfold chunk_ok, rows_fit. repeat split; try discriminate; try reflexivity; repeat constructor.
Qed.

Lemma ex_header_ok : header_ok ex_meta None ex_c1 ex_d ex_u.
Proof. split; vm_compute; reflexivity. Qed.
